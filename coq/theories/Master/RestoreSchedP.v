(** Proofs about Master/RestoreSched.v: frame of the Sched primitives (what Server.restore / Server.put / remove_app
    leave alone), the processing of one node as a sequence of primitive steps, and the per-server reload theorem. *)
From Coq Require Import ZArith List Bool Relations.
From RecordUpdate Require Import RecordSet.
From TM Require Import Sched.Vec Sched.Types Sched.Queue Sched.Tree Sched.Cycle Sched.Events.
From TM Require Import Sched.Steps Sched.MapsP Sched.FrameP Sched.EventsP Sched.InvAcct Sched.TurnP Sched.ReloadP.
From TM Require Import Master.Publish Master.Restore Master.RestoreSched.
Import ListNotations.
Open Scope Z_scope.

Lemma apps_upd_app n f c : c_apps (c_upd_app n f c) = upd_app n f (c_apps c).
Proof. reflexivity. Qed.

(** * [prim_put] and [prim_remove] (Sched/Tree.v) as updates of one instance and one server *)
Definition put_upd (c : cell) (s lease : Z) : app -> app :=
  fun x => (match a_expiry x with None => x <| a_expiry := Some (c_now c + lease) |> | Some _ => x end)
             <| a_server := Some s |>.
Definition put_srv (a : Z) (x : app) : server -> server :=
  fun sv => sv <| s_free := vsub (s_free sv) (a_demand x) |> <| s_apps ::= (fun l => l ++ [a]) |>
               <| s_counters ::= cadd (a_aff x) 1 |>.
Definition rem_srv (a : Z) (x : app) : server -> server :=
  fun sv => sv <| s_free := vadd (s_free sv) (a_demand x) |> <| s_apps ::= zremove a |>
               <| s_counters ::= cadd (a_aff x) (-1) |>.

Lemma prim_put_apps c s a x lease : c_apps (prim_put c s a x lease) = upd_app a (put_upd c s lease) (c_apps c).
Proof. reflexivity. Qed.
Lemma prim_put_servers c s a x lease : c_servers (prim_put c s a x lease) = upd_srv s (put_srv a x) (c_servers c).
Proof. reflexivity. Qed.
Lemma prim_remove_apps c s a x : c_apps (prim_remove c s a x) = upd_app a removed (c_apps c).
Proof. reflexivity. Qed.
Lemma prim_remove_servers c s a x : c_servers (prim_remove c s a x) = upd_srv s (rem_srv a x) (c_servers c).
Proof. reflexivity. Qed.

Lemma put_upd_name c s l x : a_name (put_upd c s l x) = a_name x.
Proof. unfold put_upd. destruct (a_expiry x); reflexivity. Qed.
Lemma put_upd_server c s l x : a_server (put_upd c s l x) = Some s.
Proof. unfold put_upd. destruct (a_expiry x); reflexivity. Qed.
Lemma put_srv_name a x sv : s_name (put_srv a x sv) = s_name sv.
Proof. reflexivity. Qed.
Lemma rem_srv_name a x sv : s_name (rem_srv a x sv) = s_name sv.
Proof. reflexivity. Qed.

Lemma same_core_servers c c' : same_core c c' -> c_servers c' = c_servers c.
Proof. intros (_ & _ & H & _). exact H. Qed.
Lemma same_core_apps c c' : same_core c c' -> c_apps c' = c_apps c.
Proof. intros (_ & _ & _ & H & _). exact H. Qed.

(** * Frame lemmas: what the Sched primitives leave alone *)
(** Server.put that succeeds is [prim_put] followed by bucket bookkeeping *)
Lemma srv_put_lease_inv c s a lease c' :
  srv_put_lease c s a lease = Some c' ->
  exists sv x, get_srv s (c_servers c) = Some sv /\ get_app a (c_apps c) = Some x /\ put_guard c sv x lease = true /\
               same_core (prim_put c s a x lease) c'.
Proof.
  unfold srv_put_lease. destruct (get_srv s (c_servers c)) as [sv|]; [|discriminate].
  destruct (get_app a (c_apps c)) as [x|]; [|discriminate]. destruct (put_guard c sv x lease) eqn:PG; [|discriminate].
  intros H. inversion H; subst c'. exists sv, x. split; [reflexivity|]. split; [reflexivity|]. split; [exact PG|].
  eapply same_core_trans; [apply bump_from_sc|apply adjust_down_from_sc].
Qed.

Lemma apps_srv_put_lease c s a lease c' :
  srv_put_lease c s a lease = Some c' -> c_apps c' = upd_app a (put_upd c s lease) (c_apps c).
Proof.
  intros P. destruct (srv_put_lease_inv _ _ _ _ _ P) as (sv & x & _ & _ & _ & SC).
  rewrite (same_core_apps _ _ SC). apply prim_put_apps.
Qed.

Lemma frame_srv_put_lease c s a lease c' b :
  srv_put_lease c s a lease = Some c' -> b <> a -> get_app b (c_apps c') = get_app b (c_apps c).
Proof. intros P. exact (proj2 (srv_put_lease_frame c s a lease c' P) b). Qed.

Lemma frame_srv_remove c s n b : b <> n -> get_app b (c_apps (srv_remove c s n)) = get_app b (c_apps c).
Proof. exact (proj2 (srv_remove_frame c s n) b). Qed.

(** Server.restore that succeeds: the instance is on that server with the given expiry, its identity is what it
    was, and no other instance is touched *)
Lemma srv_restore_ok c s a e c' :
  srv_restore c s a (Some e) = (c', true) ->
  exists x0 x, get_app a (c_apps c) = Some x0 /\ get_app a (c_apps c') = Some x /\
               a_server x = Some s /\ a_expiry x = Some e /\ a_identity x = a_identity x0 /\
  forall b, b <> a -> get_app b (c_apps c') = get_app b (c_apps c).
Proof.
  unfold srv_restore. destruct (get_app a (c_apps c)) as [x0|] eqn:G; [|discriminate].
  destruct (srv_put_lease c s a 0) as [cs|] eqn:P; intros H; inversion H; subst c'. clear H.
  assert (G1 : get_app a (c_apps cs) = Some (put_upd c s 0 x0)).
  { rewrite (apps_srv_put_lease _ _ _ _ _ P). exact (get_upd_app_same a _ _ x0 (put_upd_name c s 0) G). }
  exists x0, (put_upd c s 0 x0 <| a_expiry := Some e |>). rewrite apps_upd_app. split; [reflexivity|]. split.
  - apply (get_upd_app_same a (fun y : app => y <| a_expiry := Some e |>)); [reflexivity|exact G1].
  - split; [exact (put_upd_server c s 0 x0)|]. split; [reflexivity|].
    split; [unfold put_upd; destruct (a_expiry x0); reflexivity|].
    intros b NE. rewrite get_upd_app_other by (reflexivity || exact NE). exact (frame_srv_put_lease _ _ _ _ _ _ P NE).
Qed.

Lemma force_identity_spec c a i x :
  get_app a (c_apps c) = Some x ->
  (exists y, get_app a (c_apps (force_identity c a i)) = Some y /\ a_identity y = Some i /\
             a_server y = a_server x /\ a_expiry y = a_expiry x) /\
  forall b, b <> a -> get_app b (c_apps (force_identity c a i)) = get_app b (c_apps c).
Proof.
  intros G. unfold force_identity. rewrite G. rewrite apps_upd_app.
  replace (c_apps (match group_of c x with Some (g, grp) => _ | None => c end)) with (c_apps c)
    by (destruct (group_of c x) as [[g grp]|]; reflexivity).
  split.
  - exists (x <| a_identity := Some i |>).
    split; [apply (get_upd_app_same a (fun y : app => y <| a_identity := Some i |>)); [reflexivity|exact G]|]. repeat split.
  - intros b NE. apply get_upd_app_other; [reflexivity|exact NE].
Qed.

(** [clear_server]: only the server field of that one instance; nothing when the instance names no server *)
Lemma clear_server_unplaced c a x : get_app a (c_apps c) = Some x -> a_server x = None -> clear_server c a = c.
Proof. intros G H. unfold clear_server. rewrite G, H. reflexivity. Qed.

Lemma clear_server_absent c a : get_app a (c_apps c) = None -> clear_server c a = c.
Proof. intros G. unfold clear_server. rewrite G. reflexivity. Qed.

Lemma clear_server_servers c a : c_servers (clear_server c a) = c_servers c.
Proof. unfold clear_server. destruct (get_app a (c_apps c)) as [x|]; [|reflexivity]. destruct (a_server x); reflexivity. Qed.

Lemma frame_clear_server c a b : b <> a -> get_app b (c_apps (clear_server c a)) = get_app b (c_apps c).
Proof.
  intros NE. unfold clear_server. destruct (get_app a (c_apps c)) as [x|]; [|reflexivity].
  destruct (a_server x); [|reflexivity]. apply get_upd_app_other; [reflexivity|exact NE].
Qed.

Lemma clear_server_get c a x :
  get_app a (c_apps c) = Some x -> get_app a (c_apps (clear_server c a)) = Some (x <| a_server := None |>).
Proof.
  intros G. unfold clear_server. rewrite G. destruct (a_server x) eqn:S.
  - apply (get_upd_app_same a (fun y : app => y <| a_server := None |>)); [reflexivity|exact G].
  - rewrite G. f_equal. destruct x. cbn in S. subst. reflexivity.
Qed.

(** Server.restore only accepts an instance that names no server (put_guard) *)
Lemma srv_restore_ok_unplaced c s a e c' x :
  srv_restore c s a e = (c', true) -> get_app a (c_apps c) = Some x -> a_server x = None.
Proof.
  unfold srv_restore. intros H G. rewrite G in H. destruct (srv_put_lease c s a 0) as [cs|] eqn:P; [|inversion H].
  destruct (srv_put_lease_inv _ _ _ _ _ P) as (sv & x' & _ & Gx & PG & _). rewrite G in Gx. inversion Gx; subst x'.
  apply (put_guard_spec c sv x 0 PG).
Qed.

(** C11 on the scheduler model, one node: known instance, presence not younger than the node, Server.restore
    accepts the record with its server field cleared -> placed on that server with the recorded expiry and (when
    recorded and restore_identity) the recorded identity; every other instance is as before.  The instance may already
    name a server (restored under an earlier server of the same load). *)
Theorem restore_node_restore s presence c n x0 c1 :
  get_app (sn_app n) (c_apps c) = Some x0 ->
  sched_verbatim presence n = true ->
  srv_restore (clear_server c (sn_app n)) s (sn_app n) (Some (sn_expires n)) = (c1, true) ->
  let '(c', act) := restore_node s presence true c n in
  act = RRestore (sn_expires n) (sn_identity n) /\
  (exists x, get_app (sn_app n) (c_apps c') = Some x /\ a_server x = Some s /\ a_expiry x = Some (sn_expires n) /\
             a_identity x = match sn_identity n with Some i => Some i | None => a_identity x0 end) /\
  forall b, b <> sn_app n -> get_app b (c_apps c') = get_app b (c_apps c).
Proof.
  intros G V R. unfold restore_node. rewrite G, V, R.
  destruct (srv_restore_ok _ s (sn_app n) (sn_expires n) c1 R) as [y0 [y [G0 [G1 [S1 [E1 [I1 F1]]]]]]].
  rewrite (clear_server_get c (sn_app n) x0 G) in G0. inversion G0; subst y0. cbn in I1.
  assert (FC : forall b, b <> sn_app n -> get_app b (c_apps c1) = get_app b (c_apps c)).
  { intros b NE. rewrite (F1 b NE). apply frame_clear_server. exact NE. }
  destruct (sn_identity n) as [i|] eqn:ID.
  - destruct (force_identity_spec c1 (sn_app n) i y G1) as [[z [Gz [Iz [Sz Ez]]]] Fz].
    split; [reflexivity|]. split.
    + exists z. repeat split; congruence.
    + intros b NE. rewrite (Fz b NE). apply FC. exact NE.
  - split; [reflexivity|]. split.
    + exists y. repeat split; congruence.
    + exact FC.
Qed.

(** a healthy node is a restored node *)
Lemma healthy_restored s p c n x0 c1 :
  get_app (sn_app n) (c_apps c) = Some x0 -> sched_verbatim p n = true ->
  srv_restore (clear_server c (sn_app n)) s (sn_app n) (Some (sn_expires n)) = (c1, true) ->
  restored (snd (restore_node s p true c n)) = true.
Proof.
  intros G V R. pose proof (restore_node_restore s p c n x0 c1 G V R) as H.
  destruct (restore_node s p true c n) as [c' act]. destruct H as [-> _]. reflexivity.
Qed.

(** * Cell.remove_app *)
Lemma apps_upd_alloc c l p f : c_apps (upd_alloc c l p f) = c_apps c.
Proof. apply upd_alloc_frame. Qed.

Lemma frame_remove_app c n b : b <> n -> get_app b (c_apps (remove_app c n)) = get_app b (c_apps c).
Proof. exact (remove_app_other c n b). Qed.

Lemma frame_force c a i b : b <> a -> get_app b (c_apps (force_identity c a i)) = get_app b (c_apps c).
Proof.
  intros NE. destruct (get_app a (c_apps c)) as [x|] eqn:G; [apply (force_identity_spec c a i x G); exact NE|].
  unfold force_identity. rewrite G. reflexivity.
Qed.

(** * One node as a sequence of primitive steps
    What restore_node does to the cell is made of five kinds of step on the instance [a] of the node and the server
    [s] being reloaded. *)
Inductive rstep (s a : Z) : cell -> cell -> Prop :=
| RS_clear c : rstep s a c (clear_server c a)
| RS_put c lease c' : srv_put_lease c s a lease = Some c' -> rstep s a c c'
| RS_expiry c e : rstep s a c (c_upd_app a (fun x => x <| a_expiry := Some e |>) c)
| RS_force c i : rstep s a c (force_identity c a i)
| RS_remove c x : get_app a (c_apps c) = Some x -> a_once x = true -> rstep s a c (remove_app c a).

Definition rsteps (s a : Z) : cell -> cell -> Prop := clos_refl_trans cell (rstep s a).

Lemma rsteps_rel s a (R : cell -> cell -> Prop) :
  (forall c, R c c) -> (forall c1 c2 c3, R c1 c2 -> R c2 c3 -> R c1 c3) ->
  (forall c c', rstep s a c c' -> R c c') -> forall c c', rsteps s a c c' -> R c c'.
Proof. intros Hr Ht Hs c c' H. induction H; eauto. Qed.

Theorem restore_node_steps s p ri c n : rsteps s (sn_app n) c (fst (restore_node s p ri c n)).
Proof.
  unfold restore_node. set (a := sn_app n). destruct (get_app a (c_apps c)) as [x|] eqn:G; [|apply rt_refl].
  set (ex := fun y : app => y <| a_expiry := Some (sn_expires n) |>).
  assert (FORCE : forall c' o, rsteps s a c c' ->
            rsteps s a c (match o with Some i => force_identity c' a i | None => c' end)).
  { intros c' [i|] H; [eapply rt_trans; [exact H|apply rt_step, RS_force]|exact H]. }
  assert (PUT : forall lease cs, srv_put_lease (clear_server c a) s a lease = Some cs -> rsteps s a c cs).
  { intros lease cs P. eapply rt_trans; apply rt_step; [apply RS_clear|exact (RS_put s a _ _ _ P)]. }
  pose proof (clear_server_get c a x G) as G0.
  destruct (sched_verbatim p n).
  - unfold srv_restore. rewrite G0.
    destruct (srv_put_lease (clear_server c a) s a 0) as [cs|] eqn:P; cbn [fst snd].
    + apply FORCE. eapply rt_trans; [exact (PUT _ _ P)|apply rt_step, RS_expiry].
    + assert (SE : rsteps s a c (c_upd_app a ex c)) by apply rt_step, RS_expiry.
      destruct (a_once x) eqn:O; cbn [fst]; [|exact SE].
      eapply rt_trans; [exact SE|]. apply rt_step, (RS_remove s a _ (ex x)); [|exact O].
      apply (get_upd_app_same a ex); [reflexivity|exact G].
  - destruct (a_once x) eqn:O; cbn [fst]; [exact (rt_step _ _ _ _ (RS_remove s a c x G O))|].
    unfold srv_put. rewrite G0. destruct (srv_put_lease (clear_server c a) s a _) as [cs|] eqn:P; cbn [fst].
    + apply FORCE. exact (PUT _ _ P).
    + apply rt_refl.
Qed.

(** a loop stays within a reflexive and transitive relation that each of its rounds stays within *)
Lemma fold_left_rel {S X} (f : S -> X -> S) (R : S -> S -> Prop) xs :
  (forall c, R c c) -> (forall c1 c2 c3, R c1 c2 -> R c2 c3 -> R c1 c3) ->
  (forall c x, In x xs -> R c (f c x)) -> forall c, R c (fold_left f xs c).
Proof.
  intros Hr Ht Hs. induction xs as [|x xs IH]; intros c; [apply Hr|]. cbn [fold_left].
  apply (Ht _ (f c x)); [apply Hs; left; reflexivity|]. apply IH. intros c0 y Hy. apply Hs. right. exact Hy.
Qed.

Lemma restore_nodes_rel s p ri (R : cell -> cell -> Prop) ns :
  (forall c, R c c) -> (forall c1 c2 c3, R c1 c2 -> R c2 c3 -> R c1 c3) ->
  (forall n c c', In n ns -> rstep s (sn_app n) c c' -> R c c') ->
  forall c, R c (restore_nodes s p ri c ns).
Proof.
  intros Hr Ht Hs. apply (fold_left_rel _ R ns Hr Ht). intros c n Hn.
  apply (rsteps_rel s (sn_app n) R Hr Ht); [|apply restore_node_steps]. intros c1 c2. apply Hs. exact Hn.
Qed.

(** * Frame of one node's processing: no other instance is touched *)
Lemma frame_rstep s a b c c' : b <> a -> rstep s a c c' -> get_app b (c_apps c') = get_app b (c_apps c).
Proof.
  intros NE H. destruct H as [c|c lease c' P|c e|c i|c x _ _].
  - apply frame_clear_server. exact NE.
  - exact (frame_srv_put_lease _ _ _ _ _ _ P NE).
  - apply get_upd_app_other; [reflexivity|exact NE].
  - apply frame_force. exact NE.
  - apply frame_remove_app. exact NE.
Qed.

Lemma frame_restore_nodes s presence ri ns : forall c b,
  ~ In b (map sn_app ns) -> get_app b (c_apps (restore_nodes s presence ri c ns)) = get_app b (c_apps c).
Proof.
  intros c b H. revert c.
  apply (restore_nodes_rel s presence ri (fun c c' => get_app b (c_apps c') = get_app b (c_apps c)));
    [reflexivity|intros; congruence|].
  intros n c c' Hn. apply frame_rstep. intros E. apply H. rewrite E. apply in_map. exact Hn.
Qed.

Lemma NoDup_map_mid {A} (f : A -> Z) pre n post :
  NoDup (map f (pre ++ n :: post)) -> ~ In (f n) (map f pre) /\ ~ In (f n) (map f post).
Proof. rewrite map_app. cbn [map]. intros ND. apply NoDup_remove_2 in ND. rewrite in_app_iff in ND. tauto. Qed.

(** C11 on the scheduler model, one server: every node that is healthy when its turn comes (instance known,
    presence not younger than the node, Server.restore accepts it on the cell as it then is) ends up, after ALL
    nodes of the server have been processed, on that server with the recorded expiry and identity.  Server.restore is
    evaluated on the record with the server field cleared. *)
Theorem restore_nodes_restore s presence pre n post c x0 c1 :
  NoDup (map sn_app (pre ++ n :: post)) ->
  let cpre := restore_nodes s presence true c pre in
  get_app (sn_app n) (c_apps cpre) = Some x0 ->
  sched_verbatim presence n = true ->
  srv_restore (clear_server cpre (sn_app n)) s (sn_app n) (Some (sn_expires n)) = (c1, true) ->
  exists x, get_app (sn_app n) (c_apps (restore_nodes s presence true c (pre ++ n :: post))) = Some x /\
            a_server x = Some s /\ a_expiry x = Some (sn_expires n) /\
            a_identity x = match sn_identity n with Some i => Some i | None => a_identity x0 end.
Proof.
  intros ND cpre G V R.
  unfold restore_nodes. rewrite fold_left_app. cbn [fold_left]. fold (restore_nodes s presence true c pre). fold cpre.
  pose proof (restore_node_restore s presence cpre n x0 c1 G V R) as H.
  destruct (restore_node s presence true cpre n) as [c' act] eqn:RN. destruct H as [_ [[x [Gx [Sx [Ex Ix]]]] _]].
  exists x. split; [|auto]. cbn [fst].
  fold (restore_nodes s presence true c' post). rewrite frame_restore_nodes; [exact Gx|].
  apply (NoDup_map_mid sn_app pre n post ND).
Qed.
