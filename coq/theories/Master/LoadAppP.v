(** Proofs about Master/LoadApp.v: what a manifest / server record DECLARES is what the scheduler object carries.
    [ltables_ok T = true] pins the canonical tables ([ltables_ok_canon]), so most lemmas are stated for those ([LC]),
    for ALL manifests, records, trait codes and names; Props/C03Load.v restates them for any table that passes the
    check. *)
From Coq Require Import ZArith List Bool Lia.
From RecordUpdate Require Import RecordSet.
From TM Require Import Codec.BaseN Codec.BaseNP Codec.Dec Codec.Units Codec.UnitsP
     Sched.Vec Sched.Types Sched.Events Sched.MapsP Sched.InvAlloc Master.LoadApp.
Import ListNotations.
Open Scope Z_scope.

(** * Tables: the check pins the canonical tables *)
Lemma zl_eqb_eq a b : zl_eqb a b = true -> a = b.
Proof.
  revert b; induction a as [|x a IH]; intros [|y b] H; cbn [zl_eqb] in H; try reflexivity; try discriminate.
  apply andb_true_iff in H as [H1 H2]. apply Z.eqb_eq in H1. rewrite (IH b H2). subst. reflexivity.
Qed.
Lemma zll_eqb_eq a b : zll_eqb a b = true -> a = b.
Proof.
  revert b; induction a as [|x a IH]; intros [|y b] H; cbn [zll_eqb] in H; try reflexivity; try discriminate.
  apply andb_true_iff in H as [H1 H2]. apply zl_eqb_eq in H1. rewrite (IH b H2). subst. reflexivity.
Qed.

Lemma ltables_ok_canon T : ltables_ok T = true -> T = ltables_canon.
Proof.
  destruct T as [f1 f2 f3 f4 f5 f6 f7 f8 f9 f10 f11 f12 f13 f14 f15 f16 f17 f18]. unfold ltables_ok.
  cbn [lt_time_scale lt_default_partition lt_prio_unset lt_default_prio lt_lease_default lt_invalid lt_app_flow
       lt_app_refresh lt_app_after lt_app_encode lt_app_init lt_app_defaults lt_aff_init lt_srv_flow lt_srv_encode
       lt_srv_init lt_srv_defaults lt_load_server].
  intros H.
  repeat match type of H with _ && _ = true => let H' := fresh "H" in apply andb_true_iff in H as [H H'] end.
  repeat match goal with
         | X : zz_eqb _ _ = true |- _ => apply zz_eqb_eq in X
         | X : zll_eqb _ _ = true |- _ => apply zll_eqb_eq in X
         | X : zl_eqb _ _ = true |- _ => apply zl_eqb_eq in X
         | X : str_eqb _ _ = true |- _ => apply str_eqb_eq in X
         | X : (_ =? _) = true |- _ => apply Z.eqb_eq in X
         end.
  subst. reflexivity.
Qed.

Notation LC := ltables_canon.

(** * utils.to_seconds *)
(** the result depends on the argument only through value.upper().strip(), whatever the table *)
Lemma to_seconds_norm_only T v1 v2 : norm (py_str v1) = norm (py_str v2) -> to_seconds T v1 = to_seconds T v2.
Proof. unfold to_seconds, norm. intros ->. reflexivity. Qed.

(** <n><c> in any letter case, between blanks ([spells s t]: s.upper().strip() == t) *)
Lemma to_seconds_spelled s n c k :
  spells s (str_of_Z n ++ [c]) = true -> assoc c canon_time_scale = Some k -> to_seconds LC (VStr s) = UOk (n * k).
Proof.
  intros Hs Hc. apply str_eqb_eq in Hs. unfold to_seconds. cbn [py_str]. rewrite Hs, unsnoc_app.
  cbn [lt_time_scale ltables_canon]. rewrite Hc, uint_str. reflexivity.
Qed.

Lemma spells_plain n c : plain_c c = true -> spells (str_of_Z n ++ [c]) (str_of_Z n ++ [c]) = true.
Proof.
  intros Hc. unfold spells. apply str_eqb_eq. fold (norm (str_of_Z n ++ [c])). apply norm_str_sfx.
  cbn [forallb]. rewrite Hc. reflexivity.
Qed.

Lemma digit_no_time_unit d : In d digits10 -> assoc d canon_time_scale = None.
Proof.
  assert (H : forallb (fun d => match assoc d canon_time_scale with None => true | Some _ => false end) digits10 = true)
    by reflexivity.
  rewrite forallb_forall in H. intros Hd. specialize (H d Hd). destruct (assoc d canon_time_scale); [discriminate|reflexivity].
Qed.

(** a unit-less interval (str or int, 0 included) is the generic Exception *)
Lemma to_seconds_unitless v n : norm (py_str v) = str_of_Z n -> to_seconds LC v = UException.
Proof.
  intros Hn. unfold to_seconds. fold (norm (py_str v)). rewrite Hn.
  destruct (str_of_Z_last n) as [i [d [Hi Hd]]]. rewrite Hi, unsnoc_app.
  cbn [lt_time_scale ltables_canon]. rewrite (digit_no_time_unit d Hd). reflexivity.
Qed.

(** * The canonical tables, attribute by attribute *)
Definition base (asg : option Z) : Z := match asg with Some p => p | None => 1 end.

Lemma prio_canon m asg :
  prio_of LC m asg =
  match m_priority m with
  | None => UOk (base asg)
  | Some v => ubind (intv v) (fun p => if p =? -1 then UOk (base asg) else UOk p)
  end.
Proof. reflexivity. Qed.

Lemma drt_canon m :
  drt_of LC m = match m_drt m with
                | None => UOk None
                | Some v => ubind (to_seconds LC v) (fun s => UOk (Some s))
                end.
Proof. reflexivity. Qed.

Lemma lease_canon m :
  lease_of LC m = match m_lease m with
                  | None => to_seconds LC (VStr [48; 115])
                  | Some v => to_seconds LC v
                  end.
Proof. reflexivity. Qed.

Lemma lease_default_zero : to_seconds LC (VStr [48; 115]) = UOk 0.
Proof. reflexivity. Qed.

Definition declared_traits (m : manifest) : list str := match m_traits m with Some l => l | None => [] end.
Definition declared_once (m : manifest) : tval := match m_once m with Some v => v | None => TNone end.

Lemma trait_list_canon m : trait_list_of LC m = UOk (declared_traits m).
Proof. unfold trait_list_of, declared_traits. cbn. destruct (m_traits m); reflexivity. Qed.

(** * load_new_app: the five parsers in source order, then the record *)
Lemma ubind_ok {A B} (e : ures A) (f : A -> ures B) b : ubind e f = UOk b -> exists a, e = UOk a /\ f a = UOk b.
Proof. destruct e; try discriminate. eauto. Qed.

Lemma load_new_canon U codes name m asg bl :
  load_new_app LC U codes name m asg bl =
  ubind (prio_of LC m asg) (fun p => ubind (drt_of LC m) (fun d => ubind (lease_of LC m) (fun l =>
  ubind (resources U (m_res m)) (fun dem => ubind (encode LC [1; 0] codes (declared_traits m)) (fun tz =>
  UOk (mkAO name p dem (m_affinity m) (aff_limits (m_limits m)) d l (m_group m) None (fst tz)
            (declared_once m) bl false false false None None)))))).
Proof. unfold load_new_app. rewrite trait_list_canon. reflexivity. Qed.

Lemma load_new_inv U codes name m asg bl o :
  load_new_app LC U codes name m asg bl = UOk o ->
  exists p d l dem tz,
    prio_of LC m asg = UOk p /\ drt_of LC m = UOk d /\ lease_of LC m = UOk l /\
    resources U (m_res m) = UOk dem /\
    encode LC [1; 0] codes (declared_traits m) = UOk tz /\
    o = mkAO name p dem (m_affinity m) (aff_limits (m_limits m)) d l (m_group m) None (fst tz)
             (declared_once m) bl false false false None None.
Proof.
  rewrite load_new_canon. intros H.
  apply ubind_ok in H as (p & Hp & H). apply ubind_ok in H as (d & Hd & H). apply ubind_ok in H as (l & Hl & H).
  apply ubind_ok in H as (dem & Hr & H). apply ubind_ok in H as (tz & He & H). inversion H.
  exists p, d, l, dem, tz. repeat split; assumption.
Qed.

(** * The priority rule *)
Lemma prio_absent m asg : m_priority m = None -> prio_of LC m asg = UOk (base asg).
Proof. intros H. rewrite prio_canon, H. reflexivity. Qed.
Lemma prio_unset m asg v : m_priority m = Some v -> intv v = UOk (-1) -> prio_of LC m asg = UOk (base asg).
Proof. intros H Hv. rewrite prio_canon, H, Hv. reflexivity. Qed.
Lemma prio_given m asg v p : m_priority m = Some v -> intv v = UOk p -> p <> -1 -> prio_of LC m asg = UOk p.
Proof.
  intros H Hv Hp. rewrite prio_canon, H, Hv. cbn [ubind]. destruct (p =? -1) eqn:E; [lia|reflexivity].
Qed.
Lemma prio_malformed m asg v : m_priority m = Some v -> intv v = UValueError -> prio_of LC m asg = UValueError.
Proof. intros H Hv. rewrite prio_canon, H, Hv. reflexivity. Qed.
Lemma intv_int z : intv (VInt z) = UOk z.
Proof. reflexivity. Qed.
Lemma intv_numeral z : intv (VStr (str_of_Z z)) = UOk z.
Proof. apply uint_str. Qed.

(** * traits.encode *)
Definition sub (x r : Z) : Prop := Z.land r x = x.
Lemma sub_lor_l a b : sub a (Z.lor a b).
Proof.
  unfold sub. apply Z.bits_inj'. intros n _. rewrite Z.land_spec, Z.lor_spec.
  destruct (Z.testbit a n), (Z.testbit b n); reflexivity.
Qed.
Lemma sub_lor_r a b : sub b (Z.lor a b).
Proof. rewrite Z.lor_comm. apply sub_lor_l. Qed.
Lemma sub_trans a b c : sub a b -> sub b c -> sub a c.
Proof. unfold sub. intros H1 H2. rewrite <- H1 at 1. rewrite Z.land_assoc, H2. exact H1. Qed.
Lemma sub_refl a : sub a a.
Proof. unfold sub. apply Z.land_diag. Qed.

(** the bit an INSTANCE gets for a declared trait: the trait's code, the invalid trait's code when unknown *)
Definition app_bit (inv_code : Z) (code : tcodes) (t : str) : Z :=
  match tfind t code with Some v => v | None => inv_code end.

Lemma encode_loop_app inv iv ts : forall code res next,
  tfind inv code = Some iv ->
  encode_loop inv true false ts code res next =
  UOk (fold_left (fun acc t => Z.lor acc (app_bit iv code t)) ts res, code).
Proof.
  induction ts as [|t ts IH]; intros code res next Hi; cbn [encode_loop fold_left]; [reflexivity|].
  unfold app_bit at 2. destruct (tfind t code) as [v|] eqn:E.
  - apply IH. exact Hi.
  - rewrite Hi. apply IH. exact Hi.
Qed.

(** without the invalid trait in the code (a Loader whose load_traits never ran): known traits only, else KeyError *)
Lemma encode_loop_known inv ui an ts : forall code res next,
  Forall (fun t => tfind t code <> None) ts ->
  encode_loop inv ui an ts code res next =
  UOk (fold_left (fun acc t => Z.lor acc (app_bit 0 code t)) ts res, code).
Proof.
  induction ts as [|t ts IH]; intros code res next Hall; cbn [encode_loop fold_left]; [reflexivity|].
  inversion Hall as [|? ? Ht Hts]; subst. unfold app_bit at 2.
  destruct (tfind t code) as [v|] eqn:E; [|congruence]. apply IH. exact Hts.
Qed.

Lemma fold_lor_sub (f : str -> Z) ts : forall res, sub res (fold_left (fun acc t => Z.lor acc (f t)) ts res).
Proof.
  induction ts as [|t ts IH]; intros res; cbn [fold_left]; [apply sub_refl|].
  eapply sub_trans; [apply sub_lor_l|apply IH].
Qed.
Lemma fold_lor_in (f : str -> Z) ts : forall res t, In t ts -> sub (f t) (fold_left (fun acc t => Z.lor acc (f t)) ts res).
Proof.
  induction ts as [|x ts IH]; intros res t Hin; cbn [fold_left]; [contradiction|].
  destruct Hin as [->|Hin].
  - eapply sub_trans; [apply sub_lor_r|apply fold_lor_sub].
  - apply IH. exact Hin.
Qed.

Lemma tfind_app_other t code k v : tfind t code = None -> str_eqb k t = false -> tfind t (code ++ [(k, v)]) = None.
Proof.
  induction code as [|[a w] code IH]; cbn [tfind List.app]; intros H Hk.
  - rewrite Hk. reflexivity.
  - destruct (str_eqb a t); [discriminate|]. apply IH; assumption.
Qed.
Lemma tfind_app_keep t code k v w : tfind t code = Some w -> tfind t (code ++ [(k, v)]) = Some w.
Proof.
  induction code as [|[a x] code IH]; cbn [tfind List.app]; intros H; [discriminate|].
  destruct (str_eqb a t); [exact H|]. apply IH. exact H.
Qed.
Lemma tfind_app_new t code v : tfind t code = None -> tfind t (code ++ [(t, v)]) = Some v.
Proof.
  induction code as [|[a x] code IH]; cbn [tfind List.app]; intros H.
  - replace (str_eqb t t) with true by (symmetry; apply str_eqb_eq; reflexivity). reflexivity.
  - destruct (str_eqb a t); [discriminate|]. apply IH. exact H.
Qed.

(** add_new (servers): the code only grows, every declared trait ends up in the code with its bit in the mask *)
Lemma encode_loop_add_new inv ui ts : forall code res next r code',
  encode_loop inv ui true ts code res next = UOk (r, code') ->
  (forall t v, tfind t code = Some v -> tfind t code' = Some v) /\
  (forall t, In t ts -> exists v, tfind t code' = Some v /\ sub v r) /\
  sub res r.
Proof.
  induction ts as [|t ts IH]; intros code res next r code' H; cbn [encode_loop] in H.
  - inversion H; subst. repeat split; [auto|intros t []|apply sub_refl].
  - destruct (tfind t code) as [v|] eqn:E.
    + destruct (IH _ _ _ _ _ H) as (K1 & K2 & K3). repeat split.
      * exact K1.
      * intros x [->|Hin]; [|apply K2; exact Hin].
        exists v. split; [apply K1; exact E|]. eapply sub_trans; [apply sub_lor_r|exact K3].
      * eapply sub_trans; [apply sub_lor_l|exact K3].
    + destruct (IH _ _ _ _ _ H) as (K1 & K2 & K3). repeat split.
      * intros x w Hx. apply K1. apply tfind_app_keep. exact Hx.
      * intros x [->|Hin]; [|apply K2; exact Hin].
        exists (2 * next). split; [apply K1; apply tfind_app_new; exact E|].
        eapply sub_trans; [apply sub_lor_r|exact K3].
      * eapply sub_trans; [apply sub_lor_l|exact K3].
Qed.

Lemma encode_loop_add_new_total inv ui ts : forall code res next,
  exists r code', encode_loop inv ui true ts code res next = UOk (r, code').
Proof.
  induction ts as [|t ts IH]; intros code res next; cbn [encode_loop].
  - eauto.
  - destruct (tfind t code); apply IH.
Qed.

Lemma encode_app code ts iv :
  tfind (lt_invalid LC) code = Some iv ->
  encode LC [1; 0] code ts = UOk (fold_left (fun acc t => Z.lor acc (app_bit iv code t)) ts 0, code).
Proof. intros H. unfold encode. change (flag [1; 0] 0) with true. change (flag [1; 0] 1) with false. apply encode_loop_app. exact H. Qed.

(** traits.create_code always contains the invalid trait *)
Lemma tfind_tset_same k v c : tfind k (tset k v c) = Some v.
Proof.
  induction c as [|[a w] c IH]; cbn [tset tfind].
  - replace (str_eqb k k) with true by (symmetry; apply str_eqb_eq; reflexivity). reflexivity.
  - destruct (str_eqb a k) eqn:E; cbn [tfind]; rewrite E; [reflexivity|exact IH].
Qed.
Lemma tfind_tset_other k k' v c : str_eqb k k' = false -> tfind k' (tset k v c) = tfind k' c.
Proof.
  intros Hk. induction c as [|[a w] c IH]; cbn [tset tfind].
  - rewrite Hk. reflexivity.
  - destruct (str_eqb a k) eqn:E; cbn [tfind].
    + apply str_eqb_eq in E. subst a. rewrite Hk. reflexivity.
    + destruct (str_eqb a k'); [reflexivity|exact IH].
Qed.
Lemma create_loop_has inv ts : forall code res, tfind inv res <> None -> tfind inv (create_loop ts code res) <> None.
Proof.
  induction ts as [|t ts IH]; intros code res H; cbn [create_loop]; [exact H|].
  apply IH. destruct (str_eqb t inv) eqn:E.
  - apply str_eqb_eq in E. subst t. rewrite tfind_tset_same. discriminate.
  - rewrite (tfind_tset_other _ _ _ _ E). exact H.
Qed.
Lemma create_code_has_invalid ts : exists iv, tfind (lt_invalid LC) (create_code LC ts) = Some iv.
Proof.
  destruct (tfind (lt_invalid LC) (create_code LC ts)) as [iv|] eqn:E; [eauto|].
  exfalso. revert E. apply create_loop_has. cbn [tfind].
  replace (str_eqb (lt_invalid LC) (lt_invalid LC)) with true by (symmetry; apply str_eqb_eq; reflexivity).
  discriminate.
Qed.

(** * refresh_app: the existing-instance branch *)
Lemma refresh_canon m asg bl o :
  refresh_app LC m asg bl o =
  ubind (prio_of LC m asg) (fun p => ubind (drt_of LC m) (fun d => ubind (lease_of LC m) (fun _ =>
    UOk (set_blacklisted bl (set_drt d (set_prio p o)))))).
Proof. reflexivity. Qed.

(** everything but priority, data retention and the blacklist flag *)
Definition same_rest (o o' : app_obj) : Prop :=
  ao_name o' = ao_name o /\ ao_demand o' = ao_demand o /\ ao_aff o' = ao_aff o /\ ao_limits o' = ao_limits o /\
  ao_lease o' = ao_lease o /\ ao_group o' = ao_group o /\ ao_identity o' = ao_identity o /\
  ao_traits o' = ao_traits o /\ ao_once o' = ao_once o /\ ao_evicted o' = ao_evicted o /\
  ao_unschedule o' = ao_unschedule o /\ ao_renew o' = ao_renew o /\ ao_server o' = ao_server o /\
  ao_expiry o' = ao_expiry o.

(** * create_server / load_server *)
Definition declared_label (r : srv_rec) : str :=
  match sr_partition r with Some (c :: s) => c :: s | _ => lt_default_partition LC end.
Definition declared_srv_traits (r : srv_rec) : list str := match sr_traits r with Some l => l | None => [] end.
Definition declared_up_since (now : Z) (r : srv_rec) : Z := match sr_up_since r with Some t => t | None => now end.

Lemma label_canon r : label_of LC r = UOk (declared_label r).
Proof. unfold label_of, declared_label. cbn. destruct (sr_partition r) as [[|c s]|]; reflexivity. Qed.
Lemma up_since_canon now r : up_since_of LC now r = UOk (declared_up_since now r).
Proof. reflexivity. Qed.
Lemma srv_trait_list_canon r : srv_trait_list_of LC r = UOk (declared_srv_traits r).
Proof. unfold srv_trait_list_of, declared_srv_traits. cbn. destruct (sr_traits r); reflexivity. Qed.

Lemma create_server_canon U codes now name r :
  create_server LC U codes now name r =
  match encode LC [0; 1] codes (declared_srv_traits r) with
  | UOk (tz, codes') =>
      (ubind (resources U (sr_res r)) (fun cap =>
         UOk (mkSO name (declared_label r) cap cap tz (declared_up_since now r) 0 None)), codes')
  | e => (ucast e, codes)
  end.
Proof.
  unfold create_server. rewrite label_canon, up_since_canon, srv_trait_list_canon.
  change (lt_srv_encode LC) with [0; 1].
  destruct (encode LC [0; 1] codes (declared_srv_traits r)) as [[tz codes']| | |]; reflexivity.
Qed.

Lemma encode_srv_total codes ts : exists tz codes', encode LC [0; 1] codes ts = UOk (tz, codes').
Proof. unfold encode. change (flag [0; 1] 1) with true. apply encode_loop_add_new_total. Qed.

Lemma create_server_inv U codes now name r s codes' :
  create_server LC U codes now name r = (UOk s, codes') ->
  exists tz cap,
    encode LC [0; 1] codes (declared_srv_traits r) = UOk (tz, codes') /\ resources U (sr_res r) = UOk cap /\
    s = mkSO name (declared_label r) cap cap tz (declared_up_since now r) 0 None.
Proof.
  rewrite create_server_canon.
  destruct (encode_srv_total codes (declared_srv_traits r)) as (tz & c' & He). rewrite He.
  destruct (resources U (sr_res r)) as [cap| | |] eqn:Hr; cbn [ubind]; intros H; inversion H; subst.
  exists tz, cap. repeat split; reflexivity.
Qed.

Lemma load_server_no_data U codes now buckets name :
  load_server LC U codes now buckets name None = (LSNoData, codes).
Proof. reflexivity. Qed.

(** * Facts that hold for every table *)
Lemma create_server_name T U codes now name r s codes' :
  create_server T U codes now name r = (UOk s, codes') -> so_name s = name /\ so_parent s = None.
Proof.
  unfold create_server.
  destruct (label_of T r) as [label| | |]; try discriminate.
  destruct (up_since_of T now r) as [up| | |]; try discriminate.
  destruct (srv_trait_list_of T r) as [tl| | |]; try discriminate.
  destruct (encode T (lt_srv_encode T) codes tl) as [[tz c']| | |]; try discriminate.
  intros H. injection H as H _. apply ubind_ok in H as (cap & _ & H). inversion H. split; reflexivity.
Qed.

Lemma load_server_att T U codes now buckets name ro s codes' :
  load_server T U codes now buckets name ro = (LSAttached s, codes') ->
  so_name s = name /\ exists p, so_parent s = Some p.
Proof.
  unfold load_server. destruct ro as [r|]; [|discriminate].
  destruct (create_server T U codes now name r) as [[s0| | |] c'] eqn:Hc; try discriminate.
  destruct (sr_parent r) as [p|]; [|discriminate].
  destruct (existsb (str_eqb p) buckets); [|discriminate]. intros H. inversion H. cbn [so_name so_parent].
  split; [exact (proj1 (create_server_name _ _ _ _ _ _ _ _ Hc))|exists p; reflexivity].
Qed.

Definition when_ok {A} (P : A -> Prop) (r : ures A) : Prop := match r with UOk a => P a | _ => True end.
Lemma when_ok_bind {A B} (P : B -> Prop) (e : ures A) f : (forall a, when_ok P (f a)) -> when_ok P (ubind e f).
Proof. intros H. destruct e; [apply H|exact I..]. Qed.

Lemma load_new_app_fresh T U codes name m asg bl :
  when_ok (fun o => ao_name o = name /\ ao_server o = None /\ ao_identity o = None)
          (load_new_app T U codes name m asg bl).
Proof.
  unfold load_new_app. do 10 (apply when_ok_bind; intros ?). cbn [when_ok].
  unfold apply_after. destruct (existsb _ _); repeat split; reflexivity.
Qed.

Lemma load_app_fresh T U codes name mo asg bl o :
  load_app T U codes None name mo asg bl = UOk (LLoaded o) ->
  ao_name o = name /\ ao_server o = None /\ ao_identity o = None.
Proof.
  unfold load_app. destruct mo as [m|]; [|discriminate]. intros H. apply ubind_ok in H as (o' & H & E). injection E as ->.
  pose proof (load_new_app_fresh T U codes name m asg bl) as F. rewrite H in F. exact F.
Qed.

(** * The scheduler model's view (Sched/Events.v) *)
Lemma apps_ensure_group c g : c_apps (ensure_group c g) = c_apps c.
Proof. unfold ensure_group. destruct g as [n|]; [|reflexivity]. destruct (aget n (c_groups c)); reflexivity. Qed.

Lemma get_c_upd_app n f c m : (forall x, a_name (f x) = a_name x) ->
  get_app m (c_apps (c_upd_app n f c)) = if m =? n then option_map f (get_app m (c_apps c)) else get_app m (c_apps c).
Proof.
  intros Hf. unfold c_upd_app. cbn [c_apps set].
  destruct (Z.eqb_spec m n) as [->|N]; [|apply get_upd_app_other; assumption].
  destruct (get_app n (c_apps c)) as [a|] eqn:G; [exact (get_upd_app_same n f _ a Hf G)|].
  rewrite get_upd_app_none; assumption.
Qed.

(** the operations of load_app on an EXISTING instance, as a run of the scheduler model: the instance's record keeps
    every field except priority, data retention, blacklist flag and allocation; every other instance is untouched *)
Lemma reload_ops_cell c n p d b label path a old :
  a_name a = n -> get_app n (c_apps c) = Some old ->
  let c' := run c [OSetPrio n p; OSetDrt n d; OSetBlacklisted n b; OAddApp label path a] in
  get_app n (c_apps c') =
    Some (old <| a_prio := p |> <| a_drt := d |> <| a_blacklisted := b |> <| a_alloc := Some (label, path) |>) /\
  (forall m, m <> n -> get_app m (c_apps c') = get_app m (c_apps c)).
Proof.
  intros Hn Hold. unfold run. cbn [fold_left step]. set (c3 := c_upd_app n _ (c_upd_app n _ (c_upd_app n _ c))).
  assert (E3 : forall m, get_app m (c_apps c3) =
                 if m =? n then Some (old <| a_prio := p |> <| a_drt := d |> <| a_blacklisted := b |>)
                 else get_app m (c_apps c)).
  { intros m. unfold c3. rewrite !get_c_upd_app by reflexivity.
    destruct (Z.eqb_spec m n) as [->|_]; [rewrite Hold|]; reflexivity. }
  unfold add_app. rewrite Hn, (E3 n), Z.eqb_refl, apps_ensure_group.
  (* leaving the old allocation queue and joining the new one touch no instance record *)
  set (c4 := upd_alloc _ label path _).
  assert (E4 : c_apps c4 = c_apps c3).
  { unfold c4. rewrite apps_upd_alloc. destruct (a_alloc _) as [[l0 p0]|]; [apply apps_upd_alloc|reflexivity]. }
  split; [|intros m Hm]; rewrite get_c_upd_app, E4, E3 by reflexivity.
  - rewrite Z.eqb_refl. reflexivity.
  - destruct (Z.eqb_spec m n); [contradiction|reflexivity].
Qed.

(** with an injective naming the model's limit lookup is the object's *)
Lemma aget_map_id (id : str -> Z) (Hinj : forall a b, id a = id b -> a = b) lv l :
  aget (id lv) (map (fun kv : str * Z => (id (fst kv), snd kv)) l) = sfind lv l.
Proof.
  induction l as [|[a v] l IH]; cbn [map aget sfind fst snd]; [reflexivity|].
  destruct (str_eqb a lv) eqn:E.
  - apply str_eqb_eq in E. subst a. rewrite Z.eqb_refl. reflexivity.
  - destruct (id a =? id lv) eqn:E2; [|exact IH].
    apply Z.eqb_eq in E2. apply Hinj in E2. subst a.
    rewrite (proj2 (str_eqb_eq lv lv) eq_refl) in E. discriminate.
Qed.

(** * The strings of the canonical tables, by name *)
Definition default_label : str := [95; 100; 101; 102; 97; 117; 108; 116].   (* "_default" *)
Definition lease_default : pyval := VStr [48; 115].                          (* "0s" *)
Definition invalid_trait : str := [105; 110; 118; 97; 108; 105; 100].        (* "invalid" *)

