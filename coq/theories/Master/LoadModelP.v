(** Proofs for Master/LoadModel.v, Loader.load_model as a run of the scheduler model from the EMPTY cell.  Under the
    side condition [store_ok] the loader's operations are well-formed, the cell before the restore is Good and the
    duplicate pass does nothing; conditions a reader can check on the snapshot ([store_wfb]) imply [store_ok] and make
    the opening server.remove_all() idle, by an abstract interpretation of the loader's operations ([astep]) and an
    induction over the placement nodes ([tracks]). *)
From Coq Require Import ZArith List Bool Lia.
From RecordUpdate Require Import RecordSet.
From TM Require Import Codec.BaseN Codec.Units.
From TM Require Import Sched.Vec Sched.Types Sched.Queue Sched.Tree Sched.Cycle Sched.Events Sched.Steps Sched.MapsP
                       Sched.EventsP Sched.InvAcct Sched.InvIdent Sched.InvIdRec Sched.TurnP Sched.KeepP Sched.Reach.
From TM Require Import Master.LoadApp Master.LoadAppP Master.Publish Master.PublishP Master.RestoreSched Master.RestoreSchedP
                       Master.RestoreAll Master.RestoreAllP Master.RestoreBridge Master.LoadModel.
Import ListNotations.
Open Scope Z_scope.

(** * Distinctness checkers *)
Fixpoint z_distinct (l : list Z) : bool :=
  match l with [] => true | x :: r => negb (Vec.zmem x r) && z_distinct r end.
Lemma z_distinct_NoDup l : z_distinct l = true -> NoDup l.
Proof.
  induction l as [|x r IH]; cbn; intros H; [constructor|]. apply andb_true_iff in H as [H1 H2].
  constructor; [|apply IH; exact H2]. apply negb_true_iff in H1. apply MapsP.zmem_false. exact H1.
Qed.

Lemma NoDup_app_r {A} (l1 l2 : list A) : NoDup (l1 ++ l2) -> NoDup l2.
Proof. induction l1 as [|x l1 IH]; cbn; intros H; [exact H|]. inversion H; subst. apply IH. assumption. Qed.
Lemma NoDup_app_l {A} (l1 l2 : list A) : NoDup (l1 ++ l2) -> NoDup l1.
Proof.
  induction l1 as [|x l1 IH]; cbn; intros H; [constructor|]. inversion H as [|? ? Hn Hd]; subst.
  constructor; [|apply IH; exact Hd]. intros C. apply Hn. apply in_or_app. left. exact C.
Qed.
Lemma NoDup_app_disj {A} (l1 l2 : list A) x : NoDup (l1 ++ l2) -> In x l1 -> In x l2 -> False.
Proof.
  induction l1 as [|y l1 IH]; cbn; intros H H1 H2; [destruct H1|]. inversion H as [|? ? Hn Hd]; subst.
  destruct H1 as [->|H1]; [apply Hn; apply in_or_app; right; exact H2|exact (IH Hd H1 H2)].
Qed.

Definition all_node_apps (srecs : list srec) : list Z := flat_map (fun sr => map sn_app (sr_nodes sr)) srecs.

(** * 1. The decidable side condition and what it gives for the operations *)
Section Main.
  Variable T : ltables.
  Variable U : utables.
  Variable id : str -> Z.
  Variable none_aff : Z.

  Notation load_pre := (load_pre T U id none_aff).
  Notation pre_ops := (pre_ops T U id none_aff).
  Notation store_srecs := (store_srecs T U id none_aff).
  Notation load_model_ops := (load_model_ops T U id none_aff).
  Notation loaded_cell := (loaded_cell T U id none_aff).
  Notation load_model_cell := (load_model_cell T U id none_aff).
  Notation load_model_full := (load_model_full T U id none_aff).
  Notation init_of := (init_of id).

  Definition store_okb (st : store) : bool :=
    ld_ok (load_pre st) && store_shape_ok id st && z_distinct (all_node_apps (store_srecs st))
    && wf_ops_allb (init_of st) (load_model_ops st).

  (** the side condition as a proposition: the snapshot is one a master can start on (no record raises, the bucket
      records have the shape the model covers), no instance is recorded under two servers, and the operations
      satisfy the side conditions of [reachable] *)
  Definition store_ok (st : store) : Prop :=
    ld_ok (load_pre st) = true /\ store_shape_ok id st = true /\ NoDup (all_node_apps (store_srecs st)) /\
    wf_ops_all (init_of st) (load_model_ops st).

  Lemma store_ok_wf st : store_ok st ->
    wf_ops_all (init_of st) (pre_ops st) /\ Good (loaded_cell st) /\
    wf_ops_all (loaded_cell st) (ops_of_store true (store_srecs st)).
  Proof.
    intros (_ & _ & _ & H). unfold load_model_ops in H. apply wf_ops_all_app in H as [W1 W2].
    split; [exact W1|]. split; [apply Good_run; [exact W1|apply Good_init]|exact W2].
  Qed.

  (** no instance recorded under two servers: [integrity] lists nobody twice, the duplicate pass is idle *)
  Lemma restored_on_le1 ri servers : forall c a,
    NoDup (all_node_apps servers) -> (length (restored_on (snd (restore_all ri c servers)) a) <= 1)%nat.
  Proof.
    induction servers as [|sr l IH]; intros c a ND; [cbn; lia|].
    rewrite ra_cons. cbn zeta. cbn [snd]. unfold all_node_apps in ND. cbn [flat_map] in ND.
    change (?x :: ?y) with ([x] ++ y). rewrite restored_on_app.
    pose proof (NoDup_app_r _ _ ND) as ND2.
    unfold restored_on at 1. cbn [flat_map fst snd]. rewrite app_nil_r.
    destruct (zmem a (snd (restore_nodes_names (sr_name sr) (sr_presence sr) ri c (sr_nodes sr)))) eqn:Z.
    - apply PublishP.zmem_In in Z. apply restored_names_recorded_sched in Z.
      rewrite restored_on_unrecorded; [cbn; lia|].
      intros sr' Hin Ha. apply (NoDup_app_disj _ _ a ND Z). apply in_flat_map. exists sr'. split; assumption.
    - cbn [Datatypes.app]. apply IH. exact ND2.
  Qed.
  Lemma dedup_idle c servers : NoDup (all_node_apps servers) ->
    (let '(cf, _, _) := restore_placements true c servers in cf) = fst (restore_all true c servers).
  Proof.
    intros Hd. unfold restore_placements. destruct (restore_all true c servers) as [c' rs] eqn:E. cbn [fst].
    apply (dedup_nothing rs c'). intros a. pose proof (restored_on_le1 true servers c a Hd) as L. rewrite E in L. exact L.
  Qed.
End Main.

(** * 2. Abstract interpretation of the loader's operations.
    The side conditions of [reachable] read three things of a cell: its dimension, the names of its servers and
    the instance records.  [astep] is what an operation of the loader's repertoire (everything load_model issues
    before restore_placements) does to them, with the side condition decided on the abstraction. *)
Record aview := mkV { v_dim : nat; v_srv : list (Z * list Z); v_apps : list app }.
Definition srv_sig (s : server) : Z * list Z := (s_name s, s_apps s).
Definition view_of (c : cell) : aview := mkV (c_dim c) (map srv_sig (c_servers c)) (c_apps c).

Definition is_none {A} (o : option A) : bool := match o with None => true | Some _ => false end.
Definition new_app_okb (dim : nat) (a : app) : bool :=
  is_none (a_server a) && is_none (a_identity a) && Nat.eqb (length (a_demand a)) dim
  && forallb (Z.leb 0) (a_demand a).
Definition with_alloc (label : Z) (path : list Z) (a : app) : app := a <| a_alloc := Some (label, path) |>.

Definition astep (v : aview) (o : op) : option aview :=
  match o with
  | OTick _ => Some v
  | OUpdateAlloc _ _ _ _ _ _ _ => Some v
  | OAddBucket _ _ _ => Some v
  | OSetState _ _ _ => Some v
  | OSetValidUntil _ _ => Some v
  | ORemoveGroup _ => Some v
  | OConfigGroup _ n => if Z.leb 0 n then Some v else None
  | OAddServer name _ cap _ _ _ =>
      if negb (Vec.zmem name (map fst (v_srv v))) && Nat.eqb (length cap) (v_dim v) && forallb (Z.leb 0) cap
         && forallb (fun a => negb (opt_eqb (a_server a) (Some name))) (v_apps v)
      then Some (mkV (v_dim v) (v_srv v ++ [(name, [])]) (v_apps v)) else None
  | OAddApp label path a =>
      match get_app (a_name a) (v_apps v) with
      | Some _ => None
      | None => if new_app_okb (v_dim v) a
                then Some (mkV (v_dim v) (v_srv v) (v_apps v ++ [with_alloc label path a])) else None
      end
  | ORemoveApp n => match get_app n (v_apps v) with None => Some v | Some _ => None end
  | _ => None
  end.
Fixpoint arun (v : aview) (ops : list op) : option aview :=
  match ops with
  | [] => Some v
  | o :: r => match astep v o with Some v' => arun v' r | None => None end
  end.

Lemma get_srv_notin n l : ~ In n (map s_name l) -> get_srv n l = None.
Proof.
  induction l as [|s r IH]; cbn; intros H; [reflexivity|]. destruct (Z.eqb_spec (s_name s) n) as [E|E].
  - exfalso. apply H. left. exact E.
  - apply IH. intros C. apply H. right. exact C.
Qed.
Lemma get_srv_in n l : In n (map s_name l) -> get_srv n l <> None.
Proof.
  induction l as [|s r IH]; cbn; intros H; [destruct H|]. destruct (Z.eqb_spec (s_name s) n) as [E|E]; [discriminate|].
  destruct H as [H|H]; [contradiction|apply IH; exact H].
Qed.

Lemma sig_names l : map fst (map srv_sig l) = map s_name l.
Proof. rewrite map_map. reflexivity. Qed.
Lemma upd_srv_sigs n f l : (forall x, s_name (f x) = s_name x /\ s_apps (f x) = s_apps x) ->
  map srv_sig (upd_srv n f l) = map srv_sig l.
Proof.
  intros Hf. induction l as [|x t IH]; cbn; [reflexivity|].
  destruct (Z.eqb (s_name x) n); cbn; [unfold srv_sig; rewrite (proj1 (Hf x)), (proj2 (Hf x)); reflexivity|rewrite IH; reflexivity].
Qed.

Lemma view_sc c c' : same_core c c' -> view_of c' = view_of c.
Proof. intros (H1 & _ & H3 & H4 & _). unfold view_of. rewrite H1, H3, H4. reflexivity. Qed.

Lemma view_upd_alloc c l p f : view_of (upd_alloc c l p f) = view_of c.
Proof. unfold view_of. destruct (upd_alloc_frame c l p f) as (-> & -> & -> & _). reflexivity. Qed.

Lemma view_set_state c n st since : view_of (srv_set_state c n st since) = view_of c.
Proof.
  unfold srv_set_state. destruct (get_srv n (c_servers c)) as [s|]; [|reflexivity].
  destruct (sstate_eqb (s_state s) st); [reflexivity|].
  set (c1 := c_upd_srv n _ c).
  assert (E : view_of c1 = view_of c).
  { unfold view_of, c1, c_upd_srv. cbn [c_dim c_servers c_apps set]. rewrite upd_srv_sigs by (intros x; split; reflexivity). reflexivity. }
  rewrite <- E. destruct st; apply view_sc; first [apply adjust_up_from_sc|apply adjust_down_from_sc].
Qed.

Lemma apps_ensure_group c g : c_apps (ensure_group c g) = c_apps c.
Proof. unfold ensure_group. destruct g as [n|]; [|reflexivity]. destruct (aget n (c_groups c)); reflexivity. Qed.
Lemma view_ensure_group c g : view_of (ensure_group c g) = view_of c.
Proof. unfold ensure_group. destruct g as [n|]; [|reflexivity]. destruct (aget n (c_groups c)); reflexivity. Qed.

(** operations that change nothing of the view and carry no side condition *)
Definition quiet_op (o : op) : bool :=
  match o with
  | OTick _ | OUpdateAlloc _ _ _ _ _ _ _ | OAddBucket _ _ _ | OSetState _ _ _ | OSetValidUntil _ _ | ORemoveGroup _ => true
  | _ => false
  end.

Lemma astep_quiet v o : quiet_op o = true -> astep v o = Some v.
Proof. destruct o; try discriminate; reflexivity. Qed.

Lemma quiet_sound c o : quiet_op o = true -> wf_op_all c o /\ view_of (step c o) = view_of c.
Proof.
  destruct o; try discriminate; intros _; (split; [split; exact I|]); cbn [step].
  - unfold add_bucket. rewrite (view_sc _ _ (attach_common_sc _ _ _ _ _ _ _)). reflexivity.
  - apply view_set_state.
  - unfold view_of, c_upd_srv. cbn [c_dim c_servers c_apps set].
    rewrite upd_srv_sigs by (intros x; split; reflexivity). reflexivity.
  - apply view_upd_alloc.
  - unfold remove_group. destruct (aget name (c_groups c)); [|reflexivity]. destruct (existsb _ _); reflexivity.
  - reflexivity.
Qed.

Theorem astep_sound c o v' : astep (view_of c) o = Some v' -> wf_op_all c o /\ view_of (step c o) = v'.
Proof.
  destruct (quiet_op o) eqn:Q.
  { rewrite (astep_quiet _ _ Q). intros H; inversion H; subst. exact (quiet_sound c o Q). }
  destruct o; try discriminate Q; cbn [astep]; try discriminate.
  - (* OAddServer *)
    destruct (negb _ && _ && _ && _) eqn:E; [|discriminate]. intros H; inversion H; subst. clear H.
    apply andb_true_iff in E as [E E4]. apply andb_true_iff in E as [E E3]. apply andb_true_iff in E as [E1 E2].
    cbn [view_of v_srv v_dim v_apps] in *. apply negb_true_iff in E1. apply MapsP.zmem_false in E1. rewrite sig_names in E1.
    split.
    + split; [|exact I]. apply wf_opb_sound. cbn [wf_opb]. rewrite (get_srv_notin _ _ E1), E2, E3, E4. reflexivity.
    + cbn [step]. unfold add_server, new_server. cbn [s_parent s_name s_traits s_counters s_label s_free].
      rewrite (view_sc _ _ (attach_common_sc _ _ _ _ _ _ _)). unfold view_of. cbn [c_dim c_servers c_apps set].
      rewrite map_app. reflexivity.
  - (* OAddApp *)
    cbn [view_of v_apps v_dim v_srv]. destruct (get_app (a_name a) (c_apps c)) eqn:G; [discriminate|].
    destruct (new_app_okb (c_dim c) a) eqn:E; [|discriminate]. intros H; inversion H; subst. clear H.
    unfold new_app_okb in E. apply andb_true_iff in E as [E E4]. apply andb_true_iff in E as [E E3].
    apply andb_true_iff in E as [E1 E2].
    split.
    + split.
      * apply wf_opb_sound. cbn [wf_opb]. rewrite G, E3, E4. destruct (a_server a); [discriminate|reflexivity].
      * apply wf_op_idb_sound. cbn [wf_op_idb]. rewrite G. destruct (a_identity a); [discriminate|reflexivity].
    + cbn [step]. unfold add_app. rewrite G. rewrite view_ensure_group. unfold view_of. cbn [c_dim c_servers c_apps set].
      rewrite apps_upd_alloc, servers_upd_alloc, (proj1 (upd_alloc_frame _ _ _ _)). reflexivity.
  - (* ORemoveApp *)
    cbn [view_of v_apps]. destruct (get_app name (c_apps c)) eqn:G; [discriminate|]. intros H; inversion H; subst.
    split; [split; exact I|]. cbn [step]. unfold remove_app. rewrite G. reflexivity.
  - (* OConfigGroup *)
    destruct (Z.leb 0 count) eqn:E; [|discriminate]. intros H; inversion H; subst.
    split; [split; [exact I|cbn; apply Z.leb_le; exact E]|]. cbn [step]. unfold config_group.
    destruct (aget name (c_groups c)); reflexivity.
Qed.

Theorem arun_sound ops : forall c v', arun (view_of c) ops = Some v' ->
  wf_ops_all c ops /\ view_of (run c ops) = v'.
Proof.
  induction ops as [|o r IH]; intros c v' H; cbn [arun] in H.
  - inversion H; subst. split; [exact I|reflexivity].
  - destruct (astep (view_of c) o) as [v1|] eqn:E; [|discriminate].
    destruct (astep_sound c o v1 E) as [W V]. rewrite <- V in H. destruct (IH _ _ H) as [W2 V2].
    split; [split; assumption|exact V2].
Qed.

Lemma arun_app l1 : forall v l2,
  arun v (l1 ++ l2) = match arun v l1 with Some v1 => arun v1 l2 | None => None end.
Proof.
  induction l1 as [|o r IH]; intros v l2; cbn [Datatypes.app arun]; [reflexivity|].
  destruct (astep v o); [apply IH|reflexivity].
Qed.

Lemma arun_quiet ops : forall v, forallb quiet_op ops = true -> arun v ops = Some v.
Proof.
  induction ops as [|o r IH]; intros v H; [reflexivity|]. cbn [forallb] in H. apply andb_true_iff in H as [H1 H2].
  cbn [arun]. rewrite (astep_quiet _ _ H1). apply IH. exact H2.
Qed.

(** * 3. The placement nodes: a run of ORestore operations from a cell whose instances are all unplaced and hold
    no identity satisfies the side conditions when (store level) every instance is recorded at most once, a node
    carries an identity exactly for a member of an identity group, and no identity is recorded twice in a group *)
Definition trip := (Z * option Z * snode)%type.
Definition trips (srecs : list srec) : list trip :=
  flat_map (fun sr => map (fun n => (sr_name sr, sr_presence sr, n)) (sr_nodes sr)) srecs.
Definition top (t : trip) : op := node_op (fst (fst t)) (snd (fst t)) (snd t).
Definition all_nodes (srecs : list srec) : list snode := flat_map sr_nodes srecs.
Definition tnode (t : trip) : snode := snd t.

Lemma restore_ops_trips srecs : restore_ops srecs = map top (trips srecs).
Proof.
  unfold restore_ops, trips. induction srecs as [|sr l IH]; [reflexivity|]. cbn [flat_map]. rewrite map_app, IH.
  f_equal. rewrite map_map. reflexivity.
Qed.
Lemma trips_nodes srecs : map tnode (trips srecs) = all_nodes srecs.
Proof.
  unfold trips, all_nodes. induction srecs as [|sr l IH]; [reflexivity|]. cbn [flat_map]. rewrite map_app. f_equal; [|exact IH].
  rewrite map_map. unfold tnode. cbn [snd]. apply map_id.
Qed.
Lemma all_node_apps_nodes srecs : all_node_apps srecs = map sn_app (all_nodes srecs).
Proof.
  unfold all_node_apps, all_nodes. induction srecs as [|sr l IH]; [reflexivity|]. cbn [flat_map]. rewrite map_app, IH.
  reflexivity.
Qed.

(** ** what one ORestore does to the instance records and the server names *)
Lemma restore_op_frame c s x vb ex ident y :
  y <> x -> get_app y (c_apps (restore_op c s x vb ex ident)) = get_app y (c_apps c).
Proof.
  intros NE. unfold restore_op. destruct (get_app x (c_apps c)) as [a|]; [|reflexivity].
  pose proof (restore_put_other c s x vb ex y NE) as F. unfold app_of in F.
  destruct (restore_put c s x vb ex) as [c1 ok]. cbn [fst] in F.
  destruct ok; [etransitivity; [exact (force_other c1 x ident y NE)|exact F]|].
  destruct (a_once a); [rewrite frame_remove_app by exact NE|]; exact F.
Qed.

(** Cell.remove_app drops the record from a cell with the same instance and server names *)
Lemma remove_app_shape c n a : get_app n (c_apps c) = Some a ->
  exists c3, remove_app c n = c3 <| c_apps ::= del_app n |> /\
             map a_name (c_apps c3) = map a_name (c_apps c) /\ map s_name (c_servers c3) = map s_name (c_servers c).
Proof.
  intros G. unfold remove_app. rewrite G.
  set (c1 := match a_server a with Some sn => if is_member c sn then srv_remove c sn n else c | None => c end).
  set (c2 := match a_alloc a with Some (l0, p0) => upd_alloc c1 l0 p0 (alloc_del_app n) | None => c1 end).
  exists (release_identity c2 n). split; [reflexivity|].
  assert (P1 : psteps c c1).
  { unfold c1. destruct (a_server a) as [sn|]; [|apply ps_refl]. destruct (is_member c sn); [apply srv_remove_ps|apply ps_refl]. }
  assert (E2a : c_apps c2 = c_apps c1) by (unfold c2; destruct (a_alloc a) as [[l0 p0]|]; [apply apps_upd_alloc|reflexivity]).
  assert (E2s : c_servers c2 = c_servers c1) by (unfold c2; destruct (a_alloc a) as [[l0 p0]|]; [apply servers_upd_alloc|reflexivity]).
  split.
  - rewrite (psteps_names _ _ (ps_one _ _ (PS_release c2 n))), E2a. apply psteps_names. exact P1.
  - rewrite servers_release, E2s. apply psteps_srv_names. exact P1.
Qed.

Lemma remove_app_gone c n : NoDup (map a_name (c_apps c)) -> get_app n (c_apps (remove_app c n)) = None.
Proof.
  intros ND. destruct (get_app n (c_apps c)) as [a|] eqn:G; [|unfold remove_app; rewrite G; exact G].
  destruct (remove_app_shape c n a G) as (c3 & -> & Hn & _). cbn [c_apps set].
  rewrite get_app_del by (rewrite Hn; exact ND). rewrite Z.eqb_refl. reflexivity.
Qed.
Lemma remove_app_srv_names c n : map s_name (c_servers (remove_app c n)) = map s_name (c_servers c).
Proof.
  destruct (get_app n (c_apps c)) as [a|] eqn:G; [|unfold remove_app; rewrite G; reflexivity].
  destruct (remove_app_shape c n a G) as (c3 & -> & _ & Hs). exact Hs.
Qed.

Lemma restore_op_srv_names c s x vb ex ident :
  map s_name (c_servers (restore_op c s x vb ex ident)) = map s_name (c_servers c).
Proof.
  unfold restore_op. destruct (get_app x (c_apps c)) as [a|]; [|reflexivity].
  pose proof (psteps_srv_names _ _ (restore_put_ps c s x vb ex)) as P.
  destruct (restore_put c s x vb ex) as [c1 ok]. cbn [fst] in P. destruct ok.
  - rewrite <- P. unfold Events.force_identity. destruct ident as [i|]; [|reflexivity].
    destruct (get_app x (c_apps c1)) as [a1|]; [|reflexivity]. destruct (group_of c1 a1) as [[g grp]|]; reflexivity.
  - destruct (a_once a); [rewrite remove_app_srv_names|]; exact P.
Qed.

(** a record after one ORestore is a record before it, or the restored instance's: its group, and the old or the
    node's identity *)
Lemma restore_op_record c s x vb ex ident y a' :
  Acct c -> get_app y (c_apps (restore_op c s x vb ex ident)) = Some a' ->
  (y <> x /\ get_app y (c_apps c) = Some a') \/
  (y = x /\ exists a, get_app x (c_apps c) = Some a /\ a_group a' = a_group a /\
                      (a_identity a' = a_identity a \/ a_identity a' = ident)).
Proof.
  intros HA H. destruct (Z.eq_dec y x) as [->|NE].
  2:{ left. rewrite restore_op_frame in H by exact NE. split; assumption. }
  right. split; [reflexivity|]. revert H.
  unfold restore_op. destruct (get_app x (c_apps c)) as [a|] eqn:G; [|rewrite G; discriminate].
  pose proof (Acct_psteps _ _ (restore_put_ps c s x vb ex) HA) as HA1.
  destruct (restore_put_eqi c s x vb ex) as [_ Hq]. pose proof (get_app_eqi _ _ Hq x) as Q. rewrite G in Q.
  destruct (restore_put c s x vb ex) as [c1 ok]. cbn [fst] in *.
  destruct (get_app x (c_apps c1)) as [a1|] eqn:G1; [|contradiction]. destruct Q as (_ & Q2 & Q3).
  assert (Hsame : Some a1 = Some a' -> exists a0, Some a = Some a0 /\ a_group a' = a_group a0 /\
                                      (a_identity a' = a_identity a0 \/ a_identity a' = ident)).
  { intros H; inversion H; subst a'. exists a. split; [reflexivity|]. split; [symmetry; exact Q2|left; symmetry; exact Q3]. }
  destruct ok.
  - unfold Events.force_identity. destruct ident as [i|]; [|rewrite G1; exact Hsame]. rewrite G1.
    destruct (group_of c1 a1) as [[g grp]|]; [|rewrite G1; exact Hsame].
    unfold c_upd_app. cbn [c_apps set]. rewrite (get_upd_app_same x _ _ a1) by (reflexivity || exact G1).
    intros H; inversion H; subst a'. exists a. split; [reflexivity|]. split; [cbn; symmetry; exact Q2|right; reflexivity].
  - destruct (a_once a).
    + rewrite remove_app_gone by (apply (ac_app_names _ HA1)). discriminate.
    + rewrite G1. exact Hsame.
Qed.

(** ** the induction over the nodes *)
Definition node_ok (A0 : list app) (n : snode) : Prop :=
  forall a0, get_app (sn_app n) A0 = Some a0 ->
    match sn_identity n with Some i => 0 <= i /\ a_group a0 <> None | None => a_group a0 = None end.
Definition claims_ok (A0 : list app) (full : list snode) : Prop :=
  forall n1 n2 i g a1 a2, In n1 full -> In n2 full -> sn_identity n1 = Some i -> sn_identity n2 = Some i ->
    get_app (sn_app n1) A0 = Some a1 -> get_app (sn_app n2) A0 = Some a2 ->
    a_group a1 = Some g -> a_group a2 = Some g -> sn_app n1 = sn_app n2.

(** how the cell reached by restoring the nodes [done] stands to the instance table [A0] load_model built: the groups
    are those of [A0], an identity comes from a restored node, only restored instances are placed *)
Definition tracks (A0 : list app) (done : list snode) (c : cell) : Prop :=
  (forall x a, get_app x (c_apps c) = Some a -> exists a0, get_app x A0 = Some a0 /\ a_group a0 = a_group a) /\
  (forall x a i, get_app x (c_apps c) = Some a -> a_identity a = Some i ->
                 exists n, In n done /\ sn_app n = x /\ sn_identity n = Some i) /\
  (forall x a, get_app x (c_apps c) = Some a -> a_server a <> None -> In x (map sn_app done)).

Lemma tracks_restore A0 done c s vb n :
  Acct c -> tracks A0 done c ->
  tracks A0 (done ++ [n]) (restore_op c s (sn_app n) vb (sn_expires n) (sn_identity n)).
Proof.
  intros HA (IA & IB & IS). set (x := sn_app n).
  pose proof (fun y a' => restore_op_record c s x vb (sn_expires n) (sn_identity n) y a' HA) as Old.
  assert (Keep : forall n', In n' done -> In n' (done ++ [n])) by (intros n' H; apply in_or_app; left; exact H).
  split; [|split].
  - intros y a' Ha'. destruct (Old y a' Ha') as [[_ Ha]|[-> (a & Ha & Hg & _)]]; [exact (IA y a' Ha)|].
    destruct (IA x a Ha) as (a0 & Ha0 & Hg0). exists a0. split; [exact Ha0|congruence].
  - intros y a' i Ha' Hi. destruct (Old y a' Ha') as [[_ Ha]|[-> (a & Ha & _ & [Hid|Hid])]].
    + destruct (IB y a' i Ha Hi) as (n' & Hin' & Hn'). exists n'. split; [apply Keep; exact Hin'|exact Hn'].
    + rewrite Hid in Hi. destruct (IB x a i Ha Hi) as (n' & Hin' & Hn'). exists n'. split; [apply Keep; exact Hin'|exact Hn'].
    + exists n. split; [apply in_elt|]. split; [reflexivity|congruence].
  - intros y a' Ha' Hs. rewrite map_app. apply in_or_app.
    destruct (Old y a' Ha') as [[_ Ha]|[-> _]]; [left; exact (IS y a' Ha Hs)|right; left; reflexivity].
Qed.

(** the side conditions of one ORestore: the server is there, the instance is not placed yet, and the node's identity
    (if any) belongs to the instance's group and is claimed by no other restored node *)
Lemma restore_node_wf A0 full done c s p n :
  tracks A0 done c -> (forall m, In m done -> In m full) -> In n full -> node_ok A0 n -> claims_ok A0 full ->
  ~ In (sn_app n) (map sn_app done) -> In s (map s_name (c_servers c)) ->
  wf_op_all c (node_op s p n).
Proof.
  intros (IA & IB & IS) Sub Hn NOK COK Fresh Hs. set (x := sn_app n) in *. unfold node_op. split.
  - cbn [wf_op]. split; [apply get_srv_in; exact Hs|].
    intros a Ha. destruct (a_server a) eqn:Es; [|reflexivity]. destruct Fresh. apply (IS x a Ha). rewrite Es. discriminate.
  - cbn [wf_op_id]. destruct (sn_identity n) as [i|] eqn:Ei; intros a Ha; destruct (IA x a Ha) as (a0 & Ha0 & Hg0);
      pose proof (NOK a0 Ha0) as K; rewrite Ei in K; [|left; rewrite <- Hg0; exact K].
    destruct K as [K1 K2]. split; [exact K1|]. destruct (a_group a0) as [g|] eqn:Eg0; [|contradiction].
    exists g. split; [rewrite <- Hg0; reflexivity|].
    intros n2 b Hne Hb [Hh1 Hh2]. destruct (IB n2 b i Hb Hh2) as (n' & Hin' & Hn' & Hi').
    destruct (IA n2 b Hb) as (b0 & Hb0 & Hgb). apply Hne. rewrite <- Hn'. symmetry.
    apply (COK n n' i g a0 b0 Hn (Sub n' Hin') Ei Hi' Ha0); [rewrite Hn'; exact Hb0|exact Eg0|rewrite Hgb; exact Hh1].
Qed.

Lemma restore_wf_ind A0 : forall (rest : list trip) (done : list snode) (c : cell),
  NoDup (map sn_app (done ++ map tnode rest)) ->
  (forall n, In n (done ++ map tnode rest) -> node_ok A0 n) ->
  claims_ok A0 (done ++ map tnode rest) ->
  Good c -> tracks A0 done c ->
  (forall t, In t rest -> In (fst (fst t)) (map s_name (c_servers c))) ->
  wf_ops_all c (map top rest).
Proof.
  induction rest as [|[[s p] n] tl IH]; intros done c ND NOK COK HG HT ISrv; [exact I|].
  cbn [map] in *. change (tnode (s, p, n)) with n in *.
  assert (W : wf_op_all c (top (s, p, n))).
  { apply (restore_node_wf A0 (done ++ n :: map tnode tl) done); try assumption.
    - intros m Hm. apply in_or_app. left. exact Hm.
    - apply in_elt.
    - apply NOK, in_elt.
    - rewrite map_app in ND. intros C. apply (NoDup_remove_2 _ _ _ ND). apply in_or_app. left. exact C.
    - apply (ISrv (s, p, n)). left. reflexivity. }
  split; [exact W|].
  assert (L : (done ++ [n]) ++ map tnode tl = done ++ n :: map tnode tl) by (rewrite <- app_assoc; reflexivity).
  apply (IH (done ++ [n])); rewrite ?L; try assumption.
  - apply Good_step; assumption.
  - exact (tracks_restore A0 done c s (sched_verbatim p n) n (proj1 HG) HT).
  - intros t Ht. change (step c (top (s, p, n))) with (restore_op c s (sn_app n) (sched_verbatim p n) (sn_expires n) (sn_identity n)).
    rewrite restore_op_srv_names. apply ISrv. right. exact Ht.
Qed.

(** the decidable form of the conditions on the nodes *)
Definition node_okb (A0 : list app) (n : snode) : bool :=
  match get_app (sn_app n) A0 with
  | None => true
  | Some a0 => match sn_identity n with
               | Some i => Z.leb 0 i && is_some (a_group a0)
               | None => is_none (a_group a0)
               end
  end.
Definition node_claim (A0 : list app) (n : snode) : list (Z * Z * Z) :=
  match get_app (sn_app n) A0, sn_identity n with
  | Some a0, Some i => match a_group a0 with Some g => [(g, i, sn_app n)] | None => [] end
  | _, _ => []
  end.
(** no two claims with the same (group, identity) *)
Fixpoint claims_distinct (l : list (Z * Z * Z)) : bool :=
  match l with
  | [] => true
  | (g, i, x) :: r =>
      forallb (fun c => negb (Z.eqb (fst (fst c)) g && Z.eqb (snd (fst c)) i)) r && claims_distinct r
  end.
Definition restore_okb (A0 : list app) (srecs : list srec) : bool :=
  z_distinct (all_node_apps srecs) && forallb (node_okb A0) (all_nodes srecs)
  && claims_distinct (flat_map (node_claim A0) (all_nodes srecs)).

Lemma claims_distinct_NoDup l : claims_distinct l = true -> NoDup (map fst l).
Proof.
  induction l as [|[[g i] x] r IH]; cbn [claims_distinct map]; intros H; [constructor|].
  apply andb_true_iff in H as [H1 H2]. constructor; [|apply IH; exact H2].
  intros C. apply in_map_iff in C as [c [E Hc]]. rewrite forallb_forall in H1. specialize (H1 c Hc).
  rewrite E in H1. cbn [fst snd] in H1. rewrite !Z.eqb_refl in H1. discriminate.
Qed.

Lemma restore_okb_sound A0 srecs : restore_okb A0 srecs = true ->
  NoDup (map sn_app (all_nodes srecs)) /\ (forall n, In n (all_nodes srecs) -> node_ok A0 n) /\
  claims_ok A0 (all_nodes srecs).
Proof.
  unfold restore_okb. intros H. apply andb_true_iff in H as [H H3]. apply andb_true_iff in H as [H1 H2].
  apply z_distinct_NoDup in H1. rewrite all_node_apps_nodes in H1. split; [exact H1|]. split.
  - intros n Hin a0 Ha0. rewrite forallb_forall in H2. specialize (H2 n Hin). unfold node_okb in H2. rewrite Ha0 in H2.
    destruct (sn_identity n) as [i|].
    + apply andb_true_iff in H2 as [K1 K2]. split; [apply Z.leb_le; exact K1|]. destruct (a_group a0); discriminate.
    + destruct (a_group a0); [discriminate|reflexivity].
  - intros n1 n2 i g a1 a2 Hin1 Hin2 Hi1 Hi2 Ha1 Ha2 Hg1 Hg2.
    (* both nodes claim (g, i); the key occurs once *)
    assert (C : forall n a, In n (all_nodes srecs) -> sn_identity n = Some i -> get_app (sn_app n) A0 = Some a ->
                a_group a = Some g -> In (g, i, sn_app n) (flat_map (node_claim A0) (all_nodes srecs))).
    { intros n a Hin Hi Ha Hg. apply in_flat_map. exists n. split; [exact Hin|].
      unfold node_claim. rewrite Ha, Hi, Hg. left. reflexivity. }
    pose proof (NoDup_map_inj fst _ _ _ (claims_distinct_NoDup _ H3) (C n1 a1 Hin1 Hi1 Ha1 Hg1)
                  (C n2 a2 Hin2 Hi2 Ha2 Hg2) eq_refl) as E.
    inversion E. reflexivity.
Qed.

(** a cell whose instances are all unplaced and hold no identity: what load_model has built before
    restore_placements *)
Definition clean (c : cell) : Prop := forall x a, get_app x (c_apps c) = Some a -> a_server a = None /\ a_identity a = None.

Theorem restore_wf c srecs :
  Good c -> clean c -> (forall sr, In sr srecs -> In (sr_name sr) (map s_name (c_servers c))) ->
  restore_okb (c_apps c) srecs = true -> wf_ops_all c (restore_ops srecs).
Proof.
  intros HG HC HS HR. destruct (restore_okb_sound _ _ HR) as (ND & NOK & COK).
  rewrite restore_ops_trips. apply (restore_wf_ind (c_apps c) (trips srecs) [] c); cbn [Datatypes.app];
    try (rewrite trips_nodes; assumption); try assumption.
  - split; [|split].
    + intros x a Ha. exists a. split; [exact Ha|reflexivity].
    + intros x a i Ha Hi. rewrite (proj2 (HC x a Ha)) in Hi. discriminate.
    + intros x a Ha Hs. destruct Hs. exact (proj1 (HC x a Ha)).
  - intros t Ht. unfold trips in Ht. apply in_flat_map in Ht as (sr & Hsr & Ht). apply in_map_iff in Ht as (n & <- & _).
    cbn [fst]. apply HS. exact Hsr.
Qed.

(** * 4. From conditions on the snapshot to the side conditions of the operations *)
Lemma ucast_not_ok {A B} (e : ures A) (b : B) : @ucast A B e <> UOk b.
Proof. destruct e; discriminate. Qed.

Section Readable.
  Variable T : ltables.
  Variable U : utables.
  Variable id : str -> Z.
  Variable none_aff : Z.

  Notation load_pre := (load_pre T U id none_aff).
  Notation pre_ops := (pre_ops T U id none_aff).
  Notation store_srecs := (store_srecs T U id none_aff).
  Notation load_model_ops := (load_model_ops T U id none_aff).
  Notation loaded_cell := (loaded_cell T U id none_aff).
  Notation init_of := (init_of id).

  (** ** the quiet phases *)
  Lemma quiet_parts l : forallb quiet_op (map (part_op id) l) = true.
  Proof. induction l as [|x r IH]; [reflexivity|exact IH]. Qed.
  Lemma quiet_tops bs root top : forallb quiet_op (top_ops id bs root top) = true.
  Proof.
    unfold top_ops. induction top as [|n r IH]; [reflexivity|]. cbn [flat_map]. rewrite forallb_app, IH.
    destruct (find_bkt n bs); reflexivity.
  Qed.
  Lemma quiet_load_bucket fuel : forall bs loaded name, forallb quiet_op (snd (load_bucket id fuel bs loaded name)) = true.
  Proof.
    induction fuel as [|f IH]; intros bs loaded name; [reflexivity|]. cbn [load_bucket].
    destruct (str_mem name loaded); [reflexivity|]. destruct (find_bkt name bs) as [b|]; [|reflexivity].
    destruct (bkt_parent b) as [p|]; [|reflexivity]. specialize (IH bs (loaded ++ [name]) p).
    destruct (load_bucket id f bs (loaded ++ [name]) p) as [l2 ops]. cbn [snd] in *. rewrite forallb_app, IH. reflexivity.
  Qed.
  Lemma quiet_load_buckets all : forall bs loaded, forallb quiet_op (snd (load_buckets_from id all loaded bs)) = true.
  Proof.
    induction bs as [|b r IH]; intros loaded; [reflexivity|]. cbn [load_buckets_from].
    pose proof (quiet_load_bucket (S (length all)) all loaded (be_name b)) as Q.
    destruct (load_bucket id (S (length all)) all loaded (be_name b)) as [l1 ops1]. specialize (IH l1).
    destruct (load_buckets_from id all l1 r) as [l2 ops2]. cbn [snd] in *. rewrite forallb_app, Q, IH. reflexivity.
  Qed.
  Lemma quiet_alloc_ops codes : forall l earlier, forallb quiet_op (fst (alloc_ops T U id codes earlier l)) = true.
  Proof.
    induction l as [|ae r IH]; intros earlier; [reflexivity|]. cbn [alloc_ops]. specialize (IH (ae :: earlier)).
    destruct (alloc_ops T U id codes (ae :: earlier) r) as [ops ok]. cbn [fst] in IH.
    destruct (alloc_op T U id codes earlier ae) as [o| | |] eqn:E; cbn [fst]; try exact IH.
    cbn [forallb]. rewrite IH, andb_true_r. unfold alloc_op in E.
    destruct (resources U (ae_res ae)); cbn [ubind] in E; try discriminate.
    destruct (encode T [0; 0] codes _); cbn [ubind] in E; try discriminate. inversion E; reflexivity.
  Qed.

  (** ** servers *)
  Definition srv_id (p : srv_ent * srv_obj) : Z := id (so_name (snd p)).
  Definition cap_okb (p : srv_ent * srv_obj) : bool :=
    Nat.eqb (length (so_cap (snd p))) DIM && forallb (Z.leb 0) (so_cap (snd p)).

  Definition esig (n : Z) : Z * list Z := (n, []).
  Lemma esig_names l : map fst (map esig l) = l.
  Proof. rewrite map_map. apply map_id. Qed.

  Lemma arun_server_ops now se s p sn rest :
    so_parent s = Some p -> Vec.zmem (id (so_name s)) sn = false -> cap_okb (se, s) = true ->
    arun (mkV DIM (map esig sn) []) (server_ops id now se s ++ rest)
    = arun (mkV DIM (map esig (sn ++ [id (so_name s)])) []) rest.
  Proof.
    intros Hp M C. rewrite map_app. cbn [map]. rewrite <- (esig_names sn) in M. unfold cap_okb in C. cbn [snd] in C. apply andb_true_iff in C as [C1 C2].
    unfold server_ops, load_server_op. rewrite Hp.
    destruct (se_state se) as [[st0 since0]|]; destruct (is_some (se_presence se));
      cbn [Datatypes.app arun astep v_srv v_dim v_apps forallb]; rewrite M, C1, C2; reflexivity.
  Qed.

  Lemma arun_servers now buckets : forall ses codes sn,
    NoDup (sn ++ map srv_id (sl_att (load_servers T U id now buckets codes ses))) ->
    forallb cap_okb (sl_att (load_servers T U id now buckets codes ses)) = true ->
    arun (mkV DIM (map esig sn) []) (sl_ops (load_servers T U id now buckets codes ses))
    = Some (mkV DIM (map esig (sn ++ map srv_id (sl_att (load_servers T U id now buckets codes ses)))) []).
  Proof.
    induction ses as [|se r IH]; intros codes sn ND CAP; cbn [load_servers] in *.
    - cbn. rewrite app_nil_r. reflexivity.
    - destruct (load_server T U codes now buckets (se_name se) (se_rec se)) as [res codes'] eqn:E.
      destruct res as [| e | | | s]; cbn [sl_ops sl_att sl_fail] in *; try (apply IH; assumption).
      destruct (load_server_att _ _ _ _ _ _ _ _ _ E) as [_ [p Hp]].
      cbn [map] in ND. cbn [forallb] in CAP. apply andb_true_iff in CAP as [C1 C2].
      rewrite (arun_server_ops now se s p sn _ Hp); [|apply MapsP.zmem_false|exact C1].
      + rewrite (IH codes' (sn ++ [id (so_name s)])); [|rewrite <- app_assoc; exact ND|exact C2].
        rewrite <- app_assoc. reflexivity.
      + intros C. apply (NoDup_remove_2 _ _ _ ND), in_or_app. left. exact C.
  Qed.

  Lemma servers_att_names now buckets : forall ses codes p,
    In p (sl_att (load_servers T U id now buckets codes ses)) -> so_name (snd p) = se_name (fst p).
  Proof.
    induction ses as [|se r IH]; intros codes p; cbn [load_servers]; [intros []|].
    destruct (load_server T U codes now buckets (se_name se) (se_rec se)) as [res codes'] eqn:E.
    destruct res as [| e | | | s]; cbn [sl_att sl_fail]; try apply IH.
    intros [<-|H]; [cbn [fst snd]; exact (proj1 (load_server_att _ _ _ _ _ _ _ _ _ E))|exact (IH _ _ H)].
  Qed.

  (** ** instances *)
  Definition app_id (ap : app_ent) : Z := id (ap_name ap).
  Definition demand_okb (p : app_ent * app_obj) : bool :=
    Nat.eqb (length (ao_demand (snd p))) DIM && forallb (Z.leb 0) (ao_demand (snd p)).

  Lemma get_app_notin n l : ~ In n (map a_name l) -> get_app n l = None.
  Proof.
    induction l as [|a r IH]; cbn; intros H; [reflexivity|]. destruct (Z.eqb_spec (a_name a) n) as [E|E].
    - exfalso. apply H. left. exact E.
    - apply IH. intros C. apply H. right. exact C.
  Qed.

  Lemma placed_rec_eq label path order o :
    placed_rec id none_aff label path order o = with_alloc label path (sched_app id none_aff order o).
  Proof. reflexivity. Qed.

  Lemma arun_apps allocs codes : forall aps order sn apps,
    NoDup (map a_name apps ++ map app_id aps) ->
    forallb demand_okb (al_apps (load_apps T U id none_aff allocs codes order aps)) = true ->
    arun (mkV DIM sn apps) (al_ops (load_apps T U id none_aff allocs codes order aps))
    = Some (mkV DIM sn (apps ++ al_recs (load_apps T U id none_aff allocs codes order aps))).
  Proof.
    induction aps as [|ap r IH]; intros order sn apps ND DEM; cbn [load_apps] in *.
    - cbn. rewrite app_nil_r. reflexivity.
    - cbn [map] in ND.
      destruct (NoDup_remove _ _ _ ND) as [ND0 Hnew].
      assert (Hfresh : get_app (app_id ap) apps = None).
      { apply get_app_notin. intros C. apply Hnew, in_or_app. left. exact C. }
      destruct (ap_manifest ap) as [m|] eqn:Em.
      + destruct (assignment_of T id allocs (ap_name ap) (ap_asg ap)) as [[[prio label] path]|];
          [|cbn [al_fail al_ops al_apps al_recs] in *; apply IH; assumption].
        destruct (load_app T U codes None (ap_name ap) (Some m) prio (ap_bl ap)) as [[|o]| | |] eqn:E;
          try (cbn [al_fail al_ops al_apps al_recs] in *; apply IH; assumption).
        cbn [al_ops al_apps al_recs] in *. cbn [forallb] in DEM. apply andb_true_iff in DEM as [D1 D2].
        destruct (load_app_fresh _ _ _ _ _ _ _ _ E) as (Hname & Hsrv & Hid).
        unfold load_app_ops. cbn [Datatypes.app arun astep v_apps v_dim v_srv].
        assert (Hn : a_name (sched_app id none_aff order o) = app_id ap) by (cbn; rewrite Hname; reflexivity).
        rewrite Hn, Hfresh. unfold new_app_okb. cbn [a_server a_identity a_demand sched_app].
        rewrite Hsrv, Hid. unfold demand_okb in D1. cbn [snd] in D1. cbn [option_map is_none andb]. rewrite D1.
        rewrite (IH (order + 1) sn (apps ++ [with_alloc label path (sched_app id none_aff order o)])).
        * rewrite <- app_assoc. reflexivity.
        * rewrite map_app. cbn [map]. change (a_name (with_alloc label path (sched_app id none_aff order o)))
            with (a_name (sched_app id none_aff order o)). rewrite Hn. rewrite <- app_assoc. exact ND.
        * exact D2.
      + cbn [al_ops al_apps al_recs] in *. cbn [arun astep v_apps]. fold (app_id ap). rewrite Hfresh.
        apply IH; assumption.
  Qed.

  Lemma apps_recs_clean allocs codes : forall aps order a,
    In a (al_recs (load_apps T U id none_aff allocs codes order aps)) -> a_server a = None /\ a_identity a = None.
  Proof.
    induction aps as [|ap r IH]; intros order a; cbn [load_apps]; [intros []|].
    destruct (ap_manifest ap) as [m|]; [|cbn [al_recs]; apply IH].
    destruct (assignment_of T id allocs (ap_name ap) (ap_asg ap)) as [[[prio label] path]|]; [|cbn [al_fail al_recs]; apply IH].
    destruct (load_app T U codes None (ap_name ap) (Some m) prio (ap_bl ap)) as [[|o]| | |] eqn:E;
      try (cbn [al_fail al_recs]; apply IH).
    cbn [al_recs]. intros [<-|H]; [|exact (IH _ _ H)].
    destruct (load_app_fresh _ _ _ _ _ _ _ _ E) as (_ & Hsrv & Hid). cbn. rewrite Hsrv, Hid. split; reflexivity.
  Qed.

  (** ** identity groups *)
  Definition count_okb (ge : grp_ent) : bool := match ge_data ge with Some (Some n) => Z.leb 0 n | _ => true end.
  Lemma arun_groups objs gs v : forallb count_okb gs = true -> arun v (group_ops id objs gs) = Some v.
  Proof.
    intros H. unfold group_ops. rewrite arun_app.
    rewrite arun_quiet by (induction (filter _ _) as [|g r IH]; [reflexivity|exact IH]).
    induction gs as [|ge r IH]; [reflexivity|]. cbn [forallb] in H. apply andb_true_iff in H as [H1 H2].
    cbn [flat_map]. rewrite arun_app. unfold count_okb in H1.
    destruct (ge_data ge) as [[n|]|]; cbn [arun astep]; [rewrite H1|cbn|]; apply IH; exact H2.
  Qed.

  (** ** the conditions on the snapshot *)
  Definition store_wfb (st : store) : bool :=
    let ld := load_pre st in
    ld_ok ld && store_shape_ok id st
    && z_distinct (map srv_id (ld_servers ld)) && forallb cap_okb (ld_servers ld)
    && z_distinct (map app_id (st_apps st)) && forallb demand_okb (ld_apps ld)
    && forallb count_okb (st_groups st)
    && restore_okb (ld_recs ld) (store_srecs st).

  Lemma pre_ops_arun st :
    z_distinct (map srv_id (ld_servers (load_pre st))) = true -> forallb cap_okb (ld_servers (load_pre st)) = true ->
    z_distinct (map app_id (st_apps st)) = true -> forallb demand_okb (ld_apps (load_pre st)) = true ->
    forallb count_okb (st_groups st) = true ->
    arun (mkV DIM [] []) (pre_ops st)
    = Some (mkV DIM (map esig (map srv_id (ld_servers (load_pre st)))) (ld_recs (load_pre st))).
  Proof.
    unfold pre_ops, LoadModel.pre_ops, LoadModel.load_pre.
    pose proof (quiet_load_buckets (st_buckets st) (st_buckets st) []) as QB. unfold load_buckets.
    destruct (load_buckets_from id (st_buckets st) [] (st_buckets st)) as [bnames links]. cbn [snd] in QB.
    set (sl := load_servers T U id (st_now st) bnames (create_code T (st_traits st)) (st_servers st)).
    pose proof (quiet_alloc_ops (sl_codes sl) (st_allocs st) []) as QA.
    destruct (alloc_ops T U id (sl_codes sl) [] (st_allocs st)) as [aops aok]. cbn [fst] in QA.
    set (al := load_apps T U id none_aff (st_allocs st) (sl_codes sl) (st_order st) (st_apps st)).
    cbn [ld_ops ld_servers ld_apps ld_recs]. intros S1 S2 A1 A2 G1.
    rewrite arun_app. change (arun (mkV DIM [] []) [OTick (st_now st)]) with (Some (mkV DIM [] [])). cbv beta iota.
    change (part_op id (lt_default_partition T) :: map (part_op id) (st_partitions st))
      with (map (part_op id) (lt_default_partition T :: st_partitions st)).
    rewrite arun_app, (arun_quiet _ _ (quiet_parts _)).
    rewrite arun_app, (arun_quiet _ _ (quiet_tops _ _ _)).
    rewrite arun_app, (arun_quiet _ _ QB).
    rewrite arun_app. unfold sl at 1. change (@nil (Z * list Z)) with (map esig []).
    rewrite (arun_servers _ _ _ _ [] (z_distinct_NoDup _ S1) S2). cbn [Datatypes.app].
    rewrite arun_app, (arun_quiet _ _ QA).
    rewrite arun_app. unfold al at 1. rewrite (arun_apps _ _ _ _ _ []); [|cbn [map Datatypes.app]; apply z_distinct_NoDup; exact A1|exact A2].
    cbn [Datatypes.app]. apply arun_groups. exact G1.
  Qed.

  Lemma ld_servers_names st p : In p (ld_servers (load_pre st)) -> so_name (snd p) = se_name (fst p).
  Proof.
    unfold LoadModel.load_pre. destruct (load_buckets id (st_buckets st)) as [bnames links].
    destruct (alloc_ops T U id _ [] (st_allocs st)) as [aops aok]. cbn [ld_servers]. apply servers_att_names.
  Qed.
  Lemma ld_recs_clean st a : In a (ld_recs (load_pre st)) -> a_server a = None /\ a_identity a = None.
  Proof.
    unfold LoadModel.load_pre. destruct (load_buckets id (st_buckets st)) as [bnames links].
    destruct (alloc_ops T U id _ [] (st_allocs st)) as [aops aok]. cbn [ld_recs]. apply apps_recs_clean.
  Qed.

  (** what load_model has built before restore_placements, seen through the abstraction: the attached servers (all
      empty) and the instance records (all unplaced, without identity) *)
  Lemma store_wfb_view st : store_wfb st = true ->
    ld_ok (load_pre st) = true /\ store_shape_ok id st = true /\ NoDup (map srv_id (ld_servers (load_pre st))) /\
    restore_okb (ld_recs (load_pre st)) (store_srecs st) = true /\
    wf_ops_all (init_of st) (pre_ops st) /\
    view_of (loaded_cell st) = mkV DIM (map esig (map srv_id (ld_servers (load_pre st)))) (ld_recs (load_pre st)).
  Proof.
    unfold store_wfb. intros H.
    repeat match type of H with (_ && _) = true => let H' := fresh "K" in apply andb_true_iff in H as [H H'] end.
    pose proof (pre_ops_arun st K4 K3 K2 K1 K0) as AR.
    change (mkV DIM [] []) with (view_of (init_of st)) in AR.
    split; [exact H|]. split; [exact K5|]. split; [apply z_distinct_NoDup; exact K4|]. split; [exact K|].
    exact (arun_sound _ _ _ AR).
  Qed.

  Lemma srecs_names st : map sr_name (store_srecs st) = map srv_id (ld_servers (load_pre st)).
  Proof.
    unfold store_srecs, LoadModel.store_srecs. rewrite map_map. apply map_ext_in. intros p Hp.
    cbn [sr_name srec_of]. unfold srv_id. rewrite (ld_servers_names st p Hp). reflexivity.
  Qed.

  Theorem store_wfb_ok st : store_wfb st = true -> store_ok T U id none_aff st.
  Proof.
    intros H. destruct (store_wfb_view st H) as (Hld & Hshape & _ & K & W & V). inversion V as [[V1 V2 V3]].
    split; [exact Hld|]. split; [exact Hshape|]. split.
    - unfold restore_okb in K. apply andb_true_iff in K as [K _]. apply andb_true_iff in K as [K _].
      apply z_distinct_NoDup. exact K.
    - unfold load_model_ops, LoadModel.load_model_ops. apply wf_ops_all_app. split; [exact W|].
      fold (loaded_cell st). apply restore_wf.
      + apply Good_run; [exact W|apply Good_init].
      + intros x a Ha. rewrite V3 in Ha. apply get_app_In in Ha. exact (ld_recs_clean st a Ha).
      + intros sr Hsr. rewrite <- sig_names, V2, esig_names, <- srecs_names. apply in_map. exact Hsr.
      + rewrite V3. exact K.
  Qed.

  (** the server.remove_all() that opens every restore_placement is idle when a master starts *)
  Theorem load_model_full_ra_eq st : store_wfb st = true ->
    load_model_full_ra T U id none_aff st = load_model_full T U id none_aff st.
  Proof.
    intros H. destruct (store_wfb_view st H) as (_ & _ & NDs & _ & _ & V). inversion V as [[V1 V2 V3]]. clear V1 V3.
    unfold load_model_full_ra, load_model_full, restore_placements. fold (loaded_cell st). fold (store_srecs st).
    rewrite restore_all_ra_eq; [destruct (restore_all true (loaded_cell st) (store_srecs st)); reflexivity| |].
    - rewrite srecs_names. exact NDs.
    - intros sr _ sv Hsv. apply get_srv_In in Hsv. apply (in_map srv_sig) in Hsv. rewrite V2 in Hsv.
      apply in_map_iff in Hsv as (n & Hn & _). unfold esig, srv_sig in Hn. inversion Hn. reflexivity.
  Qed.

  (** for the correspondence stage: [ld_ok; shape; store_okb; store_wfb; dump of the run of the operations = dump of
      the master-level composition] *)
  Definition flags_of (st : store) : list Z :=
    let c1 := run (init_of st) (load_model_ops st) in
    let c2 := load_model_full T U id none_aff st in
    [dbool (ld_ok (load_pre st)); dbool (store_shape_ok id st); dbool (store_okb T U id none_aff st);
     dbool (store_wfb st); dbool (zl_eqb (dump_cell c1 ++ dump_static c1) (dump_cell c2 ++ dump_static c2))].
End Readable.
