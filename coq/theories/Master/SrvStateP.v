(** C08 at master level: the `since` of a down server is the time a master first saw its presence gone, across master
    restarts and server-record reloads, and a record never keeps saying "down" once a master has seen the server
    present again (Loader.adjust_server_state / adjust_presence / load_server, Master._record_server_state). *)
From Coq Require Import ZArith List Bool.
From TM Require Import Sched.Types Master.SrvState.
Import ListNotations.
Open Scope Z_scope.

Lemma sstate_eqb_eq a b : sstate_eqb a b = true <-> a = b.
Proof. destruct a, b; cbn; split; congruence. Qed.

(** histories in which the operator does not set the state by hand (server_state events) *)
Definition natural (o : sop) : Prop := match o with SEvent _ _ => False | _ => True end.

(** ghost: [Some t] = the masters' observations since the server was last seen present found it absent, first at t *)
Definition saw (pres : bool) (l : option Z) (now : Z) : option Z :=
  if pres then None else match l with Some t => Some t | None => Some now end.
Definition obs_step (s : srv) (l : option Z) (o : sop) : option Z :=
  match o with
  | SLoad now => saw (sv_pres s) l now
  | SPresence p _ now => match sv_mem s with Some _ => saw p l now | None => l end
  | SPresRaw _ => l
  | SReload changed now => if changed then saw (sv_pres s) l now else l
  | SReloadDecl old new now => if same_decl old new then l else saw (sv_pres s) l now
  | SEvent _ _ => l
  end.
Fixpoint grun (s : srv) (l : option Z) (ops : list sop) : srv * option Z :=
  match ops with [] => (s, l) | o :: r => grun (sstep s o) (obs_step s l o) r end.

Definition rec_not_down (s : srv) : Prop := forall u, sv_rec s <> Some (Down, u).

Record Inv (s : srv) (l : option Z) : Prop := {
  i_none : sv_mem s = None -> sv_rec s = None /\ l = None;
  i_up : forall t, sv_mem s = Some (Up, t) -> l = None /\ rec_not_down s;
  i_down : forall t, sv_mem s = Some (Down, t) -> (sv_rec s = Some (Down, t) /\ l = Some t) \/ sv_rec s = None;
  i_nofrozen : forall t, sv_mem s <> Some (Frozen, t) /\ sv_rec s <> Some (Frozen, t)
}.

Lemma Inv_init pres : Inv (init_srv pres) None.
Proof. constructor; cbn; try discriminate; auto. intros t. split; discriminate. Qed.

(** the shapes a state satisfying the invariant has *)
Lemma Inv_up t r p :
  (forall u, r <> Some (Down, u)) -> (forall u, r <> Some (Frozen, u)) -> Inv (mkSrv (Some (Up, t)) r p) None.
Proof.
  intros H1 H2. constructor; cbn [sv_mem sv_rec]; try discriminate.
  - intros t0 _. split; [reflexivity|exact H1].
  - intros t0. split; [discriminate|apply H2].
Qed.
Lemma Inv_down t p : Inv (mkSrv (Some (Down, t)) (Some (Down, t)) p) (Some t).
Proof.
  constructor; cbn [sv_mem sv_rec]; try discriminate.
  - intros t0 H. inversion H. left. auto.
  - intros t0. split; discriminate.
Qed.
Lemma Inv_down_norec t p l : Inv (mkSrv (Some (Down, t)) None p) l.
Proof.
  constructor; cbn [sv_mem sv_rec]; try discriminate; [intros; right; reflexivity|intros t0; split; discriminate].
Qed.
Lemma Inv_pres s l p : Inv s l -> Inv (mkSrv (sv_mem s) (sv_rec s) p) l.
Proof. intros [I0 I1 I2 I3]. constructor; assumption. Qed.

(** what the previous object and the masters' observations say when the record says "down since rt" / "up" *)
Lemma rec_down_obs s l rt : Inv s l -> sv_rec s = Some (Down, rt) -> l = Some rt.
Proof.
  intros [I0 I1 I2 I3] Er. destruct (sv_mem s) as [[mst mt]|] eqn:Em.
  - destruct mst.
    + exfalso. exact (proj2 (I1 mt eq_refl) rt Er).
    + destruct (I2 mt eq_refl) as [[E El]|E]; congruence.
    + exfalso. exact (proj1 (I3 mt) eq_refl).
  - destruct (I0 eq_refl) as [E _]. congruence.
Qed.
Lemma rec_up_obs s l rt : Inv s l -> sv_rec s = Some (Up, rt) -> l = None.
Proof.
  intros [I0 I1 I2 I3] Er. destruct (sv_mem s) as [[mst mt]|] eqn:Em.
  - destruct mst; [exact (proj1 (I1 mt eq_refl))| |exfalso; exact (proj1 (I3 mt) eq_refl)].
    destruct (I2 mt eq_refl) as [[E _]|E]; congruence.
  - exact (proj2 (I0 eq_refl)).
Qed.

(** Loader.adjust_server_state when no record says "frozen": the state follows the presence node; the time is kept
    when object and record already agree with it, taken from the record when only the record does, and is [now]
    when the state changes (the record is then rewritten) *)
Lemma adjust_eq now mst mt r p :
  (forall t, r <> Some (Frozen, t)) ->
  adjust_server_state now (mkSrv (Some (mst, mt)) r p) =
  match p, r with
  | true, Some (Up, rt) => mkSrv (Some (Up, if sstate_eqb mst Up then mt else rt)) r true
  | true, _ => mkSrv (Some (Up, now)) (Some (Up, now)) true
  | false, Some (Up, _) => mkSrv (Some (Down, now)) (Some (Down, now)) false
  | false, Some (Down, rt) => mkSrv (Some (Down, if sstate_eqb mst Down then mt else rt)) r false
  | false, _ => mkSrv (Some (Down, if sstate_eqb mst Down then mt else now)) None false
  end.
Proof.
  intros Hr. destruct mst, p, r as [[[] rt]|]; try reflexivity; exfalso; exact (Hr rt eq_refl).
Qed.

Lemma Inv_load s l now : Inv s l -> Inv (load_server now s) (saw (sv_pres s) l now).
Proof.
  intros HI. unfold load_server, saw. rewrite adjust_eq by (intros t; apply (i_nofrozen _ _ HI t)).
  destruct (sv_pres s), (sv_rec s) as [[[] rt]|] eqn:Er; cbn [sstate_eqb];
    try (exfalso; exact (proj2 (i_nofrozen _ _ HI rt) Er));
    try (apply Inv_up; discriminate).
  - rewrite (rec_up_obs s l rt HI Er). apply Inv_down.
  - rewrite (rec_down_obs s l rt HI Er). apply Inv_down.
  - apply Inv_down_norec.
Qed.

Lemma Inv_presence s l p fresh now : Inv s l ->
  Inv (adjust_presence fresh now (mkSrv (sv_mem s) (sv_rec s) p))
      (match sv_mem s with Some _ => saw p l now | None => l end).
Proof.
  intros HI. pose proof (fun t => proj2 (i_nofrozen _ _ HI t)) as NF.
  unfold adjust_presence, load_server, saw. cbn [sv_mem sv_rec sv_pres].
  destruct (sv_mem s) as [[[] mt]|] eqn:Em; cbn [fst sstate_eqb]; [| | |rewrite <- Em; apply Inv_pres; exact HI].
  - (* in memory: up *)
    destruct (i_up _ _ HI mt Em) as [-> Hnd]. destruct p.
    + rewrite <- Em. apply Inv_pres. exact HI.
    + rewrite adjust_eq by exact NF. destruct (sv_rec s) as [[[] rt]|] eqn:Er;
        [apply Inv_down|exfalso; exact (Hnd rt Er)|exfalso; exact (NF rt eq_refl)|apply Inv_down_norec].
  - (* in memory: down; back: the record goes to up, whether or not the object was replaced *)
    destruct p.
    + assert (E : adjust_server_state now (mkSrv (Some (Down, mt)) (sv_rec s) true)
                  = mkSrv (Some (Up, now)) (Some (Up, now)) true
                  /\ adjust_server_state now (mkSrv (Some (Up, now)) (sv_rec s) true)
                  = mkSrv (Some (Up, now)) (Some (Up, now)) true).
      { rewrite !adjust_eq by exact NF. destruct (i_down _ _ HI mt Em) as [[-> _]| ->]; split; reflexivity. }
      destruct fresh; [rewrite (proj2 E), adjust_eq by discriminate|rewrite (proj1 E)]; apply Inv_up; discriminate.
    + destruct (i_down _ _ HI mt Em) as [[-> ->]| ->]; [apply Inv_down|apply Inv_down_norec].
  - exfalso. exact (proj1 (i_nofrozen _ _ HI mt) Em).
Qed.

Theorem Inv_step s l o : natural o -> Inv s l -> Inv (sstep s o) (obs_step s l o).
Proof.
  intros Hn HI. destruct o; cbn [sstep obs_step].
  - apply Inv_load. exact HI.
  - apply Inv_presence. exact HI.
  - apply Inv_pres. exact HI.
  - destruct changed; [apply Inv_load; exact HI|exact HI].
  - destruct (same_decl old new); [exact HI|apply Inv_load; exact HI].
  - destruct Hn.
Qed.

Theorem Inv_run ops : forall s l, Forall natural ops -> Inv s l -> Inv (fst (grun s l ops)) (snd (grun s l ops)).
Proof.
  induction ops as [|o r IH]; intros s l Hn HI; cbn [grun fst snd]; [exact HI|].
  inversion Hn as [|? ? H1 H2]; subst. apply IH; [exact H2|apply Inv_step; assumption].
Qed.

Lemma grun_fst ops : forall s l, fst (grun s l ops) = srun s ops.
Proof. induction ops as [|o r IH]; intros s l; cbn [grun srun fold_left]; [reflexivity|]. rewrite IH. reflexivity. Qed.

(** C08, master level: in every state reached from a master's first start by presence changes, (re)starts and record
    reloads, a server that is down in memory and has a record has exactly that record, and its `since` is the time a
    master first saw the presence gone in the current absence; and an up server never has a record saying "down" *)
Theorem down_since_is_observed_loss pres ops st t :
  Forall natural ops ->
  let r := grun (init_srv pres) None ops in
  sv_mem (fst r) = Some (st, t) ->
  (st = Down -> sv_rec (fst r) <> None -> sv_rec (fst r) = Some (Down, t) /\ snd r = Some t) /\
  (st = Up -> snd r = None /\ forall u, sv_rec (fst r) <> Some (Down, u)).
Proof.
  intros Hn r Hm. pose proof (Inv_run ops _ _ Hn (Inv_init pres)) as [I0 I1 I2 I3]. fold r in I0, I1, I2, I3.
  split.
  - intros -> Hr. destruct (I2 t Hm) as [H|H]; [exact H|contradiction].
  - intros ->. exact (I1 t Hm).
Qed.
Print Assumptions down_since_is_observed_loss.

(** reload_server keeps the old Server object only when the new declaration is the same in every compared field:
    exactly the same capacity vector, partition label, own traits and parent bucket *)
Lemma zlist_same_eq a : forall b, zlist_same a b = true -> a = b.
Proof.
  induction a as [|x a IH]; intros [|y b]; cbn; try discriminate; [reflexivity|].
  intros H. apply andb_true_iff in H as [H1 H2]. apply Z.eqb_eq in H1. rewrite H1, (IH b H2). reflexivity.
Qed.
Theorem reload_keeps_only_identical old new : same_decl old new = true -> old = new.
Proof.
  unfold same_decl. intros H. apply andb_true_iff in H as [H H4]. apply andb_true_iff in H as [H H3].
  apply andb_true_iff in H as [H1 H2]. apply Z.eqb_eq in H1, H3, H4. apply zlist_same_eq in H2.
  destruct old, new. cbn in *. congruence.
Qed.
Print Assumptions reload_keeps_only_identical.

(** non-vacuity: lost at 100, seen again by a new master at 120 (it came back during the failover), lost again at 900 *)
Example srv_nonvacuous :
  grun (init_srv true) None [SLoad 0; SPresence true false 0; SPresence false false 100; SPresRaw true; SLoad 120;
                             SPresence true false 120; SPresence false false 900]
  = (mkSrv (Some (Down, 900)) (Some (Down, 900)) false, Some 900).
Proof. vm_compute. reflexivity. Qed.
