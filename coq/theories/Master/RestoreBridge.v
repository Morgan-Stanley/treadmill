(** The master-level restore (Master/RestoreSched.v, Master/RestoreAll.v: Loader.restore_placement /
    restore_placements) in terms of the scheduler's operation alphabet (Sched/Events.v [ORestore]).

    For a store in which no instance is recorded under two servers (the case the duplicate pass exists for is
    Master/RestoreDupP.v), the first loop of restore_placements is a run of [ORestore] operations, one per placement
    node in listing order.  Hence the cell a restarted master rebuilds satisfies every invariant of Sched/Reach.v
    [Good], it is [reachable] when the cell before the restore is, and the end-of-cycle theorems of C03/C05/C07/C08
    apply to the first cycle after a fail-over. *)
From Coq Require Import ZArith List Bool.
From RecordUpdate Require Import RecordSet.
From TM Require Import Sched.Vec Sched.Types Sched.Queue Sched.Tree Sched.Cycle Sched.Events Sched.Steps Sched.MapsP
                       Sched.MergeOrderP Sched.InvAcct Sched.InvIdent Sched.Reach.
From TM Require Import Master.Publish Master.Restore Master.RestoreSched Master.RestoreSchedP Master.RestoreAll Master.RestoreAllP.
Import ListNotations.
Open Scope Z_scope.

Lemma zremove_filter_nodup x l : NoDup l -> zremove x l = filter (fun y => negb (Z.eqb y x)) l.
Proof.
  induction 1 as [|y t Hn Hd IH]; cbn; [reflexivity|]. destruct (Z.eqb_spec y x) as [->|Hne]; cbn.
  - symmetry. apply filter_all_true, Forall_forall. intros z Hz. destruct (Z.eqb_spec z x) as [->|]; [contradiction|reflexivity].
  - rewrite IH. reflexivity.
Qed.

(** the two renderings of Application.force_set_identity agree where the implementation's assertion holds (the
    instance has an identity group) and the group's offer has no duplicates *)
Lemma force_identity_agree c an i a g grp :
  get_app an (c_apps c) = Some a -> group_of c a = Some (g, grp) -> NoDup (g_avail grp) ->
  RestoreSched.force_identity c an i = Events.force_identity c an (Some i).
Proof.
  intros Ha Hg Hnd. unfold RestoreSched.force_identity, Events.force_identity. rewrite Ha, Hg.
  rewrite (zremove_filter_nodup i _ Hnd). reflexivity.
Qed.

(** the operation a placement node stands for *)
Definition op_of_node (s : Z) (presence : option Z) (ri : bool) (n : snode) : op :=
  ORestore s (sn_app n) (sched_verbatim presence n) (sn_expires n) (if ri then sn_identity n else None).

(** group of the instance after the placement part *)
Lemma restore_put_group c s an vb ex a g grp :
  Ident c -> get_app an (c_apps c) = Some a -> a_group a = Some g -> aget g (c_groups c) = Some grp ->
  exists a1, get_app an (c_apps (fst (restore_put c s an vb ex))) = Some a1 /\
             group_of (fst (restore_put c s an vb ex)) a1 = Some (g, grp) /\ NoDup (g_avail grp).
Proof.
  intros HI Ha Hg Hgrp. destruct (restore_put_eqi c s an vb ex) as [Eg Hq].
  pose proof (get_app_eqi _ _ Hq an) as Q. rewrite Ha in Q.
  destruct (get_app an (c_apps (fst (restore_put c s an vb ex)))) as [a1|]; [|contradiction].
  destruct Q as (_ & Q2 & _). exists a1. split; [reflexivity|]. split.
  - unfold group_of. rewrite <- Q2, Hg, Eg, Hgrp. reflexivity.
  - exact (id_avail_nodup _ HI g grp Hgrp).
Qed.

Theorem restore_node_is_op s presence ri c n :
  Ident c -> wf_op_all c (op_of_node s presence ri n) ->
  fst (restore_node s presence ri c n) = step c (op_of_node s presence ri n).
Proof.
  intros HI [[_ Hun] Hid]. unfold op_of_node in *. cbn [step]. unfold restore_node, restore_op.
  destruct (get_app (sn_app n) (c_apps c)) as [a|] eqn:Ea; [|reflexivity].
  specialize (Hun a eq_refl). rewrite (clear_server_unplaced c (sn_app n) a Ea Hun).
  set (ident := if ri then sn_identity n else None) in *.
  (* the forced identity, on the state after the placement part *)
  assert (Hforce : forall vb c1, fst (restore_put c s (sn_app n) vb (sn_expires n)) = c1 ->
            match ident with Some i => RestoreSched.force_identity c1 (sn_app n) i | None => c1 end
            = Events.force_identity c1 (sn_app n) ident).
  { intros vb c1 E1. destruct ident as [i|]; [|reflexivity]. cbn [wf_op_id] in Hid.
    destruct (Hid a Ea) as (_ & g & Hg & _). destruct (id_group_exists _ HI _ _ _ Ea Hg) as (grp & Hgrp).
    destruct (restore_put_group c s (sn_app n) vb (sn_expires n) a g grp HI Ea Hg Hgrp) as (a1 & Ha1 & Hg1 & Hnd).
    rewrite E1 in Ha1, Hg1. eapply force_identity_agree; eassumption. }
  unfold restore_put. destruct (sched_verbatim presence n) eqn:Ev.
  - specialize (Hforce true). unfold restore_put in Hforce.
    assert (Hfail : forall cx, srv_restore c s (sn_app n) (Some (sn_expires n)) = (cx, false) ->
                    cx = c_upd_app (sn_app n) (fun x => x <| a_expiry := Some (sn_expires n) |>) c).
    { unfold srv_restore. rewrite Ea. destruct (srv_put_lease c s (sn_app n) 0); intros cx H; inversion H; reflexivity. }
    destruct (srv_restore c s (sn_app n) (Some (sn_expires n))) as [c' ok]. destruct ok; cbn [fst].
    + apply Hforce. reflexivity.
    + rewrite (Hfail c' eq_refl). destruct (a_once a); reflexivity.
  - specialize (Hforce false). unfold restore_put in Hforce. rewrite Ea in *.
    destruct (a_once a) eqn:Eo; [reflexivity|].
    destruct (srv_put c s (sn_app n)) as [c'|]; cbn [fst]; [apply Hforce; reflexivity|reflexivity].
Qed.

(** ** the loops *)
Definition ops_of_server (ri : bool) (sr : srec) : list op :=
  map (op_of_node (sr_name sr) (sr_presence sr) ri) (sr_nodes sr).
Definition ops_of_store (ri : bool) (servers : list srec) : list op := flat_map (ops_of_server ri) servers.

Theorem restore_nodes_is_run s presence ri ns : forall c,
  Good c -> wf_ops_all c (map (op_of_node s presence ri) ns) ->
  restore_nodes s presence ri c ns = run c (map (op_of_node s presence ri) ns).
Proof.
  unfold restore_nodes. induction ns as [|n r IH]; intros c HG Hwf; [reflexivity|].
  cbn [map wf_ops_all] in Hwf. destruct Hwf as [W1 W2].
  cbn [fold_left map]. unfold run. cbn [fold_left].
  pose proof (restore_node_is_op s presence ri c n (proj1 (proj1 (proj2 HG))) W1) as E. rewrite E.
  apply IH; [apply Good_step; assumption|exact W2].
Qed.

Theorem restore_all_is_run ri servers : forall c,
  Good c -> wf_ops_all c (ops_of_store ri servers) ->
  fst (restore_all ri c servers) = run c (ops_of_store ri servers).
Proof.
  intros c HG Hwf. rewrite restore_all_is_fold. revert c HG Hwf.
  induction servers as [|sr l IH]; intros c HG Hwf; [reflexivity|].
  cbn [fold_left]. unfold ops_of_store in *. cbn [flat_map] in *. apply wf_ops_all_app in Hwf as [W1 W2].
  rewrite run_app. rewrite (restore_nodes_is_run _ _ _ _ c HG W1). apply IH; [|exact W2].
  apply Good_run; assumption.
Qed.

(** the cell after the first loop of restore_placements satisfies the invariants of every reachable state, and is
    reachable when the cell before it is *)
Theorem restore_all_Good ri servers c :
  Good c -> wf_ops_all c (ops_of_store ri servers) -> Good (fst (restore_all ri c servers)).
Proof. intros HG Hwf. rewrite restore_all_is_run by assumption. apply Good_run; assumption. Qed.

Theorem restore_all_reachable ri servers c :
  reachable c -> wf_ops_all c (ops_of_store ri servers) -> reachable (fst (restore_all ri c servers)).
Proof.
  intros HR Hwf. rewrite restore_all_is_run; [apply reachable_run; assumption|apply reachable_Good; exact HR|exact Hwf].
Qed.
