(** Proofs about Master/RestoreAll.v: the composition of the per-server reload (Master/RestoreSchedP.v) over
    Loader.servers, what [integrity] collects, the duplicate pass on instances listed at most once, and the
    remove_all() that opens restore_placement.  The instance recorded under two servers is in Master/RestoreDupP.v. *)
From Coq Require Import ZArith QArith List Bool Lia.
From RecordUpdate Require Import RecordSet.
From TM Require Import Sched.Vec Sched.Types Sched.Queue Sched.Tree Sched.Cycle Sched.Events.
From TM Require Import Sched.Steps Sched.MapsP Sched.FrameP Sched.EventsP Sched.InvAcct.
From TM Require Import Master.Publish Master.PublishP Master.Restore Master.RestoreSched Master.RestoreSchedP.
From TM Require Import Master.RestoreAll.
Import ListNotations.
Open Scope Z_scope.

(** * The companion that collects the restored names *)
(** a loop that threads a state and appends to a list: the list it starts with is a prefix of the result *)
Lemma fold_left_collect {S X Y} (step : S * list Y -> X -> S * list Y) :
  (forall s l x, step (s, l) x = (fst (step (s, []) x), l ++ snd (step (s, []) x))) ->
  forall xs s l, fold_left step xs (s, l) = (fst (fold_left step xs (s, [])), l ++ snd (fold_left step xs (s, []))).
Proof.
  intros H. induction xs as [|x xs IH]; intros s l; cbn [fold_left]; [cbn; rewrite app_nil_r; reflexivity|].
  destruct (step (s, []) x) as [s1 l1] eqn:E. rewrite (H s l x), E. cbn [fst snd].
  rewrite IH, (IH s1 l1). cbn [fst snd]. rewrite app_assoc. reflexivity.
Qed.

Lemma rnn_nil s p ri c : restore_nodes_names s p ri c [] = (c, []).
Proof. reflexivity. Qed.

Lemma rnn_cons s p ri c n ns :
  restore_nodes_names s p ri c (n :: ns) =
  let ca := restore_node s p ri c n in
  let r := restore_nodes_names s p ri (fst ca) ns in
  (fst r, (if restored (snd ca) then [sn_app n] else []) ++ snd r).
Proof.
  unfold restore_nodes_names. cbn [fold_left]. unfold restore_node_step at 2. cbn [fst snd].
  destruct (restore_node s p ri c n) as [c' act]. apply fold_left_collect.
  intros c0 l m. unfold restore_node_step. cbn [fst snd]. destruct (restore_node s p ri c0 m). reflexivity.
Qed.

Lemma rnn_fst s p ri ns : forall c, fst (restore_nodes_names s p ri c ns) = restore_nodes s p ri c ns.
Proof.
  induction ns as [|n ns IH]; intros c; [reflexivity|]. rewrite rnn_cons. cbn [fst]. rewrite IH. reflexivity.
Qed.

Lemma restore_nodes_app s p ri c l1 l2 :
  restore_nodes s p ri c (l1 ++ l2) = restore_nodes s p ri (restore_nodes s p ri c l1) l2.
Proof. unfold restore_nodes. apply fold_left_app. Qed.

Lemma rnn_app s p ri l1 : forall c l2,
  restore_nodes_names s p ri c (l1 ++ l2) =
  (fst (restore_nodes_names s p ri (restore_nodes s p ri c l1) l2),
   snd (restore_nodes_names s p ri c l1) ++ snd (restore_nodes_names s p ri (restore_nodes s p ri c l1) l2)).
Proof.
  induction l1 as [|n l1 IH]; intros c l2.
  - cbn [Datatypes.app]. rewrite rnn_nil. cbn. destruct (restore_nodes_names s p ri c l2); reflexivity.
  - cbn [Datatypes.app]. rewrite !rnn_cons. cbn zeta. rewrite IH. cbn [fst snd]. rewrite app_assoc. reflexivity.
Qed.

(** restored = the node's action, on the cell as it is at the node's turn, is a restoring one *)
Theorem restored_names_spec s p ri ns : forall c a,
  In a (snd (restore_nodes_names s p ri c ns)) <->
  exists pre n post, ns = pre ++ n :: post /\ a = sn_app n /\
                     restored (snd (restore_node s p ri (restore_nodes s p ri c pre) n)) = true.
Proof.
  induction ns as [|m ns IH]; intros c a.
  - cbn. split; [contradiction|]. intros (pre & n & post & E & _). destruct pre; discriminate.
  - rewrite rnn_cons. cbn zeta. cbn [snd]. rewrite in_app_iff, IH. split.
    + intros [H|(pre & n & post & E & Ea & R)].
      * destruct (restored (snd (restore_node s p ri c m))) eqn:R; [|contradiction]. destruct H as [<-|[]].
        exists [], m, ns. auto.
      * exists (m :: pre), n, post. subst ns. auto.
    + intros (pre & n & post & E & Ea & R). destruct pre as [|m' pre].
      * cbn in E. inversion E; subst m ns. left. cbn in R. rewrite R. left. auto.
      * cbn in E. inversion E; subst m' ns. right. exists pre, n, post. auto.
Qed.

Lemma restored_iff act : restored act = true <-> (exists e id, act = RRestore e id) \/ (exists id, act = RPutFresh id).
Proof.
  split.
  - destruct act; try discriminate; intros _; [left|right]; eauto.
  - intros [(e & id & ->)|(id & ->)]; reflexivity.
Qed.

Lemma restored_names_recorded_sched s p ri c ns a :
  In a (snd (restore_nodes_names s p ri c ns)) -> In a (map sn_app ns).
Proof.
  intros H. apply restored_names_spec in H as (pre & n & post & -> & -> & _).
  rewrite map_app. apply in_or_app. right. left. reflexivity.
Qed.

(** * The loop over the servers *)
Lemma ra_cons ri c sr l :
  restore_all ri c (sr :: l) =
  let r1 := restore_nodes_names (sr_name sr) (sr_presence sr) ri c (sr_nodes sr) in
  let r := restore_all ri (fst r1) l in
  (fst r, (sr_name sr, snd r1) :: snd r).
Proof.
  unfold restore_all. cbn [fold_left]. unfold restore_server_step at 2. cbn [fst snd].
  destruct (restore_nodes_names (sr_name sr) (sr_presence sr) ri c (sr_nodes sr)) as [c' names].
  apply (fold_left_collect (restore_server_step ri)).
  intros c0 l0 sr0. unfold restore_server_step. cbn [fst snd]. destruct (restore_nodes_names _ _ ri c0 _). reflexivity.
Qed.

Lemma ra_app ri l1 : forall c l2,
  restore_all ri c (l1 ++ l2) =
  (fst (restore_all ri (fst (restore_all ri c l1)) l2),
   snd (restore_all ri c l1) ++ snd (restore_all ri (fst (restore_all ri c l1)) l2)).
Proof.
  induction l1 as [|sr l1 IH]; intros c l2.
  - cbn [Datatypes.app]. change (restore_all ri c []) with (c, @nil (Z * list Z)). cbn [fst snd Datatypes.app].
    destruct (restore_all ri c l2); reflexivity.
  - cbn [Datatypes.app]. rewrite !ra_cons. cbn zeta. rewrite IH. cbn [fst snd]. reflexivity.
Qed.

Theorem restore_all_is_fold ri servers : forall c,
  fst (restore_all ri c servers) =
  fold_left (fun acc sr => restore_nodes (sr_name sr) (sr_presence sr) ri acc (sr_nodes sr)) servers c.
Proof.
  induction servers as [|sr l IH]; intros c; [reflexivity|]. rewrite ra_cons. cbn zeta. cbn [fst fold_left].
  rewrite IH, rnn_fst. reflexivity.
Qed.

Theorem restored_servers ri servers : forall c, map fst (snd (restore_all ri c servers)) = map sr_name servers.
Proof.
  induction servers as [|sr l IH]; intros c; [reflexivity|]. rewrite ra_cons. cbn zeta. cbn [snd map fst].
  rewrite IH. reflexivity.
Qed.

Lemma ra_split ri c l1 sr l2 :
  restore_all ri c (l1 ++ sr :: l2) =
  let c1 := fst (restore_all ri c l1) in
  let cn := restore_nodes (sr_name sr) (sr_presence sr) ri c1 (sr_nodes sr) in
  (fst (restore_all ri cn l2),
   snd (restore_all ri c l1)
   ++ (sr_name sr, snd (restore_nodes_names (sr_name sr) (sr_presence sr) ri c1 (sr_nodes sr))) :: snd (restore_all ri cn l2)).
Proof. rewrite ra_app, ra_cons. cbn zeta. cbn [fst snd]. rewrite rnn_fst. reflexivity. Qed.

(** what every step of every node of every server preserves, the first loop preserves *)
Lemma restore_all_rel ri (R : cell -> cell -> Prop) servers :
  (forall c, R c c) -> (forall c1 c2 c3, R c1 c2 -> R c2 c3 -> R c1 c3) ->
  (forall sr n c c', In sr servers -> In n (sr_nodes sr) -> rstep (sr_name sr) (sn_app n) c c' -> R c c') ->
  forall c, R c (fst (restore_all ri c servers)).
Proof.
  intros Hr Ht Hs c. rewrite restore_all_is_fold. revert c. apply (fold_left_rel _ R servers Hr Ht).
  intros c sr Hsr. apply restore_nodes_rel; [exact Hr|exact Ht|]. intros n c1 c2. apply Hs. exact Hsr.
Qed.

(** an instance without a node under any server of the list is exactly as before *)
Theorem restore_all_frame ri servers : forall c b,
  (forall sr, In sr servers -> ~ In b (map sn_app (sr_nodes sr))) ->
  get_app b (c_apps (fst (restore_all ri c servers))) = get_app b (c_apps c).
Proof.
  intros c b H. revert c.
  apply (restore_all_rel ri (fun c c' => get_app b (c_apps c') = get_app b (c_apps c)));
    [reflexivity|intros; congruence|].
  intros sr n c c' Hs Hn. apply frame_rstep. intros E. apply (H sr Hs). rewrite E. apply in_map. exact Hn.
Qed.

Lemma restored_on_app r1 r2 a : restored_on (r1 ++ r2) a = restored_on r1 a ++ restored_on r2 a.
Proof. unfold restored_on. apply flat_map_app. Qed.

Lemma restore_all_in ri servers : forall c s l,
  In (s, l) (snd (restore_all ri c servers)) ->
  exists spre sr spost, servers = spre ++ sr :: spost /\ s = sr_name sr /\
    l = snd (restore_nodes_names s (sr_presence sr) ri (fst (restore_all ri c spre)) (sr_nodes sr)).
Proof.
  induction servers as [|sr0 rest IH]; intros c s l H; [contradiction|].
  rewrite ra_cons in H. cbn zeta in H. cbn [snd] in H. destruct H as [H|H].
  - inversion H; subst s l. exists [], sr0, rest. auto.
  - apply IH in H as (spre & sr & spost & -> & -> & ->). exists (sr0 :: spre), sr, spost.
    split; [reflexivity|]. split; [reflexivity|]. rewrite ra_cons. cbn zeta. cbn [fst]. reflexivity.
Qed.

(** what [integrity] collects: [s] is listed for instance [a] exactly when some node of [a] under some
    occurrence of [s] in Loader.servers was restored (RRestore / RPutFresh) on the cell as it was at that node's turn *)
Theorem integrity_exact ri c servers a s :
  In s (restored_on (snd (restore_all ri c servers)) a) <->
  exists spre sr spost pre n post,
    servers = spre ++ sr :: spost /\ sr_nodes sr = pre ++ n :: post /\ s = sr_name sr /\ a = sn_app n /\
    restored (snd (restore_node s (sr_presence sr) ri
                     (restore_nodes s (sr_presence sr) ri (fst (restore_all ri c spre)) pre) n)) = true.
Proof.
  rewrite restored_on_in. split.
  - intros (l & Hin & Ha). apply restore_all_in in Hin as (spre & sr & spost & E & Es & El). subst l.
    apply restored_names_spec in Ha as (pre & n & post & En & Ea & R).
    exists spre, sr, spost, pre, n, post. auto.
  - intros (spre & sr & spost & pre & n & post & E & En & Es & Ea & R). subst servers s.
    eexists. split; [rewrite ra_split; cbn zeta; cbn [snd]; apply in_or_app; right; left; reflexivity|].
    apply restored_names_spec. exists pre, n, post. auto.
Qed.

Theorem integrity_recorded ri c servers a s :
  In s (restored_on (snd (restore_all ri c servers)) a) ->
  exists sr, In sr servers /\ s = sr_name sr /\ In a (map sn_app (sr_nodes sr)).
Proof.
  intros H. apply integrity_exact in H as (spre & sr & spost & pre & n & post & -> & En & -> & -> & _).
  exists sr. split; [apply in_or_app; right; left; reflexivity|]. split; [reflexivity|].
  rewrite En, map_app. apply in_or_app. right. left. reflexivity.
Qed.

Lemma restored_on_unrecorded ri c servers a :
  (forall sr, In sr servers -> ~ In a (map sn_app (sr_nodes sr))) ->
  restored_on (snd (restore_all ri c servers)) a = [].
Proof.
  intros H. destruct (restored_on _ a) as [|s r] eqn:E; [reflexivity|exfalso].
  assert (Hs : In s (restored_on (snd (restore_all ri c servers)) a)) by (rewrite E; left; reflexivity).
  apply integrity_recorded in Hs as (sr & Hin & _ & Ha). exact (H sr Hin Ha).
Qed.

(** * The healthy nodes, after ALL servers *)
Lemma restored_on_cons s l rest a :
  restored_on ((s, l) :: rest) a = (if zmem a l then [s] else []) ++ restored_on rest a.
Proof. reflexivity. Qed.

(** A node that is healthy when its turn comes (instance known, presence node not younger than the placement node,
    Server.restore accepts it on the cell as it then is - evaluated, as Python does, without looking at app.server:
    [clear_server], the identity when the instance names no server) and whose instance has no node under any LATER server of the
    list is, after all servers have been processed, on its server with the recorded expiry and identity, and the
    server is listed for it in [integrity]; if no EARLIER server records it either, the server is the only one listed,
    and "known" can be read off the cell before the loop.
    Side condition: the children of one ZooKeeper node /placement/<server> have distinct names. *)
Theorem restore_all_healthy c spre sr spost pre n post x0 c1 :
  sr_nodes sr = pre ++ n :: post ->
  NoDup (map sn_app (sr_nodes sr)) ->
  (forall sr', In sr' spost -> ~ In (sn_app n) (map sn_app (sr_nodes sr'))) ->
  let s := sr_name sr in
  let p := sr_presence sr in
  let cs := fst (restore_all true c spre) in
  let cpre := restore_nodes s p true cs pre in
  get_app (sn_app n) (c_apps cpre) = Some x0 ->
  sched_verbatim p n = true ->
  srv_restore (clear_server cpre (sn_app n)) s (sn_app n) (Some (sn_expires n)) = (c1, true) ->
  let r := restore_all true c (spre ++ sr :: spost) in
  (exists x, get_app (sn_app n) (c_apps (fst r)) = Some x /\
             a_server x = Some s /\ a_expiry x = Some (sn_expires n) /\
             a_identity x = match sn_identity n with Some i => Some i | None => a_identity x0 end) /\
  In s (restored_on (snd r) (sn_app n)) /\
  ((forall sr', In sr' spre -> ~ In (sn_app n) (map sn_app (sr_nodes sr'))) ->
   restored_on (snd r) (sn_app n) = [s] /\ get_app (sn_app n) (c_apps c) = Some x0).
Proof.
  intros En ND Hpost s p cs cpre G V R r.
  assert (Hnames : zmem (sn_app n) (snd (restore_nodes_names s p true cs (sr_nodes sr))) = true).
  { apply zmem_In, restored_names_spec. exists pre, n, post. split; [exact En|]. split; [reflexivity|].
    exact (healthy_restored s p cpre n x0 c1 G V R). }
  unfold r. rewrite ra_split. cbn zeta. cbn [fst snd]. fold cs s p.
  rewrite restored_on_app, restored_on_cons, Hnames, (restored_on_unrecorded true _ spost _ Hpost), app_nil_r.
  rewrite En in ND. split; [|split].
  - rewrite restore_all_frame by exact Hpost. rewrite En. exact (restore_nodes_restore s p pre n post cs x0 c1 ND G V R).
  - apply in_or_app. right. left. reflexivity.
  - intros Hpre. rewrite (restored_on_unrecorded true c spre _ Hpre). split; [reflexivity|].
    rewrite <- G. unfold cpre, cs. rewrite frame_restore_nodes; [symmetry; apply restore_all_frame; exact Hpre|].
    apply (NoDup_map_mid sn_app pre n post ND).
Qed.

(** * The in-memory duplicate pass: what every Server.remove in it preserves, it preserves *)
Lemma remove_all_rel (R : cell -> cell -> Prop) a ss :
  (forall c, R c c) -> (forall c1 c2 c3, R c1 c2 -> R c2 c3 -> R c1 c3) -> (forall c s, R c (srv_remove c s a)) ->
  forall c, R c (fold_left (fun acc s => srv_remove acc s a) ss c).
Proof. intros Hr Ht Hs. apply (fold_left_rel _ R ss Hr Ht). intros c s _. apply Hs. Qed.

Lemma dedup_cell_rel (R : cell -> cell -> Prop) restored :
  (forall c, R c c) -> (forall c1 c2 c3, R c1 c2 -> R c2 c3 -> R c1 c3) ->
  (forall c s a, (2 <= length (restored_on restored a))%nat -> R c (srv_remove c s a)) ->
  forall c, R c (dedup_cell c restored).
Proof.
  intros Hr Ht Hs. apply (fold_left_rel _ R _ Hr Ht). intros c a _.
  destruct (restored_on restored a) as [|s1 [|s2 r]] eqn:E; try apply Hr.
  apply (remove_all_rel R a (s1 :: s2 :: r) Hr Ht). intros c0 s. apply Hs. rewrite E. cbn. lia.
Qed.

Theorem dedup_cell_frame restored a :
  (length (restored_on restored a) <= 1)%nat ->
  forall c, get_app a (c_apps (dedup_cell c restored)) = get_app a (c_apps c).
Proof.
  intros Hlen. apply (dedup_cell_rel (fun c c' => get_app a (c_apps c') = get_app a (c_apps c)));
    [reflexivity|intros; congruence|].
  intros c s a' H2. apply frame_srv_remove. intros ->. lia.
Qed.

Lemma dedup_writes_frame restored a s :
  (length (restored_on restored a) <= 1)%nat -> ~ In (WDel s a) (dedup_writes restored).
Proof.
  intros Hlen Hw. apply in_dedup_writes in Hw as (s' & a' & E & _ & L). inversion E; subst. lia.
Qed.

Theorem dedup_nothing restored c :
  (forall a, (length (restored_on restored a) <= 1)%nat) ->
  dedup_cell c restored = c /\ dedup_writes restored = [].
Proof.
  intros H. split.
  - revert c. apply (dedup_cell_rel (fun c c' => c' = c)); [reflexivity|intros; congruence|].
    intros c s a H2. specialize (H a). lia.
  - destruct (dedup_writes restored) as [|w ws] eqn:E; [reflexivity|exfalso].
    assert (Hw : In w (dedup_writes restored)) by (rewrite E; left; reflexivity).
    apply in_dedup_writes in Hw as (s & a & _ & _ & L). specialize (H a). lia.
Qed.

(** the two loops together: the duplicate pass, in memory and in the store, leaves alone every instance that
    [integrity] lists under at most one server *)
Lemma restore_placements_dedup ri c servers cf rs ws a :
  restore_placements ri c servers = (cf, rs, ws) ->
  rs = snd (restore_all ri c servers) /\
  ((length (restored_on rs a) <= 1)%nat ->
   get_app a (c_apps cf) = get_app a (c_apps (fst (restore_all ri c servers))) /\ forall s, ~ In (WDel s a) ws).
Proof.
  unfold restore_placements. destruct (restore_all ri c servers) as [c' restored]. intros EQ. inversion EQ; subst.
  split; [reflexivity|]. intros L. split; [apply dedup_cell_frame; exact L|intros s; apply dedup_writes_frame; exact L].
Qed.

(** * The [server.remove_all()] that opens restore_placement does nothing during load_model
    (the servers were created empty by load_servers, and processing one server never adds an instance to another) *)
Lemma srv_remove_all_empty c s : srv_empty c s -> srv_remove_all c s = c.
Proof.
  unfold srv_empty, srv_remove_all. intros H. destruct (get_srv s (c_servers c)) as [sv|]; [|reflexivity].
  rewrite (H sv eq_refl). reflexivity.
Qed.

Lemma srv_empty_frame s' c c' :
  get_srv s' (c_servers c') = get_srv s' (c_servers c) -> srv_empty c s' -> srv_empty c' s'.
Proof. intros E H sv G. rewrite E in G. exact (H sv G). Qed.

Lemma srv_empty_srv_remove c sn n s' : srv_empty c s' -> srv_empty (srv_remove c sn n) s'.
Proof.
  intros H. destruct (Z.eq_dec s' sn) as [->|NE].
  - unfold srv_remove. destruct (get_srv sn (c_servers c)) as [sv|] eqn:GS; [|exact H].
    destruct (get_app n (c_apps c)); [|exact H]. rewrite (H sv GS). exact H.
  - eapply srv_empty_frame; [|exact H]. apply (srv_remove_frame c sn n). exact NE.
Qed.

Lemma servers_release c n : c_servers (release_identity c n) = c_servers c.
Proof. apply release_identity_frame. Qed.
Lemma servers_upd_alloc c l p f : c_servers (upd_alloc c l p f) = c_servers c.
Proof. apply upd_alloc_frame. Qed.
Lemma servers_force c a i : c_servers (force_identity c a i) = c_servers c.
Proof.
  unfold force_identity. destruct (get_app a (c_apps c)) as [x|]; [|reflexivity].
  destruct (group_of c x) as [[g grp]|]; reflexivity.
Qed.

Lemma srv_empty_remove_app c n s' : srv_empty c s' -> srv_empty (remove_app c n) s'.
Proof.
  intros H. unfold remove_app. destruct (get_app n (c_apps c)) as [a|]; [|exact H].
  set (c1 := match a_server a with Some sn => if is_member c sn then srv_remove c sn n else c | None => c end).
  assert (H1 : srv_empty c1 s').
  { unfold c1. destruct (a_server a); [|exact H]. destruct (is_member c z); [apply srv_empty_srv_remove|]; exact H. }
  eapply srv_empty_frame; [|exact H1]. cbn [c_servers set]. rewrite servers_release.
  destruct (a_alloc a) as [[l0 p0]|]; [rewrite servers_upd_alloc|]; reflexivity.
Qed.

Lemma srv_empty_rstep s a s' c c' : s' <> s -> rstep s a c c' -> srv_empty c s' -> srv_empty c' s'.
Proof.
  intros NE H. destruct H as [c|c lease c' P|c e|c i|c x _ _]; [| | | |apply srv_empty_remove_app];
    apply srv_empty_frame.
  - rewrite clear_server_servers. reflexivity.
  - apply (srv_put_lease_frame _ _ _ _ _ P). exact NE.
  - reflexivity.
  - rewrite servers_force. reflexivity.
Qed.

Lemma srv_empty_restore_nodes s p ri s' ns : forall c,
  s' <> s -> srv_empty c s' -> srv_empty (restore_nodes s p ri c ns) s'.
Proof.
  intros c NE. revert c. apply (restore_nodes_rel s p ri (fun c c' => srv_empty c s' -> srv_empty c' s')); [auto|auto|].
  intros n c c' _. apply srv_empty_rstep. exact NE.
Qed.

(** Side conditions: the names in Loader.servers are the keys of a dict (distinct), and every listed server that is
    attached to the cell is empty when restore_placements starts (load_servers has just created it). *)
Theorem restore_all_ra_eq ri servers : forall c,
  NoDup (map sr_name servers) -> (forall sr, In sr servers -> srv_empty c (sr_name sr)) ->
  restore_all_ra ri c servers = restore_all ri c servers.
Proof.
  unfold restore_all_ra, restore_all. intros c. generalize (@nil (Z * list Z)) as acc. revert c.
  induction servers as [|sr l IH]; intros c acc ND H; [reflexivity|]. cbn [fold_left].
  assert (E : restore_server_step_ra ri (c, acc) sr = restore_server_step ri (c, acc) sr).
  { unfold restore_server_step_ra, restore_server_step. cbn [fst snd].
    rewrite srv_remove_all_empty by (apply H; left; reflexivity). reflexivity. }
  assert (E2 : restore_server_step ri (c, acc) sr =
               (restore_nodes (sr_name sr) (sr_presence sr) ri c (sr_nodes sr),
                acc ++ [(sr_name sr, snd (restore_nodes_names (sr_name sr) (sr_presence sr) ri c (sr_nodes sr)))])).
  { unfold restore_server_step. cbn [fst snd]. rewrite <- rnn_fst.
    destruct (restore_nodes_names (sr_name sr) (sr_presence sr) ri c (sr_nodes sr)); reflexivity. }
  rewrite E, E2. cbn [map] in ND. inversion ND as [|? ? Hni ND']; subst. apply IH; [exact ND'|].
  intros sr' Hin. apply srv_empty_restore_nodes.
  - intros Eq. apply Hni. rewrite <- Eq. apply in_map. exact Hin.
  - apply H. right. exact Hin.
Qed.

(** * Non-vacuity on data
    Two servers 1000 and 1001 (capacity 300 each), identity group 5000 of 3, three instances of demand 100.
    /placement/1000: instance 1 (identity 2, expires 777), instance 2 (expires 888);
    /placement/1001: instance 2 (expires 999), instance 3 (expires 555).  Presence nodes (ctime 5) older than the
    placement nodes (ctime 9).  (Instance 2, recorded under both: Master/RestoreDupP.v.) *)
Definition ax_app (n : Z) (g : option Z) :=
  mkApp n 50 [100; 100; 100] 3000 [] 0 0 None g false n None None None None false false false false (-1).
Definition ax_ops : list op :=
  [OAddServer 1000 2000 [300; 300; 300] 4000 0 100000; OAddServer 1001 2000 [300; 300; 300] 4000 0 100000;
   OConfigGroup 5000 3; OAddApp 4000 [] (ax_app 1 (Some 5000));
   OAddApp 4000 [] (ax_app 2 None); OAddApp 4000 [] (ax_app 3 None); OTick 50].
Definition ax_cell := run (init_cell 3 2000 1) ax_ops.
Definition ax_view (c : cell) (n : Z) :=
  option_map (fun a => (a_server a, a_expiry a, a_identity a, a_evicted a)) (get_app n (c_apps c)).
Definition ax_on (c : cell) (s : Z) :=
  option_map (fun sv => (s_apps sv, s_free sv, s_counters sv)) (get_srv s (c_servers c)).
Definition ax_s0 := mkSR 1000 (Some 5) [mkSN 1 (Some 2) 777 9; mkSN 2 None 888 9].
Definition ax_s1 := mkSR 1001 (Some 5) [mkSN 2 None 999 9; mkSN 3 None 555 9].

(** the hypotheses of [restore_all_healthy] hold for instance 1 (first node of the first server) and instance 3 (second node of the
    second server); the cell after the first loop; what integrity collected; the side conditions of the other theorems *)
Example ax_nonvacuous_all :
  let r := restore_all true ax_cell [ax_s0; ax_s1] in
  let c0 := fst (restore_all true ax_cell [ax_s0]) in
  snd (srv_restore ax_cell 1000 1 (Some 777)) = true /\
  snd (srv_restore (restore_nodes 1001 (Some 5) true c0 [mkSN 2 None 999 9]) 1001 3 (Some 555)) = true /\
  snd r = [(1000, [1; 2]); (1001, [2; 3])] /\
  ax_view (fst r) 1 = Some (Some 1000, Some 777, Some 2, false) /\
  ax_view (fst r) 3 = Some (Some 1001, Some 555, None, false) /\
  ax_on (fst r) 1000 = Some ([1; 2], [100; 100; 100], [(3000, 2)]) /\
  ax_on (fst r) 1001 = Some ([2; 3], [100; 100; 100], [(3000, 2)]) /\
  map a_name (c_apps ax_cell) = [1; 2; 3] /\
  ax_on ax_cell 1000 = Some ([], [300; 300; 300], []) /\ ax_on ax_cell 1001 = Some ([], [300; 300; 300], []) /\
  restore_all_ra true ax_cell [ax_s0; ax_s1] = r.
Proof. vm_compute. repeat split. Qed.

(** the composition theorem applied to the data: instance 3, recorded under the second server only *)
Example ax_all_applied :
  exists x, get_app 3 (c_apps (fst (restore_all true ax_cell [ax_s0; ax_s1]))) = Some x /\
            a_server x = Some 1001 /\ a_expiry x = Some 555 /\ a_identity x = None.
Proof.
  set (cpre := restore_nodes 1001 (Some 5) true (fst (restore_all true ax_cell [ax_s0])) [mkSN 2 None 999 9]).
  destruct (get_app 3 (c_apps cpre)) as [x0|] eqn:G; [|vm_compute in G; discriminate].
  assert (I0 : a_identity x0 = None) by (vm_compute in G; inversion G; reflexivity).
  destruct (srv_restore (clear_server cpre 3) 1001 3 (Some 555)) as [c1 ok] eqn:R.
  assert (OK : ok = true) by (apply (f_equal snd) in R; vm_compute in R; congruence). subst ok.
  assert (ND : NoDup (map sn_app (sr_nodes ax_s1))) by (apply nodupb_sound; reflexivity).
  destruct (restore_all_healthy ax_cell [ax_s0] ax_s1 [] [mkSN 2 None 999 9] (mkSN 3 None 555 9) [] x0 c1 eq_refl ND
              (fun _ (H : False) => match H with end) G eq_refl R) as [[x [H1 [H2 [H3 H4]]]] _].
  exists x. change (a_identity x = a_identity x0) in H4. rewrite I0 in H4.
  split; [exact H1|]. split; [exact H2|]. split; [exact H3|exact H4].
Qed.
