(** Proofs about Master/Handlers.v: the invariant [PubInv] (the store is the model between publications) is kept by
    every well-formed and sound hop ([ok_op]), is established by a restart, and gives the hypotheses of the publication
    theorems of PublishP at the next cycle, so the published store equals the model after every cycle of every history
    of sound hops.  Also: what Master.reschedule and a defective Loader.remove_server leave alone. *)
From Coq Require Import ZArith List Bool.
From TM Require Import Sched.MapsP.
From TM Require Import Master.Publish Master.PublishP Master.Handlers.
Import ListNotations.
Open Scope Z_scope.

(** * Similarity of node data *)
Lemma oeqb_refl o : oeqb o o = true.
Proof. destruct o; cbn; [apply Z.eqb_refl|reflexivity]. Qed.

Lemma psim_spec m d d' :
  psim m d d' = true <->
  match m with
  | Full => d = d'
  | Core => pd_identity d = pd_identity d' /\ pd_expires d = pd_expires d'
  end.
Proof.
  destruct m; cbn [psim].
  - split; [apply pdata_eqb_eq|intros ->; apply pdata_eqb_refl'].
  - rewrite andb_true_iff, !oeqb_eq. tauto.
Qed.

Lemma psim_refl m d : psim m d d = true.
Proof. apply psim_spec. destruct m; auto. Qed.

Lemma psim_trans m a b c : psim m a b = true -> psim m b c = true -> psim m a c = true.
Proof.
  rewrite !psim_spec. destruct m; [congruence|]. intros [H1 H2] [H3 H4]. split; congruence.
Qed.

Lemma psim_own_expiry m sd d : psim m sd d = true -> psim m sd (set_expires d (pd_expires sd)) = true.
Proof.
  intros H. apply psim_spec in H. apply psim_spec. destruct m.
  - subst d. destruct sd; reflexivity.
  - destruct H as [H1 _]. cbn. auto.
Qed.

Lemma psim_set_count_core sd d n : psim Core sd (set_count d n) = psim Core sd d.
Proof. reflexivity. Qed.

Lemma osim_refl m x : osim m x x = true.
Proof. destruct x; cbn; [apply psim_refl|reflexivity]. Qed.

Lemma osim_none_r m x : osim m x None = true -> x = None.
Proof. destruct x; cbn; [discriminate|reflexivity]. Qed.

Lemma osim_some_r m x d : osim m x (Some d) = true -> exists sd, x = Some sd /\ psim m sd d = true.
Proof. destruct x as [sd|]; cbn; [|discriminate]. intros H. exists sd. auto. Qed.

(** * The instance table *)
Lemma view_amap g l a : view (amap g l) a = option_map (g a) (view l a).
Proof.
  unfold amap. induction l as [|[n v] l IH]; cbn [map view fst snd]; [reflexivity|].
  destruct (Z.eqb n a) eqn:E; [|exact IH]. apply Z.eqb_eq in E. subst. reflexivity.
Qed.

Lemma view_adrop a l a' : view (adrop a l) a' = if Z.eqb a a' then None else view l a'.
Proof.
  unfold adrop. induction l as [|[n v] l IH]; cbn [filter view fst].
  - destruct (Z.eqb a a'); reflexivity.
  - destruct (Z.eqb n a) eqn:E; cbn [negb].
    + rewrite IH. apply Z.eqb_eq in E. subst n. destruct (Z.eqb a a'); reflexivity.
    + cbn [view]. rewrite IH. destruct (Z.eqb n a') eqn:E2; [|reflexivity].
      apply Z.eqb_eq in E2. subst n. rewrite Z.eqb_sym, E. reflexivity.
Qed.

Lemma view_app l1 l2 a : view (l1 ++ l2) a = match view l1 a with Some v => Some v | None => view l2 a end.
Proof.
  induction l1 as [|[n v] l1 IH]; cbn [app view]; [reflexivity|]. destruct (Z.eqb n a); [reflexivity|exact IH].
Qed.

Lemma view_aset a v l a' :
  view (aset a v l) a' = match view l a' with Some v0 => Some (if Z.eqb a' a then v else v0) | None => None end.
Proof. unfold aset. rewrite view_amap. destruct (view l a'); reflexivity. Qed.

Lemma view_In l a v : view l a = Some v -> In (a, v) l.
Proof.
  induction l as [|[n v0] l IH]; cbn [view]; [discriminate|]. destruct (Z.eqb n a) eqn:E.
  - apply Z.eqb_eq in E. subst. intros H. inversion H. left. reflexivity.
  - intros H. right. apply IH. exact H.
Qed.

Lemma view_NoDup_In l a v : NoDup (map fst l) -> In (a, v) l -> view l a = Some v.
Proof.
  induction l as [|[n v0] l IH]; intros ND H; [contradiction|].
  cbn in ND. inversion ND as [|? ? Hn ND']; subst. cbn [view]. destruct H as [H|H].
  - inversion H; subst. rewrite Z.eqb_refl. reflexivity.
  - destruct (Z.eqb n a) eqn:E; [|apply IH; assumption].
    apply Z.eqb_eq in E. subst n. exfalso. apply Hn. change a with (fst (a, v)). apply in_map. exact H.
Qed.

(** * The invariant *)
(** every /placement/<s>/<a> node is the node the model stands for ([expected]: the instance is placed on <s>, data equal
    up to [psim m]) and every placed instance has its node *)
Definition PubInv (m : mode) (st : hstate) : Prop :=
  forall s a, osim m (lookup (h_store st) s a) (expected (h_apps st) s a) = true.

(** at one instance: it reads the table through [view _ a] and the store through [lookup _ _ a] only *)
Definition G (m : mode) (st : hstate) (a : Z) : Prop :=
  forall s, osim m (lookup (h_store st) s a) (expected (h_apps st) s a) = true.

Lemma PubInv_G m st : PubInv m st <-> forall a, G m st a.
Proof. unfold PubInv, G. split; intros H; [intros a s|intros s a]; apply H. Qed.

Definition same_at (a : Z) (st st' : hstate) : Prop :=
  view (h_apps st') a = view (h_apps st) a /\ forall s, lookup (h_store st') s a = lookup (h_store st) s a.

Lemma same_at_refl a st : same_at a st st.
Proof. split; reflexivity. Qed.

Lemma same_at_trans a st1 st2 st3 : same_at a st1 st2 -> same_at a st2 st3 -> same_at a st1 st3.
Proof. intros [V1 L1] [V2 L2]. split; [congruence|]. intros s. rewrite L2. apply L1. Qed.

Lemma G_ext m a st st' : same_at a st st' -> G m st a -> G m st' a.
Proof. intros [V L] H s. unfold expected. rewrite L, V. apply H. Qed.

Lemma expected_of_view l s a sv d :
  view l a = Some (sv, d) -> expected l s a = if oeqb sv (Some s) then Some d else None.
Proof. unfold expected. intros ->. destruct sv as [s'|]; reflexivity. Qed.

Lemma expected_none_view l s a : view l a = None -> expected l s a = None.
Proof. unfold expected. intros ->. reflexivity. Qed.

Lemma expected_here l s a d : view l a = Some (Some s, d) -> expected l s a = Some d.
Proof. intros V. rewrite (expected_of_view _ _ _ _ _ V). cbn [oeqb]. rewrite Z.eqb_refl. reflexivity. Qed.

Lemma expected_elsewhere l s a sv d : view l a = Some (sv, d) -> sv <> Some s -> expected l s a = None.
Proof.
  intros V N. rewrite (expected_of_view _ _ _ _ _ V). destruct (oeqb sv (Some s)) eqn:E; [|reflexivity].
  apply oeqb_eq in E. contradiction.
Qed.

Lemma expected_placed l s a d : expected l s a = Some d -> view l a = Some (Some s, d).
Proof.
  unfold expected. destruct (view l a) as [[[s'|] d']|]; try discriminate.
  destruct (Z.eqb s' s) eqn:E; [|discriminate]. apply Z.eqb_eq in E. subst. intros H. inversion H. reflexivity.
Qed.

Lemma G_node m st a s d :
  G m st a -> view (h_apps st) a = Some (Some s, d) -> exists sd, lookup (h_store st) s a = Some sd /\ psim m sd d = true.
Proof. intros H V. apply osim_some_r. rewrite <- (expected_here _ _ _ _ V). apply H. Qed.

Lemma G_no_node m st a s : G m st a -> expected (h_apps st) s a = None -> lookup (h_store st) s a = None.
Proof. intros H E. apply (osim_none_r m). rewrite <- E. apply H. Qed.

Lemma node_placed m st s a sd :
  G m st a -> lookup (h_store st) s a = Some sd -> exists d, view (h_apps st) a = Some (Some s, d) /\ psim m sd d = true.
Proof.
  intros H L. specialize (H s). rewrite L in H. destruct (expected (h_apps st) s a) as [d|] eqn:E; [|discriminate].
  exists d. split; [apply expected_placed; exact E|exact H].
Qed.

Lemma has_placed m st s a : PubInv m st -> has (h_store st) s a = true -> exists d, view (h_apps st) a = Some (Some s, d).
Proof.
  intros I H. rewrite has_lookup in H. destruct (lookup (h_store st) s a) as [sd|] eqn:L; [|discriminate].
  destruct (node_placed m st s a sd (proj1 (PubInv_G m st) I a) L) as [d [V _]]. exists d. exact V.
Qed.

Lemma lookup_In st s a d : lookup st s a = Some d -> exists e, In e st /\ e_server e = s /\ e_app e = a /\ e_data e = d.
Proof.
  induction st as [|e st IH]; cbn [lookup]; [discriminate|]. destruct (key_is s a e) eqn:K.
  - intros H. inversion H. apply key_is_true in K as [K1 K2]. exists e. cbn. auto.
  - intros H. destruct (IH H) as [e' [I R]]. exists e'. split; [right; exact I|exact R].
Qed.

Lemma pubinvb_sound m st : pubinvb m st = true -> PubInv m st.
Proof.
  unfold pubinvb. intros H. apply andb_true_iff in H as [H1 H2]. rewrite forallb_forall in H1, H2. intros s a.
  destruct (lookup (h_store st) s a) as [sd|] eqn:L.
  - destruct (lookup_In _ _ _ _ L) as [e [I [E1 [E2 _]]]]. specialize (H1 e I). rewrite E1, E2, L in H1. exact H1.
  - destruct (expected (h_apps st) s a) as [d|] eqn:E; [|reflexivity].
    apply expected_placed in E. specialize (H2 _ (view_In _ _ _ E)). cbn [fst] in H2. rewrite E, L in H2. exact H2.
Qed.

(** * Store edits *)
Lemma lookup_sdel_other s a st s' a' : a <> a' -> lookup (sdel s a st) s' a' = lookup st s' a'.
Proof.
  intros N. rewrite lookup_sdel. destruct (same_key s a s' a') eqn:K; [|reflexivity].
  apply same_key_true in K as [_ K]. contradiction.
Qed.

Lemma lookup_sdel_same s a st s' :
  lookup (sdel s a st) s' a = if Z.eqb s s' then None else lookup st s' a.
Proof. rewrite lookup_sdel. unfold same_key. rewrite Z.eqb_refl, andb_true_r. reflexivity. Qed.

Lemma lookup_drop_server s st s' a :
  lookup (filter (fun e => negb (Z.eqb (e_server e) s)) st) s' a = if Z.eqb s s' then None else lookup st s' a.
Proof.
  induction st as [|e st IH]; cbn [filter lookup].
  - destruct (Z.eqb s s'); reflexivity.
  - destruct (Z.eqb (e_server e) s) eqn:E; cbn [negb].
    + rewrite IH. apply Z.eqb_eq in E. destruct (Z.eqb s s') eqn:E2; [reflexivity|].
      unfold key_is. rewrite E, (Z.eqb_sym s s') in *. rewrite E2. reflexivity.
    + cbn [lookup]. rewrite IH. destruct (key_is s' a e) eqn:K; [|reflexivity].
      apply key_is_true in K as [K _]. rewrite K in E. rewrite (Z.eqb_sym s s'), E. reflexivity.
Qed.

Lemma no_entries_lookup s st a : no_entries_under s st = true -> lookup st s a = None.
Proof.
  unfold no_entries_under. induction st as [|e st IH]; cbn [forallb lookup]; [reflexivity|].
  intros H. apply andb_true_iff in H as [H1 H2]. destruct (key_is s a e) eqn:K; [|apply IH; exact H2].
  apply key_is_true in K as [K _]. rewrite K, Z.eqb_refl in H1. discriminate.
Qed.

Lemma lookup_dels_none dels : forall st s a,
  lookup st s a = None -> lookup (fold_left (fun acc p => sdel (fst p) (snd p) acc) dels st) s a = None.
Proof.
  induction dels as [|p dels IH]; intros st s a H; cbn [fold_left]; [exact H|].
  apply IH. rewrite lookup_sdel. destruct (same_key _ _ _ _); [reflexivity|exact H].
Qed.

(** * Server.remove of every instance of a server *)
(** the shape of [lookup_drop_server]: an instance that sat on <s> stood for no node elsewhere *)
Lemma expected_unplace s l s' a :
  expected (amap (unplace s) l) s' a = if Z.eqb s s' then None else expected l s' a.
Proof.
  unfold expected. rewrite view_amap. destruct (view l a) as [[[s0|] d]|]; cbn [option_map].
  - unfold unplace. cbn [fst snd oeqb]. destruct (Z.eqb s0 s) eqn:E.
    + apply Z.eqb_eq in E. subst s0. destruct (Z.eqb s s'); reflexivity.
    + destruct (Z.eqb s s') eqn:E'; [|reflexivity]. apply Z.eqb_eq in E'. subst s'. rewrite E. reflexivity.
  - destruct (Z.eqb s s'); reflexivity.
  - destruct (Z.eqb s s'); reflexivity.
Qed.

Lemma unplace_twice s l : amap (unplace s) (amap (unplace s) l) = amap (unplace s) l.
Proof.
  unfold amap. rewrite map_map. apply map_ext. intros [n v]. cbn [fst snd]. f_equal.
  unfold unplace. destruct (oeqb (fst v) (Some s)) eqn:E; cbn [fst oeqb]; [reflexivity|]. rewrite E. reflexivity.
Qed.

Lemma placed_any_view s l a d : view l a = Some (Some s, d) -> placed_any s l = true.
Proof.
  intros H. apply view_In in H. unfold placed_any. apply existsb_exists. exists (a, (Some s, d)).
  split; [exact H|]. cbn. apply Z.eqb_refl.
Qed.

Lemma unplace_no_node m s st sv a :
  G m st a -> lookup (h_store st) s a = None -> G m (mkH (amap (unplace s) (h_apps st)) sv (h_store st)) a.
Proof.
  intros H L s'. cbn [h_apps h_store]. rewrite expected_unplace. destruct (Z.eqb_spec s s') as [<-|_]; [|apply H].
  rewrite L. reflexivity.
Qed.

(** what Loader.restore_placement finds for an instance that sat on the server: no server, its node under <s> (and
    nowhere else) with data similar to the model's once the node's own expiry is put back, and a decision that does not
    invent a new expiry *)
Definition P (m : mode) (s : Z) (outs : list (Z * rout)) (st : hstate) (a : Z) : Prop :=
  exists d sd,
    view (h_apps st) a = Some (None, d) /\ lookup (h_store st) s a = Some sd /\
    psim m sd (set_expires d (pd_expires sd)) = true /\
    (forall s', s' <> s -> lookup (h_store st) s' a = None) /\
    match decide outs a with RPlaced ex => ex = pd_expires sd | _ => True end.

Lemma P_ext m s outs a st st' : same_at a st st' -> P m s outs st a -> P m s outs st' a.
Proof.
  intros [V L] [d [sd [H1 [H2 [H3 [H4 H5]]]]]]. exists d, sd. rewrite V, !L. repeat split; try assumption.
  intros s' N. rewrite L. apply H4. exact N.
Qed.

Lemma unplace_node m s outs st sv a sd :
  G m st a -> sound_op m st (HReloadServer s outs) = true -> lookup (h_store st) s a = Some sd ->
  P m s outs (mkH (amap (unplace s) (h_apps st)) sv (h_store st)) a.
Proof.
  intros H S L. destruct (node_placed m st s a sd H L) as [d [E Hs]].
  exists (set_expires d None), sd. cbn [h_apps h_store]. split.
  { rewrite view_amap, E. cbn [option_map]. unfold unplace. cbn [fst snd oeqb]. rewrite Z.eqb_refl. reflexivity. }
  split; [exact L|]. split; [exact (psim_own_expiry m sd d Hs)|]. split.
  - intros s' N. apply (G_no_node m st a s' H). apply (expected_elsewhere _ _ _ _ _ E). congruence.
  - destruct (decide outs a) as [|ex|] eqn:D; try exact Logic.I.
    destruct (lookup_In _ _ _ _ L) as [e [Ie [E1 [E2 E3]]]].
    cbn [sound_op] in S. rewrite forallb_forall in S. specialize (S e Ie).
    rewrite E1, E2, E3, Z.eqb_refl, D in S. apply oeqb_eq in S. exact S.
Qed.

(** * One child of /placement/<s> *)
Lemma view_aset_other a v l a' : a <> a' -> view (aset a v l) a' = view l a'.
Proof.
  intros N. rewrite view_aset. destruct (view l a'); [|reflexivity]. destruct (Z.eqb_spec a' a); [congruence|reflexivity].
Qed.

Lemma remove_app_frame a st a' : a <> a' -> same_at a' st (remove_app a st).
Proof.
  intros N. unfold remove_app. destruct (view (h_apps st) a) as [[sv d]|]; [|apply same_at_refl].
  split; cbn [h_apps h_store].
  - rewrite view_adrop. apply Z.eqb_neq in N. rewrite N. reflexivity.
  - intros s'. destruct sv as [s|]; [apply lookup_sdel_other; exact N|reflexivity].
Qed.

Lemma remove_app_G m a st a' : G m st a' -> G m (remove_app a st) a'.
Proof.
  intros H. destruct (Z.eq_dec a a') as [<-|N]; [|exact (G_ext m a' st _ (remove_app_frame a st a' N) H)].
  unfold remove_app. destruct (view (h_apps st) a) as [[sv d]|] eqn:V; [|exact H].
  intros s'. cbn [h_apps h_store]. rewrite expected_none_view by (rewrite view_adrop, Z.eqb_refl; reflexivity).
  specialize (H s'). rewrite (expected_of_view _ _ _ _ _ V) in H.
  (* only the node under the instance's server stood for something *)
  destruct sv as [s|]; [|exact H]. cbn [oeqb] in H. rewrite lookup_sdel_same. destruct (Z.eqb s s'); [reflexivity|exact H].
Qed.

Lemma restore_one_frame s outs st a a' : a <> a' -> same_at a' st (restore_one s outs st a).
Proof.
  intros N. unfold restore_one. destruct (view (h_apps st) a) as [[sv d]|].
  - destruct (lookup (h_store st) s a) as [sd|]; [|apply same_at_refl].
    destruct (decide outs a) as [|ex|kept once].
    + split; [apply view_aset_other; exact N|reflexivity].
    + split; [apply view_aset_other; exact N|reflexivity].
    + set (st1 := mkH _ _ _).
      assert (F1 : same_at a' st st1).
      { split; [apply view_aset_other; exact N|]. intros s'. apply lookup_sdel_other. exact N. }
      destruct once; [|exact F1]. exact (same_at_trans _ _ _ _ F1 (remove_app_frame a st1 a' N)).
  - split; [reflexivity|]. intros s'. apply lookup_sdel_other. exact N.
Qed.

Lemma restore_one_establishes m s outs st a : P m s outs st a -> G m (restore_one s outs st a) a.
Proof.
  intros [d [sd [V [L [Ps [Others D]]]]]]. unfold restore_one. rewrite V, L.
  assert (OK : forall e, e = pd_expires sd ->
               G m (mkH (aset a (Some s, set_expires d e) (h_apps st)) (h_servers st) (h_store st)) a).
  { intros e -> s'. cbn [h_apps h_store].
    rewrite (expected_of_view _ s' a (Some s) (set_expires d (pd_expires sd)))
      by (rewrite view_aset, V, Z.eqb_refl; reflexivity).
    cbn [oeqb]. destruct (Z.eqb_spec s s') as [<-|N]; [rewrite L; exact Ps|]. rewrite Others; [reflexivity|congruence]. }
  destruct (decide outs a) as [|ex|kept once]; [apply OK; reflexivity|apply OK; exact D|].
  set (d1 := set_expires d _). set (st1 := mkH _ _ _).
  assert (G1 : G m st1 a).
  { intros s'. unfold st1. cbn [h_apps h_store].
    rewrite (expected_of_view _ s' a None d1) by (rewrite view_aset, V, Z.eqb_refl; reflexivity).
    rewrite lookup_sdel_same. destruct (Z.eqb_spec s s'); [reflexivity|]. rewrite Others; [reflexivity|congruence]. }
  destruct once; [apply remove_app_G|]; exact G1.
Qed.

Lemma NoDup_nodup_z l : NoDup (nodup_z l).
Proof.
  induction l as [|x l IH]; cbn [nodup_z]; constructor.
  - intros H. apply filter_In in H as [_ H]. rewrite Z.eqb_refl in H. discriminate.
  - apply NoDup_filter. exact IH.
Qed.

Lemma restore_loop m s outs todo : forall st,
  NoDup todo ->
  (forall a, In a todo -> P m s outs st a) ->
  (forall a, ~ In a todo -> G m st a) ->
  forall a, G m (fold_left (restore_one s outs) todo st) a.
Proof.
  induction todo as [|a0 r IH]; intros st ND HP HG a; cbn [fold_left].
  - apply HG. intros [].
  - inversion ND as [|? ? Hn ND']; subst. apply IH; [exact ND'| |].
    + intros a1 H1. apply (P_ext m s outs a1 st); [|apply HP; right; exact H1].
      apply restore_one_frame. intros ->. contradiction.
    + intros a1 H1. destruct (Z.eq_dec a0 a1) as [<-|N].
      * apply restore_one_establishes. apply HP. left. reflexivity.
      * apply (G_ext m a1 st); [apply restore_one_frame; exact N|]. apply HG. intros [H|H]; contradiction.
Qed.

Lemma load_server_apps s st : h_apps (load_server s st) = h_apps st.
Proof. unfold load_server. destruct (zmem s (h_servers st)); reflexivity. Qed.
Lemma load_server_store s st : h_store (load_server s st) = h_store st.
Proof. unfold load_server. destruct (zmem s (h_servers st)); reflexivity. Qed.

Lemma load_server_keeps m s st : PubInv m st -> PubInv m (load_server s st).
Proof. intros I s' a. rewrite load_server_apps, load_server_store. apply I. Qed.

Lemma in_children st s a : In a (nodup_z (listing st s)) <-> exists sd, lookup st s a = Some sd.
Proof.
  rewrite in_nodup_z, <- zmem_In, zmem_listing, has_lookup.
  destruct (lookup st s a) as [sd|]; [split; [exists sd|]; reflexivity|]. split; [|intros [sd H]]; discriminate.
Qed.

Lemma reload_server_keeps m s outs st :
  PubInv m st -> sound_op m st (HReloadServer s outs) = true -> PubInv m (reload_server s outs st).
Proof.
  intros I S. unfold reload_server. destruct (zmem s (h_servers st)) eqn:Z; [|apply load_server_keeps; exact I].
  unfold remove_server. rewrite Z.
  assert (I' : forall a, G m st a) by (apply PubInv_G; exact I).
  apply PubInv_G. destruct (placed_any s (h_apps st)) eqn:HA.
  - unfold restore_placement. rewrite load_server_apps, load_server_store. cbn [h_apps h_store].
    rewrite unplace_twice. apply restore_loop; [apply NoDup_nodup_z| |]; intros a H.
    + apply in_children in H as [sd L]. exact (unplace_node m s outs st _ a sd (I' a) S L).
    + apply unplace_no_node; [apply I'|]. destruct (lookup (h_store st) s a) as [sd|] eqn:L; [|reflexivity].
      destruct H. apply in_children. exists sd. exact L.
  - intros a s'. rewrite load_server_apps, load_server_store. revert s'. apply unplace_no_node; [apply I'|].
    destruct (lookup (h_store st) s a) as [sd|] eqn:L; [|reflexivity].
    destruct (node_placed m st s a sd (I' a) L) as [d [V _]].
    rewrite (placed_any_view s _ a d V) in HA. discriminate.
Qed.

(** * The other handlers *)
Lemma load_app_keeps m a st : PubInv m st -> PubInv m (load_app a st).
Proof.
  intros I. unfold load_app. destruct (view (h_apps st) a); [exact I|].
  intros s a'. cbn [h_apps h_store]. specialize (I s a').
  replace (expected (h_apps st ++ [(a, (None, no_pdata))]) s a') with (expected (h_apps st) s a'); [exact I|].
  unfold expected. rewrite view_app. destruct (view (h_apps st) a') as [v|]; [reflexivity|].
  cbn [view]. destruct (Z.eqb a a'); reflexivity.
Qed.

Lemma remove_app_keeps m a st : PubInv m st -> PubInv m (remove_app a st).
Proof.
  rewrite !PubInv_G. intros I a'. apply remove_app_G, I.
Qed.

Lemma remove_server_keeps m s st :
  PubInv m st -> no_entries_under s (h_store st) = true -> PubInv m (remove_server s st).
Proof.
  intros I S. unfold remove_server. destruct (zmem s (h_servers st)); [|exact I].
  apply PubInv_G. intros a. apply unplace_no_node; [apply PubInv_G; exact I|apply no_entries_lookup; exact S].
Qed.

Lemma api_delete_keeps m s st :
  PubInv m st -> no_entries_under s (h_store st) = true -> PubInv m (api_delete s st).
Proof.
  intros I S s' a. unfold api_delete. cbn [h_apps h_store]. rewrite lookup_drop_server.
  destruct (Z.eqb_spec s s') as [<-|_]; [|apply I]. rewrite <- (no_entries_lookup s _ a S). apply I.
Qed.

Lemma server_deleted_keeps m s st :
  PubInv m st -> zmem s (h_servers st) || no_entries_under s (h_store st) = true ->
  PubInv m (remove_server s (api_delete s st)).
Proof.
  intros I S. unfold remove_server. cbn [api_delete h_servers].
  destruct (zmem s (h_servers st)); [|apply api_delete_keeps; assumption].
  intros s' a. cbn [api_delete h_apps h_store]. rewrite lookup_drop_server, expected_unplace.
  destruct (Z.eqb s s'); [reflexivity|apply I].
Qed.

Lemma group_count_keeps m members n st :
  PubInv m st -> sound_op m st (HGroupCount members n) = true -> PubInv m (group_count members n st).
Proof.
  intros I S s a. unfold group_count. cbn [h_apps h_store]. specialize (I s a).
  unfold expected in *. rewrite view_amap. destruct (view (h_apps st) a) as [[sv d]|] eqn:V; [|exact I].
  cbn [option_map fst snd]. destruct (zmem a members && is_some (pd_identity d)) eqn:C; [|exact I].
  destruct sv as [s0|]; [|exact I]. destruct (Z.eqb s0 s); [|exact I].
  destruct (lookup (h_store st) s a) as [sd|]; [|exact I]. cbn [osim] in *.
  destruct m; [|exact I].
  (* Full: a placed holder already carries the new count *)
  cbn [sound_op] in S. rewrite forallb_forall in S. specialize (S _ (view_In _ _ _ V)). cbn [fst snd] in S.
  rewrite C in S. cbn in S. apply oeqb_eq in S.
  replace (set_count d (Some n)) with d; [exact I|]. destruct d; cbn in *. subst. reflexivity.
Qed.

(** * What a defective Loader.remove_server leaves alone *)
Theorem remove_server_frame m s st a :
  PubInv m st -> (forall d, view (h_apps st) a <> Some (Some s, d)) -> G m (remove_server s st) a.
Proof.
  intros I N. pose proof (proj1 (PubInv_G m st) I a) as Ia.
  unfold remove_server. destruct (zmem s (h_servers st)); [|exact Ia].
  apply unplace_no_node; [exact Ia|]. apply (G_no_node m st a s Ia).
  destruct (expected (h_apps st) s a) as [d|] eqn:E; [|reflexivity]. apply expected_placed in E. destruct (N d E).
Qed.

(** * A cycle *)
Lemma filter_idem {A} (f : A -> bool) l : filter f (filter f l) = filter f l.
Proof.
  induction l as [|x l IH]; cbn; [reflexivity|]. destruct (f x) eqn:E; cbn; [rewrite E, IH; reflexivity|exact IH].
Qed.

Lemma reschedule_writes_changed_only c tuples i once :
  reschedule_writes c (filter (changed c) tuples) i once = reschedule_writes c tuples i once.
Proof.
  unfold reschedule_writes. apply flat_map_ext. intros p. destruct p; cbn [phase_writes]; try reflexivity;
    rewrite filter_idem; reflexivity.
Qed.

(** the table a cycle leaves stands for the entries PublishP calls the model *)
Lemma expected_cycle_model tuples i s a :
  NoDup (map t_name tuples) -> expected (cycle_apps tuples i) s a = lookup (model_entries i tuples) s a.
Proof.
  unfold cycle_apps, model_entries. induction tuples as [|t r IH]; cbn [map flat_map]; intros ND; [reflexivity|].
  inversion ND as [|? ? Hn ND']; subst. rewrite lookup_app, lookup_model_entry.
  destruct (Z.eqb_spec (t_name t) a) as [<-|N]; cbn [andb].
  - rewrite (expected_of_view _ s _ (t_sa t) (get_info i (t_name t))) by (cbn [view]; rewrite Z.eqb_refl; reflexivity).
    destruct (oeqb (t_sa t) (Some s)); [reflexivity|]. symmetry. apply lookup_model_entries_none. exact Hn.
  - rewrite <- (IH ND'). unfold expected. cbn [view]. apply Z.eqb_neq in N. rewrite N. reflexivity.
Qed.

Record cycle_facts (st : hstate) (tuples : list ptuple) (i : info) : Prop := mkCF {
  cf_nodup : NoDup (map t_name tuples);
  cf_before : forall t, In t tuples -> exists d,
      view (h_apps st) (t_name t) = Some (t_sb t, d) /\ pd_expires d = t_eb t /\
      (changed canonical_cfg t = false -> forall s, t_sb t = Some s -> d = get_info i (t_name t));
  cf_all : forall a v, view (h_apps st) a = Some v -> In a (map t_name tuples)
}.

Lemma cycle_wf_facts st tuples i : cycle_wf st tuples i = true -> cycle_facts st tuples i.
Proof.
  unfold cycle_wf. intros H. apply andb_true_iff in H as [H H3]. apply andb_true_iff in H as [H1 H2].
  rewrite forallb_forall in H2, H3. split.
  - apply nodupb_sound. exact H1.
  - intros t Ht. specialize (H2 t Ht). destruct (view (h_apps st) (t_name t)) as [[sv d]|]; [|discriminate].
    apply andb_true_iff in H2 as [H2 Hd]. apply andb_true_iff in H2 as [Hs He].
    apply oeqb_eq in Hs, He. subst sv. exists d. split; [reflexivity|]. split; [exact He|].
    intros Hc s SB. rewrite Hc, SB in Hd. cbn in Hd. apply pdata_eqb_eq. exact Hd.
  - intros a v V. apply view_In in V. specialize (H3 _ V). cbn [fst] in H3. apply zmem_In. exact H3.
Qed.

Lemma unchanged_same_server t : changed canonical_cfg t = false -> t_sb t = t_sa t.
Proof.
  unfold changed. cbn [cf_cmp_server cf_cmp_expiry canonical_cfg andb]. intros H.
  apply orb_false_iff in H as [H _]. apply negb_false_iff in H. apply oeqb_eq. exact H.
Qed.

(** the two hypotheses of the publication theorems of PublishP, and the side condition of [resched_equals_model] *)
Lemma inv_within_before m st tuples i :
  PubInv m st -> cycle_facts st tuples i -> within_before tuples (h_store st).
Proof.
  intros I F t Ht s H. destruct (has_placed m st s (t_name t) I H) as [d V].
  destruct (cf_before _ _ _ F t Ht) as [d' [V' _]]. congruence.
Qed.

Lemma inv_unchanged_published st tuples i :
  PubInv Full st -> cycle_facts st tuples i -> unchanged_published tuples i (h_store st).
Proof.
  intros I F t Ht Hc s SB. destruct (cf_before _ _ _ F t Ht) as [d [V [_ D]]]. rewrite SB in V.
  destruct (G_node Full st _ s d (proj1 (PubInv_G _ _) I _) V) as [sd [L Ps]].
  apply (psim_spec Full) in Ps. rewrite L, Ps, (D Hc s SB). reflexivity.
Qed.

Lemma inv_only_listed m st tuples i :
  PubInv m st -> cycle_facts st tuples i ->
  forall s a, has (h_store st) s a = true -> In a (map t_name tuples).
Proof. intros I F s a H. destruct (has_placed m st s a I H) as [d V]. exact (cf_all _ _ _ F a _ V). Qed.

(** * check_placement_integrity writes nothing *)
Lemma nodup_pairs_snd m st pairs :
  PubInv m st -> nodup_pairs pairs = true -> forallb (fun p => has (h_store st) (fst p) (snd p)) pairs = true ->
  NoDup (map snd pairs).
Proof.
  intros I. induction pairs as [|p r IH]; cbn [nodup_pairs forallb map]; intros N H; [constructor|].
  apply andb_true_iff in N as [N1 N2]. apply andb_true_iff in H as [H1 H2]. constructor; [|apply IH; assumption].
  intros C. apply in_map_iff in C as [q [E Hq]].
  rewrite forallb_forall in H2. specialize (H2 q Hq).
  (* both nodes are the node of one placed instance: same server, so [q] repeats [p] *)
  destruct (has_placed m st _ _ I H1) as [d1 V1]. destruct (has_placed m st _ _ I H2) as [d2 V2].
  rewrite E, V1 in V2. inversion V2 as [[E1 E2]].
  apply negb_true_iff, not_true_iff_false in N1. apply N1. apply existsb_exists. exists q. split; [exact Hq|].
  rewrite E1, E, !Z.eqb_refl. reflexivity.
Qed.

Lemma integrity_keeps m c pairs st :
  PubInv m st -> wf_op st (HIntegrity pairs) = true -> integrity_step c pairs st = mkH (h_apps st) (h_servers st) (h_store st).
Proof.
  intros I W. cbn [wf_op] in W. apply andb_true_iff in W as [W1 W2].
  unfold integrity_step, integrity_writes.
  destruct (integrity_nodup (cf_integ_update c) (where_view (h_apps st)) (placed_pairs (h_apps st)) pairs
                            (nodup_pairs_snd m st pairs I W1 W2)) as [E _].
  rewrite E. reflexivity.
Qed.

Lemma get_info_of l a : get_info (info_of l) a = match view l a with Some v => snd v | None => no_pdata end.
Proof.
  unfold info_of. induction l as [|[n v] l IH]; cbn [map get_info view fst snd]; [reflexivity|].
  destruct (Z.eqb n a); [reflexivity|exact IH].
Qed.

Lemma zmem_placed_on l s a :
  NoDup (map fst l) -> (zmem a (placed_on l s) = true <-> exists d, view l a = Some (Some s, d)).
Proof.
  intros ND. rewrite zmem_In. unfold placed_on. rewrite in_map_iff. split.
  - intros [[n [sv d]] [E H]]. cbn [fst] in E. subst n. apply filter_In in H as [H Hs]. cbn [fst snd] in Hs.
    apply oeqb_eq in Hs. subst sv. exists d. apply view_NoDup_In; assumption.
  - intros [d V]. exists (a, (Some s, d)). split; [reflexivity|]. apply filter_In. split; [apply view_In; exact V|].
    cbn. apply Z.eqb_refl.
Qed.

Lemma hrun_app c l1 l2 st : hrun c (l1 ++ l2) st = hrun c l2 (hrun c l1 st).
Proof. unfold hrun. apply fold_left_app. Qed.

Lemma all_ok_app m c l1 : forall l2 st, all_ok m c (l1 ++ l2) st = all_ok m c l1 st && all_ok m c l2 (hrun c l1 st).
Proof.
  induction l1 as [|op l1 IH]; intros l2 st; cbn [app all_ok]; [reflexivity|].
  rewrite IH, andb_assoc. reflexivity.
Qed.

Lemma PubInv_h0 m : PubInv m h0.
Proof. intros s a. reflexivity. Qed.

(** * With the statement order, the filter and the flags of the source *)
Section Canonical.
Variable c : cfg.
Hypothesis C : cfg_canonical c = true.

(** Master.reschedule touches the nodes of the instances the cycle reports as changed and nothing else
    (PublishP.resched_final applied to the changed tuples alone: its hypothesis about unchanged instances is void) *)
Theorem resched_frame tuples i once st :
  NoDup (map t_name tuples) ->
  within_before tuples st ->
  let final := apply_writes st (reschedule_writes c tuples i once) in
  (forall t, In t tuples -> changed canonical_cfg t = true -> forall s,
     lookup final s (t_name t) = if oeqb (t_sa t) (Some s) then Some (get_info i (t_name t)) else None) /\
  (forall t, In t tuples -> changed canonical_cfg t = false -> forall s,
     lookup final s (t_name t) = lookup st s (t_name t)) /\
  (forall a, ~ In a (map t_name tuples) -> forall s, lookup final s a = lookup st s a).
Proof.
  intros ND WB final. pose proof (cfg_canonical_eq c C) as Cq.
  set (ch := filter (changed c) tuples).
  assert (In_ch : forall t, In t ch <-> In t tuples /\ changed canonical_cfg t = true).
  { intros t. unfold ch. rewrite filter_In, Cq. reflexivity. }
  assert (ND' : NoDup (map t_name ch)) by (apply NoDup_map_filter; exact ND).
  assert (WB' : within_before ch st) by (intros t Ht; apply WB, In_ch, Ht).
  assert (UP' : unchanged_published ch i st).
  { intros t Ht Hc. apply In_ch in Ht as [_ Ht]. congruence. }
  destruct (resched_final c ch i once st C ND' WB' UP') as [F1 F2].
  unfold ch in F1, F2. rewrite reschedule_writes_changed_only in F1, F2. fold final ch in F1, F2.
  assert (Out : forall a, (forall t, In t tuples -> t_name t = a -> changed canonical_cfg t = false) ->
                     forall s, lookup final s a = lookup st s a).
  { intros a H s. apply F2. intros Hin. apply in_map_iff in Hin as [t [E Ht]]. apply In_ch in Ht as [Ht Hc].
    rewrite (H t Ht E) in Hc. discriminate. }
  split; [|split].
  - intros t Ht Hc s. apply F1, In_ch. split; assumption.
  - intros t Ht Hc. apply Out. intros t' Ht' E. rewrite (NoDup_map_inj t_name tuples t' t ND Ht' Ht E). exact Hc.
  - intros a Ha. apply Out. intros t Ht E. destruct Ha. rewrite <- E. apply in_map. exact Ht.
Qed.

Lemma cycle_keeps m tuples i once st :
  PubInv m st -> cycle_facts st tuples i -> PubInv m (cycle c tuples i once st).
Proof.
  intros I W. pose proof (cf_nodup _ _ _ W) as ND.
  destruct (resched_frame tuples i once (h_store st) ND (inv_within_before m st tuples i I W)) as [F1 [F2 F3]].
  intros s a. unfold cycle. cbn [h_apps h_store]. rewrite (expected_cycle_model tuples i s a ND).
  destruct (in_dec Z.eq_dec a (map t_name tuples)) as [Hin|Hn].
  - apply in_map_iff in Hin as [t [<- Ht]]. rewrite (lookup_model_entries i tuples s t ND Ht).
    destruct (changed canonical_cfg t) eqn:Hc.
    + rewrite (F1 t Ht Hc s). apply osim_refl.
    + rewrite (F2 t Ht Hc s). destruct (cf_before _ _ _ W t Ht) as [d [V [_ D]]].
      pose proof (I s (t_name t)) as Is. rewrite (expected_of_view _ s _ _ _ V) in Is.
      rewrite <- (unchanged_same_server t Hc). destruct (oeqb (t_sb t) (Some s)) eqn:E; [|exact Is].
      apply oeqb_eq in E. rewrite <- (D Hc s E). exact Is.
  - rewrite (F3 a Hn s), (lookup_model_entries_none i tuples s a Hn).
    destruct (view (h_apps st) a) as [v|] eqn:V; [destruct Hn; exact (cf_all _ _ _ W a v V)|].
    rewrite <- (expected_none_view _ s a V). apply I.
Qed.

Lemma restart_establishes m dels servers l st :
  wf_op st (HRestart dels servers l) = true ->
  forallb (fun e => zmem (e_server e) servers) (h_store st) = true ->
  PubInv m (restart c dels servers l st).
Proof.
  intros W S. cbn [wf_op] in W. apply andb_true_iff in W as [W W3]. apply andb_true_iff in W as [W1 W2].
  apply nodupb_sound in W1, W2. rewrite forallb_forall in W3, S.
  unfold restart. set (st1 := fold_left _ dels (h_store st)).
  assert (Em : map fst (members_of servers l) = servers).
  { unfold members_of. rewrite map_map. apply map_id. }
  destruct (init_final c st1 (info_of l) (members_of servers l) C) as [F1 F2]; [rewrite Em; exact W1|].
  intros s a. cbn [h_apps h_store].
  destruct (in_dec Z.eq_dec s servers) as [Hs|Hs].
  - rewrite (F1 s (placed_on l s)) by (apply in_map_iff; exists s; auto).
    destruct (expected l s a) as [d|] eqn:X.
    + apply expected_placed in X. rewrite (proj2 (zmem_placed_on l s a W2)) by (exists d; exact X).
      rewrite get_info_of, X. apply osim_refl.
    + destruct (zmem a (placed_on l s)) eqn:Z; [|reflexivity].
      apply (zmem_placed_on l s a W2) in Z as [d V]. rewrite (expected_here _ _ _ _ V) in X. discriminate.
  - rewrite (F2 s) by (rewrite Em; exact Hs).
    (* a server outside the new model: the premise leaves no node under it, and the model places nobody there *)
    assert (L : lookup st1 s a = None).
    { apply lookup_dels_none. destruct (lookup (h_store st) s a) as [sd|] eqn:L; [|reflexivity].
      destruct (lookup_In _ _ _ _ L) as [e [Ie [E1 _]]]. specialize (S e Ie). rewrite E1 in S.
      apply zmem_In in S. contradiction. }
    rewrite L. destruct (expected l s a) as [d|] eqn:X; [|reflexivity]. apply expected_placed in X.
    specialize (W3 _ (view_In _ _ _ X)). cbn [fst snd] in W3. apply zmem_In in W3. contradiction.
Qed.

(** * Every sound hop keeps the invariant *)
Theorem hstep_keeps m st op : PubInv m st -> ok_op m st op = true -> PubInv m (hstep c op st).
Proof.
  intros I O. unfold ok_op in O. apply andb_true_iff in O as [W S].
  destruct op; cbn [hstep]; try exact I;
    auto using load_app_keeps, remove_app_keeps, load_server_keeps, remove_server_keeps, api_delete_keeps,
      server_deleted_keeps, reload_server_keeps, group_count_keeps, cycle_keeps, cycle_wf_facts, restart_establishes.
  rewrite (integrity_keeps m c _ st I W). exact I.
Qed.

Theorem hrun_keeps m ops : forall st, PubInv m st -> all_ok m c ops st = true -> PubInv m (hrun c ops st).
Proof.
  induction ops as [|op ops IH]; intros st I O; [exact I|].
  cbn [all_ok] in O. apply andb_true_iff in O as [O1 O2]. apply (IH (hstep c op st)); [|exact O2].
  apply hstep_keeps; assumption.
Qed.

Theorem hrun_keeps_every_prefix m pre post st :
  PubInv m st -> all_ok m c (pre ++ post) st = true -> PubInv m (hrun c pre st).
Proof. intros I O. rewrite all_ok_app in O. apply andb_true_iff in O as [O _]. apply hrun_keeps; assumption. Qed.

(** a master's life starts with a restart: [PubInv] is not assumed of the store it finds *)
Theorem hrun_from_restart m dels servers l ops st :
  all_ok m c (HRestart dels servers l :: ops) st = true -> PubInv m (hrun c (HRestart dels servers l :: ops) st).
Proof.
  intros O. cbn [all_ok] in O. apply andb_true_iff in O as [O1 O2]. unfold ok_op in O1. apply andb_true_iff in O1 as [W S].
  apply (hrun_keeps m ops (hstep c (HRestart dels servers l) st)); [|exact O2]. apply restart_establishes; assumption.
Qed.

Lemma before_cycle m pre tuples i once post st :
  PubInv m st -> all_ok m c (pre ++ HCycle tuples i once :: post) st = true ->
  PubInv m (hrun c pre st) /\ cycle_facts (hrun c pre st) tuples i.
Proof.
  intros I O. rewrite all_ok_app in O. apply andb_true_iff in O as [O1 O2]. split; [apply hrun_keeps; assumption|].
  cbn [all_ok] in O2. apply andb_true_iff in O2 as [O2 _]. unfold ok_op in O2. apply andb_true_iff in O2 as [W _].
  apply cycle_wf_facts. exact W.
Qed.

Theorem next_cycle_hypotheses pre tuples i once post st :
  PubInv Full st -> all_ok Full c (pre ++ HCycle tuples i once :: post) st = true ->
  let before := h_store (hrun c pre st) in
  NoDup (map t_name tuples) /\ within_before tuples before /\ unchanged_published tuples i before /\
  (forall s a, has before s a = true -> In a (map t_name tuples)).
Proof.
  intros I O before. destruct (before_cycle Full pre tuples i once post st I O) as [I' W].
  split; [exact (cf_nodup _ _ _ W)|]. split; [exact (inv_within_before Full _ _ _ I' W)|].
  split; [exact (inv_unchanged_published _ _ _ I' W)|exact (inv_only_listed Full _ _ _ I' W)].
Qed.

(** published = model after every cycle of every history of sound hops: node by node, all three fields *)
Theorem published_equals_model_full pre tuples i once post st :
  PubInv Full st -> all_ok Full c (pre ++ HCycle tuples i once :: post) st = true ->
  forall s a, lookup (h_store (hrun c (pre ++ [HCycle tuples i once]) st)) s a = lookup (model_entries i tuples) s a.
Proof.
  intros I O s a. destruct (next_cycle_hypotheses pre tuples i once post st I O) as [ND [WB [UP Only]]].
  rewrite hrun_app. cbn [hrun fold_left hstep cycle h_store]. apply resched_equals_model; assumption.
Qed.

(** the same up to [psim m]; at [Core]: identity and expiry, the fields the statement of C09 names, identity-group
    resizes allowed *)
Theorem published_sim_model m pre tuples i once post st :
  PubInv m st -> all_ok m c (pre ++ HCycle tuples i once :: post) st = true ->
  forall s a, osim m (lookup (h_store (hrun c (pre ++ [HCycle tuples i once]) st)) s a)
                     (lookup (model_entries i tuples) s a) = true.
Proof.
  intros I O s a. destruct (before_cycle m pre tuples i once post st I O) as [I' W].
  rewrite <- (expected_cycle_model tuples i s a (cf_nodup _ _ _ W)), hrun_app.
  exact (cycle_keeps m tuples i once _ I' W s a).
Qed.
End Canonical.
