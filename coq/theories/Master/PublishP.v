(** Proofs about Master/Publish.v: crash safety of the two-pass publication (every prefix of the
    write list), the published state, init_schedule, check_placement_integrity, duplicate dropping. *)
From Coq Require Import ZArith List Bool Lia.
From TM Require Import Master.Publish.
Import ListNotations.
Open Scope Z_scope.

(** * Store basics *)
Definition same_key (s a s' a' : Z) : bool := Z.eqb s s' && Z.eqb a a'.

Lemma key_is_true s a e : key_is s a e = true <-> e_server e = s /\ e_app e = a.
Proof.
  unfold key_is. rewrite andb_true_iff, !Z.eqb_eq. tauto.
Qed.

Lemma key_is_two s a s' a' e :
  key_is s a e = true -> key_is s' a' e = same_key s a s' a'.
Proof.
  intros H. apply key_is_true in H as [H1 H2]. unfold key_is, same_key. rewrite H1, H2. reflexivity.
Qed.

Lemma same_key_true s a s' a' : same_key s a s' a' = true <-> s = s' /\ a = a'.
Proof. unfold same_key. rewrite andb_true_iff, !Z.eqb_eq. tauto. Qed.

Lemma same_key_refl s a : same_key s a s a = true.
Proof. apply same_key_true. auto. Qed.

Lemma has_lookup st s a : has st s a = match lookup st s a with Some _ => true | None => false end.
Proof.
  induction st as [|e st IH]; cbn; [reflexivity|].
  destruct (key_is s a e); cbn; [reflexivity|exact IH].
Qed.

Lemma lookup_sdel s a st s' a' :
  lookup (sdel s a st) s' a' = if same_key s a s' a' then None else lookup st s' a'.
Proof.
  unfold sdel. induction st as [|e st IH]; cbn.
  - destruct (same_key s a s' a'); reflexivity.
  - destruct (key_is s a e) eqn:K; cbn.
    + rewrite IH. rewrite (key_is_two _ _ s' a' _ K). destruct (same_key s a s' a'); reflexivity.
    + destruct (key_is s' a' e) eqn:K'; [|exact IH].
      destruct (same_key s a s' a') eqn:SK; [|reflexivity].
      apply same_key_true in SK as [-> ->]. congruence.
Qed.

Lemma lookup_sput s a d st s' a' :
  lookup (sput s a d st) s' a' = if same_key s a s' a' then Some d else lookup st s' a'.
Proof.
  unfold sput. cbn [lookup].
  change (key_is s' a' (s, a, d)) with (same_key s a s' a'). cbn [e_data snd].
  rewrite lookup_sdel. destruct (same_key s a s' a'); reflexivity.
Qed.

Lemma zmem_In x l : zmem x l = true <-> In x l.
Proof.
  unfold zmem. rewrite existsb_exists. split.
  - intros [y [H1 H2]]. apply Z.eqb_eq in H2. subst. exact H1.
  - intros H. exists x. split; [exact H|apply Z.eqb_refl].
Qed.

Lemma zmem_listing st s a : zmem a (listing st s) = has st s a.
Proof.
  unfold listing, has, zmem. induction st as [|e st IH]; [reflexivity|].
  cbn [filter existsb]. unfold key_is at 1. destruct (Z.eqb (e_server e) s) eqn:E.
  - cbn [map existsb andb]. rewrite IH. rewrite (Z.eqb_sym a (e_app e)). reflexivity.
  - cbn [andb orb]. exact IH.
Qed.

Lemma apply_writes_app st ws1 ws2 : apply_writes st (ws1 ++ ws2) = apply_writes (apply_writes st ws1) ws2.
Proof. unfold apply_writes. apply fold_left_app. Qed.

(** * One write, a list of writes
    [touches s a w]: the write is to the node (s, a); [written w]: what it leaves there. *)
Definition touches (s a : Z) (w : write) : bool :=
  match w with
  | WDel s' a' => same_key s' a' s a
  | WPut s' a' _ => same_key s' a' s a
  | _ => false
  end.
Definition is_put (w : write) : bool := match w with WPut _ _ _ => true | _ => false end.
Definition written (w : write) : option pdata := match w with WPut _ _ d => Some d | _ => None end.

Lemma lookup_apply_write st w s a :
  lookup (apply_write st w) s a = if touches s a w then written w else lookup st s a.
Proof.
  destruct w; cbn [apply_write touches written]; try reflexivity.
  - apply lookup_sdel.
  - apply lookup_sput.
Qed.

(** The order of the writes does not matter for a node on which all the writes that touch it agree: if each of them
    would leave [o] there, and the node either holds [o] already or is touched at all, it holds [o] afterwards. *)
Lemma lookup_agreed ws st s a o :
  (forall w, In w ws -> touches s a w = true -> written w = o) ->
  lookup st s a = o \/ (exists w, In w ws /\ touches s a w = true) ->
  lookup (apply_writes st ws) s a = o.
Proof.
  induction ws as [|w ws IH] using rev_ind; intros A H.
  - destruct H as [H|(w & [] & _)]. exact H.
  - rewrite apply_writes_app. change (apply_writes ?x [w]) with (apply_write x w). rewrite lookup_apply_write.
    destruct (touches s a w) eqn:T; [apply A; [apply in_or_app; right; left; reflexivity|exact T]|].
    apply IH.
    + intros w' Hw'. apply A. apply in_or_app. left. exact Hw'.
    + destruct H as [H|(w' & Hw' & T')]; [left; exact H|right]. exists w'. split; [|exact T'].
      apply in_app_or in Hw' as [Hw'|[<-|[]]]; [exact Hw'|congruence].
Qed.

Lemma nonputs_written ws w :
  Forall (fun w => is_put w = false) ws -> In w ws -> written w = None.
Proof.
  intros F Hw. rewrite Forall_forall in F. specialize (F w Hw). destruct w; try reflexivity; discriminate.
Qed.

Lemma has_apply_nonputs ws st s a :
  Forall (fun w => is_put w = false) ws -> has (apply_writes st ws) s a = true -> has st s a = true.
Proof.
  intros F. rewrite !has_lookup. destruct (lookup st s a) eqn:L; [reflexivity|].
  rewrite (lookup_agreed ws st s a None); [discriminate| |left; exact L].
  intros w Hw _. exact (nonputs_written ws w F Hw).
Qed.

Lemma deleted_gone ws st s a :
  Forall (fun w => is_put w = false) ws -> In (WDel s a) ws -> has (apply_writes st ws) s a = false.
Proof.
  intros F Hin. rewrite has_lookup, (lookup_agreed ws st s a None); [reflexivity| |right].
  - intros w Hw _. exact (nonputs_written ws w F Hw).
  - exists (WDel s a). split; [exact Hin|apply same_key_refl].
Qed.

Lemma has_after_write st w s a :
  has (apply_write st w) s a = true -> has st s a = true \/ exists d, w = WPut s a d.
Proof.
  rewrite !has_lookup, lookup_apply_write. destruct (touches s a w) eqn:T; [|auto].
  destruct w; try discriminate. cbn in T. apply same_key_true in T as [-> ->]. right. eexists. reflexivity.
Qed.

(** * Crash safety of a publication in two passes
    [tg a s]: the publication may create an entry for instance [a] under server [s] only. *)
Definition only_under (tg : Z -> Z -> Prop) (st : store) : Prop :=
  forall a s, tg a s -> forall s', has st s' a = true -> s' = s.
Definition functional (tg : Z -> Z -> Prop) : Prop := forall a s1 s2, tg a s1 -> tg a s2 -> s1 = s2.
Definition put_within (tg : Z -> Z -> Prop) (w : write) : Prop :=
  match w with WPut s a _ => tg a s | _ => True end.

Lemma nonput_within tg w : is_put w = false -> put_within tg w.
Proof. destruct w; try exact (fun _ => I). discriminate. Qed.

Lemma safe_write tg st w :
  functional tg -> put_within tg w -> no_double st /\ only_under tg st ->
  no_double (apply_write st w) /\ only_under tg (apply_write st w).
Proof.
  intros F Hw [ND P]. split.
  - intros a s1 s2 H1 H2. apply has_after_write in H1, H2.
    destruct H1 as [H1|[d1 ->]], H2 as [H2|[d2 E]].
    + exact (ND a s1 s2 H1 H2).
    + subst w. exact (P a s2 Hw s1 H1).
    + symmetry. exact (P a s1 Hw s2 H2).
    + congruence.
  - intros a s T s' H. apply has_after_write in H as [H|[d ->]]; [exact (P a s T s' H)|exact (F a s' s Hw T)].
Qed.

Lemma safe_prefix tg ws :
  functional tg -> Forall (put_within tg) ws -> forall k st, no_double st /\ only_under tg st ->
  no_double (apply_writes st (firstn k ws)) /\ only_under tg (apply_writes st (firstn k ws)).
Proof.
  intros F H. induction H as [|w ws Hw _ IH]; intros [|k] st I; try exact I.
  apply (IH k (apply_write st w)). apply safe_write; assumption.
Qed.

(** what is left for the deletions to do: every entry of a target instance outside its target server is deleted *)
Lemma cleared_by_dels (tg : Z -> Z -> Prop) ds st :
  Forall (fun w => is_put w = false) ds ->
  (forall a s s', tg a s -> has st s' a = true -> s' = s \/ In (WDel s' a) ds) ->
  only_under tg (apply_writes st ds).
Proof.
  intros F H a s T s' Hh.
  destruct (H a s s' T (has_apply_nonputs ds st s' a F Hh)) as [E|D]; [exact E|].
  rewrite (deleted_gone ds st s' a F D) in Hh. discriminate.
Qed.

(** C10 in general: deletions first, then creations within a functional target which the deletions have cleared *)
Theorem two_pass_prefix (tg : Z -> Z -> Prop) ds ps st k :
  functional tg -> Forall (fun w => is_put w = false) ds -> Forall (put_within tg) ps ->
  no_double st -> only_under tg (apply_writes st ds) ->
  no_double (apply_writes st (firstn k (ds ++ ps))).
Proof.
  intros F Hd Hp D C.
  assert (Dk : forall k', no_double (apply_writes st (firstn k' ds))).
  { intros k'. apply (safe_prefix (fun _ _ => False) ds); [intros a s1 s2 []| |split; [exact D|intros a s []]].
    revert Hd. apply Forall_impl. intros w. apply nonput_within. }
  rewrite firstn_app, apply_writes_app. destruct (Nat.le_gt_cases k (length ds)) as [L|L].
  - replace (k - length ds)%nat with 0%nat by lia. apply Dk.
  - rewrite firstn_all2 by lia. apply (safe_prefix tg ps F Hp). split; [|exact C].
    rewrite <- (firstn_all ds). apply Dk.
Qed.

(** * Master.reschedule *)
Lemma phases_eqb_eq a b : phases_eqb a b = true -> a = b.
Proof.
  revert b. induction a as [|x a IH]; intros [|y b] H; cbn in H; try discriminate; [reflexivity|].
  apply andb_true_iff in H as [H1 H2]. apply IH in H2. subst.
  destruct x, y; cbn in H1; try discriminate; reflexivity.
Qed.

Lemma cfg_canonical_eq c : cfg_canonical c = true -> c = canonical_cfg.
Proof.
  unfold cfg_canonical. intros H.
  apply andb_true_iff in H as [H H7]. apply andb_true_iff in H as [H H6]. apply andb_true_iff in H as [H H5].
  apply andb_true_iff in H as [H H4]. apply andb_true_iff in H as [H H3]. apply andb_true_iff in H as [H1 H2].
  apply phases_eqb_eq in H1. apply phases_eqb_eq in H4. destruct c; cbn in *. subst. reflexivity.
Qed.

Lemma NoDup_map_inj {A B} (f : A -> B) (l : list A) x y :
  NoDup (map f l) -> In x l -> In y l -> f x = f y -> x = y.
Proof.
  induction l as [|z l IH]; intros ND Hx Hy E; [contradiction|].
  cbn in ND. inversion ND as [|? ? Hn ND']; subst.
  destruct Hx as [->|Hx], Hy as [->|Hy].
  - reflexivity.
  - exfalso. apply Hn. rewrite E. apply in_map. exact Hy.
  - exfalso. apply Hn. rewrite <- E. apply in_map. exact Hx.
  - apply IH; assumption.
Qed.

Lemma oeqb_eq a b : oeqb a b = true <-> a = b.
Proof.
  destruct a, b; cbn; split; intros H; try discriminate; try reflexivity.
  - apply Z.eqb_eq in H. congruence.
  - inversion H. apply Z.eqb_refl.
Qed.

Lemma oeqb_spec a b : reflect (a = b) (oeqb a b).
Proof. apply iff_reflect. symmetry. apply oeqb_eq. Qed.

Definition resched_dels (tuples : list ptuple) := flat_map del_of (filter (changed canonical_cfg) tuples).
Definition resched_puts (tuples : list ptuple) (i : info) :=
  flat_map (put_of i) (filter (changed canonical_cfg) tuples).

Lemma reschedule_writes_canonical tuples i once :
  reschedule_writes canonical_cfg tuples i once =
  resched_dels tuples ++ resched_puts tuples i ++ (evicted_writes once ++ [WSave]).
Proof.
  unfold reschedule_writes, resched_dels, resched_puts. cbn [cf_phases canonical_cfg flat_map phase_writes].
  rewrite app_nil_r. reflexivity.
Qed.

Lemma in_resched_dels tuples w :
  In w (resched_dels tuples) <->
  exists t s, In t tuples /\ changed canonical_cfg t = true /\ t_sb t = Some s /\ t_sa t <> Some s /\
              w = WDel s (t_name t).
Proof.
  unfold resched_dels. rewrite in_flat_map. unfold del_of. split.
  - intros (t & Ht & H). apply filter_In in Ht as [Ht Hc]. destruct (t_sb t) as [s|] eqn:SB; [|contradiction].
    destruct (oeqb_spec (Some s) (t_sa t)) as [E|E]; [contradiction|]. destruct H as [<-|[]].
    exists t, s. repeat split; try assumption. congruence.
  - intros (t & s & Ht & Hc & SB & SA & ->). exists t. split; [apply filter_In; auto|]. rewrite SB.
    destruct (oeqb_spec (Some s) (t_sa t)) as [E|E]; [congruence|left; reflexivity].
Qed.

Lemma in_resched_puts tuples i w :
  In w (resched_puts tuples i) <->
  exists t s, In t tuples /\ changed canonical_cfg t = true /\ t_sa t = Some s /\
              w = WPut s (t_name t) (get_info i (t_name t)).
Proof.
  unfold resched_puts. rewrite in_flat_map. unfold put_of. split.
  - intros (t & Ht & H). apply filter_In in Ht as [Ht Hc]. destruct (t_sa t) as [s|] eqn:SA; [|contradiction].
    destruct H as [<-|[]]. exists t, s. auto.
  - intros (t & s & Ht & Hc & SA & ->). exists t. split; [apply filter_In; auto|]. rewrite SA. left. reflexivity.
Qed.

(** _unschedule_evicted and _save_placement write no placement node *)
Lemma tail_neutral once w :
  In w (evicted_writes once ++ [WSave]) -> is_put w = false /\ forall s a, touches s a w = false.
Proof.
  intros H. apply in_app_or in H as [H|[<-|[]]]; [|auto].
  apply in_flat_map in H as (x & _ & [<-|[<-|[]]]); auto.
Qed.

Lemma dels_nonput tuples : Forall (fun w => is_put w = false) (resched_dels tuples).
Proof.
  apply Forall_forall. intros w H. apply in_resched_dels in H as (t & s & _ & _ & _ & _ & ->). reflexivity.
Qed.

(** the writes of a cycle to one node: the deletion under the old server, or the creation under the new one *)
Lemma resched_touching tuples i once w s a :
  In w (reschedule_writes canonical_cfg tuples i once) -> touches s a w = true ->
  exists t, In t tuples /\ t_name t = a /\ changed canonical_cfg t = true /\
            (w = WDel s a /\ t_sb t = Some s /\ t_sa t <> Some s \/
             w = WPut s a (get_info i a) /\ t_sa t = Some s).
Proof.
  rewrite reschedule_writes_canonical. intros H T.
  apply in_app_or in H as [H|H]; [|apply in_app_or in H as [H|H]].
  - apply in_resched_dels in H as (t & s0 & Ht & Hc & SB & SA & ->). cbn in T. apply same_key_true in T as [-> <-].
    exists t. split; [exact Ht|]. split; [reflexivity|]. split; [exact Hc|]. left. auto.
  - apply in_resched_puts in H as (t & s0 & Ht & Hc & SA & ->). cbn in T. apply same_key_true in T as [-> <-].
    exists t. split; [exact Ht|]. split; [reflexivity|]. split; [exact Hc|]. right. auto.
  - rewrite (proj2 (tail_neutral once w H)) in T. discriminate.
Qed.

(** the store holds nothing for a listed instance outside its [before] server *)
Definition within_before (tuples : list ptuple) (st : store) : Prop :=
  forall t, In t tuples -> forall s, has st s (t_name t) = true -> t_sb t = Some s.

(** put target of the cycle: the [after] server of a changed tuple *)
Definition resched_target (tuples : list ptuple) (a s : Z) : Prop :=
  exists t, In t tuples /\ changed canonical_cfg t = true /\ t_name t = a /\ t_sa t = Some s.

Lemma resched_target_functional tuples :
  NoDup (map t_name tuples) -> functional (resched_target tuples).
Proof.
  intros ND a s1 s2 [t1 [I1 [_ [N1 A1]]]] [t2 [I2 [_ [N2 A2]]]].
  assert (t1 = t2) by (eapply (NoDup_map_inj t_name); try eassumption; congruence).
  subst. congruence.
Qed.

(** C10, first conjunct, for Master.reschedule: every prefix of the write list is free of double entries *)
Theorem resched_prefix_no_double c tuples i once st k :
  cfg_canonical c = true ->
  NoDup (map t_name tuples) ->
  no_double st ->
  within_before tuples st ->
  no_double (apply_writes st (firstn k (reschedule_writes c tuples i once))).
Proof.
  intros C ND D WB. apply cfg_canonical_eq in C. subst c. rewrite reschedule_writes_canonical.
  apply (two_pass_prefix (resched_target tuples));
    [apply resched_target_functional; exact ND|apply dels_nonput| |exact D|].
  - apply Forall_app. split; apply Forall_forall; intros w Hw.
    + apply in_resched_puts in Hw as (t & s & Ht & Hc & SA & ->). exists t. auto.
    + apply nonput_within. apply (tail_neutral once w Hw).
  - apply cleared_by_dels; [apply dels_nonput|]. intros a s s' (t & Ht & Hc & <- & SA) H.
    destruct (Z.eq_dec s' s) as [E|NE]; [left; exact E|right].
    apply in_resched_dels. exists t, s'. repeat split; [exact Ht|exact Hc|exact (WB t Ht s' H)|congruence].
Qed.

(** what the store must hold for the instances the cycle did not change (this is what the
    publication relies on; it reads nothing back from the store) *)
Definition unchanged_published (tuples : list ptuple) (i : info) (st : store) : Prop :=
  forall t, In t tuples -> changed canonical_cfg t = false ->
  forall s, t_sb t = Some s -> lookup st s (t_name t) = Some (get_info i (t_name t)).

(** C09, publication half: after the whole write list the store holds, for every listed instance,
    exactly one entry, under the [after] server, with the current placement data, and nothing for an
    instance that is pending; entries of other instances are untouched. *)
Theorem resched_final c tuples i once st :
  cfg_canonical c = true ->
  NoDup (map t_name tuples) ->
  within_before tuples st ->
  unchanged_published tuples i st ->
  let final := apply_writes st (reschedule_writes c tuples i once) in
  (forall t, In t tuples -> forall s,
     lookup final s (t_name t) = if oeqb (t_sa t) (Some s) then Some (get_info i (t_name t)) else None) /\
  (forall a, ~ In a (map t_name tuples) -> forall s, lookup final s a = lookup st s a).
Proof.
  intros C ND WB UP final. apply cfg_canonical_eq in C. subst c final. split.
  - intros t Ht s. apply lookup_agreed.
    + intros w Hw T. destruct (resched_touching _ _ _ _ _ _ Hw T) as (t' & Ht' & N & _ & H).
      rewrite (NoDup_map_inj t_name tuples t' t ND Ht' Ht N) in H.
      destruct (oeqb_spec (t_sa t) (Some s)) as [SA|SA], H as [(-> & _ & SA')|(-> & SA')];
        try contradiction; reflexivity.
    + (* the node holds that value already, or the list has the write that makes it so *)
      assert (PUT : t_sa t = Some s -> changed canonical_cfg t = true ->
                    In (WPut s (t_name t) (get_info i (t_name t))) (reschedule_writes canonical_cfg tuples i once)).
      { intros SA Hc. rewrite reschedule_writes_canonical. apply in_or_app. right. apply in_or_app. left.
        apply in_resched_puts. exists t, s. auto. }
      assert (DEL : t_sa t <> Some s -> changed canonical_cfg t = true -> has st s (t_name t) = true ->
                    In (WDel s (t_name t)) (reschedule_writes canonical_cfg tuples i once)).
      { intros SA Hc H. rewrite reschedule_writes_canonical. apply in_or_app. left.
        apply in_resched_dels. exists t, s. auto using WB. }
      pose proof (WB t Ht s) as SB. rewrite has_lookup in SB, DEL.
      destruct (changed canonical_cfg t) eqn:Hc.
      * destruct (oeqb_spec (t_sa t) (Some s)) as [SA|SA].
        -- right. eexists. split; [exact (PUT SA eq_refl)|apply same_key_refl].
        -- destruct (lookup st s (t_name t)); [right|left; reflexivity].
           eexists. split; [exact (DEL SA eq_refl eq_refl)|apply same_key_refl].
      * left. pose proof Hc as Hs. unfold changed in Hs. cbn [cf_cmp_server cf_cmp_expiry canonical_cfg andb] in Hs.
        apply orb_false_iff in Hs as [Hs _]. apply negb_false_iff, oeqb_eq in Hs.
        destruct (oeqb_spec (t_sa t) (Some s)) as [SA|SA]; [apply UP; congruence|].
        destruct (lookup st s (t_name t)); [|reflexivity]. specialize (SB eq_refl). congruence.
  - intros a Ha s. apply lookup_agreed; [|left; reflexivity].
    intros w Hw T. destruct (resched_touching _ _ _ _ _ _ Hw T) as (t & Ht & N & _).
    exfalso. apply Ha. rewrite <- N. apply in_map. exact Ht.
Qed.

(** * Master.init_schedule (two passes over all servers; node content reconciled) *)
Lemma pdata_eqb_eq a b : pdata_eqb a b = true -> a = b.
Proof.
  unfold pdata_eqb. intros H. apply andb_true_iff in H as [H H3]. apply andb_true_iff in H as [H1 H2].
  apply oeqb_eq in H1, H2, H3. destruct a, b; cbn in *. congruence.
Qed.

Lemma pdata_eqb_refl' d : pdata_eqb d d = true.
Proof. unfold pdata_eqb. rewrite !(proj2 (oeqb_eq _ _) eq_refl). reflexivity. Qed.

Definition init_dels (st : store) (members : list (Z * list Z)) : list write :=
  flat_map (fun m => WEnsure (fst m)
                     :: map (WDel (fst m)) (filter (fun a => negb (zmem a (snd m))) (listing st (fst m)))) members.
Definition init_puts (st : store) (i : info) (members : list (Z * list Z)) : list write :=
  flat_map (fun m => map (fun a => WPut (fst m) a (get_info i a))
                         (filter (fun a => negb (zmem a (listing st (fst m))) || stale_data st i (fst m) a) (snd m)))
           members.

Lemma init_writes_canonical st i members :
  init_writes canonical_cfg st i members = init_dels st members ++ init_puts st i members ++ [WSave].
Proof.
  unfold init_writes, init_passes, init_pass_writes, init_dels, init_puts.
  cbn [cf_init_two_pass cf_init_phases canonical_cfg flat_map]. rewrite app_nil_r, <- app_assoc. reflexivity.
Qed.

Lemma in_init_dels st members w :
  In w (init_dels st members) <->
  (exists m, In m members /\ w = WEnsure (fst m)) \/
  exists s correct a, In (s, correct) members /\ has st s a = true /\ zmem a correct = false /\ w = WDel s a.
Proof.
  unfold init_dels. rewrite in_flat_map. split.
  - intros ([s correct] & Hm & [<-|H]); [left; eauto|right]. cbn [fst snd] in H.
    apply in_map_iff in H as (a & <- & H). apply filter_In in H as [H1 H2].
    exists s, correct, a. rewrite <- zmem_listing, zmem_In, <- negb_true_iff. auto.
  - intros [(m & Hm & ->)|(s & correct & a & Hm & H & Z & ->)].
    + exists m. split; [exact Hm|left; reflexivity].
    + exists (s, correct). split; [exact Hm|right]. cbn [fst snd]. apply in_map, filter_In.
      rewrite <- zmem_In, zmem_listing, Z. auto.
Qed.

Lemma in_init_puts st i members w :
  In w (init_puts st i members) <->
  exists s correct a, In (s, correct) members /\ zmem a correct = true /\
                      (has st s a = false \/ stale_data st i s a = true) /\ w = WPut s a (get_info i a).
Proof.
  unfold init_puts. rewrite in_flat_map. split.
  - intros ([s correct] & Hm & H). cbn [fst snd] in H. apply in_map_iff in H as (a & <- & H).
    apply filter_In in H as [H1 H2]. exists s, correct, a.
    rewrite zmem_listing, orb_true_iff, negb_true_iff in H2. rewrite zmem_In. auto.
  - intros (s & correct & a & Hm & Z & H & ->). exists (s, correct). split; [exact Hm|]. cbn [fst snd].
    apply (in_map (fun a => WPut s a (get_info i a))), filter_In.
    rewrite zmem_listing, orb_true_iff, negb_true_iff, <- zmem_In. auto.
Qed.

Lemma init_dels_nonput st members : Forall (fun w => is_put w = false) (init_dels st members).
Proof.
  apply Forall_forall. intros w H.
  apply in_init_dels in H as [(m & _ & ->)|(s & correct & a & _ & _ & _ & ->)]; reflexivity.
Qed.

Lemma init_touching st i members w s a :
  In w (init_writes canonical_cfg st i members) -> touches s a w = true ->
  exists correct, In (s, correct) members /\
    (w = WDel s a /\ has st s a = true /\ zmem a correct = false \/
     w = WPut s a (get_info i a) /\ zmem a correct = true /\ (has st s a = false \/ stale_data st i s a = true)).
Proof.
  rewrite init_writes_canonical. intros H T.
  apply in_app_or in H as [H|H]; [|apply in_app_or in H as [H|[<-|[]]]; [|discriminate]].
  - apply in_init_dels in H as [(m & _ & ->)|(s0 & correct & a0 & Hm & H & Z & ->)]; [discriminate|].
    cbn in T. apply same_key_true in T as [-> ->]. exists correct. auto.
  - apply in_init_puts in H as (s0 & correct & a0 & Hm & Z & H & ->).
    cbn in T. apply same_key_true in T as [-> ->]. exists correct. auto.
Qed.

(** C09 for the start-up cycle: after init_schedule the nodes under every server of the model are exactly
    server.apps WITH the current placement data; nodes under servers the model does not know are not looked at. *)
Theorem init_final c st i members :
  cfg_canonical c = true ->
  NoDup (map fst members) ->
  let final := apply_writes st (init_writes c st i members) in
  (forall s correct, In (s, correct) members -> forall a,
     lookup final s a = if zmem a correct then Some (get_info i a) else None) /\
  (forall s, ~ In s (map fst members) -> forall a, lookup final s a = lookup st s a).
Proof.
  intros C ND final. apply cfg_canonical_eq in C. subst c final. split.
  - intros s correct Hm a.
    assert (PUT : zmem a correct = true -> has st s a = false \/ stale_data st i s a = true ->
                  exists w, In w (init_writes canonical_cfg st i members) /\ touches s a w = true).
    { intros Z H. exists (WPut s a (get_info i a)). split; [|apply same_key_refl].
      rewrite init_writes_canonical. apply in_or_app. right. apply in_or_app. left.
      apply in_init_puts. exists s, correct, a. auto. }
    assert (DEL : zmem a correct = false -> has st s a = true ->
                  exists w, In w (init_writes canonical_cfg st i members) /\ touches s a w = true).
    { intros Z H. exists (WDel s a). split; [|apply same_key_refl].
      rewrite init_writes_canonical. apply in_or_app. left. apply in_init_dels. right. exists s, correct, a. auto. }
    unfold stale_data in PUT. rewrite has_lookup in PUT, DEL.
    apply lookup_agreed.
    + intros w Hw T. destruct (init_touching _ _ _ _ _ _ Hw T) as (c' & Hm' & H).
      assert (E : (s, c') = (s, correct)) by exact (NoDup_map_inj fst members _ _ ND Hm' Hm eq_refl).
      inversion E; subst c'. destruct H as [(-> & _ & ->)|(-> & -> & _)]; reflexivity.
    + destruct (zmem a correct), (lookup st s a) as [d|]; auto.
      destruct (pdata_eqb d (get_info i a)) eqn:PE; [left; f_equal; apply pdata_eqb_eq; exact PE|auto].
  - intros s Hs a. apply lookup_agreed; [|left; reflexivity].
    intros w Hw T. destruct (init_touching _ _ _ _ _ _ Hw T) as (c' & Hm' & _).
    exfalso. apply Hs. exact (in_map fst _ _ Hm').
Qed.

(** C10 for the start-up publication: every prefix of init_schedule's writes is free of double entries *)
Definition members_target (members : list (Z * list Z)) (a s : Z) : Prop :=
  exists correct, In (s, correct) members /\ zmem a correct = true.

Theorem init_prefix_no_double c st i members k :
  cfg_canonical c = true ->
  no_double st ->
  functional (members_target members) ->
  (forall s a, has st s a = true -> In s (map fst members)) ->
  no_double (apply_writes st (firstn k (init_writes c st i members))).
Proof.
  intros C D F Known. apply cfg_canonical_eq in C. subst c. rewrite init_writes_canonical.
  apply (two_pass_prefix (members_target members)); [exact F|apply init_dels_nonput| |exact D|].
  - apply Forall_app. split; [|repeat constructor]. apply Forall_forall. intros w Hw.
    apply in_init_puts in Hw as (s & correct & a & Hm & Z & _ & ->). exists correct. auto.
  - apply cleared_by_dels; [apply init_dels_nonput|]. intros a s s' (correct & Hm & Z) H.
    pose proof (Known s' a H) as Hs'. apply in_map_iff in Hs' as ([s'' c'] & E & Hm'). cbn in E. subst s''.
    destruct (zmem a c') eqn:Z'.
    + left. apply (F a); [exists c'|exists correct]; auto.
    + right. apply in_init_dels. right. exists s', c', a. auto.
Qed.

(** * Loader.check_placement_integrity *)
Lemma amap_get_app l1 l2 k :
  amap_get (l1 ++ l2) k = match amap_get l1 k with Some v => Some v | None => amap_get l2 k end.
Proof.
  induction l1 as [|[k0 v0] l1 IH]; cbn; [reflexivity|]. destruct (Z.eqb k0 k); [reflexivity|exact IH].
Qed.

Lemma amap_get_set m a v k : amap_get (amap_set m a v) k = if Z.eqb a k then Some v else amap_get m k.
Proof.
  induction m as [|[k0 w] m IH]; cbn.
  - destruct (Z.eqb a k); reflexivity.
  - destruct (Z.eqb k0 a) eqn:E; cbn.
    + apply Z.eqb_eq in E. subst k0. destruct (Z.eqb a k); reflexivity.
    + rewrite IH. destruct (Z.eqb k0 k) eqn:E2; [|reflexivity].
      apply Z.eqb_eq in E2. subst k0. rewrite Z.eqb_sym in E. rewrite E. reflexivity.
Qed.

(** the first pass only ever deletes, and stops only at one of its own two assertions *)
Lemma scan_sound upd wh pairs : forall a2s m ws o,
  integrity_scan upd wh pairs a2s = (m, ws, o) ->
  Forall (fun w => is_put w = false) ws /\ forall e, o = Some e -> e = IKeyError \/ e = IAssertNeither.
Proof.
  induction pairs as [|[s a0] r IH]; intros a2s m ws o H; cbn [integrity_scan] in H.
  - inversion H. split; [constructor|discriminate].
  - destruct (amap_get a2s a0) as [first|]; [|exact (IH _ _ _ _ H)].
    destruct (wh a0) as [correct|]; [|inversion H; split; [constructor|intros e E; inversion E; auto]].
    destruct (oeqb correct (Some first) || oeqb correct (Some s));
      [|inversion H; split; [constructor|intros e E; inversion E; auto]].
    destruct (integrity_scan upd wh r (integ_next upd a2s a0 first correct)) as [[m' ws'] o'] eqn:R.
    inversion H; subst. destruct (IH _ _ _ _ R) as [H1 H2]. split; [|exact H2].
    apply Forall_app. split; [destruct (oeqb correct (Some s)); repeat constructor|].
    apply Forall_app. split; [destruct (oeqb correct (Some first)); repeat constructor|exact H1].
Qed.

Lemma scan_error_not_ok upd wh pairs : forall a2s m ws e,
  integrity_scan upd wh pairs a2s = (m, ws, Some e) -> e <> IOk.
Proof.
  intros a2s m ws e H. destruct (proj2 (scan_sound _ _ _ _ _ _ _ H) e eq_refl) as [->| ->]; discriminate.
Qed.

Lemma integrity_cross_true a2s placed :
  integrity_cross a2s placed = true <-> forall a s, In (a, s) placed -> amap_get a2s a = Some s.
Proof.
  unfold integrity_cross. rewrite forallb_forall. split.
  - intros H a s Hin. specialize (H (a, s) Hin). cbn in H. destruct (amap_get a2s a); [|discriminate].
    apply Z.eqb_eq in H. congruence.
  - intros H [a s] Hin. cbn. rewrite (H a s Hin). apply Z.eqb_refl.
Qed.

Theorem integrity_writes_delete_only upd wh placed pairs :
  Forall (fun w => is_put w = false) (fst (integrity upd wh placed pairs)).
Proof.
  unfold integrity. destruct (integrity_scan upd wh pairs []) as [[m ws] o] eqn:R.
  apply scan_sound in R as [R _]. destruct o; exact R.
Qed.

Lemma amap_get_integ_next a2s a0 first cv a :
  amap_get a2s a0 = Some first ->
  amap_get (integ_next true a2s a0 first (Some cv)) a = if Z.eqb a0 a then Some cv else amap_get a2s a.
Proof.
  intros G. unfold integ_next. destruct (oeqb_spec (Some cv) (Some first)) as [E|_]; [|apply amap_get_set].
  destruct (Z.eqb_spec a0 a) as [<-|_]; congruence.
Qed.

(** at the end of an error-free first pass, an instance which the model has on server [s] is mapped to [s] as soon
    as the map said so before, or the instance was in the map and is met again, or its node under [s] is met *)
Lemma scan_settles wh a s : wh a = Some (Some s) -> forall pairs a2s m ws,
  integrity_scan true wh pairs a2s = (m, ws, None) ->
  amap_get a2s a = Some s \/ (amap_get a2s a <> None /\ In a (map snd pairs)) \/ In (s, a) pairs ->
  amap_get m a = Some s.
Proof.
  intros W. induction pairs as [|[s0 a0] r IH]; intros a2s m ws H D; cbn [integrity_scan] in H.
  - inversion H; subst. destruct D as [D|[[_ []]|[]]]. exact D.
  - cbn in D. destruct (amap_get a2s a0) as [first|] eqn:G.
    + destruct (wh a0) as [[cv|]|] eqn:W0; try discriminate.
      destruct (oeqb (Some cv) (Some first) || oeqb (Some cv) (Some s0)); [|discriminate].
      destruct (integrity_scan true wh r (integ_next true a2s a0 first (Some cv))) as [[m' ws'] o'] eqn:R.
      inversion H; subst m' o'. apply (IH _ _ _ R). rewrite (amap_get_integ_next _ _ _ _ _ G).
      destruct (Z.eqb_spec a0 a) as [->|NE]; [left; congruence|].
      destruct D as [D|[[D1 [D2|D2]]|[D|D]]]; auto; congruence.
    + apply (IH _ _ _ H). rewrite amap_get_app. cbn [amap_get].
      destruct D as [D|[[D1 [D2|D2]]|[D|D]]].
      * left. rewrite D. reflexivity.
      * congruence.
      * right. left. split; [destruct (amap_get a2s a); [discriminate|contradiction]|exact D2].
      * inversion D; subst. left. rewrite G, Z.eqb_refl. reflexivity.
      * auto.
Qed.

(** unless the first pass hits its own "no repair possible" assertion, the check -- after removing the duplicate
    entries it found -- passes whenever every placed instance has an entry under the model's server *)
Theorem integrity_repair_then_pass wh placed pairs :
  (forall a s, In (a, s) placed -> wh a = Some (Some s) /\ In (s, a) pairs) ->
  snd (integrity true wh placed pairs) <> IKeyError ->
  snd (integrity true wh placed pairs) <> IAssertNeither ->
  snd (integrity true wh placed pairs) = IOk.
Proof.
  unfold integrity. intros Hp. destruct (integrity_scan true wh pairs []) as [[m ws] o] eqn:R.
  destruct o as [e|]; cbn [snd].
  - intros N1 N2. destruct (proj2 (scan_sound _ _ _ _ _ _ _ R) e eq_refl); contradiction.
  - intros _ _. assert (X : integrity_cross m placed = true); [|rewrite X; reflexivity].
    apply integrity_cross_true. intros a s Hin. destruct (Hp a s Hin) as [W I].
    apply (scan_settles wh a s W pairs [] m ws R). auto.
Qed.

Lemma scan_nodup upd wh pairs : forall a2s,
  NoDup (map snd pairs) -> (forall p, In p pairs -> amap_get a2s (snd p) = None) ->
  integrity_scan upd wh pairs a2s = (a2s ++ map (fun p => (snd p, fst p)) pairs, [], None).
Proof.
  induction pairs as [|[s a0] r IH]; intros a2s ND H.
  - cbn. rewrite app_nil_r. reflexivity.
  - cbn [integrity_scan]. pose proof (H (s, a0) (or_introl eq_refl)) as H0. cbn [snd] in H0. rewrite H0.
    cbn in ND. inversion ND as [|? ? Hn ND']; subst.
    rewrite IH; [cbn; rewrite <- app_assoc; reflexivity|exact ND'|].
    intros p Hp. rewrite amap_get_app, (H p (or_intror Hp)). cbn.
    destruct (Z.eqb a0 (snd p)) eqn:E; [|reflexivity]. apply Z.eqb_eq in E. exfalso. apply Hn.
    rewrite E. apply in_map. exact Hp.
Qed.

Lemma amap_get_swap pairs a s :
  NoDup (map snd pairs) -> (amap_get (map (fun p => (snd p, fst p)) pairs) a = Some s <-> In (s, a) pairs).
Proof.
  induction pairs as [|[s0 a0] r IH]; intros ND; cbn.
  - split; [discriminate|contradiction].
  - cbn in ND. inversion ND as [|? ? Hn ND']; subst. destruct (Z.eqb a0 a) eqn:E.
    + apply Z.eqb_eq in E. subst. split.
      * intros H. inversion H. left. reflexivity.
      * intros [H|H]; [inversion H; reflexivity|]. exfalso. apply Hn.
        change a with (snd (s, a)). apply in_map. exact H.
    + rewrite (IH ND'). split; [intros H; right; exact H|].
      intros [H|H]; [|exact H]. inversion H; subst. rewrite Z.eqb_refl in E. discriminate.
Qed.

(** on a store without double entries the check writes nothing, never hits an assert of the first pass,
    and passes iff every placed instance has its entry under the model's server (model within store;
    entries of pending or unknown instances are NOT noticed) *)
Theorem integrity_nodup upd wh placed pairs :
  NoDup (map snd pairs) ->
  fst (integrity upd wh placed pairs) = [] /\
  (snd (integrity upd wh placed pairs) = IOk <-> forall a s, In (a, s) placed -> In (s, a) pairs) /\
  (snd (integrity upd wh placed pairs) = IOk \/ snd (integrity upd wh placed pairs) = IAssertFailed).
Proof.
  intros ND. unfold integrity. rewrite scan_nodup; [|exact ND|reflexivity]. cbn [app fst snd].
  split; [reflexivity|]. split.
  - destruct (integrity_cross _ placed) eqn:X.
    + split; [|reflexivity]. intros _ a s Hin. rewrite integrity_cross_true in X.
      apply (amap_get_swap pairs a s ND). apply X. exact Hin.
    + split; [discriminate|]. intros H. exfalso.
      assert (integrity_cross (map (fun p => (snd p, fst p)) pairs) placed = true); [|congruence].
      apply integrity_cross_true. intros a s Hin. apply (amap_get_swap pairs a s ND). apply H. exact Hin.
  - destruct (integrity_cross _ placed); auto.
Qed.

(** * Loader.restore_placements: dropping instances restored under two servers *)
Lemma in_nodup_z x l : In x (nodup_z l) <-> In x l.
Proof.
  induction l as [|y l IH]; cbn; [tauto|]. rewrite filter_In, IH. split.
  - intros [H|[H _]]; auto.
  - intros [H|H]; [auto|]. destruct (Z.eq_dec y x) as [E|NE]; [auto|]. right. split; [exact H|].
    apply negb_true_iff. apply Z.eqb_neq. exact NE.
Qed.

Lemma restored_on_in restored a s :
  In s (restored_on restored a) <-> exists l, In (s, l) restored /\ In a l.
Proof.
  unfold restored_on. rewrite in_flat_map. split.
  - intros ([s' l] & Hin & H). cbn [fst snd] in H. destruct (zmem a l) eqn:Z; [|contradiction].
    destruct H as [<-|[]]. exists l. split; [exact Hin|]. apply zmem_In. exact Z.
  - intros (l & Hin & Ha). exists (s, l). split; [exact Hin|]. cbn [fst snd].
    apply zmem_In in Ha. rewrite Ha. left. reflexivity.
Qed.

Lemma in_dedup_writes restored w :
  In w (dedup_writes restored) <->
  exists s a, w = WDel s a /\ In s (restored_on restored a) /\ (2 <= length (restored_on restored a))%nat.
Proof.
  unfold dedup_writes. rewrite in_flat_map. split.
  - intros (a & _ & H). destruct (restored_on restored a) as [|x [|y r]] eqn:R; try contradiction.
    apply in_map_iff in H as (s & <- & Hs). exists s, a. rewrite R. cbn [length]. split; [reflexivity|]. split; [exact Hs|lia].
  - intros (s & a & -> & Hs & L). exists a. split.
    + apply in_nodup_z. apply restored_on_in in Hs as (l & H1 & H2). apply in_flat_map. exists (s, l). auto.
    + destruct (restored_on restored a) as [|x [|y r]]; cbn in L; try lia. apply (in_map (fun s => WDel s a)). exact Hs.
Qed.

Theorem dedup_no_double restored st :
  (forall s a, has st s a = true -> exists l, In (s, l) restored /\ zmem a l = true) ->
  let final := apply_writes st (dedup_writes restored) in
  no_double final /\
  (forall s a, restored_on restored a = [s] -> lookup final s a = lookup st s a).
Proof.
  intros Hst final.
  assert (NP : Forall (fun w => is_put w = false) (dedup_writes restored)).
  { apply Forall_forall. intros w Hw. apply in_dedup_writes in Hw as (s & a & -> & _). reflexivity. }
  assert (RON : forall s a, has final s a = true -> In s (restored_on restored a)).
  { intros s a H. apply (has_apply_nonputs _ _ _ _ NP), Hst in H as (l & H1 & H2).
    apply restored_on_in. exists l. rewrite <- zmem_In. auto. }
  split.
  - intros a s1 s2 H1 H2. destruct (Z.eq_dec s1 s2) as [E|NE]; [exact E|exfalso].
    pose proof (RON _ _ H1) as R1. pose proof (RON _ _ H2) as R2.
    unfold final in H1. rewrite deleted_gone in H1; [discriminate|exact NP|].
    apply in_dedup_writes. exists s1, a. split; [reflexivity|]. split; [exact R1|].
    destruct (restored_on restored a) as [|x [|y r]]; cbn [length]; try lia; [contradiction|].
    destruct R1 as [<-|[]], R2 as [<-|[]]. contradiction.
  - intros s a R. apply lookup_agreed; [|left; reflexivity]. intros w Hw T. exfalso.
    apply in_dedup_writes in Hw as (s' & a' & -> & _ & L). cbn in T. apply same_key_true in T as [-> ->].
    rewrite R in L. cbn in L. lia.
Qed.

(** * Soundness of the executable hypotheses *)
Lemma has_exists st s a : has st s a = true -> exists e, In e st /\ e_server e = s /\ e_app e = a.
Proof.
  unfold has. intros H. apply existsb_exists in H as [e [H1 H2]]. apply key_is_true in H2. exists e. tauto.
Qed.

Lemma no_doubleb_sound st : no_doubleb st = true -> no_double st.
Proof.
  unfold no_doubleb. intros H a s1 s2 H1 H2.
  apply has_exists in H1 as [e1 [I1 [S1 A1]]]. apply has_exists in H2 as [e2 [I2 [S2 A2]]].
  rewrite forallb_forall in H. specialize (H e1 I1). rewrite forallb_forall in H. specialize (H e2 I2).
  rewrite A1, A2, S1, S2, Z.eqb_refl in H. cbn in H. apply Z.eqb_eq in H. congruence.
Qed.

Lemma within_beforeb_sound tuples st : within_beforeb tuples st = true -> within_before tuples st.
Proof.
  unfold within_beforeb. intros H t Ht s Hs. apply has_exists in Hs as [e [I [S A]]].
  rewrite forallb_forall in H. specialize (H t Ht). rewrite forallb_forall in H. specialize (H e I).
  rewrite A, S, Z.eqb_refl in H. cbn in H. apply oeqb_eq in H. exact H.
Qed.

Lemma nodupb_sound l : nodupb l = true -> NoDup l.
Proof.
  induction l as [|x l IH]; cbn; intros H; constructor.
  - apply andb_true_iff in H as [H _]. intros C. apply zmem_In in C. rewrite C in H. discriminate.
  - apply IH. apply andb_true_iff in H. tauto.
Qed.

Lemma unchanged_publishedb_sound tuples i st :
  unchanged_publishedb canonical_cfg tuples i st = true -> unchanged_published tuples i st.
Proof.
  unfold unchanged_publishedb. intros H t Ht Hc s SB. rewrite forallb_forall in H. specialize (H t Ht).
  rewrite Hc, SB in H. cbn in H. destruct (lookup st s (t_name t)) as [d|]; [|discriminate].
  apply pdata_eqb_eq in H. congruence.
Qed.

(** * The published store is the model's placement *)
Lemma lookup_app l1 l2 s a :
  lookup (l1 ++ l2) s a = match lookup l1 s a with Some d => Some d | None => lookup l2 s a end.
Proof.
  induction l1 as [|e l1 IH]; cbn; [reflexivity|]. destruct (key_is s a e); [reflexivity|exact IH].
Qed.

Lemma lookup_model_entry i t s a :
  lookup (match t_sa t with Some s0 => [(s0, t_name t, get_info i (t_name t))] | None => [] end) s a =
  if Z.eqb (t_name t) a && oeqb (t_sa t) (Some s) then Some (get_info i (t_name t)) else None.
Proof.
  destruct (t_sa t) as [s0|]; cbn; [|rewrite andb_false_r; reflexivity].
  unfold key_is. cbn. rewrite andb_comm. destruct (Z.eqb (t_name t) a && Z.eqb s0 s); reflexivity.
Qed.

Lemma lookup_model_entries_none i tuples s a :
  ~ In a (map t_name tuples) -> lookup (model_entries i tuples) s a = None.
Proof.
  unfold model_entries. induction tuples as [|t r IH]; intros H; cbn [flat_map]; [reflexivity|].
  rewrite lookup_app, lookup_model_entry, IH by (intros C; apply H; right; exact C).
  destruct (Z.eqb_spec (t_name t) a) as [E|_]; [|reflexivity]. exfalso. apply H. left. exact E.
Qed.

Lemma lookup_model_entries i tuples s t :
  NoDup (map t_name tuples) -> In t tuples ->
  lookup (model_entries i tuples) s (t_name t) =
  if oeqb (t_sa t) (Some s) then Some (get_info i (t_name t)) else None.
Proof.
  unfold model_entries. induction tuples as [|t0 r IH]; intros ND Hin; [contradiction|].
  cbn [flat_map]. rewrite lookup_app, lookup_model_entry. cbn in ND. inversion ND as [|? ? Hn ND']; subst.
  destruct Hin as [->|Hin].
  - rewrite Z.eqb_refl. cbn [andb]. destruct (oeqb (t_sa t) (Some s)); [reflexivity|].
    exact (lookup_model_entries_none i r s (t_name t) Hn).
  - destruct (Z.eqb_spec (t_name t0) (t_name t)) as [E|_]; [|exact (IH ND' Hin)].
    exfalso. apply Hn. rewrite E. apply in_map. exact Hin.
Qed.

Theorem resched_equals_model c tuples i once st :
  cfg_canonical c = true ->
  NoDup (map t_name tuples) ->
  within_before tuples st ->
  unchanged_published tuples i st ->
  (forall s a, has st s a = true -> In a (map t_name tuples)) ->
  forall s a, lookup (apply_writes st (reschedule_writes c tuples i once)) s a =
              lookup (model_entries i tuples) s a.
Proof.
  intros C ND WB UP Only s a.
  destruct (resched_final c tuples i once st C ND WB UP) as [F1 F2].
  destruct (in_dec Z.eq_dec a (map t_name tuples)) as [Hin|Hn].
  - apply in_map_iff in Hin as [t [<- Ht]]. rewrite (F1 t Ht s), (lookup_model_entries i tuples s t ND Ht). reflexivity.
  - rewrite (F2 a Hn s), (lookup_model_entries_none i tuples s a Hn).
    destruct (lookup st s a) eqn:L; [|reflexivity]. exfalso. apply Hn. apply (Only s).
    rewrite has_lookup, L. reflexivity.
Qed.
