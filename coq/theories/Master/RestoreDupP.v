(** C11: an instance recorded under TWO servers of Loader.servers.
    Server.restore does not look at app.server ([clear_server] in Master/RestoreSched.v), so the instance is restored
    under both: the second server lists it too and app.server names the second, the first still lists it with its
    demand deducted.  The duplicate pass of
    restore_placements ([dedup_cell] + [dedup_writes], Master/RestoreAll.v / Master/Publish.v) then removes it from both.
    Proved here: it is listed by [restored_on] under both; afterwards it names no server, neither server lists it, both
    of its nodes are deleted, and - accounting - every server's free capacity is its capacity minus the demands of the
    instances it still lists and its affinity counters are the counts over the instances it still lists. *)
From Coq Require Import ZArith QArith List Bool Lia.
From RecordUpdate Require Import RecordSet.
From TM Require Import Sched.Vec Sched.Types Sched.Queue Sched.Tree Sched.Cycle Sched.Events.
From TM Require Import Sched.Steps Sched.MapsP Sched.FrameP Sched.InvAcct Sched.InvAff Sched.TurnP.
From TM Require Import Master.Publish Master.PublishP Master.Restore Master.RestoreSched Master.RestoreSchedP.
From TM Require Import Master.RestoreAll Master.RestoreAllP.
Import ListNotations.
Open Scope Z_scope.

(** * What the servers list *)
Definition listed (c : cell) (s a : Z) : Prop :=
  exists sv, get_srv s (c_servers c) = Some sv /\ In a (s_apps sv).
Definition apps_nodup (c : cell) : Prop :=
  forall s sv, get_srv s (c_servers c) = Some sv -> NoDup (s_apps sv).

Lemma listed_ext c c' s a : c_servers c' = c_servers c -> listed c s a <-> listed c' s a.
Proof. intros E. unfold listed. rewrite E. tauto. Qed.
Lemma apps_nodup_ext c c' : c_servers c' = c_servers c -> apps_nodup c -> apps_nodup c'.
Proof. intros E H s sv G. rewrite E in G. exact (H s sv G). Qed.

(** how the lists of two cells compare: entries of instances outside [A] are kept, new entries lie in [N], no list
    gains a repetition *)
Definition lrel (A : Z -> Prop) (N : Z -> Z -> Prop) (c c' : cell) : Prop :=
  (forall s b, ~ A b -> listed c s b -> listed c' s b) /\
  (forall s b, listed c' s b -> listed c s b \/ N s b) /\
  (apps_nodup c -> apps_nodup c').

Lemma lrel_servers A N c c' : c_servers c' = c_servers c -> lrel A N c c'.
Proof.
  intros E. split; [|split].
  - intros s b _. apply (listed_ext c c' s b E).
  - intros s b H. left. apply (listed_ext c c' s b E). exact H.
  - apply apps_nodup_ext. exact E.
Qed.
Lemma lrel_trans A N c1 c2 c3 : lrel A N c1 c2 -> lrel A N c2 c3 -> lrel A N c1 c3.
Proof.
  intros (F1 & B1 & D1) (F2 & B2 & D2). split; [|split]; [auto|intros s b H|auto].
  destruct (B2 s b H) as [H'|H']; auto.
Qed.
Lemma lrel_weaken (A A' : Z -> Prop) (N N' : Z -> Z -> Prop) c c' :
  (forall b, A b -> A' b) -> (forall s b, N s b -> N' s b) -> lrel A N c c' -> lrel A' N' c c'.
Proof.
  intros HA HN (F & B & D). split; [|split]; [intros s b H; apply F; auto|intros s b H|exact D].
  destruct (B s b H) as [H'|H']; auto.
Qed.

(** ** Server.put *)
Lemma servers_srv_put_lease c s a lease c' :
  srv_put_lease c s a lease = Some c' ->
  exists sv x, get_srv s (c_servers c) = Some sv /\ get_app a (c_apps c) = Some x /\ ~ In a (s_apps sv) /\
               c_servers c' = upd_srv s (put_srv a x) (c_servers c).
Proof.
  intros P. destruct (srv_put_lease_inv _ _ _ _ _ P) as (sv & x & GS & GA & PG & SC).
  exists sv, x. split; [exact GS|]. split; [exact GA|]. split.
  - rewrite <- (get_app_name _ _ _ GA). apply (put_guard_spec c sv x lease PG).
  - rewrite (same_core_servers _ _ SC). apply prim_put_servers.
Qed.

Lemma listed_put c s a lease c' :
  srv_put_lease c s a lease = Some c' ->
  listed c' s a /\ (forall s' b, listed c s' b -> listed c' s' b) /\
  (forall s' b, listed c' s' b -> listed c s' b \/ (s' = s /\ b = a)) /\
  (apps_nodup c -> apps_nodup c').
Proof.
  intros P. destruct (servers_srv_put_lease _ _ _ _ _ P) as (sv & x & GS & GA & NI & E).
  pose proof (get_upd_srv_same s (put_srv a x) (c_servers c) sv (put_srv_name a x) GS) as Gs.
  assert (Go : forall s', s' <> s -> get_srv s' (c_servers c') = get_srv s' (c_servers c)).
  { intros s' NE. rewrite E. apply get_upd_srv_other; [apply put_srv_name|exact NE]. }
  rewrite <- E in Gs. split; [|split; [|split]].
  - exists (put_srv a x sv). split; [exact Gs|]. cbn. apply in_or_app. right. left. reflexivity.
  - intros s' b (sv' & G' & I'). destruct (Z.eq_dec s' s) as [->|NE].
    + rewrite GS in G'. inversion G'; subst sv'. exists (put_srv a x sv). split; [exact Gs|]. cbn. apply in_or_app. left. exact I'.
    + exists sv'. rewrite (Go s' NE). auto.
  - intros s' b (sv' & G' & I'). destruct (Z.eq_dec s' s) as [->|NE].
    + rewrite Gs in G'. inversion G'; subst sv'. cbn in I'. apply in_app_or in I' as [I'|[<-|[]]].
      * left. exists sv. auto.
      * right. auto.
    + left. exists sv'. rewrite <- (Go s' NE). auto.
  - intros ND s' sv' G'. destruct (Z.eq_dec s' s) as [->|NE].
    + rewrite Gs in G'. inversion G'; subst sv'. cbn. apply NoDup_snoc; [exact (ND s sv GS)|exact NI].
    + rewrite (Go s' NE) in G'. exact (ND s' sv' G').
Qed.

(** ** Server.remove *)
Lemma srv_remove_inv c s a :
  (exists sv x, get_srv s (c_servers c) = Some sv /\ get_app a (c_apps c) = Some x /\ In a (s_apps sv) /\
                same_core (prim_remove c s a x) (srv_remove c s a)) \/
  (srv_remove c s a = c /\ (~ listed c s a \/ get_app a (c_apps c) = None)).
Proof.
  unfold srv_remove. destruct (get_srv s (c_servers c)) as [sv|] eqn:GS.
  2: { right. split; [reflexivity|]. left. intros (sv & G & _). rewrite GS in G. discriminate. }
  destruct (get_app a (c_apps c)) as [x|] eqn:GA; [|right; auto].
  destruct (Vec.zmem a (s_apps sv)) eqn:Z; cbn [negb].
  - left. exists sv, x. apply MapsP.zmem_In in Z. split; [reflexivity|]. split; [reflexivity|]. split; [exact Z|].
    eapply same_core_trans; [apply bump_from_sc|apply adjust_up_from_sc].
  - right. split; [reflexivity|]. left. intros (sv' & G & I). rewrite GS in G. inversion G; subst sv'.
    apply MapsP.zmem_false in Z. contradiction.
Qed.

Lemma listed_remove c s a :
  (forall s' b, b <> a -> listed c s' b -> listed (srv_remove c s a) s' b) /\
  (forall s' b, listed (srv_remove c s a) s' b -> listed c s' b) /\
  (apps_nodup c -> apps_nodup (srv_remove c s a)) /\
  (forall s', s' <> s -> get_srv s' (c_servers (srv_remove c s a)) = get_srv s' (c_servers c)).
Proof.
  destruct (srv_remove_inv c s a) as [(sv & x & GS & GA & I & SC)|[E _]].
  2: { rewrite E. repeat split; auto. }
  assert (E : c_servers (srv_remove c s a) = upd_srv s (rem_srv a x) (c_servers c))
    by (rewrite (same_core_servers _ _ SC); apply prim_remove_servers).
  pose proof (get_upd_srv_same s (rem_srv a x) (c_servers c) sv (rem_srv_name a x) GS) as Gs. rewrite <- E in Gs.
  assert (Go : forall s', s' <> s -> get_srv s' (c_servers (srv_remove c s a)) = get_srv s' (c_servers c)).
  { intros s' NE. rewrite E. apply get_upd_srv_other; [apply rem_srv_name|exact NE]. }
  split; [|split; [|split]].
  - intros s' b NE (sv' & G' & I'). destruct (Z.eq_dec s' s) as [->|NS].
    + rewrite GS in G'. inversion G'; subst sv'. exists (rem_srv a x sv). split; [exact Gs|]. cbn.
      apply zremove_keep; assumption.
    + exists sv'. rewrite (Go s' NS). auto.
  - intros s' b (sv' & G' & I'). destruct (Z.eq_dec s' s) as [->|NS].
    + rewrite Gs in G'. inversion G'; subst sv'. cbn in I'. apply zremove_In in I'. exists sv. auto.
    + exists sv'. rewrite <- (Go s' NS). auto.
  - intros ND s' sv' G'. destruct (Z.eq_dec s' s) as [->|NS].
    + rewrite Gs in G'. inversion G'; subst sv'. cbn. apply zremove_NoDup. exact (ND s sv GS).
    + rewrite (Go s' NS) in G'. exact (ND s' sv' G').
  - exact Go.
Qed.

Lemma lrel_srv_remove c s a : lrel (fun b => b = a) (fun _ _ => False) c (srv_remove c s a).
Proof. destruct (listed_remove c s a) as (H1 & H2 & H3 & _). split; [|split]; auto. Qed.

Lemma srv_remove_listed c s a x :
  apps_nodup c -> listed c s a -> get_app a (c_apps c) = Some x ->
  ~ listed (srv_remove c s a) s a /\ get_app a (c_apps (srv_remove c s a)) = Some (removed x).
Proof.
  intros ND L GA. destruct (srv_remove_inv c s a) as [(sv & x' & GS & GA' & I & SC)|[_ [NL|GN]]];
    [|contradiction|rewrite GA in GN; discriminate].
  rewrite GA in GA'. inversion GA'; subst x'. split.
  - intros (sv' & G' & I'). rewrite (same_core_servers _ _ SC), prim_remove_servers in G'.
    rewrite (get_upd_srv_same s _ (c_servers c) sv (rem_srv_name a x) GS) in G'. inversion G'; subst sv'. cbn in I'.
    exact (zremove_not_in a (s_apps sv) (ND s sv GS) I').
  - rewrite (same_core_apps _ _ SC), prim_remove_apps. apply get_upd_app_same; [reflexivity|exact GA].
Qed.

Lemma srv_remove_unlisted c s a : ~ listed c s a -> srv_remove c s a = c.
Proof.
  intros NL. destruct (srv_remove_inv c s a) as [(sv & x & GS & _ & I & _)|[E _]]; [|exact E].
  exfalso. apply NL. exists sv. auto.
Qed.

(** ** Cell.remove_app *)
Lemma servers_remove_app c m :
  c_servers (remove_app c m) = c_servers c \/
  exists sn, c_servers (remove_app c m) = c_servers (srv_remove c sn m).
Proof.
  unfold remove_app. destruct (get_app m (c_apps c)) as [a|]; [|left; reflexivity].
  cbn [c_servers set]. rewrite servers_release.
  assert (E : forall c1, c_servers (match a_alloc a with
                                    | Some (l0, p0) => upd_alloc c1 l0 p0 (alloc_del_app m)
                                    | None => c1 end) = c_servers c1).
  { intros c1. destruct (a_alloc a) as [[l0 p0]|]; [apply servers_upd_alloc|reflexivity]. }
  rewrite E. destruct (a_server a) as [sn|]; [|left; reflexivity].
  destruct (is_member c sn); [right; exists sn; reflexivity|left; reflexivity].
Qed.

Lemma lrel_remove_app c m : lrel (fun b => b = m) (fun _ _ => False) c (remove_app c m).
Proof.
  destruct (servers_remove_app c m) as [E|[sn E]]; [apply lrel_servers; exact E|].
  eapply lrel_trans; [apply (lrel_srv_remove c sn m)|apply lrel_servers; exact E].
Qed.

(** ** one node *)
Lemma placed_force c a o y s :
  get_app a (c_apps c) = Some y -> a_server y = Some s ->
  exists z, get_app a (c_apps (match o with Some i => force_identity c a i | None => c end)) = Some z /\ a_server z = Some s.
Proof.
  intros G S. destruct o as [i|]; [|exists y; auto].
  destruct (force_identity_spec c a i y G) as [[z [Gz [_ [Sz _]]]] _]. exists z. split; [exact Gz|congruence].
Qed.

(** each step of a node's processing touches the lists at (server, instance of the node) only *)
Lemma lrel_rstep s a c c' : rstep s a c c' -> lrel (fun b => b = a) (fun s' b => s' = s /\ b = a) c c'.
Proof.
  intros H. destruct H as [c|c lease c' P|c e|c i|c x _ _].
  - apply lrel_servers, clear_server_servers.
  - destruct (listed_put _ _ _ _ _ P) as (_ & H2 & H3 & H4). split; [|split]; auto.
  - apply lrel_servers. reflexivity.
  - apply lrel_servers, servers_force.
  - generalize (lrel_remove_app c a). apply lrel_weaken; [auto|intros s' b []].
Qed.

(** a restored node: the put went through, the server lists the instance, the instance names the server, and no
    entry of any list was lost *)
Lemma restored_node s p ri c n :
  restored (snd (restore_node s p ri c n)) = true ->
  let c' := fst (restore_node s p ri c n) in
  listed c' s (sn_app n) /\ (forall s' b, listed c s' b -> listed c' s' b) /\
  exists y, get_app (sn_app n) (c_apps c') = Some y /\ a_server y = Some s.
Proof.
  unfold restore_node. set (a := sn_app n). destruct (get_app a (c_apps c)) as [x|] eqn:G; [|discriminate].
  pose proof (clear_server_get c a x G) as G0. set (c0 := clear_server c a) in *.
  (* [cs]: the cell Server.put returned, [cr]: after the expiry has been assigned *)
  assert (PATH : forall lease cs cr o, srv_put_lease c0 s a lease = Some cs -> c_servers cr = c_servers cs ->
            (forall y, get_app a (c_apps cs) = Some y -> exists z, get_app a (c_apps cr) = Some z /\ a_server z = a_server y) ->
            let cf := match o with Some i => force_identity cr a i | None => cr end in
            listed cf s a /\ (forall s' b, listed c s' b -> listed cf s' b) /\
            exists y, get_app a (c_apps cf) = Some y /\ a_server y = Some s).
  { intros lease cs cr o P E Y cf. destruct (listed_put _ _ _ _ _ P) as (H1 & H2 & _).
    assert (Ef : c_servers cf = c_servers cs) by (unfold cf; destruct o; [rewrite servers_force|]; exact E).
    split; [apply (listed_ext cs cf _ _ Ef); exact H1|]. split.
    - intros s' b H. apply (listed_ext cs cf s' b Ef), H2, (listed_ext c c0 s' b (clear_server_servers c a)). exact H.
    - destruct (Y (put_upd c0 s lease (x <| a_server := None |>))) as (z & Gz & Sz).
      { rewrite (apps_srv_put_lease _ _ _ _ _ P). apply get_upd_app_same; [apply put_upd_name|exact G0]. }
      rewrite put_upd_server in Sz. exact (placed_force cr a o z s Gz Sz). }
  destruct (sched_verbatim p n).
  - unfold srv_restore. rewrite G0. destruct (srv_put_lease c0 s a 0) as [cs|] eqn:P; cbn [fst snd].
    + intros _. apply (PATH 0 cs); [exact P|reflexivity|]. intros y Gy. exists (y <| a_expiry := Some (sn_expires n) |>). split; [|reflexivity].
      apply (get_upd_app_same a (fun y : app => y <| a_expiry := Some (sn_expires n) |>)); [reflexivity|exact Gy].
    + destruct (a_once x); discriminate.
  - destruct (a_once x); [discriminate|]. unfold srv_put. rewrite G0.
    destruct (srv_put_lease c0 s a _) as [cs|] eqn:P; cbn [fst snd]; [|discriminate].
    intros _. apply (PATH _ cs cs _ P); [reflexivity|eauto].
Qed.

(** ** one server, all servers *)
Lemma lrel_restore_nodes s p ri ns c :
  lrel (fun b => In b (map sn_app ns)) (fun s' b => s' = s /\ In b (map sn_app ns)) c (restore_nodes s p ri c ns).
Proof.
  revert c. apply restore_nodes_rel; [intros c; apply lrel_servers; reflexivity|apply lrel_trans|].
  intros n c c' Hn H. apply lrel_rstep in H. revert H. apply lrel_weaken.
  - intros b ->. apply in_map. exact Hn.
  - intros s' b [-> ->]. split; [reflexivity|apply in_map; exact Hn].
Qed.

Definition recorded_on (servers : list srec) (s b : Z) : Prop :=
  exists sr, In sr servers /\ sr_name sr = s /\ In b (map sn_app (sr_nodes sr)).

Lemma lrel_restore_all ri servers c :
  lrel (fun b => exists s, recorded_on servers s b) (recorded_on servers) c (fst (restore_all ri c servers)).
Proof.
  revert c. apply restore_all_rel; [intros c; apply lrel_servers; reflexivity|apply lrel_trans|].
  intros sr n c c' Hs Hn H.
  assert (R : recorded_on servers (sr_name sr) (sn_app n)) by (exists sr; auto using in_map).
  apply lrel_rstep in H. revert H. apply lrel_weaken; [intros b ->; eauto|intros s' b [-> ->]; exact R].
Qed.

(** the turn of a server one of whose nodes is restored *)
Lemma restored_turn s p ri pre n post c :
  NoDup (map sn_app (pre ++ n :: post)) ->
  restored (snd (restore_node s p ri (restore_nodes s p ri c pre) n)) = true ->
  let c1 := restore_nodes s p ri c (pre ++ n :: post) in
  listed c1 s (sn_app n) /\ (forall s', listed c s' (sn_app n) -> listed c1 s' (sn_app n)) /\
  exists y, get_app (sn_app n) (c_apps c1) = Some y /\ a_server y = Some s.
Proof.
  intros ND R c1. destruct (NoDup_map_mid sn_app pre n post ND) as [NPRE NPOST].
  set (cpre := restore_nodes s p ri c pre) in *.
  assert (E1 : c1 = restore_nodes s p ri (fst (restore_node s p ri cpre n)) post).
  { unfold c1. rewrite restore_nodes_app. reflexivity. }
  destruct (lrel_restore_nodes s p ri pre c) as (P1 & _ & _).
  destruct (restored_node s p ri cpre n R) as (L & MONO & y & Gy & Sy).
  destruct (lrel_restore_nodes s p ri post (fst (restore_node s p ri cpre n))) as (Q1 & _ & _).
  rewrite E1. split; [|split].
  - apply Q1; assumption.
  - intros s' H. apply Q1; [exact NPOST|]. apply MONO. apply P1; assumption.
  - exists y. split; [|exact Sy]. rewrite frame_restore_nodes by exact NPOST. exact Gy.
Qed.

(** * The duplicate pass on the cell *)
Definition dedup_step (restored : list (Z * list Z)) (acc : cell) (a : Z) : cell :=
  match restored_on restored a with
  | s1 :: s2 :: r => fold_left (fun acc' s => srv_remove acc' s a) (s1 :: s2 :: r) acc
  | _ => acc
  end.
Lemma dedup_cell_fold c restored :
  dedup_cell c restored = fold_left (dedup_step restored) (nodup_z (flat_map snd restored)) c.
Proof. reflexivity. Qed.

Lemma dedup_step_other restored c a' :
  lrel (fun b => b = a') (fun _ _ => False) c (dedup_step restored c a') /\
  forall b, b <> a' -> get_app b (c_apps (dedup_step restored c a')) = get_app b (c_apps c).
Proof.
  unfold dedup_step. destruct (restored_on restored a') as [|s1 [|s2 r]];
    try (split; [apply lrel_servers|]; reflexivity).
  split.
  - revert c. apply (remove_all_rel (lrel (fun b => b = a') (fun _ _ => False)) a'); [|apply lrel_trans|].
    + intros c. apply lrel_servers. reflexivity.
    + intros c s. apply lrel_srv_remove.
  - intros b NE. revert c.
    apply (remove_all_rel (fun c c' => get_app b (c_apps c') = get_app b (c_apps c)) a'); [reflexivity|intros; congruence|].
    intros c s. apply frame_srv_remove. exact NE.
Qed.

Section Dup.
  Variables (restored : list (Z * list Z)) (a A B : Z).
  Hypothesis AB : A <> B.
  Hypothesis RON : restored_on restored a = [A; B].

  Definition dupQ (c : cell) : Prop :=
    apps_nodup c /\ listed c A a /\ listed c B a /\ exists y, get_app a (c_apps c) = Some y.
  Definition dupP (c : cell) : Prop :=
    apps_nodup c /\ ~ listed c A a /\ ~ listed c B a /\
    exists y, get_app a (c_apps c) = Some y /\ a_server y = None /\ a_expiry y = None /\ a_evicted y = true.

  Lemma dedup_step_self_Q c : dupQ c -> dupP (dedup_step restored c a).
  Proof.
    intros (ND & LA & LB & y & Gy). unfold dedup_step. rewrite RON. cbn [fold_left].
    destruct (srv_remove_listed c A a y ND LA Gy) as [NA G1].
    destruct (listed_remove c A a) as (_ & _ & ND1 & Go). specialize (ND1 ND).
    assert (LB1 : listed (srv_remove c A a) B a).
    { destruct LB as (sv & G & I). exists sv. rewrite Go by congruence. auto. }
    destruct (srv_remove_listed _ B a _ ND1 LB1 G1) as [NB G2].
    destruct (listed_remove (srv_remove c A a) B a) as (_ & BACK & ND2 & _).
    split; [apply ND2; exact ND1|]. split; [intros H; apply NA; apply BACK; exact H|]. split; [exact NB|].
    eexists. split; [exact G2|]. repeat split.
  Qed.

  Lemma dedup_step_self_P c : dupP c -> dupP (dedup_step restored c a).
  Proof.
    intros H. unfold dedup_step. rewrite RON. cbn [fold_left]. destruct H as (ND & NA & NB & Y).
    rewrite (srv_remove_unlisted c A a NA), (srv_remove_unlisted c B a NB). repeat split; assumption.
  Qed.

  Lemma dedup_step_other_Q c a' : a' <> a -> dupQ c -> dupQ (dedup_step restored c a').
  Proof.
    intros NE (ND & LA & LB & y & Gy). destruct (dedup_step_other restored c a') as ((H1 & _ & H2) & H3).
    split; [apply H2; exact ND|]. split; [apply H1; [congruence|exact LA]|]. split; [apply H1; [congruence|exact LB]|].
    exists y. rewrite H3 by congruence. exact Gy.
  Qed.

  Lemma dedup_step_other_P c a' : a' <> a -> dupP c -> dupP (dedup_step restored c a').
  Proof.
    intros NE (ND & NA & NB & y & Gy & Y). destruct (dedup_step_other restored c a') as ((_ & H1 & H2) & H3).
    split; [apply H2; exact ND|].
    split; [intros H; destruct (H1 _ _ H) as [H'|[]]; exact (NA H')|].
    split; [intros H; destruct (H1 _ _ H) as [H'|[]]; exact (NB H')|].
    exists y. rewrite H3 by congruence. auto.
  Qed.

  Lemma dedup_fold_P L : forall c, dupP c -> dupP (fold_left (dedup_step restored) L c).
  Proof.
    induction L as [|a' L IH]; intros c H; [exact H|]. cbn [fold_left]. apply IH.
    destruct (Z.eq_dec a' a) as [->|NE]; [apply dedup_step_self_P|apply dedup_step_other_P]; assumption.
  Qed.

  Lemma dedup_fold_Q L : forall c, In a L -> dupQ c -> dupP (fold_left (dedup_step restored) L c).
  Proof.
    induction L as [|a' L IH]; intros c Hin H; [contradiction|]. cbn [fold_left].
    destruct (Z.eq_dec a' a) as [->|NE].
    - apply dedup_fold_P. apply dedup_step_self_Q. exact H.
    - destruct Hin as [E|Hin]; [contradiction|]. apply IH; [exact Hin|]. apply dedup_step_other_Q; assumption.
  Qed.
End Dup.

Lemma dedup_cell_listed_back restored : forall c s b, listed (dedup_cell c restored) s b -> listed c s b.
Proof.
  apply (dedup_cell_rel (fun c c' => forall s b, listed c' s b -> listed c s b)); [auto|auto|].
  intros c s a _. apply listed_remove.
Qed.

(** the turn of a server in the loop, one of whose nodes is restored and whose instance no later server records:
    when the loop is over the server lists the instance, every server that listed it before the turn still does, and
    [integrity] has the server as the last one for the instance *)
Lemma restored_in_loop ri c spre sr spost pre n post :
  sr_nodes sr = pre ++ n :: post -> NoDup (map sn_app (sr_nodes sr)) ->
  (forall sr', In sr' spost -> ~ In (sn_app n) (map sn_app (sr_nodes sr'))) ->
  let cs := fst (restore_all ri c spre) in
  restored (snd (restore_node (sr_name sr) (sr_presence sr) ri
                   (restore_nodes (sr_name sr) (sr_presence sr) ri cs pre) n)) = true ->
  let r := restore_all ri c (spre ++ sr :: spost) in
  listed (fst r) (sr_name sr) (sn_app n) /\ (forall s', listed cs s' (sn_app n) -> listed (fst r) s' (sn_app n)) /\
  (exists y, get_app (sn_app n) (c_apps (fst r)) = Some y) /\
  restored_on (snd r) (sn_app n) = restored_on (snd (restore_all ri c spre)) (sn_app n) ++ [sr_name sr].
Proof.
  intros En ND Hpost cs R r. unfold r. rewrite ra_split. cbn zeta. cbn [fst snd]. fold cs.
  rewrite En in ND. destruct (restored_turn _ _ ri pre n post cs ND R) as (L & MONO & y & Gy & _). rewrite <- En in L, MONO, Gy.
  assert (KEEP : forall c0 s', listed c0 s' (sn_app n) -> listed (fst (restore_all ri c0 spost)) s' (sn_app n)).
  { intros c0 s'. apply (lrel_restore_all ri spost c0). intros (s'' & sr' & Hin & _ & I). exact (Hpost sr' Hin I). }
  split; [apply KEEP; exact L|]. split; [intros s' H; apply KEEP, MONO; exact H|]. split.
  - exists y. rewrite restore_all_frame by exact Hpost. exact Gy.
  - rewrite restored_on_app, restored_on_cons, (restored_on_unrecorded ri _ spost _ Hpost), app_nil_r.
    replace (zmem (sn_app n) _) with true; [reflexivity|]. symmetry.
    apply zmem_In, restored_names_spec. exists pre, n, post. auto.
Qed.

(** * The instance recorded under two servers
    Side conditions: node names under one /placement/<server> are distinct (children of one ZooKeeper node); the two
    servers have different names (keys of the dict Loader.servers); no server lists an instance twice when
    restore_placements starts (Server.apps is a dict; Sched/InvAcct.v [ac_nodup]). *)
Theorem restore_placements_duplicate ri c s1 srA s2 srB s3 preA nA postA preB nB postB :
  let A := sr_name srA in
  let B := sr_name srB in
  let a := sn_app nA in
  sr_nodes srA = preA ++ nA :: postA -> sr_nodes srB = preB ++ nB :: postB -> sn_app nB = a ->
  NoDup (map sn_app (sr_nodes srA)) -> NoDup (map sn_app (sr_nodes srB)) ->
  A <> B ->
  (forall sr, In sr (s1 ++ s2 ++ s3) -> ~ In a (map sn_app (sr_nodes sr))) ->
  apps_nodup c ->
  let cA := restore_nodes A (sr_presence srA) ri (fst (restore_all ri c s1)) preA in
  let cB := restore_nodes B (sr_presence srB) ri (fst (restore_all ri c (s1 ++ srA :: s2))) preB in
  restored (snd (restore_node A (sr_presence srA) ri cA nA)) = true ->
  restored (snd (restore_node B (sr_presence srB) ri cB nB)) = true ->
  forall cf rs ws, restore_placements ri c (s1 ++ srA :: s2 ++ srB :: s3) = (cf, rs, ws) ->
  restored_on rs a = [A; B] /\
  (exists x, get_app a (c_apps cf) = Some x /\ a_server x = None /\ a_expiry x = None /\ a_evicted x = true) /\
  ~ listed cf A a /\ ~ listed cf B a /\
  (forall s, listed cf s a -> listed c s a) /\
  In (WDel A a) ws /\ In (WDel B a) ws.
Proof.
  intros A B a EA EB EnB NDA NDB AB UNREC ND0 cA cB RA RB cf rs ws EQ.
  assert (U1 : forall sr, In sr s1 -> ~ In a (map sn_app (sr_nodes sr))) by (intros sr H; apply UNREC; auto using in_or_app).
  assert (U2 : forall sr, In sr s2 -> ~ In a (map sn_app (sr_nodes sr))) by (intros sr H; apply UNREC; auto using in_or_app).
  assert (U3 : forall sr, In sr s3 -> ~ In a (map sn_app (sr_nodes sr))) by (intros sr H; apply UNREC; auto using in_or_app).
  (* the turn of srA in the loop up to srB, the turn of srB in the whole loop *)
  destruct (restored_in_loop ri c s1 srA s2 preA nA postA EA NDA U2 RA) as (LA2 & _ & _ & RONA).
  pose proof (restored_in_loop ri c (s1 ++ srA :: s2) srB s3 preB nB postB EB NDB) as TB.
  rewrite <- app_assoc, EnB in TB. cbn [Datatypes.app] in TB. destruct (TB U3 RB) as (LB & MONO & Y & RON).
  fold A a in LA2, RONA. fold B in LB, RON. rewrite RONA, (restored_on_unrecorded ri c s1 a U1) in RON. cbn [Datatypes.app] in RON.
  set (servers := s1 ++ srA :: s2 ++ srB :: s3) in *.
  pose proof (lrel_restore_all ri servers c) as (_ & BACK & NODUP).
  unfold restore_placements in EQ. destruct (restore_all ri c servers) as [c3 restored].
  inversion EQ; subst cf rs ws. cbn [fst snd] in *.
  assert (INL : In a (nodup_z (flat_map snd restored))).
  { apply in_nodup_z. assert (HA : In A (restored_on restored a)) by (rewrite RON; left; reflexivity).
    apply restored_on_in in HA as (l & H1 & H2). apply in_flat_map. exists (A, l). auto. }
  assert (Q : dupQ a A B c3) by (split; [exact (NODUP ND0)|split; [exact (MONO A LA2)|split; [exact LB|exact Y]]]).
  pose proof (dedup_fold_Q restored a A B AB RON _ c3 INL Q) as DP. rewrite <- dedup_cell_fold in DP.
  destruct DP as (_ & NA & NB & Y').
  assert (DEL : forall s, In s [A; B] -> In (WDel s a) (dedup_writes restored)).
  { intros s Hs. apply in_dedup_writes. exists s, a. rewrite RON. cbn [length]. auto. }
  split; [exact RON|]. split; [exact Y'|]. split; [exact NA|]. split; [exact NB|].
  split; [|split; apply DEL; cbn; auto].
  (* a server that lists it afterwards listed it before: the loop adds entries under recording servers only *)
  intros s H. apply dedup_cell_listed_back in H as H3.
  destruct (BACK s a H3) as [H0|(sr & Hin & <- & I)]; [exact H0|exfalso].
  unfold servers in Hin. apply in_app_or in Hin as [Hin|[<-|Hin]]; [exact (U1 sr Hin I)|exact (NA H)|].
  apply in_app_or in Hin as [Hin|[<-|Hin]]; [exact (U2 sr Hin I)|exact (NB H)|exact (U3 sr Hin I)].
Qed.


(** * Accounting
    The two-views invariant Sched/InvAcct.v [Acct] does not hold while an instance sits on two servers (the first
    lists it, the instance names the second); what does hold throughout, and what [restore_placements_accounting] needs, is its accounting
    half [WAcct] (free + demands of the listed instances = capacity) together with Sched/InvAff.v [Aff] (the stored
    server-level affinity counters are the true counts over the listed instances), neither of which reads app.server.
    Side condition: none of the recorded instances is schedule_once ([once_free_on]): a schedule-once instance that
    cannot be put back is removed with Cell.remove_app, which takes it off app.server only - if it is also listed by an
    earlier server (recorded under three servers, refused by the third) Python itself leaves that server's books wrong
    and then fails the assertion in Server.remove during the duplicate pass. *)
Record WAcct (c : cell) : Prop := {
  w_srv_dims : forall n s, get_srv n (c_servers c) = Some s ->
                           length (s_cap s) = c_dim c /\ length (s_free s) = c_dim c /\ nonneg (s_free s);
  w_app_dims : forall n a, get_app n (c_apps c) = Some a -> length (a_demand a) = c_dim c /\ nonneg (a_demand a);
  w_acct : forall n s, get_srv n (c_servers c) = Some s ->
                       vadd (s_free s) (total (c_apps c) (c_dim c) (s_apps s)) = s_cap s
}.

Lemma Acct_WAcct c : Acct c -> WAcct c.
Proof. intros [A1 A2 A3 A4 A5 A6 A7 A8]. constructor; assumption. Qed.

Definition once_free_on (S : Z -> Prop) (c : cell) : Prop :=
  forall m x, S m -> get_app m (c_apps c) = Some x -> a_once x = false.

Definition app_soft (x y : app) : Prop :=
  a_name x = a_name y /\ a_demand x = a_demand y /\ a_aff x = a_aff y /\ a_limits x = a_limits y /\ a_once x = a_once y.

Lemma get_app_soft l l' : Forall2 app_soft l l' -> forall n,
  match get_app n l, get_app n l' with
  | Some a, Some b => app_soft a b
  | None, None => True
  | _, _ => False
  end.
Proof. apply get_app_Forall2. intros a b H. apply H. Qed.

Lemma total_soft l l' dim names : Forall2 app_soft l l' -> total l dim names = total l' dim names.
Proof.
  intros Hf. induction names as [|n r IH]; cbn; [reflexivity|]. rewrite IH. f_equal.
  unfold demand_of. pose proof (get_app_soft _ _ Hf n) as H.
  destruct (get_app n l), (get_app n l'); try contradiction; [destruct H as (_ & H & _); exact H|reflexivity].
Qed.

Definition WA (S : Z -> Prop) (c : cell) : Prop := WAcct c /\ Aff c /\ once_free_on S c.

Lemma WAcct_soft c c' :
  c_dim c' = c_dim c -> c_servers c' = c_servers c -> Forall2 app_soft (c_apps c) (c_apps c') -> WAcct c -> WAcct c'.
Proof.
  intros Hd Hs Hf [W1 W2 W3]. constructor; rewrite ?Hd, ?Hs.
  - exact W1.
  - intros n b Hb. pose proof (get_app_soft _ _ Hf n) as H. rewrite Hb in H.
    destruct (get_app n (c_apps c)) as [a0|] eqn:E; [|contradiction]. destruct H as (_ & H & _). rewrite <- H.
    eapply W2; exact E.
  - intros n s Hg. rewrite <- (total_soft _ _ _ _ Hf). eapply W3; exact Hg.
Qed.

Lemma once_free_on_soft S c c' : Forall2 app_soft (c_apps c) (c_apps c') -> once_free_on S c -> once_free_on S c'.
Proof.
  intros Hf HO m y HS Hy. pose proof (get_app_soft _ _ Hf m) as H. rewrite Hy in H.
  destruct (get_app m (c_apps c)) as [x|] eqn:E; [|contradiction]. destruct H as (_ & _ & _ & _ & H). rewrite <- H.
  eapply HO; eassumption.
Qed.

Lemma WA_soft S c c' :
  c_dim c' = c_dim c -> c_servers c' = c_servers c -> Forall2 app_soft (c_apps c) (c_apps c') -> WA S c -> WA S c'.
Proof.
  intros Hd Hs Hf (HW & HA & HO). split; [|split].
  - eapply WAcct_soft; eassumption.
  - revert HA. apply Aff_eqa; [exact Hs|]. clear -Hf.
    induction Hf as [|x y l l' (H1 & _ & H3 & H4 & _) _ IH]; constructor; [repeat split; assumption|exact IH].
  - eapply once_free_on_soft; eassumption.
Qed.

Lemma Forall2_soft_refl l : Forall2 app_soft l l.
Proof. apply Forall2_diag. repeat split. Qed.
Lemma Forall2_soft_upd n f l : (forall x, app_soft x (f x)) -> Forall2 app_soft l (upd_app n f l).
Proof. apply Forall2_upd_app. repeat split. Qed.

Lemma WA_upd_app S c n f : (forall x, app_soft x (f x)) -> WA S c -> WA S (c_upd_app n f c).
Proof. intros Hf. apply WA_soft; [reflexivity|reflexivity|apply Forall2_soft_upd; exact Hf]. Qed.
Lemma WA_same_core S c c' : same_core c c' -> WA S c -> WA S c'.
Proof. intros (H1 & _ & H3 & H4 & _). apply WA_soft; [exact H1|exact H3|rewrite H4; apply Forall2_soft_refl]. Qed.

Lemma WA_clear_server S c a : WA S c -> WA S (clear_server c a).
Proof.
  intros H. unfold clear_server. destruct (get_app a (c_apps c)) as [x|]; [|exact H].
  destruct (a_server x); [|exact H]. apply WA_upd_app; [|exact H]. intros y. repeat split.
Qed.

Lemma WA_force S c a o : WA S c -> WA S (match o with Some i => force_identity c a i | None => c end).
Proof.
  intros H. destruct o as [i|]; [|exact H]. unfold force_identity. destruct (get_app a (c_apps c)) as [x|]; [|exact H].
  apply WA_upd_app; [intros y; repeat split|]. revert H. apply WA_soft.
  - destruct (group_of c x) as [[g grp]|]; reflexivity.
  - destruct (group_of c x) as [[g grp]|]; reflexivity.
  - destruct (group_of c x) as [[g grp]|]; apply Forall2_soft_refl.
Qed.

Lemma WAcct_upd_srv c sn f s :
  (forall x, s_name (f x) = s_name x) -> get_srv sn (c_servers c) = Some s -> WAcct c ->
  length (s_cap (f s)) = c_dim c /\ length (s_free (f s)) = c_dim c /\ nonneg (s_free (f s)) ->
  vadd (s_free (f s)) (total (c_apps c) (c_dim c) (s_apps (f s))) = s_cap (f s) ->
  WAcct (c_upd_srv sn f c).
Proof.
  intros Hf Hs [W1 W2 W3] D A.
  assert (G : forall n s', get_srv n (c_servers (c_upd_srv sn f c)) = Some s' ->
                           s' = f s \/ get_srv n (c_servers c) = Some s').
  { intros n s' H. apply get_upd_srv_inv in H as [(_ & s0 & E & ->)|[_ H]]; [left; congruence|right; exact H|exact Hf]. }
  constructor; cbn [c_upd_srv c_apps c_dim set]; [|exact W2|]; intros n s' H; destruct (G n s' H) as [->|H']; eauto.
Qed.

(** Server.put, the server's books *)
Lemma WAcct_put_srv c sn an s a lease :
  get_srv sn (c_servers c) = Some s -> get_app an (c_apps c) = Some a -> put_guard c s a lease = true ->
  WAcct c -> WAcct (c_upd_srv sn (put_srv an a) c).
Proof.
  intros Hs Ha Hg W. pose proof W as [W1 W2 W3].
  destruct (put_guard_spec c s a lease Hg) as (_ & _ & _ & _ & Hcap & _). destruct (W1 _ _ Hs) as (Hlc & Hlf & _).
  destruct (books_put (c_apps c) (c_dim c) _ _ _ an a (fun n0 a0 Hq => proj1 (W2 n0 a0 Hq)) Ha Hlf Hcap (W3 _ _ Hs))
    as (B1 & B2 & B3).
  apply (WAcct_upd_srv c sn (put_srv an a) s (put_srv_name an a) Hs W); cbn; auto.
Qed.

Lemma put_upd_soft c s l x : app_soft x (put_upd c s l x).
Proof. unfold put_upd. destruct (a_expiry x); repeat split. Qed.

Lemma WA_prim_put S c sn an s a lease :
  get_srv sn (c_servers c) = Some s -> get_app an (c_apps c) = Some a -> put_guard c s a lease = true ->
  WA S c -> WA S (prim_put c sn an a lease).
Proof.
  intros Hs Ha Hg (HW & HA & HO).
  assert (SOFT : Forall2 app_soft (c_apps c) (c_apps (prim_put c sn an a lease))).
  { rewrite prim_put_apps. apply Forall2_soft_upd. apply put_upd_soft. }
  split; [|split].
  - apply (WAcct_soft (c_upd_srv sn (put_srv an a) c)); [reflexivity|reflexivity|exact SOFT|].
    eapply WAcct_put_srv; eassumption.
  - eapply Aff_put; eassumption.
  - eapply once_free_on_soft; [exact SOFT|exact HO].
Qed.

(** Server.remove, the server's books *)
Lemma WAcct_rem_srv c sn an s a :
  get_srv sn (c_servers c) = Some s -> get_app an (c_apps c) = Some a -> In an (s_apps s) ->
  WAcct c -> WAcct (c_upd_srv sn (rem_srv an a) c).
Proof.
  intros Hs Ha Hm W. pose proof W as [W1 W2 W3].
  destruct (W1 _ _ Hs) as (Hlc & Hlf & Hnf).
  destruct (books_remove (c_apps c) (c_dim c) _ _ _ an a (fun n0 a0 Hq => proj1 (W2 n0 a0 Hq)) Ha (proj2 (W2 _ _ Ha))
              Hlf Hnf Hm (W3 _ _ Hs)) as (B1 & B2 & B3).
  apply (WAcct_upd_srv c sn (rem_srv an a) s (rem_srv_name an a) Hs W); cbn; auto.
Qed.

Lemma WA_srv_remove S c s a : WA S c -> WA S (srv_remove c s a).
Proof.
  intros H. destruct (srv_remove_inv c s a) as [(sv & x & GS & GA & I & SC)|[E _]]; [|rewrite E; exact H].
  apply (WA_same_core S _ _ SC). destruct H as (HW & HA & HO).
  assert (SOFT : Forall2 app_soft (c_apps c) (c_apps (prim_remove c s a x))).
  { rewrite prim_remove_apps. apply Forall2_soft_upd. intros y. repeat split. }
  split; [|split].
  - apply (WAcct_soft (c_upd_srv s (rem_srv a x) c)); [reflexivity|reflexivity|exact SOFT|].
    eapply WAcct_rem_srv; eassumption.
  - eapply Aff_remove; [exact GS|exact GA|apply MapsP.zmem_In; exact I|exact HA].
  - eapply once_free_on_soft; [exact SOFT|exact HO].
Qed.

Lemma WA_srv_put_lease S c s a lease c' : srv_put_lease c s a lease = Some c' -> WA S c -> WA S c'.
Proof.
  intros P H. destruct (srv_put_lease_inv _ _ _ _ _ P) as (sv & x & GS & GA & PG & SC).
  apply (WA_same_core S _ _ SC). eapply WA_prim_put; eassumption.
Qed.

(** every step of the node of a recorded instance that is not schedule_once *)
Lemma WA_rstep (S : Z -> Prop) s a c c' : S a -> rstep s a c c' -> WA S c -> WA S c'.
Proof.
  intros HS H W. destruct H as [c|c lease c' P|c e|c i|c x G O].
  - apply WA_clear_server. exact W.
  - exact (WA_srv_put_lease S _ _ _ _ _ P W).
  - apply WA_upd_app; [intros y; repeat split|exact W].
  - exact (WA_force S c a (Some i) W).
  - destruct W as (_ & _ & HO). rewrite (HO a x HS G) in O. discriminate.
Qed.

Lemma WA_restore_all (S : Z -> Prop) ri servers : forall c,
  (forall sr n, In sr servers -> In n (sr_nodes sr) -> S (sn_app n)) -> WA S c -> WA S (fst (restore_all ri c servers)).
Proof.
  intros c HS. revert c. apply (restore_all_rel ri (fun c c' => WA S c -> WA S c')); [auto|auto|].
  intros sr n c c' Hs Hn. apply WA_rstep. exact (HS sr n Hs Hn).
Qed.

Lemma WA_dedup_cell S restored : forall c, WA S c -> WA S (dedup_cell c restored).
Proof.
  apply (dedup_cell_rel (fun c c' => WA S c -> WA S c')); [auto|auto|]. intros c s a _. apply WA_srv_remove.
Qed.

Definition recorded (servers : list srec) (m : Z) : Prop :=
  exists sr n, In sr servers /\ In n (sr_nodes sr) /\ m = sn_app n.

(** after restore_placements - both loops, any number of instances recorded under several servers - every server's
    free capacity is its capacity minus the demands of the instances it (still) lists, it is non-negative, and its
    affinity counters are the counts over the instances it (still) lists *)
Theorem restore_placements_accounting ri c servers :
  Acct c -> Aff c -> once_free_on (recorded servers) c ->
  forall cf rs ws, restore_placements ri c servers = (cf, rs, ws) ->
  forall s sv, get_srv s (c_servers cf) = Some sv ->
    vadd (s_free sv) (total (c_apps cf) (c_dim cf) (s_apps sv)) = s_cap sv /\
    nonneg (s_free sv) /\
    forall aff, cget aff (s_counters sv) = count_aff (c_apps cf) aff (s_apps sv).
Proof.
  intros HA HF HO cf rs ws EQ. unfold restore_placements in EQ.
  assert (H : WA (recorded servers) (fst (restore_all ri c servers))).
  { apply WA_restore_all.
    - intros sr n Hs Hn. exists sr, n. auto.
    - split; [apply Acct_WAcct; exact HA|]. split; assumption. }
  destruct (restore_all ri c servers) as [c' restored]. inversion EQ; subst cf rs ws. cbn [fst] in H.
  apply (WA_dedup_cell _ restored) in H. destruct H as ([W1 W2 W3] & [A1 _ _] & _).
  intros s sv G. split; [exact (W3 s sv G)|]. split; [apply (W1 s sv G)|]. intros aff. exact (A1 s sv aff G).
Qed.

(** * The two-server data of Master/RestoreAllP.v: instance 2 is recorded under 1000 (expires 888) and 1001
    (expires 999).  Both nodes are restored; after the first loop both servers list it, the instance names 1001 with
    expiry 999, and each server has its demand deducted (free 100 = 300 - 2 x 100) and counts it (affinity counter 2;
    4 in the bucket above).  The duplicate pass deletes both nodes and takes it off both servers: it names no server,
    is marked evicted, and servers AND buckets are exactly what processing the same two servers without the two nodes
    of instance 2 gives. *)
Example ax_duplicate_on_data :
  let c0 := fst (restore_all true ax_cell [ax_s0]) in
  let r := restore_all true ax_cell [ax_s0; ax_s1] in
  let '(cf, rs, ws) := restore_placements true ax_cell [ax_s0; ax_s1] in
  let '(cf', _, ws') := restore_placements true ax_cell [mkSR 1000 (Some 5) [mkSN 1 (Some 2) 777 9];
                                                         mkSR 1001 (Some 5) [mkSN 3 None 555 9]] in
  snd (restore_node 1000 (Some 5) true (restore_nodes 1000 (Some 5) true ax_cell [mkSN 1 (Some 2) 777 9])
                    (mkSN 2 None 888 9)) = RRestore 888 None /\
  ax_view c0 2 = Some (Some 1000, Some 888, None, false) /\
  snd (restore_node 1001 (Some 5) true c0 (mkSN 2 None 999 9)) = RRestore 999 None /\
  ax_view (fst r) 2 = Some (Some 1001, Some 999, None, false) /\
  ax_on (fst r) 1000 = Some ([1; 2], [100; 100; 100], [(3000, 2)]) /\
  ax_on (fst r) 1001 = Some ([2; 3], [100; 100; 100], [(3000, 2)]) /\
  map (fun b => (b_name b, b_free b, b_counters b)) (c_buckets (fst r)) = [(2000, [100; 100; 100], [(3000, 4)])] /\
  rs = snd r /\ restored_on rs 2 = [1000; 1001] /\
  ws = [WDel 1000 2; WDel 1001 2] /\
  ax_view cf 2 = Some (None, None, None, true) /\
  ax_on cf 1000 = Some ([1], [200; 200; 200], [(3000, 1)]) /\
  ax_on cf 1001 = Some ([3], [200; 200; 200], [(3000, 1)]) /\
  map (fun b => (b_name b, b_free b, b_counters b)) (c_buckets cf) = [(2000, [200; 200; 200], [(3000, 2)])] /\
  c_servers cf = c_servers cf' /\ c_buckets cf = c_buckets cf' /\ ws' = [] /\
  ax_view cf 1 = ax_view cf' 1 /\ ax_view cf 3 = ax_view cf' 3.
Proof. vm_compute. repeat split. Qed.

(** the theorems applied to the data (their hypotheses are satisfiable) *)
Lemma ax_AA : Acct ax_cell /\ Aff ax_cell.
Proof.
  apply (AA_run ax_ops (init_cell 3 2000 1)); [|apply AA_init]. apply wf_ops_affb_sound. vm_compute. reflexivity.
Qed.

Example ax_duplicate_applied :
  forall cf rs ws,
    restore_placements true ax_cell [ax_s0; ax_s1] = (cf, rs, ws) ->
    restored_on rs 2 = [1000; 1001] /\
    (exists x, get_app 2 (c_apps cf) = Some x /\ a_server x = None /\ a_expiry x = None /\ a_evicted x = true) /\
    ~ listed cf 1000 2 /\ ~ listed cf 1001 2 /\ In (WDel 1000 2) ws /\ In (WDel 1001 2) ws /\
    forall s sv, get_srv s (c_servers cf) = Some sv ->
      vadd (s_free sv) (total (c_apps cf) (c_dim cf) (s_apps sv)) = s_cap sv /\
      forall aff, cget aff (s_counters sv) = count_aff (c_apps cf) aff (s_apps sv).
Proof.
  intros cf rs ws EQ. destruct ax_AA as [HA HF].
  assert (ND0 : apps_nodup ax_cell) by (intros s sv G; exact (ac_nodup _ HA s sv G)).
  assert (NDA : NoDup (map sn_app (sr_nodes ax_s0))) by (apply nodupb_sound; reflexivity).
  assert (NDB : NoDup (map sn_app (sr_nodes ax_s1))) by (apply nodupb_sound; reflexivity).
  assert (AB : sr_name ax_s0 <> sr_name ax_s1) by (cbn; congruence).
  assert (UNREC : forall sr, In sr ([] ++ [] ++ []) -> ~ In (sn_app (mkSN 2 None 888 9)) (map sn_app (sr_nodes sr)))
    by (intros sr []).
  assert (RA : restored (snd (restore_node (sr_name ax_s0) (sr_presence ax_s0) true
                                (restore_nodes (sr_name ax_s0) (sr_presence ax_s0) true
                                               (fst (restore_all true ax_cell [])) [mkSN 1 (Some 2) 777 9])
                                (mkSN 2 None 888 9))) = true) by (vm_compute; reflexivity).
  assert (RB : restored (snd (restore_node (sr_name ax_s1) (sr_presence ax_s1) true
                                (restore_nodes (sr_name ax_s1) (sr_presence ax_s1) true
                                               (fst (restore_all true ax_cell ([] ++ ax_s0 :: []))) [])
                                (mkSN 2 None 999 9))) = true) by (vm_compute; reflexivity).
  assert (ONCE : once_free_on (recorded [ax_s0; ax_s1]) ax_cell).
  { intros m x _ G. assert (E : forallb (fun y => negb (a_once y)) (c_apps ax_cell) = true) by (vm_compute; reflexivity).
    rewrite forallb_forall in E. apply negb_true_iff. apply E. eapply get_app_In. exact G. }
  destruct (restore_placements_duplicate true ax_cell [] ax_s0 [] ax_s1 []
              [mkSN 1 (Some 2) 777 9] (mkSN 2 None 888 9) [] [] (mkSN 2 None 999 9) [mkSN 3 None 555 9]
              eq_refl eq_refl eq_refl NDA NDB AB UNREC ND0 RA RB cf rs ws EQ) as (H1 & H2 & H3 & H4 & _ & H6 & H7).
  pose proof (restore_placements_accounting true ax_cell [ax_s0; ax_s1] HA HF ONCE cf rs ws EQ) as K.
  split; [exact H1|]. split; [exact H2|]. split; [exact H3|]. split; [exact H4|]. split; [exact H6|]. split; [exact H7|].
  intros s sv G. destruct (K s sv G) as (K1 & _ & K3). split; assumption.
Qed.
