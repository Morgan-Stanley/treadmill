(** Lemmas about Store/ZkUtils.v: path tables and well-formed trees ([wf]), the outcomes of the server's create and of
    kazoo's create(makepath=True) ([srv_createP], [k_createP]), the except branches of put and update, the recursive
    delete ([ens_del_spec]), and the map [abs] through which the backends are compared with harness/emaster.py. *)
From Coq Require Import ZArith List Bool Lia.
From TM Require Base.Flat.
From TM Require Import Store.ZkUtils.
Import ListNotations.
Open Scope Z_scope.

(** * Equality tests, tables *)
Lemma zl_eqb_eq a b : zl_eqb a b = true <-> a = b.
Proof. exact (Flat.zlist_eqb_eq a b). Qed.

Lemma zl_eqb_refl a : zl_eqb a a = true.
Proof. apply zl_eqb_eq. reflexivity. Qed.

Lemma path_eqb_eq a b : path_eqb a b = true <-> a = b.
Proof.
  revert b; induction a as [|x a IH]; intros [|y b]; cbn; try easy.
  rewrite andb_true_iff, zl_eqb_eq, IH. split; [intros [-> ->] | intros [= -> ->]]; auto.
Qed.

Lemma path_eqb_spec a b : reflect (a = b) (path_eqb a b).
Proof. apply iff_reflect. symmetry. apply path_eqb_eq. Qed.

Lemma path_eqb_refl p : path_eqb p p = true.
Proof. apply path_eqb_eq. reflexivity. Qed.

Lemma path_eqb_neq a b : a <> b -> path_eqb a b = false.
Proof. intros H. destruct (path_eqb_spec a b); congruence. Qed.

Lemma lookup_upsert {A} p q (a : A) l :
  lookup q (upsert p a l) = if path_eqb p q then Some a else lookup q l.
Proof.
  induction l as [|[k b] l IH]; cbn [upsert lookup]; [reflexivity|].
  destruct (path_eqb_spec k p) as [->|N]; cbn [lookup]; [destruct (path_eqb p q); reflexivity|]. rewrite IH.
  destruct (path_eqb_spec k q) as [->|]; [rewrite path_eqb_neq by congruence|]; reflexivity.
Qed.

Lemma lookup_del_where {A} (f : path -> bool) q (l : list (path * A)) :
  lookup q (del_where f l) = if f q then None else lookup q l.
Proof.
  induction l as [|[k b] l IH]; cbn [del_where filter lookup fst]; [destruct (f q); reflexivity|].
  fold (del_where f l). destruct (f k) eqn:Ek; cbn [negb lookup];
    destruct (path_eqb_spec k q) as [->|]; rewrite ?IH, ?Ek; reflexivity.
Qed.

Lemma find_upsert p q n N : find (upsert p n N) q = if path_eqb p q then Some n else find N q.
Proof. unfold find. rewrite lookup_upsert. destruct (path_eqb p q); reflexivity. Qed.

Lemma find_del_where f q N : f [] = false ->
  find (del_where f N) q = if f q then None else find N q.
Proof.
  intros H0. unfold find. rewrite lookup_del_where. destruct (f q) eqn:E; [|reflexivity].
  destruct q; [congruence | reflexivity].
Qed.

Lemma has_true N q : has N q = true <-> exists n, find N q = Some n.
Proof. unfold has. destruct (find N q); split; intros H; eauto; try discriminate. destruct H; discriminate. Qed.
Lemma has_false N q : has N q = false <-> find N q = None.
Proof. unfold has. destruct (find N q); split; intros H; congruence. Qed.

Lemma has_upsert p q n N : has (upsert p n N) q = path_eqb p q || has N q.
Proof. unfold has. rewrite find_upsert. destruct (path_eqb p q); reflexivity. Qed.

Lemma has_upsert_present N p n q : has N p = true -> has (upsert p n N) q = has N q.
Proof. intros H. rewrite has_upsert. destruct (path_eqb_spec p q) as [<-|]; [rewrite H|]; reflexivity. Qed.

Lemma has_root N : has N [] = true.
Proof. unfold has, find. destruct (lookup [] N); reflexivity. Qed.

Lemma lookup_In {A} p (a : A) l : lookup p l = Some a -> In (p, a) l.
Proof.
  induction l as [|[k b] l IH]; cbn; [discriminate|].
  destruct (path_eqb_spec k p) as [->|]; [intros [= ->]; left; reflexivity | right; auto].
Qed.

Lemma In_lookup {A} p (a : A) l : In (p, a) l -> exists b, lookup p l = Some b.
Proof.
  induction l as [|[k b] l IH]; cbn; [tauto|].
  intros [[= -> ->]|H]; [rewrite path_eqb_refl | destruct (path_eqb k p)]; eauto.
Qed.

Lemma In_has N q n : In (q, n) N -> has N q = true.
Proof. intros H. destruct (In_lookup _ _ _ H) as [b Hb]. unfold has, find. rewrite Hb. reflexivity. Qed.

Lemma has_In N q : has N q = true -> q <> [] -> exists n, In (q, n) N.
Proof.
  unfold has, find. destruct (lookup q N) eqn:L; intros H Hq.
  - eexists. apply lookup_In. exact L.
  - destruct q; [congruence | discriminate].
Qed.

(** a tree as ZooKeeper keeps it: the parent of every node exists *)
Definition wf (N : list (path * node)) : Prop := forall q, has N q = true -> has N (removelast q) = true.
Definition wfb (N : list (path * node)) : bool := forallb (fun e => has N (removelast (fst e))) N.

Lemma wf_prefix N : wf N -> forall r a, has N (a ++ r) = true -> has N a = true.
Proof.
  intros W r. induction r as [|x r IH] using rev_ind; intros a H.
  - rewrite app_nil_r in H. exact H.
  - apply IH. apply W in H. rewrite app_assoc, removelast_last in H. exact H.
Qed.

Lemma wf_upsert N p n : wf N -> has N (removelast p) = true -> wf (upsert p n N).
Proof.
  intros W H q Hq. rewrite has_upsert in Hq |- *. destruct (path_eqb_spec p q) as [E|E].
  - subst q. rewrite H. apply orb_true_r.
  - rewrite (W _ Hq). apply orb_true_r.
Qed.

Lemma wf_upsert_present N p n m : wf N -> find N p = Some m -> wf (upsert p n N).
Proof.
  intros W H q. rewrite !has_upsert_present by (apply has_true; eauto). apply W.
Qed.

(** * Prefixes and ancestors *)
Lemma prefixb_app p : forall q, prefixb p q = true -> exists r, q = p ++ r.
Proof.
  induction p as [|x p IH]; intros q H.
  - exists q. reflexivity.
  - destruct q as [|y q]; [discriminate|]. cbn in H. apply andb_true_iff in H as [H1 H2].
    apply zl_eqb_eq in H1. subst y. destruct (IH _ H2) as [r Hr]. exists r. cbn. congruence.
Qed.

Lemma prefixb_app_refl p r : prefixb p (p ++ r) = true.
Proof. induction p as [|x p IH]; cbn; [reflexivity|]. rewrite zl_eqb_refl, IH. reflexivity. Qed.

Lemma prefixb_refl p : prefixb p p = true.
Proof. rewrite <- (app_nil_r p) at 2. apply prefixb_app_refl. Qed.

Lemma prefixb_length p q : prefixb p q = true -> (length p <= length q)%nat.
Proof. intros H. destruct (prefixb_app _ _ H) as [r Hr]. subst q. rewrite app_length. lia. Qed.

Lemma prefixb_app_l p c q : prefixb (p ++ c) q = true -> prefixb p q = true.
Proof. intros H. destruct (prefixb_app _ _ H) as [r Hr]. subst q. rewrite <- app_assoc. apply prefixb_app_refl. Qed.

Lemma prefixb_removelast p q : prefixb p (removelast q) = true -> prefixb p q = true.
Proof.
  intros H. destruct q as [|s q]; [exact H|].
  rewrite (app_removelast_last (A:=seg) [] (l:=s :: q)) by discriminate.
  destruct (prefixb_app _ _ H) as [r Hr]. rewrite Hr, <- app_assoc. apply prefixb_app_refl.
Qed.

Lemma prefixb_child_false (p : path) c : prefixb (p ++ [c]) p = false.
Proof.
  destruct (prefixb (p ++ [c]) p) eqn:E; [|reflexivity]. apply prefixb_length in E. rewrite app_length in E. cbn in E. lia.
Qed.

Lemma length_removelast (p : path) : p <> [] -> length p = S (length (removelast p)).
Proof.
  intros H. rewrite (app_removelast_last (A:=seg) [] H) at 1. rewrite app_length. cbn. lia.
Qed.

Lemma In_prefixes_from p : forall acc q, In q (prefixes_from acc p) -> exists r, acc ++ p = q ++ r.
Proof.
  induction p as [|s p IH]; intros acc q H; cbn in H; [tauto|].
  replace (acc ++ s :: p) with ((acc ++ [s]) ++ p) by (rewrite <- app_assoc; reflexivity).
  destruct H as [<-|H]; eauto.
Qed.

Lemma In_prefixes_from_self : forall r acc, r <> [] -> In (acc ++ r) (prefixes_from acc r).
Proof.
  induction r as [|s r IH]; intros acc H; [congruence|]. cbn [prefixes_from]. destruct r as [|s2 r].
  - left. reflexivity.
  - right. replace (acc ++ s :: s2 :: r) with ((acc ++ [s]) ++ s2 :: r) by (rewrite <- app_assoc; reflexivity).
    apply IH. discriminate.
Qed.

(** [is_anc q p]: q is a proper ancestor of p other than "/" *)
Definition is_anc (q p : path) : bool := existsb (path_eqb q) (prefixes (removelast p)).

Lemma is_anc_prefix q p : is_anc q p = true -> exists r, removelast p = q ++ r.
Proof.
  intros H. apply existsb_exists in H as [x [Hx E]]. apply path_eqb_eq in E. subst x.
  exact (In_prefixes_from _ _ _ Hx).
Qed.

Lemma is_anc_self p : is_anc p p = false.
Proof.
  destruct (is_anc p p) eqn:E; [|reflexivity]. destruct (is_anc_prefix _ _ E) as [r Hr].
  destruct p as [|s p]; [discriminate E|]. pose proof (length_removelast (s :: p)) as L.
  rewrite Hr, app_length in L. specialize (L ltac:(discriminate)). lia.
Qed.

Lemma is_anc_parent p : removelast p <> [] -> is_anc (removelast p) p = true.
Proof.
  intros H. apply existsb_exists. exists (removelast p). split; [|apply path_eqb_refl].
  exact (In_prefixes_from_self (removelast p) [] H).
Qed.

Lemma is_anc_prefixb q p : is_anc q p = true -> prefixb q p = true.
Proof.
  intros H. destruct (is_anc_prefix _ _ H) as [r Hr]. apply prefixb_removelast. rewrite Hr. apply prefixb_app_refl.
Qed.

Lemma wf_anc_present N p q : wf N -> has N (removelast p) = true -> is_anc q p = true -> has N q = true.
Proof.
  intros W H A. destruct (is_anc_prefix _ _ A) as [r Hr]. rewrite Hr in H. exact (wf_prefix N W r q H).
Qed.

Lemma anc_if_present N p q : wf N -> has N (removelast p) = true -> is_anc q p && negb (has N q) = false.
Proof.
  intros W H. destruct (is_anc q p) eqn:A; [|reflexivity]. rewrite (wf_anc_present _ _ _ W H A). reflexivity.
Qed.

Lemma payload_other_encoder enc x : payload enc (POther x) = enc x.
Proof. reflexivity. Qed.

(** * The server's create *)
(** the four outcomes of the server's create, [p'] being the name the node gets *)
Variant srv_create_out (t : tree) (p p' : path) (v acl : list Z) (eph : bool) : res * tree -> Prop :=
| SC_nonode : has (nodes t) (removelast p) = false -> srv_create_out t p p' v acl eph (RExn ENoNode, t)
| SC_exists : has (nodes t) (removelast p) = true -> has (nodes t) p' = true ->
    srv_create_out t p p' v acl eph (RExn ENodeExists, t)
| SC_eph : has (nodes t) (removelast p) = true -> has (nodes t) p' = false ->
    srv_create_out t p p' v acl eph (RExn ENoChildEph, t)
| SC_made : has (nodes t) (removelast p) = true -> has (nodes t) p' = false ->
    srv_create_out t p p' v acl eph
      (RPath p', {| nodes := upsert p' (mknode v eph acl) (nodes t);
                    cvs := upsert p' 0 (upsert (removelast p) (cv_of (cvs t) (removelast p) + 1) (cvs t)) |}).

Lemma srv_createP t p v acl eph (sequ : bool) :
  srv_create_out t p (if sequ then seq_name p (cv_of (cvs t) (removelast p)) else p) v acl eph
                 (srv_create t p v acl eph sequ).
Proof.
  unfold srv_create. destruct (find (nodes t) (removelast p)) as [pn|] eqn:E.
  - assert (has (nodes t) (removelast p) = true) by (apply has_true; eauto).
    destruct (has (nodes t) (if sequ then _ else _)) eqn:E2; [|destruct (n_eph pn)]; constructor; assumption.
  - constructor. apply has_false. exact E.
Qed.

Lemma srv_createP0 t p v acl eph : srv_create_out t p p v acl eph (srv_create t p v acl eph false).
Proof. exact (srv_createP t p v acl eph false). Qed.

Lemma srv_create_exn t p v acl eph sequ e t' : srv_create t p v acl eph sequ = (RExn e, t') -> t' = t.
Proof. destruct (srv_createP t p v acl eph sequ); congruence. Qed.

Lemma srv_create_wf t p v acl eph sequ : wf (nodes t) -> wf (nodes (snd (srv_create t p v acl eph sequ))).
Proof.
  intros W. destruct (srv_createP t p v acl eph sequ) as [| | |Hpa _]; try exact W. cbn [snd nodes].
  apply wf_upsert; [exact W|]. destruct sequ; [|exact Hpa]. unfold seq_name. rewrite removelast_last. exact Hpa.
Qed.

(** * Sequence nodes *)
Definition dval (l : list Z) : Z := fold_left (fun a d => a * 10 + (d - 48)) l 0.

Lemma digs_val k : forall z acc s,
  fold_left (fun a d => a * 10 + (d - 48)) (digs k z acc) s =
  fold_left (fun a d => a * 10 + (d - 48)) acc (s * 10 ^ Z.of_nat k + z mod 10 ^ Z.of_nat k).
Proof.
  induction k as [|k IH]; intros z acc s.
  - cbn [digs]. change (10 ^ Z.of_nat 0) with 1. rewrite Z.mod_1_r. f_equal. lia.
  - cbn [digs]. rewrite IH. cbn [fold_left]. f_equal.
    rewrite Nat2Z.inj_succ, Z.pow_succ_r by lia.
    rewrite (Z.rem_mul_r z 10 (10 ^ Z.of_nat k)) by lia. lia.
Qed.

Lemma dval_digs k z : dval (digs k z []) = z mod 10 ^ Z.of_nat k.
Proof. unfold dval. rewrite digs_val. reflexivity. Qed.

Theorem digits10_injective a b : 0 <= a < 10 ^ 10 -> 0 <= b < 10 ^ 10 -> digits10 a = digits10 b -> a = b.
Proof.
  intros Ha Hb H. apply (f_equal dval) in H. unfold digits10 in H. rewrite !dval_digs in H.
  change (Z.of_nat 10) with 10 in H. rewrite !Z.mod_small in H by assumption. exact H.
Qed.

Lemma digits10_length z : length (digits10 z) = 10%nat.
Proof. reflexivity. Qed.

(** * kazoo's create(makepath=True) *)
(** ensure_path of the prefixes below an existing [acc]: either it succeeds, and exactly the missing ones among them
    are new, empty and persistent, or it stops at an ephemeral node *)
Lemma ens_path_prefixes acl : forall r acc t, has (nodes t) acc = true ->
  (exists t', ens_path (prefixes_from acc r) acl t = (None, t') /\
     forall q, find (nodes t') q =
               if existsb (path_eqb q) (prefixes_from acc r) && negb (has (nodes t) q)
               then Some (mknode [] false acl) else find (nodes t) q) \/
  (exists t', ens_path (prefixes_from acc r) acl t = (Some ENoChildEph, t')).
Proof.
  induction r as [|s r IH]; intros acc t H; cbn [prefixes_from ens_path existsb].
  - left. exists t. split; reflexivity.
  - destruct (has (nodes t) (acc ++ [s])) eqn:Hs.
    + destruct (IH _ t Hs) as [[t' [E S]]|[t' E]]; [left | right; eauto]. exists t'. split; [exact E|].
      intros q. rewrite S. destruct (path_eqb_spec q (acc ++ [s])) as [->|]; [|reflexivity].
      rewrite Hs, !andb_false_r. reflexivity.
    + destruct (srv_createP0 t (acc ++ [s]) [] acl false) as [Hpa|_ Hp|_ _|_ _];
        [rewrite removelast_last in Hpa; congruence | congruence | right; eauto |].
      match goal with |- context [ens_path _ acl ?t1] => destruct (IH (acc ++ [s]) t1) as [[t' [E S]]|[t' E]] end;
        [cbn [nodes]; rewrite has_upsert, path_eqb_refl; reflexivity | left | right; eauto].
      exists t'. split; [exact E|]. intros q. rewrite S. cbn [nodes]. rewrite has_upsert, find_upsert.
      destruct (path_eqb_spec q (acc ++ [s])) as [->|N].
      * rewrite path_eqb_refl, Hs, andb_false_r. reflexivity.
      * rewrite path_eqb_neq by congruence. reflexivity.
Qed.

(** [created_spec t t' p v eph A]: t' is t with the node p = (v, eph, version 0, acl A) and, empty and persistent,
    those ancestors of p that t lacks *)
Definition created_spec (t t' : tree) (p : path) (v : list Z) (eph : bool) (A : list Z) : Prop :=
  forall q, find (nodes t') q =
            if path_eqb p q then Some (mknode v eph A)
            else if is_anc q p && negb (has (nodes t) q) then Some (mknode [] false A)
            else find (nodes t) q.

(** create(makepath=True) on a wf tree: NodeExistsError and no change if the node is there; else exactly the node and
    its missing ancestors are made, unless an ephemeral node is on the way (NoChildrenForEphemeralsError) *)
Variant k_create_out (t : tree) (p : path) (v acl : list Z) (eph : bool) : res * tree -> Prop :=
| KC_exists : has (nodes t) p = true -> k_create_out t p v acl eph (RExn ENodeExists, t)
| KC_made t' : has (nodes t) p = false -> created_spec t t' p v eph acl -> k_create_out t p v acl eph (RPath p, t')
| KC_eph t' : has (nodes t) p = false -> k_create_out t p v acl eph (RExn ENoChildEph, t').

Theorem k_createP t p v acl eph : wf (nodes t) -> k_create_out t p v acl eph (k_create t p v acl eph false true).
Proof.
  intros W. unfold k_create. destruct (srv_createP0 t p v acl eph) as [Hpa|_ Hp|_ Hp|Hpa Hp].
  - assert (Hp : has (nodes t) p = false).
    { destruct (has (nodes t) p) eqn:Hp; [apply W in Hp; congruence | reflexivity]. }
    destruct (ens_path_prefixes acl (removelast p) [] t (has_root _)) as [[t1 [E S]]|[t1 E]];
      fold (prefixes (removelast p)) in *; rewrite E; [|apply KC_eph; exact Hp].
    change (forall q, find (nodes t1) q = if is_anc q p && negb (has (nodes t) q)
                                          then Some (mknode [] false acl) else find (nodes t) q) in S.
    assert (Hp1 : has (nodes t1) p = false).
    { apply has_false. rewrite S, is_anc_self. apply has_false. exact Hp. }
    assert (Hpa1 : has (nodes t1) (removelast p) = true).
    { unfold has. rewrite S, is_anc_parent, Hpa; [reflexivity|]. intros Z. rewrite Z, has_root in Hpa. discriminate. }
    destruct (srv_createP0 t1 p v acl eph) as [X|_ X|_ _|_ _]; try congruence; [apply KC_eph; exact Hp|].
    apply KC_made; [exact Hp|]. intros q. cbn [nodes]. rewrite find_upsert.
    destruct (path_eqb p q); [reflexivity | apply S].
  - apply KC_exists. exact Hp.
  - apply KC_eph. exact Hp.
  - apply KC_made; [exact Hp|]. intros q. cbn [nodes]. rewrite find_upsert, anc_if_present by assumption.
    destruct (path_eqb p q); reflexivity.
Qed.

Lemma k_create_existing t p v acl eph : wf (nodes t) -> has (nodes t) p = true ->
  k_create t p v acl eph false true = (RExn ENodeExists, t).
Proof. intros W H. destruct (k_createP t p v acl eph W); congruence. Qed.

(** * [wf] is preserved *)
Lemma ens_path_wf acl : forall l t, wf (nodes t) -> wf (nodes (snd (ens_path l acl t))).
Proof.
  induction l as [|q0 r IH]; intros t W; cbn [ens_path]; [exact W|].
  destruct (has (nodes t) q0); [exact (IH _ W)|].
  pose proof (srv_create_wf t q0 [] acl false false W) as W1. revert W1.
  destruct (srv_createP0 t q0 [] acl false); cbn [snd]; auto.
Qed.

Lemma k_create_wf t p v acl eph sequ mk : wf (nodes t) -> wf (nodes (snd (k_create t p v acl eph sequ mk))).
Proof.
  intros W. unfold k_create. pose proof (srv_create_wf t p v acl eph sequ W) as W1. revert W1.
  destruct (srv_createP t p v acl eph sequ); cbn [snd]; auto. intros _. destruct mk; [|exact W].
  pose proof (ens_path_wf acl (prefixes (removelast p)) t W) as W2.
  destruct (ens_path (prefixes (removelast p)) acl t) as [[e|] t2]; cbn [snd] in W2; [exact W2|].
  apply srv_create_wf. exact W2.
Qed.

Lemma srv_set_wf t p v : wf (nodes t) -> wf (nodes (snd (srv_set t p v))).
Proof.
  intros W. unfold srv_set. destruct (find (nodes t) p) eqn:E; [exact (wf_upsert_present _ _ _ _ W E) | exact W].
Qed.

Lemma srv_set_acls_wf t p a : wf (nodes t) -> wf (nodes (snd (srv_set_acls t p a))).
Proof.
  intros W. unfold srv_set_acls. destruct (find (nodes t) p) eqn:E; [exact (wf_upsert_present _ _ _ _ W E) | exact W].
Qed.

(** the zkutils functions issue a request and, unless it raised, go on from the tree it left *)
Lemma wf_unless_exn (x : res * tree) (K : tree -> res * tree) :
  wf (nodes (snd x)) -> (forall t1, wf (nodes t1) -> wf (nodes (snd (K t1)))) ->
  wf (nodes (snd (match x with (RExn e, t1) => (RExn e, t1) | (_, t1) => K t1 end))).
Proof. destruct x as [[] t1]; cbn [snd]; auto. Qed.

Lemma set_and_acl_wf t p pl ra : wf (nodes t) -> wf (nodes (snd (set_and_acl t p pl ra))).
Proof.
  intros W. unfold set_and_acl, c_set_acls. apply wf_unless_exn; [apply srv_set_wf, W|]. intros t2 W2.
  apply wf_unless_exn; [apply srv_set_acls_wf, W2 | auto].
Qed.

(** * set, set_acls, and put and update on an existing node *)
Lemma srv_set_find t p v n : find (nodes t) p = Some n ->
  srv_set t p v = (RTrue, {| nodes := upsert p {| n_data := v; n_eph := n_eph n; n_ver := n_ver n + 1;
                                                   n_acl := n_acl n |} (nodes t); cvs := cvs t |}).
Proof. intros H. unfold srv_set. rewrite H. reflexivity. Qed.

Lemma set_and_acl_spec t p pl ra n : find (nodes t) p = Some n ->
  exists t', set_and_acl t p pl ra = (RPath p, t') /\ cvs t' = cvs t /\
    forall q, find (nodes t') q =
      if path_eqb p q then Some {| n_data := pl; n_eph := n_eph n; n_ver := n_ver n + 1; n_acl := mk_default ra |}
      else find (nodes t) q.
Proof.
  intros H. unfold set_and_acl. rewrite (srv_set_find t p pl n H). unfold c_set_acls, srv_set_acls. cbn [nodes cvs].
  rewrite find_upsert, path_eqb_refl. cbn. eexists. split; [reflexivity|]. split; [reflexivity|].
  intros q. cbn. rewrite !find_upsert. destruct (path_eqb p q); reflexivity.
Qed.

(** put on an existing node: what the except branch does *)
Lemma zu_put_existing enc t p d acl dflt eph chk n : wf (nodes t) -> find (nodes t) p = Some n ->
  zu_put enc t p d acl false dflt eph chk =
  if chk && zl_eqb (n_data n) (payload enc d) then (RNone, t)
  else set_and_acl t p (payload enc d) (realacl dflt acl).
Proof.
  intros W H. unfold zu_put, c_create. rewrite k_create_existing by (try apply has_true; eauto).
  destruct chk; cbn [andb]; [|reflexivity]. unfold srv_get. rewrite H. reflexivity.
Qed.

Lemma zu_update_missing enc t p d chk : find (nodes t) p = None -> zu_update enc t p d chk = (RExn ENoNode, t).
Proof. intros H. unfold zu_update, srv_get, srv_set. rewrite H. destruct chk; reflexivity. Qed.

Lemma zu_update_existing enc t p d chk n : find (nodes t) p = Some n ->
  zu_update enc t p d chk =
  if chk && zl_eqb (n_data n) (payload enc d) then (RNone, t)
  else (RPath p, {| nodes := upsert p {| n_data := payload enc d; n_eph := n_eph n; n_ver := n_ver n + 1;
                                         n_acl := n_acl n |} (nodes t); cvs := cvs t |}).
Proof.
  intros H. unfold zu_update, srv_get. rewrite (srv_set_find t p _ n H), H.
  destruct chk; [destruct (zl_eqb _ _)|]; reflexivity.
Qed.

(** * The backend as a map *)
Definition abs (t : tree) (q : path) : option (list Z) := option_map n_data (find (nodes t) q).
Definition fill (o : option (list Z)) : option (list Z) := match o with None => Some [] | s => s end.
(** harness/emaster.py Mem.put / ensure_exists / delete *)
Definition mem_put (p : path) (v : list Z) (m : path -> option (list Z)) (q : path) : option (list Z) :=
  if path_eqb p q then Some v else if is_anc q p then fill (m q) else m q.
Definition mem_ensure (p : path) (m : path -> option (list Z)) (q : path) : option (list Z) :=
  if path_eqb p q || is_anc q p then fill (m q) else m q.
Definition mem_delete (p : path) (m : path -> option (list Z)) (q : path) : option (list Z) :=
  if prefixb p q then None else m q.

Lemma abs_fill_present t q : has (nodes t) q = true -> fill (abs t q) = abs t q.
Proof. intros H. apply has_true in H as [n Hn]. unfold abs. rewrite Hn. reflexivity. Qed.

(** the ancestors that a create adds hold the empty string: [fill] *)
Lemma abs_new_ancestors t (b : bool) A q :
  option_map n_data (if b && negb (has (nodes t) q) then Some (mknode [] false A) else find (nodes t) q) =
  if b then fill (abs t q) else abs t q.
Proof. destruct b; [|reflexivity]. unfold abs, has. destruct (find (nodes t) q); reflexivity. Qed.

(** * ensure_deleted *)
Lemma del_quiet_leaf t p n : p <> [] -> find (nodes t) p = Some n -> children (nodes t) p = [] ->
  exists t', del_quiet t p = (RNone, t') /\
    forall q, find (nodes t') q = if path_eqb p q then None else find (nodes t) q.
Proof.
  intros Hp H Hc. unfold del_quiet, srv_delete. destruct p; [congruence|]. cbv iota. rewrite H, Hc.
  eexists. split; [reflexivity|]. intros q. cbn [nodes]. apply find_del_where. reflexivity.
Qed.

Lemma In_children N p q : has N q = true -> q <> [] -> removelast q = p -> In (last q []) (children N p).
Proof.
  intros H Hq Hr. destruct (has_In _ _ H Hq) as [n Hn]. unfold children.
  change (last q []) with ((fun e : path * node => last (fst e) []) (q, n)). apply in_map.
  apply filter_In. split; [exact Hn|]. cbn. unfold is_child. destruct q; [congruence|]. rewrite Hr. apply path_eqb_refl.
Qed.

Lemma children_nil_intro N p :
  (forall q, has N q = true -> q <> [] -> removelast q = p -> False) -> children N p = [].
Proof.
  intros H. unfold children. destruct (filter (fun e => is_child p (fst e)) N) as [|[q n] l] eqn:F; [reflexivity|].
  exfalso. assert (I : In (q, n) (filter (fun e => is_child p (fst e)) N)) by (rewrite F; left; reflexivity).
  apply filter_In in I as [I1 I2]. cbn in I2. unfold is_child in I2. destruct q as [|s q]; [discriminate|].
  apply path_eqb_eq in I2. exact (H _ (In_has _ _ _ I1) ltac:(discriminate) I2).
Qed.

(** the subtree of p is p and the subtrees of its children *)
Lemma below_child N p q : wf N -> has N q = true -> prefixb p q = true -> q <> p ->
  existsb (fun c => prefixb (p ++ [c]) q) (children N p) = true.
Proof.
  intros W Hq P Nq. destruct (prefixb_app _ _ P) as [[|x r] ->]; [rewrite app_nil_r in Nq; congruence|].
  apply existsb_exists. exists x. change (x :: r) with ([x] ++ r) in *. rewrite app_assoc in *.
  split; [|apply prefixb_app_refl].
  rewrite <- (last_last p x []). apply In_children; [exact (wf_prefix N W r _ Hq) | destruct p; discriminate |].
  apply removelast_last.
Qed.

Lemma child_below (p q : path) cs : existsb (fun c => prefixb (p ++ [c]) q) cs = true -> prefixb p q = true /\ q <> p.
Proof.
  intros H. apply existsb_exists in H as [c [_ Pc]]. split; [exact (prefixb_app_l _ _ _ Pc)|].
  intros ->. rewrite prefixb_child_false in Pc. discriminate.
Qed.

Lemma maxlen_bound N q : has N q = true -> (length q <= maxlen N)%nat.
Proof.
  intros H. destruct q as [|s q]; [cbn; lia|]. destruct (has_In _ _ H ltac:(discriminate)) as [n Hn].
  clear H. induction N as [|[k b] N IH]; cbn [maxlen In] in *; [destruct Hn|].
  destruct Hn as [[= -> _]|Hn]; [|specialize (IH Hn)]; lia.
Qed.

Definition removed (t t' : tree) (p : path) : Prop :=
  forall q, find (nodes t') q = if prefixb p q then None else find (nodes t) q.
(** what t holds at or below p lies less than k levels below the parent of p *)
Definition bounded (t : tree) (p : path) (k : nat) : Prop :=
  forall q, has (nodes t) q = true -> prefixb p q = true -> (length q < length p + k)%nat.

Lemma wf_remove_subtree N N' p : wf N -> p <> [] ->
  (forall q, find N' q = if prefixb p q then None else find N q) -> wf N'.
Proof.
  intros W Hp F q Hq. unfold has in Hq |- *. rewrite F in Hq |- *. destruct (prefixb p q) eqn:E; [discriminate|].
  destruct (prefixb p (removelast q)) eqn:E2; [apply prefixb_removelast in E2; congruence|]. exact (W _ Hq).
Qed.

Lemma removed_absent t p : wf (nodes t) -> find (nodes t) p = None -> removed t t p.
Proof.
  intros W H q. destruct (prefixb p q) eqn:P; [|reflexivity]. destruct (prefixb_app _ _ P) as [r Hr]. subst q.
  destruct (has (nodes t) (p ++ r)) eqn:Hq; [|apply has_false; exact Hq].
  apply (wf_prefix _ W) in Hq. apply has_false in H. congruence.
Qed.

Lemma ens_del_unfold k t p : ens_del (S k) t p =
  match find (nodes t) p with
  | None => (RNone, t)
  | Some _ =>
      match fold_left (fun (acc : res * tree) c =>
                         match fst acc with RExn _ => acc | _ => ens_del k (snd acc) (p ++ [c]) end)
                      (children (nodes t) p) (RNone, t) with
      | (RExn e, t') => (RExn e, t')
      | (_, t') => del_quiet t' p
      end
  end.
Proof. reflexivity. Qed.

(** the loop over the children, given that each recursive call removes the child's subtree *)
Lemma ens_del_fold (F : tree -> path -> res * tree) p k :
  (forall t1 c, wf (nodes t1) -> bounded t1 (p ++ [c]) k ->
                exists t2, F t1 (p ++ [c]) = (RNone, t2) /\ removed t1 t2 (p ++ [c])) ->
  forall cs t1, wf (nodes t1) -> bounded t1 p (S k) ->
  exists t2, fold_left (fun (acc : res * tree) c =>
                          match fst acc with RExn _ => acc | _ => F (snd acc) (p ++ [c]) end) cs (RNone, t1)
             = (RNone, t2) /\
             forall q, find (nodes t2) q =
                       if existsb (fun c => prefixb (p ++ [c]) q) cs then None else find (nodes t1) q.
Proof.
  intros HF. induction cs as [|c r IH]; intros t1 W B.
  - exists t1. cbn. auto.
  - cbn [fold_left fst snd].
    assert (B1 : bounded t1 (p ++ [c]) k).
    { intros q Hq Pq. specialize (B q Hq (prefixb_app_l _ _ _ Pq)). rewrite app_length. cbn. lia. }
    destruct (HF t1 c W B1) as [t2 [E R]]. rewrite E.
    assert (W2 : wf (nodes t2)).
    { apply (wf_remove_subtree (nodes t1) _ (p ++ [c])); [exact W | destruct p; discriminate | exact R]. }
    assert (B2 : bounded t2 p (S k)).
    { intros q Hq Pq. apply B; [|exact Pq]. unfold has in Hq |- *. rewrite R in Hq.
      destruct (prefixb (p ++ [c]) q); [discriminate | exact Hq]. }
    destruct (IH t2 W2 B2) as [t3 [E3 F3]]. exists t3. split; [exact E3|].
    intros q. rewrite F3, R. cbn [existsb]. destruct (prefixb (p ++ [c]) q); cbn [orb]; [|reflexivity].
    destruct (existsb (fun c0 => prefixb (p ++ [c0]) q) r); reflexivity.
Qed.

Lemma ens_del_spec : forall k t p, wf (nodes t) -> p <> [] -> bounded t p k ->
  exists t', ens_del (S k) t p = (RNone, t') /\ removed t t' p.
Proof.
  induction k as [|k IH]; intros t p W Hp B; rewrite ens_del_unfold;
    (destruct (find (nodes t) p) as [n|] eqn:Fp; [|exists t; split; [reflexivity | exact (removed_absent t p W Fp)]]);
    assert (Hn : has (nodes t) p = true) by (apply has_true; eauto).
  - specialize (B p Hn (prefixb_refl p)). lia.
  - set (cs := children (nodes t) p).
    destruct (ens_del_fold (ens_del (S k)) p k
                (fun t1 c W1 B1 => IH t1 (p ++ [c]) W1 ltac:(destruct p; discriminate) B1) cs t W B) as [t2 [E2 F2]].
    rewrite E2.
    (* after the loop p is still there and has no children, so the final delete goes through *)
    assert (Fp2 : find (nodes t2) p = Some n).
    { rewrite F2, Fp. destruct (existsb _ cs) eqn:X; [destruct (child_below p p cs X); congruence | reflexivity]. }
    assert (C2 : children (nodes t2) p = []).
    { apply children_nil_intro. intros q Hq Hq0 Hr. unfold has in Hq. rewrite F2 in Hq.
      destruct (existsb _ cs) eqn:X; [discriminate|]. unfold cs in X. rewrite below_child in X; try easy.
      - apply prefixb_removelast. rewrite Hr. apply prefixb_refl.
      - intros ->. pose proof (length_removelast p Hq0) as L. rewrite Hr in L. lia. }
    destruct (del_quiet_leaf t2 p n Hp Fp2 C2) as [t' [E F]]. exists t'. split; [exact E|].
    intros q. rewrite F, F2. destruct (path_eqb_spec p q) as [<-|N]; [rewrite prefixb_refl; reflexivity|].
    destruct (existsb _ cs) eqn:X; [destruct (child_below p q cs X) as [-> _]; reflexivity|].
    destruct (prefixb p q) eqn:P; [|reflexivity]. destruct (has (nodes t) q) eqn:Hq; [|apply has_false; exact Hq].
    unfold cs in X. rewrite (below_child _ p q W Hq P) in X; congruence.
Qed.

