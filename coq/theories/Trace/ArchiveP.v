(** Lemmas about Trace/Archive.v: batches, archive writes at every cut (for any batches, and for those taken from a
    selection of the live nodes), pruning, the server trace loop. *)
From Coq Require Import ZArith List Bool Lia Permutation Sorted ZifyBool.
From TM Require Codec.BaseNP.
From TM Require Import Trace.Archive.
Import ListNotations.
Open Scope Z_scope.

(** * Lists *)
Lemma firstn_add {X} (n m : nat) (l : list X) : firstn (n + m) l = firstn n l ++ firstn m (skipn n l).
Proof.
  rewrite <- (firstn_skipn n (firstn (n + m) l)), firstn_firstn, <- firstn_skipn_comm, Nat.min_l by lia. reflexivity.
Qed.

Lemma In_firstn {X} (n : nat) (l : list X) x : In x (firstn n l) -> In x l.
Proof. intros H. rewrite <- (firstn_skipn n l). apply in_or_app; left; exact H. Qed.

Lemma In_skipn {X} (n : nat) (l : list X) x : In x (skipn n l) -> In x l.
Proof. intros H. rewrite <- (firstn_skipn n l). apply in_or_app; right; exact H. Qed.

Lemma nodupb_NoDup l : nodupb l = true <-> NoDup l.
Proof. exact (BaseNP.nodup_by_NoDup Z.eqb Z.eqb_eq l). Qed.

Lemma NoDup_map_inj {X} (f : X -> Z) (l : list X) a b :
  NoDup (map f l) -> In a l -> In b l -> f a = f b -> a = b.
Proof.
  induction l as [|x l IH]; cbn; intros Hnd Ha Hb E; [contradiction|].
  inversion Hnd as [|? ? Hx Hl]; subst.
  destruct Ha as [Ha|Ha], Hb as [Hb|Hb]; subst.
  - reflexivity.
  - exfalso. apply Hx. rewrite E. apply in_map. exact Hb.
  - exfalso. apply Hx. rewrite <- E. apply in_map. exact Ha.
  - apply IH; assumption.
Qed.

Lemma NoDup_app_disjoint {X} (l1 l2 : list X) x : NoDup (l1 ++ l2) -> In x l1 -> In x l2 -> False.
Proof.
  induction l1 as [|y l1 IH]; cbn; intros Hnd H1 H2; [contradiction|].
  inversion Hnd as [|? ? Hy Hl]; subst. destruct H1 as [->|H1].
  - apply Hy. apply in_or_app. right. exact H2.
  - apply IH; assumption.
Qed.

Lemma filter_length_le {X} (f : X -> bool) (l : list X) : (length (filter f l) <= length l)%nat.
Proof. induction l as [|x l IH]; cbn; [lia|]. destruct (f x); cbn; lia. Qed.

Lemma filter_length_lt {X} (f : X -> bool) (l : list X) a :
  In a l -> f a = false -> (length (filter f l) < length l)%nat.
Proof.
  induction l as [|x l IH]; cbn; intros Hin Hf; [contradiction|].
  destruct Hin as [->|Hin].
  - rewrite Hf. pose proof (filter_length_le f l). lia.
  - specialize (IH Hin Hf). destruct (f x); cbn; lia.
Qed.

Lemma Permutation_filter_length {X} (f : X -> bool) (l l' : list X) :
  Permutation l l' -> length (filter f l) = length (filter f l').
Proof.
  induction 1 as [|x l l' _ IH|x y l|l l' l'' _ IH1 _ IH2]; cbn.
  - reflexivity.
  - destruct (f x); cbn; congruence.
  - destruct (f x), (f y); reflexivity.
  - congruence.
Qed.

(** * Sorting *)
Section SortP.
  Context {X : Type} (leb : X -> X -> bool).

  Lemma insert_perm x l : Permutation (x :: l) (insert leb x l).
  Proof.
    induction l as [|y t IH]; cbn.
    - apply Permutation_refl.
    - destruct (leb x y).
      + apply Permutation_refl.
      + eapply Permutation_trans; [apply perm_swap|]. apply perm_skip. exact IH.
  Qed.

  Lemma isort_perm l : Permutation l (isort leb l).
  Proof.
    induction l as [|x t IH]; cbn.
    - apply Permutation_refl.
    - eapply Permutation_trans; [apply perm_skip; exact IH | apply insert_perm].
  Qed.

  Lemma isort_In l x : In x (isort leb l) <-> In x l.
  Proof.
    split; intros H.
    - eapply Permutation_in; [apply Permutation_sym, isort_perm | exact H].
    - eapply Permutation_in; [apply isort_perm | exact H].
  Qed.

  Lemma isort_length l : length (isort leb l) = length l.
  Proof. symmetry. apply Permutation_length, isort_perm. Qed.

  Lemma isort_NoDup l : NoDup l -> NoDup (isort leb l).
  Proof. intros H. eapply Permutation_NoDup; [apply isort_perm | exact H]. Qed.

  Hypothesis leb_total : forall a b, leb a b = true \/ leb b a = true.
  Hypothesis leb_trans : forall a b c, leb a b = true -> leb b c = true -> leb a c = true.

  Definition le_by (a b : X) : Prop := leb a b = true.

  Lemma insert_sorted x l : StronglySorted le_by l -> StronglySorted le_by (insert leb x l).
  Proof.
    induction l as [|y t IH]; cbn; intros Hs.
    - constructor; constructor.
    - inversion Hs as [|? ? Ht Hy]; subst.
      destruct (leb x y) eqn:E.
      + constructor; [exact Hs|]. constructor; [exact E|].
        rewrite Forall_forall in *. intros z Hz. eapply leb_trans; [exact E | apply Hy; exact Hz].
      + constructor; [apply IH; exact Ht|].
        assert (Hyx : leb y x = true) by (destruct (leb_total x y); congruence).
        rewrite Forall_forall in *. intros z Hz.
        eapply Permutation_in in Hz; [|apply Permutation_sym, insert_perm].
        destruct Hz as [<-|Hz]; [exact Hyx | apply Hy; exact Hz].
  Qed.

  Lemma isort_sorted l : StronglySorted le_by (isort leb l).
  Proof. induction l as [|x t IH]; cbn; [constructor | apply insert_sorted; exact IH]. Qed.

  (** the elements after position n of a sorted list are above the first n *)
  Lemma sorted_firstn_skipn l n a b :
    StronglySorted le_by l -> In a (firstn n l) -> In b (skipn n l) -> le_by a b.
  Proof.
    revert n; induction l as [|x t IH]; intros n Hs Ha Hb.
    - destruct n; cbn in Ha; contradiction.
    - inversion Hs as [|? ? Ht Hx]; subst. destruct n as [|n]; cbn in Ha, Hb; [contradiction|].
      destruct Ha as [<-|Ha].
      + rewrite Forall_forall in Hx. apply Hx. eapply In_skipn; exact Hb.
      + eapply IH; eassumption.
  Qed.
End SortP.

(** * Batches *)
Lemma take_batches_concat {X} (nb b : nat) (l : list X) :
  concat (take_batches nb b l) = firstn (nb * b) l.
Proof.
  revert l; induction nb as [|k IH]; intros l; cbn.
  - reflexivity.
  - rewrite IH. symmetry. apply firstn_add.
Qed.

Lemma take_batches_length {X} (nb b : nat) (l : list X) batch :
  (nb * b <= length l)%nat -> In batch (take_batches nb b l) -> length batch = b.
Proof.
  revert l; induction nb as [|k IH]; intros l Hl Hin; cbn in Hin; [contradiction|].
  destruct Hin as [<-|Hin].
  - rewrite firstn_length. cbn in Hl. lia.
  - eapply IH; [|exact Hin]. rewrite skipn_length. cbn in Hl. lia.
Qed.

Lemma full_batches_concat {X} (b : nat) (l : list X) : concat (full_batches b l) = archived_part b l.
Proof. apply take_batches_concat. Qed.

Lemma full_batches_length {X} (b : nat) (l : list X) batch :
  In batch (full_batches b l) -> length batch = b.
Proof.
  intros H. eapply take_batches_length; [|exact H].
  destruct b as [|b]; [cbn; lia|]. rewrite Nat.mul_comm. apply Nat.mul_div_le. lia.
Qed.

Lemma archived_leftover {X} (b : nat) (l : list X) : archived_part b l ++ leftover b l = l.
Proof. apply firstn_skipn. Qed.

Lemma leftover_length {X} (b : nat) (l : list X) : (0 < b)%nat -> (length (leftover b l) < b)%nat.
Proof.
  intros Hb. unfold leftover. rewrite skipn_length.
  pose proof (Nat.div_mod (length l) b ltac:(lia)) as E.
  pose proof (Nat.mod_upper_bound (length l) b ltac:(lia)). lia.
Qed.

Lemma archived_part_length {X} (b : nat) (l : list X) : length (archived_part b l) = (length l / b * b)%nat.
Proof.
  unfold archived_part. rewrite firstn_length. destruct b as [|b]; [cbn; lia|].
  pose proof (Nat.mul_div_le (length l) (S b) ltac:(lia)). lia.
Qed.

Lemma in_full_batches {X} (b : nat) (l : list X) batch x :
  In batch (full_batches b l) -> In x batch -> In x (archived_part b l).
Proof. intros Hb Hx. rewrite <- full_batches_concat. apply in_concat. exists batch. split; assumption. Qed.

(** * Stores and write lists *)
Section ArchP.
  Context {A R : Type} (key : A -> Z) (row_of : A -> R).
  Notation store := (store A R).
  Notation write := (write A).
  Notation apply_write := (apply_write key row_of).
  Notation apply_writes := (apply_writes key row_of).
  Notation archive_writes := (archive_writes key).
  Notation archived := (archived row_of).

  Fixpoint deleted (W : list write) : list Z :=
    match W with
    | [] => []
    | Delete k :: W' => k :: deleted W'
    | _ :: W' => deleted W'
    end.
  Fixpoint uploads (W : list write) : list (list A) :=
    match W with
    | [] => []
    | Upload items :: W' => items :: uploads W'
    | _ :: W' => uploads W'
    end.
  Fixpoint pruned (W : list write) : list Z :=
    match W with
    | [] => []
    | Prune n :: W' => n :: pruned W'
    | _ :: W' => pruned W'
    end.
  Fixpoint numbered (n : Z) (l : list (list A)) : list (Z * list R) :=
    match l with [] => [] | x :: t => (n, map row_of x) :: numbered (n + 1) t end.

  (** every delete is preceded by an upload containing a node with that key *)
  Fixpoint covered (up : list A) (W : list write) : Prop :=
    match W with
    | [] => True
    | Upload items :: W' => covered (items ++ up) W'
    | Delete k :: W' => (exists a, In a up /\ key a = k) /\ covered up W'
    | Prune _ :: W' => False
    end.

  Lemma apply_writes_app s W1 W2 : apply_writes s (W1 ++ W2) = apply_writes (apply_writes s W1) W2.
  Proof. apply fold_left_app. Qed.

  Lemma apply_writes_cons s w W : apply_writes s (w :: W) = apply_writes (apply_write s w) W.
  Proof. reflexivity. Qed.
  Lemma apply_writes_nil s : apply_writes s [] = s.
  Proof. reflexivity. Qed.

  Lemma In_live_apply W : forall s a,
    In a (live (apply_writes s W)) <-> In a (live s) /\ ~ In (key a) (deleted W).
  Proof.
    induction W as [|w W IH]; intros s a.
    - rewrite apply_writes_nil. cbn. tauto.
    - rewrite apply_writes_cons, IH. destruct w as [items|k|n]; cbn.
      + tauto.
      + rewrite filter_In, negb_true_iff, Z.eqb_neq. intuition congruence.
      + tauto.
  Qed.

  Lemma hist_apply W : forall s, pruned W = [] ->
    hist (apply_writes s W) = hist s ++ numbered (seq s) (uploads W) /\
    seq (apply_writes s W) = seq s + Z.of_nat (length (uploads W)).
  Proof.
    induction W as [|w W IH]; intros s HP.
    - rewrite apply_writes_nil. cbn. rewrite app_nil_r. split; [reflexivity | lia].
    - rewrite apply_writes_cons. destruct w as [items|k|n]; cbn in HP; try discriminate.
      + destruct (IH (apply_write s (Upload items)) HP) as [E1 E2]. rewrite E1, E2. cbn.
        rewrite <- app_assoc. cbn. split; [reflexivity | lia].
      + destruct (IH (apply_write s (Delete k)) HP) as [E1 E2]. rewrite E1, E2. cbn. split; reflexivity.
  Qed.

  Lemma In_numbered n l h : In h (numbered n l) -> exists items, In items l /\ snd h = map row_of items /\ n <= fst h.
  Proof.
    revert n; induction l as [|x t IH]; intros n Hin; cbn in Hin; [contradiction|].
    destruct Hin as [<-|Hin].
    - exists x. cbn. split; [left; reflexivity | split; [reflexivity | lia]].
    - destruct (IH _ Hin) as [items [H1 [H2 H3]]]. exists items. split; [right; exact H1 | split; [exact H2 | lia]].
  Qed.

  Lemma numbered_In n l items : In items l -> exists m, In (m, map row_of items) (numbered n l).
  Proof.
    revert n; induction l as [|x t IH]; intros n Hin; cbn in Hin; [contradiction|].
    destruct Hin as [->|Hin].
    - exists n. left. reflexivity.
    - destruct (IH (n + 1) Hin) as [m Hm]. exists m. right. exact Hm.
  Qed.

  Lemma covered_pruned W : forall up, covered up W -> pruned W = [].
  Proof.
    induction W as [|w W IH]; intros up H; cbn; [reflexivity|].
    destruct w as [items|k|n]; cbn in H.
    - eapply IH; exact H.
    - eapply IH; apply H.
    - contradiction.
  Qed.

  Lemma covered_incl W : forall up up', (forall a, In a up -> In a up') -> covered up W -> covered up' W.
  Proof.
    induction W as [|w W IH]; intros up up' Hi H; cbn in *; [exact I|].
    destruct w as [items|k|n].
    - eapply IH; [|exact H]. intros a Ha. apply in_app_or in Ha. apply in_or_app. destruct Ha; auto.
    - destruct H as [[a [Ha Hk]] H]. split; [exists a; auto | eapply IH; eauto].
    - exact H.
  Qed.

  Lemma covered_firstn W : forall up k, covered up W -> covered up (firstn k W).
  Proof.
    induction W as [|w W IH]; intros up k H; destruct k as [|k]; cbn; try exact I.
    destruct w as [items|k'|n]; cbn in H |- *.
    - apply IH. exact H.
    - destruct H as [H1 H2]. split; [exact H1 | apply IH; exact H2].
    - exact H.
  Qed.

  Lemma covered_deletes l : forall up W, (forall a, In a l -> In a up) -> covered up W ->
    covered up (map (fun a => Delete (key a)) l ++ W).
  Proof.
    induction l as [|x l IH]; intros up W Hi H; cbn; [exact H|].
    split.
    - exists x. split; [apply Hi; left; reflexivity | reflexivity].
    - apply IH; [|exact H]. intros a Ha. apply Hi. right. exact Ha.
  Qed.

  Lemma covered_archive batches : forall up, covered up (archive_writes batches).
  Proof.
    induction batches as [|b bs IH]; intros up; cbn; [exact I|].
    apply covered_deletes.
    - intros a Ha. apply in_or_app. left. exact Ha.
    - apply IH.
  Qed.

  Lemma covered_deleted W : forall up, covered up W -> forall k, In k (deleted W) ->
    exists a, (In a up \/ In a (concat (uploads W))) /\ key a = k.
  Proof.
    induction W as [|w W IH]; intros up H k Hk; cbn in *; [contradiction|].
    destruct w as [items|k'|n]; cbn in *.
    - destruct (IH _ H k Hk) as [a [Ha E]]. exists a. split; [|exact E].
      destruct Ha as [Ha|Ha]; [apply in_app_or in Ha; destruct Ha as [Ha|Ha]|].
      + right. apply in_or_app. left. exact Ha.
      + left. exact Ha.
      + right. apply in_or_app. right. exact Ha.
    - destruct H as [[a [Ha E]] H]. destruct Hk as [<-|Hk].
      + exists a. split; [left; exact Ha | exact E].
      + apply (IH _ H k Hk).
    - contradiction.
  Qed.

  Lemma uploads_archive batches : uploads (archive_writes batches) = batches.
  Proof.
    induction batches as [|b bs IH]; cbn; [reflexivity|]. f_equal.
    induction b as [|x b IHb]; cbn; [exact IH | exact IHb].
  Qed.

  Lemma deleted_archive batches : deleted (archive_writes batches) = map key (concat batches).
  Proof.
    induction batches as [|b bs IH]; cbn; [reflexivity|]. rewrite map_app, <- IH.
    induction b as [|x b IHb]; cbn; [reflexivity | f_equal; exact IHb].
  Qed.

  Lemma pruned_archive batches : pruned (archive_writes batches) = [].
  Proof. eapply covered_pruned. apply (covered_archive batches []). Qed.

  Lemma uploads_app W1 W2 : uploads (W1 ++ W2) = uploads W1 ++ uploads W2.
  Proof. induction W1 as [|[] W1 IH]; cbn; rewrite ?IH; reflexivity. Qed.
  Lemma deleted_app W1 W2 : deleted (W1 ++ W2) = deleted W1 ++ deleted W2.
  Proof. induction W1 as [|[] W1 IH]; cbn; rewrite ?IH; reflexivity. Qed.
  Lemma pruned_app W1 W2 : pruned (W1 ++ W2) = pruned W1 ++ pruned W2.
  Proof. induction W1 as [|[] W1 IH]; cbn; rewrite ?IH; reflexivity. Qed.

  Lemma uploads_firstn W k items : In items (uploads (firstn k W)) -> In items (uploads W).
  Proof. intros H. rewrite <- (firstn_skipn k W), uploads_app. apply in_or_app. left. exact H. Qed.

  Lemma deleted_firstn W k x : In x (deleted (firstn k W)) -> In x (deleted W).
  Proof. intros H. rewrite <- (firstn_skipn k W), deleted_app. apply in_or_app. left. exact H. Qed.

  Lemma pruned_firstn W k : pruned W = [] -> pruned (firstn k W) = [].
  Proof. intros H. rewrite <- (firstn_skipn k W), pruned_app in H. apply app_eq_nil in H. apply H. Qed.

  (** what was uploaded is archived, as long as nothing is pruned *)
  Lemma uploaded_archived W s items a :
    pruned W = [] -> In items (uploads W) -> In a items -> archived (apply_writes s W) a.
  Proof.
    intros HP Hi Ha. destruct (hist_apply W s HP) as [EH _]. destruct (numbered_In (seq s) _ _ Hi) as [m Hm].
    exists m, (map row_of items). split; [rewrite EH; apply in_or_app; right; exact Hm | apply in_map; exact Ha].
  Qed.

  (** ** Losslessness of any covered write list *)
  Lemma lossless_covered W s :
    NoDup (map key (live s)) -> covered [] W ->
    (forall a, In a (concat (uploads W)) -> In a (live s)) ->
    forall a, In a (live s) -> In a (live (apply_writes s W)) \/ archived (apply_writes s W) a.
  Proof.
    intros Hnd Hc Hup a Ha.
    destruct (in_dec Z.eq_dec (key a) (deleted W)) as [Hd|Hd].
    - right. destruct (covered_deleted W [] Hc _ Hd) as [a' [[[]|Ha'] E]].
      assert (a' = a) by (eapply NoDup_map_inj; eauto). subst a'.
      apply in_concat in Ha' as [items [Hi Hai]]. exact (uploaded_archived W s items a (covered_pruned W [] Hc) Hi Hai).
    - left. apply In_live_apply. split; assumption.
  Qed.

  (** ** The archiver: batches taken from the live nodes, any cut *)
  Section Batches.
    Variable s : store.
    Variable batches : list (list A).
    Hypothesis Hnd : NoDup (map key (live s)).
    Hypothesis Hin : forall a, In a (concat batches) -> In a (live s).
    Let W := archive_writes batches.

    Lemma archive_lossless k a :
      In a (live s) -> In a (live (cut key row_of s W k)) \/ archived (cut key row_of s W k) a.
    Proof.
      intros Ha. unfold cut. apply lossless_covered; auto.
      - apply covered_firstn. apply covered_archive.
      - intros x Hx. apply Hin. apply in_concat in Hx as [items [Hi Hxi]]. apply in_concat. exists items.
        split; [|exact Hxi]. apply uploads_firstn in Hi. unfold W in Hi. rewrite uploads_archive in Hi. exact Hi.
    Qed.

    Lemma archive_live_subset k a : In a (live (cut key row_of s W k)) -> In a (live s).
    Proof. unfold cut. rewrite In_live_apply. tauto. Qed.

    (** the deletes hit the batch members only: keys are unique *)
    Lemma deleted_in_batches a : In a (live s) -> In (key a) (deleted W) -> In a (concat batches).
    Proof.
      intros Ha Hd. unfold W in Hd. rewrite deleted_archive in Hd. apply in_map_iff in Hd as [a' [E Ha']].
      assert (a' = a) by (eapply NoDup_map_inj; eauto). subst a'. exact Ha'.
    Qed.

    Lemma archive_untouched k a :
      In a (live s) -> ~ In a (concat batches) -> In a (live (cut key row_of s W k)).
    Proof.
      intros Ha Hn. unfold cut. apply In_live_apply. split; [exact Ha|].
      intros Hd. apply deleted_firstn in Hd. exact (Hn (deleted_in_batches a Ha Hd)).
    Qed.

    Lemma archive_hist k h :
      In h (hist (cut key row_of s W k)) <->
      In h (hist s) \/ In h (numbered (seq s) (uploads (firstn k W))).
    Proof.
      unfold cut. destruct (hist_apply (firstn k W) s) as [E _].
      - apply pruned_firstn. apply pruned_archive.
      - rewrite E. rewrite in_app_iff. tauto.
    Qed.

    Lemma archive_new_snapshot k h :
      In h (hist (cut key row_of s W k)) ->
      In h (hist s) \/ exists batch, In batch batches /\ snd h = map row_of batch /\ seq s <= fst h.
    Proof.
      intros H. apply archive_hist in H as [H|H]; [left; exact H|]. right.
      destruct (In_numbered _ _ _ H) as [items [Hi [E Hn]]]. exists items. split; [|split; assumption].
      apply uploads_firstn in Hi. unfold W in Hi. rewrite uploads_archive in Hi. exact Hi.
    Qed.

    Lemma archive_old_snapshots k h : In h (hist s) -> In h (hist (cut key row_of s W k)).
    Proof. intros H. apply archive_hist. left. exact H. Qed.

    Lemma archive_complete_live a :
      In a (live (apply_writes s W)) <-> In a (live s) /\ ~ In a (concat batches).
    Proof.
      rewrite In_live_apply. split; intros [Ha Hn]; split; auto using deleted_in_batches.
      intros Hc. apply Hn. unfold W. rewrite deleted_archive. apply in_map. exact Hc.
    Qed.

    Lemma archive_complete_archived a : In a (concat batches) -> archived (apply_writes s W) a.
    Proof.
      intros Ha. apply in_concat in Ha as [items [Hi Hai]].
      apply (uploaded_archived W s items a (pruned_archive batches)); [|exact Hai].
      unfold W. rewrite uploads_archive. exact Hi.
    Qed.
  End Batches.

  (** ** Batches of [b] from a duplicate-free selection [cands] of the live nodes: what cleanup_trace and
      cleanup_finished have in common *)
  Section Selection.
    Variable s : store.
    Variable b : nat.
    Variable cands : list A.
    Hypothesis Hnd : NoDup (map key (live s)).
    Hypothesis Hsub : forall a, In a cands -> In a (live s).
    Let W := archive_writes (full_batches b cands).

    Lemma sel_batches_live a : In a (concat (full_batches b cands)) -> In a (live s).
    Proof. rewrite full_batches_concat. intros H. apply Hsub. exact (In_firstn _ _ _ H). Qed.

    Lemma sel_lossless k a :
      In a (live s) -> In a (live (cut key row_of s W k)) \/ archived (cut key row_of s W k) a.
    Proof. apply archive_lossless; [exact Hnd | exact sel_batches_live]. Qed.

    Lemma sel_others_stay k a :
      In a (live s) -> ~ In a (archived_part b cands) -> In a (live (cut key row_of s W k)).
    Proof.
      intros Ha Hn. apply archive_untouched; auto using sel_batches_live. rewrite full_batches_concat. exact Hn.
    Qed.

    Lemma sel_leftover_stay k a : NoDup cands -> In a (leftover b cands) -> In a (live (cut key row_of s W k)).
    Proof.
      intros Hc Ha. apply sel_others_stay; [apply Hsub; exact (In_skipn _ _ _ Ha)|].
      intros Hp. rewrite <- (archived_leftover b cands) in Hc. exact (NoDup_app_disjoint _ _ _ Hc Hp Ha).
    Qed.

    Lemma sel_snapshots k h :
      In h (hist (cut key row_of s W k)) ->
      In h (hist s) \/
      (seq s <= fst h /\ length (snd h) = b /\ forall r, In r (snd h) -> exists a, In a cands /\ r = row_of a).
    Proof.
      intros H. apply archive_new_snapshot in H as [H|[batch [Hb [E Hn]]]]; [left; exact H|]. right.
      split; [exact Hn|]. split; [rewrite E, map_length; exact (full_batches_length _ _ _ Hb)|].
      intros r Hr. rewrite E in Hr. apply in_map_iff in Hr as [a [<- Ha]]. exists a. split; [|reflexivity].
      exact (In_firstn _ _ _ (in_full_batches _ _ _ _ Hb Ha)).
    Qed.

    Lemma sel_cut (sel : A -> Prop) k : (forall a, In a cands <-> In a (live s) /\ sel a) ->
      (forall a, In a (live s) -> ~ sel a -> In a (live (cut key row_of s W k))) /\
      (forall h, In h (hist (cut key row_of s W k)) ->
         In h (hist s) \/
         (seq s <= fst h /\ length (snd h) = b /\
          forall r, In r (snd h) -> exists a, In a (live s) /\ sel a /\ r = row_of a)) /\
      (forall h, In h (hist s) -> In h (hist (cut key row_of s W k))) /\
      (forall a, In a (live (cut key row_of s W k)) -> In a (live s)).
    Proof.
      intros Hc. split; [|split; [|split]].
      - intros a Ha Hn. apply sel_others_stay; [exact Ha|]. intros Hin. apply In_firstn, Hc in Hin. tauto.
      - intros h Hh. apply sel_snapshots in Hh as [Hh|(Hn & Hl & Hr)]; [left; exact Hh|]. right.
        split; [exact Hn|]. split; [exact Hl|]. intros r Hin. destruct (Hr r Hin) as [a [Ha ->]]. exists a.
        apply Hc in Ha. tauto.
      - apply archive_old_snapshots.
      - apply archive_live_subset.
    Qed.

    Lemma sel_complete a :
      (In a (live (apply_writes s W)) <-> In a (live s) /\ ~ In a (archived_part b cands)) /\
      (In a (archived_part b cands) -> archived (apply_writes s W) a).
    Proof.
      rewrite <- full_batches_concat.
      split; [apply archive_complete_live; auto using sel_batches_live | apply archive_complete_archived].
    Qed.
  End Selection.

  (** ** Pruning *)

  Lemma prune_apply L : forall s,
    live (apply_writes s (map Prune L)) = live s /\ seq (apply_writes s (map Prune L)) = seq s /\
    forall h, In h (hist (apply_writes s (map Prune L))) <-> In h (hist s) /\ ~ In (fst h) L.
  Proof.
    induction L as [|n L IH]; intros s.
    - cbn [map]. rewrite apply_writes_nil. repeat split; tauto.
    - cbn [map]. rewrite apply_writes_cons.
      destruct (IH (apply_write s (Prune n))) as [E1 [E2 E3]]. rewrite E1, E2. cbn. repeat split; try reflexivity.
      + apply E3 in H. cbn in H. destruct H as [H _]. apply filter_In in H. tauto.
      + apply E3 in H. cbn in H. destruct H as [H1 H2]. apply filter_In in H1 as [_ H1].
        apply negb_true_iff, Z.eqb_neq in H1. intros [Hc|Hc]; [congruence | contradiction].
      + intros [H1 H2]. apply E3. cbn. split; [|tauto]. apply filter_In. split; [exact H1|].
        apply negb_true_iff, Z.eqb_neq. intros Hc. apply H2. left. congruence.
  Qed.

  Lemma count_gt_app n l1 l2 : count_gt n (l1 ++ l2) = (count_gt n l1 + count_gt n l2)%nat.
  Proof. unfold count_gt. rewrite filter_app, app_length. reflexivity. Qed.

  Lemma count_gt_all n l : (forall m, In m l -> n < m) -> count_gt n l = length l.
  Proof.
    unfold count_gt. induction l as [|x l IH]; cbn; intros H; [reflexivity|].
    assert (n <? x = true) as -> by (specialize (H x (or_introl eq_refl)); lia).
    cbn. f_equal. apply IH. intros m Hm. apply H. right. exact Hm.
  Qed.

  Lemma count_gt_none n l : (forall m, In m l -> m <= n) -> count_gt n l = 0%nat.
  Proof.
    unfold count_gt. induction l as [|x l IH]; cbn; intros H; [reflexivity|].
    assert (n <? x = false) as -> by (specialize (H x (or_introl eq_refl)); lia).
    apply IH. intros m Hm. apply H. right. exact Hm.
  Qed.

  (** in a sorted duplicate-free list the first d names are exactly those with at least len-d greater names *)
  Lemma sorted_firstn_count L d n :
    StronglySorted (le_by Z.leb) L -> NoDup L -> In n (firstn d L) -> (length L - d <= count_gt n L)%nat.
  Proof.
    intros Hs Hnd Hn. rewrite <- (firstn_skipn d L) at 2. rewrite count_gt_app.
    rewrite (count_gt_all n (skipn d L)); [rewrite skipn_length; lia|].
    intros m Hm. pose proof (sorted_firstn_skipn Z.leb L d n m Hs Hn Hm) as Hle. unfold le_by in Hle.
    assert (n <> m); [|lia].
    intros ->. rewrite <- (firstn_skipn d L) in Hnd. eapply NoDup_app_disjoint; eauto.
  Qed.

  Lemma sorted_skipn_count L d n :
    StronglySorted (le_by Z.leb) L -> In n (skipn d L) -> (count_gt n L < length L - d)%nat.
  Proof.
    intros Hs Hn. rewrite <- (firstn_skipn d L) at 1. rewrite count_gt_app, (count_gt_none n (firstn d L)).
    - cbn. unfold count_gt. rewrite <- skipn_length. eapply filter_length_lt; [exact Hn | lia].
    - intros m Hm. pose proof (sorted_firstn_skipn Z.leb L d m n Hs Hm Hn) as Hle. unfold le_by in Hle. lia.
  Qed.

  Section Prune.
    Variable s : store.
    Variable maxc : Z.
    Let names := map fst (hist s).
    Let L := isort Z.leb names.
    Let d := Z.to_nat (Z.of_nat (length L) - maxc).
    Let W := prune_writes (A:=A) maxc s.

    Lemma count_gt_sorted n : count_gt n L = count_gt n names.
    Proof. unfold count_gt. symmetry. apply Permutation_filter_length. apply isort_perm. Qed.

    Lemma names_sorted : StronglySorted (le_by Z.leb) L.
    Proof. apply isort_sorted; intros; lia. Qed.

    (** a name with fewer than maxc greater names is not among the d smallest, which are the ones pruned *)
    Lemma prune_keeps n : NoDup names -> Z.of_nat (count_gt n names) < maxc -> ~ In n (firstn d L).
    Proof.
      intros Hnd Hc Hin. pose proof (sorted_firstn_count L d n names_sorted (isort_NoDup _ _ Hnd) Hin) as Hcnt.
      rewrite count_gt_sorted in Hcnt. destruct d as [|d'] eqn:Ed; [contradiction|]. unfold d in Ed. lia.
    Qed.

    Lemma prune_cut k :
      live (cut key row_of s W k) = live s /\ seq (cut key row_of s W k) = seq s /\
      (forall h, In h (hist (cut key row_of s W k)) -> In h (hist s)) /\
      (NoDup names -> forall h, In h (hist s) -> (Z.of_nat (count_gt (fst h) names) < maxc) ->
         In h (hist (cut key row_of s W k))).
    Proof.
      unfold cut, W, prune_writes. fold names L d. rewrite firstn_map.
      destruct (prune_apply (firstn k (firstn d L)) s) as [E1 [E2 E3]].
      split; [exact E1|]. split; [exact E2|]. split.
      - intros h Hh. apply E3 in Hh. tauto.
      - intros Hnd h Hh Hc. apply E3. split; [exact Hh|]. intros Hin. exact (prune_keeps _ Hnd Hc (In_firstn _ _ _ Hin)).
    Qed.

    Lemma prune_complete : NoDup names -> forall h,
      In h (hist (apply_writes s W)) <-> In h (hist s) /\ Z.of_nat (count_gt (fst h) names) < maxc.
    Proof.
      intros Hnd h. unfold W, prune_writes. fold names L d.
      destruct (prune_apply (firstn d L) s) as [_ [_ E3]]. rewrite E3.
      split; intros [Hh Hx]; (split; [exact Hh|]); [|exact (prune_keeps _ Hnd Hx)].
      assert (HinL : In (fst h) L) by (apply isort_In; apply in_map; exact Hh).
      rewrite <- (firstn_skipn d L) in HinL. apply in_app_or in HinL as [Hc|Hc]; [contradiction|].
      pose proof (sorted_skipn_count L d (fst h) names_sorted Hc) as Hcnt. rewrite count_gt_sorted in Hcnt.
      assert (length L = length names) by apply isort_length. unfold d in Hcnt. lia.
    Qed.
  End Prune.
End ArchP.

(** * App trace *)
(** [ev_leb] is the lexicographic order on (timestamp, shard, key) *)
Lemma ev_leb_lex a b : ev_leb a b = true <->
  e_ts a < e_ts b \/ e_ts a = e_ts b /\ (e_shard a < e_shard b \/ e_shard a = e_shard b /\ e_key a <= e_key b).
Proof.
  unfold ev_leb.
  destruct (Z.ltb_spec (e_ts a) (e_ts b)), (Z.ltb_spec (e_ts b) (e_ts a)),
    (Z.ltb_spec (e_shard a) (e_shard b)), (Z.ltb_spec (e_shard b) (e_shard a)); lia.
Qed.

Lemma ev_leb_total a b : ev_leb a b = true \/ ev_leb b a = true.
Proof. rewrite !ev_leb_lex. lia. Qed.

Lemma ev_leb_trans a b c : ev_leb a b = true -> ev_leb b c = true -> ev_leb a c = true.
Proof. rewrite !ev_leb_lex. lia. Qed.

Lemma keys_unique_NoDup {A R} (key : A -> Z) (s : store A R) :
  keys_unique key s = true -> NoDup (map key (live s)).
Proof. unfold keys_unique. apply nodupb_NoDup. Qed.

Lemma trace_cands_In now expires sched (s : tstore) e :
  In e (trace_candidates now expires sched s) <-> In e (live s) /\ trace_candidate now expires sched e = true.
Proof. unfold trace_candidates. rewrite isort_In, filter_In. tauto. Qed.

Lemma trace_cands_live now expires sched (s : tstore) a : In a (trace_candidates now expires sched s) -> In a (live s).
Proof. intros Ha. apply trace_cands_In in Ha. tauto. Qed.

Lemma trace_cands_NoDup now expires sched (s : tstore) :
  keys_unique e_key s = true -> NoDup (trace_candidates now expires sched s).
Proof.
  intros Hku. unfold trace_candidates. apply isort_NoDup, NoDup_filter.
  eapply NoDup_map_inv. apply keys_unique_NoDup. exact Hku.
Qed.

Lemma fin_cands_In now expires (s : fstore) f :
  In f (fin_candidates now expires s) <-> In f (live s) /\ f_mtime f < now - expires.
Proof. unfold fin_candidates, expired. rewrite filter_In. intuition lia. Qed.

Lemma fin_cands_live now expires (s : fstore) a : In a (fin_candidates now expires s) -> In a (live s).
Proof. intros Ha. apply fin_cands_In in Ha. tauto. Qed.

Lemma download_spec rows i k : In k (download rows i) <-> exists r, In r rows /\ r_inst r = i /\ r_key r = k.
Proof.
  unfold download. rewrite in_map_iff. split.
  - intros [r [E H]]. apply filter_In in H as [H1 H2]. exists r. repeat split; auto. lia.
  - intros [r [H1 [H2 H3]]]. exists r. split; [exact H3|]. apply filter_In. split; [exact H1 | lia].
Qed.

Lemma archived_download (s : tstore) e :
  archived trow_of s e -> exists n rows, In (n, rows) (hist s) /\ In (e_key e) (download rows (e_inst e)).
Proof.
  intros [n [rows [H1 H2]]]. exists n, rows. split; [exact H1|]. apply download_spec.
  exists (trow_of e). repeat split. exact H2.
Qed.

(** * Server trace loop *)
Lemma archive_writes_cons {A} (key : A -> Z) batch rest :
  archive_writes key (batch :: rest) = archive_writes key [batch] ++ archive_writes key rest.
Proof. unfold archive_writes. cbn. rewrite app_nil_r. reflexivity. Qed.

Lemma server_loop_S f b (s : tstore) :
  server_loop (S f) b s =
  if (length (firstn b (isort ev_leb (live s))) <? b)%nat then Some []
  else match server_loop f b (apply_writes e_key trow_of s (archive_writes e_key [firstn b (isort ev_leb (live s))])) with
       | Some rest => Some (archive_writes e_key [firstn b (isort ev_leb (live s))] ++ rest)
       | None => None
       end.
Proof. reflexivity. Qed.

(** what the loop writes: full batches of live events, one after the other, until fewer than b events are left *)
Lemma server_loop_batches fuel b : forall (s : tstore) W,
  server_loop fuel b s = Some W ->
  exists batches, W = archive_writes e_key batches /\
                  (forall a, In a (concat batches) -> In a (live s)) /\
                  (forall batch, In batch batches -> length batch = b) /\
                  (length (live (apply_writes e_key trow_of s W)) < b)%nat.
Proof.
  induction fuel as [|f IH]; intros s W H; [discriminate|]. rewrite server_loop_S in H.
  set (batch := firstn b (isort ev_leb (live s))) in *.
  destruct (length batch <? b)%nat eqn:E.
  - injection H as <-. exists []. cbn. repeat split; try (intros; contradiction).
    apply Nat.ltb_lt in E. unfold batch in E. rewrite firstn_length, isort_length in E. lia.
  - set (ws := archive_writes e_key [batch]) in *.
    destruct (server_loop f b (apply_writes e_key trow_of s ws)) as [rest|] eqn:ER; [|discriminate].
    injection H as <-. destruct (IH _ _ ER) as [bs [E1 [E2 [E3 E4]]]].
    exists (batch :: bs). repeat split.
    + rewrite archive_writes_cons. fold ws. rewrite E1. reflexivity.
    + intros a Ha. cbn in Ha. apply in_app_or in Ha as [Ha|Ha].
      * apply In_firstn in Ha. apply isort_In in Ha. exact Ha.
      * apply E2 in Ha. apply In_live_apply in Ha. tauto.
    + intros x [<-|Hx]; [|apply E3; exact Hx].
      apply Nat.ltb_ge in E. pose proof (firstn_le_length b (isort ev_leb (live s))). fold batch in H. lia.
    + change (length (live (apply_writes e_key trow_of s (ws ++ rest))) < b)%nat. rewrite apply_writes_app. exact E4.
Qed.

Lemma live_apply_length {A R} (key : A -> Z) (row_of : A -> R) W : forall (s : store A R),
  (length (live (apply_writes key row_of s W)) <= length (live s))%nat.
Proof.
  induction W as [|w W IH]; intros s.
  - rewrite apply_writes_nil. lia.
  - rewrite apply_writes_cons. etransitivity; [apply IH|]. destruct w; cbn; try lia. apply filter_length_le.
Qed.

Lemma server_loop_terminates fuel b : forall (s : tstore),
  (0 < b)%nat -> (length (live s) < fuel)%nat -> server_loop fuel b s <> None.
Proof.
  induction fuel as [|f IH]; intros s Hb Hf; [lia|]. rewrite server_loop_S.
  set (batch := firstn b (isort ev_leb (live s))).
  destruct (length batch <? b)%nat eqn:E; [discriminate|].
  set (ws := archive_writes e_key [batch]).
  assert (Hlt : (length (live (apply_writes e_key trow_of s ws)) < length (live s))%nat).
  { apply Nat.ltb_ge in E. destruct batch as [|a batch'] eqn:EB; [cbn in E; lia|].
    assert (Ha : In a (live s)).
    { apply (isort_In ev_leb). apply (In_firstn b). fold batch. rewrite EB. left. reflexivity. }
    unfold ws, archive_writes. cbn [flat_map map app]. rewrite !apply_writes_cons.
    eapply Nat.le_lt_trans; [apply live_apply_length|]. cbn.
    eapply filter_length_lt; [exact Ha|]. rewrite Z.eqb_refl. reflexivity. }
  specialize (IH (apply_writes e_key trow_of s ws) Hb ltac:(lia)).
  destruct (server_loop f b (apply_writes e_key trow_of s ws)); [discriminate | contradiction].
Qed.

(** the last cut is the complete run *)
Lemma cut_all {A R} (key : A -> Z) (row_of : A -> R) (s : store A R) W :
  cut key row_of s W (length W) = apply_writes key row_of s W.
Proof. unfold cut. rewrite firstn_all. reflexivity. Qed.

