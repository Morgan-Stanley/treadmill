(** C12  The node's manifest cache mirrors what is placed on the node.

    Model: Node/Fs.v (directory + system calls; rename(2) atomic by definition),
    Node/Cache.v (EventMgr._synchronize/_cache/_cache_notify, fs.write_safe as its
    system-call list).  The temp-file prefix, READY_FILE, the glob pattern, the dot-file
    filter and the call order of fs.write_safe are regenerated from the source into
    Gen/Tables.v on every run ([c12_cfg], [C12_source_constants]). *)
From Coq Require Import ZArith List Bool String.
From TM Require Import Node.Fs Node.Cache Node.CacheP Node.CacheCfg Gen.Tables.
From TM Require Import Base.ShapeCanon.
Import ListNotations.
Open Scope Z_scope.

(** what the proofs need from the source: the temp prefix starts with a dot, the ready file is a
    dot file, readers use glob '*' / a leading-dot filter, and write_safe is
    temp file -> func -> fchmod [-> fchown -> fsync/utime] -> replace(tmp, target) -> finally rm_safe(tmp) *)
Theorem C12_source_constants :
  dot_prefixed (c_pre c12_cfg) = true /\ dot_prefixed (c_ready c12_cfg) = true /\
  c12_glob_pattern = "*"%string /\ c12_appcfg_ignore = "."%string /\
  c12_write_safe_shape = [1; 2; 3; 4; 5; 6; 7].
Proof. vm_compute. repeat split. Qed.
Print Assumptions C12_source_constants.

Definition C12_dot : dot_prefixed (c_pre c12_cfg) = true := proj1 C12_source_constants.

(** hypotheses shared by the synchronisation theorems:
    placed names are instance names (glob '*' matches them), and tempfile picks unused names *)
Definition placed_ok (E : list name) : Prop := forall a, In a E -> glob_star a = true.

(** after a completed synchronisation the cache names no instance that is not placed *)
Theorem C12_names : forall z orc E check ord d d',
  placed_ok E -> fresh_for c12_cfg orc d E ->
  synchronize c12_cfg z d E check ord orc = (d', Done) ->
  forall x, In x (visible d') -> In x E.
Proof.
  intros z orc E check ord d d' H1 H2 H3 x Hx.
  exact (proj1 (sync_done c12_cfg z orc E check ord C12_dot H1 d H2 d' H3) x
           (proj1 (proj1 (in_visible d' x) Hx)) (proj2 (proj1 (in_visible d' x) Hx))).
Qed.
Print Assumptions C12_names.

(** every placed instance whose placement node and manifest exist in ZooKeeper has a cache entry *)
Theorem C12_present : forall z orc E check ord d d',
  placed_ok E -> fresh_for c12_cfg orc d E ->
  synchronize c12_cfg z d E check ord orc = (d', Done) ->
  forall a, In a E -> alookup (z_place z) a <> None -> alookup (z_sched z) a <> None -> lookup d' a <> None.
Proof.
  intros z orc E check ord d d' H1 H2 H3.
  exact (proj1 (proj2 (sync_done c12_cfg z orc E check ord C12_dot H1 d H2 d' H3))).
Qed.
Print Assumptions C12_present.

(** a missing entry, and (with check_existing) an entry older than the placement, is rewritten:
    the file is the dump of  manifest + task id + placement data  *)
Theorem C12_content : forall z orc E check ord d d',
  placed_ok E -> fresh_for c12_cfg orc d E ->
  synchronize c12_cfg z d E check ord orc = (d', Done) ->
  forall a p, In a E -> alookup (z_place z) a = Some p -> alookup (z_sched z) a <> None ->
    (lookup d a = None \/ (check = true /\ uptodate d a p = false)) ->
    exists m p' t, alookup (z_sched z) a = Some m /\ alookup (z_place z) a = Some p' /\ after_hash a = Some t /\
                   lookup d' a = Some (File (dump (merged m t p')) (w_now (orc a))).
Proof.
  intros z orc E check ord d d' H1 H2 H3 a p Ha Hp Hs Hw.
  exact (proj1 (written_explicit z orc a (lookup d' a))
           (proj1 (proj2 (proj2 (sync_done c12_cfg z orc E check ord C12_dot H1 d H2 d' H3))) a p Ha Hp Hs Hw)).
Qed.
Print Assumptions C12_content.

(** the merged manifest: placement data (identity, identity_count, expires) wins, then task, then the manifest *)
Theorem C12_merged_fields : forall m t p k,
  d_get (merged m t p) k =
  match pl_get p k with
  | Some v => Some v
  | None => if Z.eqb k K_TASK then Some (VStr t) else d_get m k
  end.
Proof.
  intros m t p k.
  unfold merged, pl_get.
  assert (H1 : d_get (d_set m K_TASK (VStr t)) k = if Z.eqb k K_TASK then Some (VStr t) else d_get m k).
  { destruct (Z.eqb k K_TASK) eqn:E.
    - apply Z.eqb_eq in E. subst. apply d_get_set_same.
    - apply Z.eqb_neq in E. now apply d_get_set_other. }
  destruct (pl_data p) as [pd|]; [rewrite d_get_update|]; rewrite H1; reflexivity.
Qed.
Print Assumptions C12_merged_fields.

(** what is not rewritten keeps its entry; an instance that cannot be fetched gets none *)
Theorem C12_kept : forall z orc E check ord d d',
  placed_ok E -> fresh_for c12_cfg orc d E ->
  synchronize c12_cfg z d E check ord orc = (d', Done) ->
  (forall a, In a E -> lookup d a <> None -> check = false \/ skips z true d a -> lookup d' a = lookup d a) /\
  (forall a, In a E -> lookup d a = None -> skips z false d a -> lookup d' a = None).
Proof.
  intros z orc E check ord d d' H1 H2 H3.
  exact (proj2 (proj2 (proj2 (sync_done c12_cfg z orc E check ord C12_dot H1 d H2 d' H3)))).
Qed.
Print Assumptions C12_kept.

(** write_safe, every crash point k: the target is the old entry or the complete new file, no other name
    changes, nothing but the target becomes visible, the temporary file holds a prefix of the content,
    and all system calls succeed; after the last call the target is new and the temporary file is gone *)
Theorem C12_atomic : forall d n c w k,
  glob_star n = true -> lookup d (tmp_name c12_cfg n (w_sfx w)) = None ->
  let tmp := tmp_name c12_cfg n (w_sfx w) in
  let ops := write_safe_ops tmp n c w in
  let d' := crash_at k ops d in
  snd (run_ops (firstn k ops) d) = true /\
  (lookup d' n = lookup d n \/ lookup d' n = Some (File c (w_now w))) /\
  (forall x, x <> n -> x <> tmp -> lookup d' x = lookup d x) /\
  (forall x, In x (visible d') -> x = n \/ In x (visible d)) /\
  (match lookup d' tmp with
   | None => True | Some (File c' _) => exists j, c' = firstn j c | Some (Link _) => False end) /\
  ((List.length ops <= k)%nat -> lookup d' n = Some (File c (w_now w)) /\ lookup d' tmp = None).
Proof. intros d n c w k H1 H2. exact (write_safe_crash_atomic c12_cfg d n c w k C12_dot H1 H2). Qed.
Print Assumptions C12_atomic.

(** temporary names are never matched by glob '*' nor accepted by the manager's dot-file filter *)
Theorem C12_tmp_hidden : forall a s,
  glob_star (tmp_name c12_cfg a s) = false /\ appcfg_ignores (tmp_name c12_cfg a s) = true.
Proof. intros a s. exact (tmp_name_hidden c12_cfg a s C12_dot). Qed.
Print Assumptions C12_tmp_hidden.

(** the whole synchronisation, every outcome (completed, exception at any system call of any write,
    process killed at any system call): every name glob '*' can see holds its old entry, or was an
    unplaced entry that is now removed, or is placed and holds the complete merged manifest; dot files
    (e.g. .ready) are untouched, except that a kill may leave one temporary file behind *)
Theorem C12_sync_atomic : forall z orc E check ord d d' o,
  placed_ok E -> fresh_for c12_cfg orc d E ->
  synchronize c12_cfg z d E check ord orc = (d', o) ->
  (forall x, glob_star x = true ->
     lookup d' x = lookup d x \/ (lookup d' x = None /\ ~ In x E) \/ (In x E /\ written z orc x (lookup d' x))) /\
  (forall x, glob_star x = false -> (forall a, In a E -> x <> tmp_name c12_cfg a (w_sfx (orc a))) ->
     lookup d' x = lookup d x) /\
  (o <> Killed -> forall x, glob_star x = false -> lookup d' x = lookup d x).
Proof.
  intros z orc E check ord d d' o H1 H2 H3.
  exact (sync_atomic c12_cfg z orc E check ord C12_dot H1 d H2 d' o H3).
Qed.
Print Assumptions C12_sync_atomic.

(** no injected fault and instance names of the form app#id: the synchronisation completes *)
Theorem C12_completes : forall z orc E check ord d,
  placed_ok E -> fresh_for c12_cfg orc d E ->
  (forall a, In a E -> w_fault (orc a) = None /\ after_hash a <> None) ->
  snd (synchronize c12_cfg z d E check ord orc) = Done.
Proof.
  intros z orc E check ord d H1 H2 H3.
  exact (sync_completes c12_cfg z orc E check ord C12_dot H1 d H2 H3).
Qed.
Print Assumptions C12_completes.

(** _cache_notify only creates/removes READY_FILE, which glob '*' does not match *)
Theorem C12_ready_only : forall d b now x,
  x <> c_ready c12_cfg -> lookup (cache_notify c12_cfg d b now) x = lookup d x.
Proof. intros d b now x H. exact (cache_notify_other c12_cfg d b now x H). Qed.
Print Assumptions C12_ready_only.

(** non-vacuity: a cache with a stale, an extra and an outdated entry; a missing one is fetched *)
Definition ex_m : dict := [(3, VId 30); (5, VId 50)].
Definition ex_z : zkst :=
  {| z_sched := [("a#1"%string, ex_m); ("b#2"%string, ex_m); ("c#3"%string, ex_m)];
     z_place := [("a#1"%string, {| pl_data := Some [(7, VId 1)]; pl_ctime := 2000 |});
                 ("b#2"%string, {| pl_data := None; pl_ctime := 10 |});
                 ("d#4"%string, {| pl_data := None; pl_ctime := 10 |})] |}.
Definition ex_d : dir :=
  [("a#1"%string, File [9] 1000); (".ready"%string, File [] 5); ("x#9"%string, File [1] 1000)].
Definition ex_E : list name := ["a#1"; "b#2"; "c#3"; "d#4"]%string.
Definition ex_orc (n : name) : wspec := {| w_sfx := "tmp0"; w_pre := 2; w_now := 3000; w_fault := None |}.

Example C12_nonvacuous :
  placed_ok ex_E /\ fresh_for c12_cfg ex_orc ex_d ex_E /\
  snd (synchronize c12_cfg ex_z ex_d ex_E true [] ex_orc) = Done /\
  visible (fst (synchronize c12_cfg ex_z ex_d ex_E true [] ex_orc)) = ["a#1"; "b#2"]%string /\
  lookup (fst (synchronize c12_cfg ex_z ex_d ex_E true [] ex_orc)) "a#1"%string
    = Some (File [0; 2; 1; 49; 3; 1; 30; 5; 1; 50; 7; 1; 1] 3000) /\
  (* a kill in the middle of the write of b#2 leaves a#1 complete, b#2 absent and a hidden temp file *)
  visible (fst (synchronize c12_cfg ex_z ex_d ex_E true []
      (fun n => {| w_sfx := "tmp0"; w_pre := 2; w_now := 3000;
                   w_fault := if String.eqb n "b#2" then Some (2%nat, true) else None |})))
    = ["a#1"]%string.
Proof.
  split; [|split].
  - intros a Ha. cbn in Ha. repeat (destruct Ha as [<-|Ha]; [reflexivity|]). contradiction.
  - intros a Ha. cbn in Ha. repeat (destruct Ha as [<-|Ha]; [vm_compute; reflexivity|]). contradiction.
  - vm_compute. repeat split.
Qed.

(** the functions named by this property's anchors still have the statement skeleton the model was written from
    (re-extracted from the Python AST on every run, harness/tables_shape.py + harness/shape_pins.json; kept last so that
    a difference does not stop the theorems above from being checked) *)
Theorem C12_source_shape : shapes_ok_C12 = true.
Proof. vm_compute. reflexivity. Qed.
Print Assumptions C12_source_shape.
