(** C09 between the cycles, over Master/Handlers.v (proofs in Master/HandlersP.v): every history of well-formed and sound
    handler events, cycles, integrity checks and restarts keeps the store equal to the model ([PubInv]), so the
    hypotheses of C09_publication / C09_published_equals_model ([within_before], [unchanged_published]) hold at the next
    cycle; each defective use that [sound_op] excludes is refuted by a history.  [wf_op] is what
    harness/props/c09handlers.py checks on every hop of every real history. *)
From Coq Require Import ZArith List Bool.
From TM Require Import Master.Publish Master.PublishP Master.Handlers Master.HandlersP Gen.Tables.
Import ListNotations.
Open Scope Z_scope.

Definition c10_cfg : cfg :=
  cfg_of_tables c10_reschedule_phases c10_changed_filter c10_init_phases c10_init_flags c10_integrity_flags.

Theorem C09H_source_shape : cfg_canonical c10_cfg = true.
Proof. vm_compute. reflexivity. Qed.
Print Assumptions C09H_source_shape.

Theorem C09H_step_keeps_invariant : forall m st op,
  PubInv m st -> ok_op m st op = true -> PubInv m (hstep c10_cfg op st).
Proof. exact (hstep_keeps c10_cfg C09H_source_shape). Qed.
Print Assumptions C09H_step_keeps_invariant.

Theorem C09H_invariant_all_histories : forall m ops st,
  PubInv m st -> all_ok m c10_cfg ops st = true -> PubInv m (hrun c10_cfg ops st).
Proof. exact (hrun_keeps c10_cfg C09H_source_shape). Qed.
Print Assumptions C09H_invariant_all_histories.

Theorem C09H_invariant_every_prefix : forall m pre post st,
  PubInv m st -> all_ok m c10_cfg (pre ++ post) st = true -> PubInv m (hrun c10_cfg pre st).
Proof. exact (hrun_keeps_every_prefix c10_cfg C09H_source_shape). Qed.
Print Assumptions C09H_invariant_every_prefix.

Theorem C09H_restart_establishes_invariant : forall m dels servers l ops st,
  all_ok m c10_cfg (HRestart dels servers l :: ops) st = true ->
  PubInv m (hrun c10_cfg (HRestart dels servers l :: ops) st).
Proof. exact (hrun_from_restart c10_cfg C09H_source_shape). Qed.
Print Assumptions C09H_restart_establishes_invariant.

Theorem C09H_hypotheses_hold_at_next_cycle : forall pre tuples i once post st,
  PubInv Full st -> all_ok Full c10_cfg (pre ++ HCycle tuples i once :: post) st = true ->
  let before := h_store (hrun c10_cfg pre st) in
  NoDup (map t_name tuples) /\ within_before tuples before /\ unchanged_published tuples i before /\
  (forall s a, has before s a = true -> In a (map t_name tuples)).
Proof. exact (next_cycle_hypotheses c10_cfg C09H_source_shape). Qed.
Print Assumptions C09H_hypotheses_hold_at_next_cycle.

Theorem C09H_published_equals_model_all_histories : forall pre tuples i once post st,
  PubInv Full st -> all_ok Full c10_cfg (pre ++ HCycle tuples i once :: post) st = true ->
  forall s a, lookup (h_store (hrun c10_cfg (pre ++ [HCycle tuples i once]) st)) s a
              = lookup (model_entries i tuples) s a.
Proof. exact (published_equals_model_full c10_cfg C09H_source_shape). Qed.
Print Assumptions C09H_published_equals_model_all_histories.

Theorem C09H_published_equals_model_core_all_histories : forall pre tuples i once post st,
  PubInv Core st -> all_ok Core c10_cfg (pre ++ HCycle tuples i once :: post) st = true ->
  forall s a, osim Core (lookup (h_store (hrun c10_cfg (pre ++ [HCycle tuples i once]) st)) s a)
                        (lookup (model_entries i tuples) s a) = true.
Proof. exact (published_sim_model c10_cfg C09H_source_shape Core). Qed.
Print Assumptions C09H_published_equals_model_core_all_histories.

(** the premise [PubInv m st] of the theorems above holds at the empty cell *)
Theorem C09H_empty_cell : forall m, PubInv m h0.
Proof. exact PubInv_h0. Qed.
Print Assumptions C09H_empty_cell.

Theorem C09H_invariant_executable : forall m st, pubinvb m st = true -> PubInv m st.
Proof. exact pubinvb_sound. Qed.
Print Assumptions C09H_invariant_executable.

Theorem C09H_publication_frame : forall tuples i once st,
  NoDup (map t_name tuples) -> within_before tuples st ->
  let final := apply_writes st (reschedule_writes c10_cfg tuples i once) in
  (forall t, In t tuples -> changed canonical_cfg t = true -> forall s,
     lookup final s (t_name t) = if oeqb (t_sa t) (Some s) then Some (get_info i (t_name t)) else None) /\
  (forall t, In t tuples -> changed canonical_cfg t = false -> forall s,
     lookup final s (t_name t) = lookup st s (t_name t)) /\
  (forall a, ~ In a (map t_name tuples) -> forall s, lookup final s a = lookup st s a).
Proof. exact (resched_frame c10_cfg C09H_source_shape). Qed.
Print Assumptions C09H_publication_frame.

Theorem C09H_remove_server_frame : forall m s st a,
  PubInv m st -> (forall d, view (h_apps st) a <> Some (Some s, d)) ->
  forall s', osim m (lookup (h_store (remove_server s st)) s' a) (expected (h_apps (remove_server s st)) s' a) = true.
Proof. exact remove_server_frame. Qed.
Print Assumptions C09H_remove_server_frame.

(** * The defective handlers *)
(** common prefix: a master starts on an empty store over servers 1 and 2, instance 7 is scheduled, the first cycle
    places it on server 1 with expiry 100 *)
Definition pd (e : Z) : pdata := mkPD None None (Some e).
Definition rx_pre : list hop :=
  [HRestart [] [1; 2] []; HLoadApp 7; HCycle [(7, None, None, Some 1, Some 100)] [(7, pd 100)] []].

Example C09H_prefix_sound :
  all_ok Full c10_cfg rx_pre h0 = true /\ pubinvb Full (hrun c10_cfg rx_pre h0) = true /\
  flat_state (hrun c10_cfg rx_pre h0) = [1; 7; 1; 1; -1; -1; 1; 100;  2; 1; 2;  1; 1; 7; -1; -1; 1; 100].
Proof. vm_compute. repeat split. Qed.

(** Loader.remove_server: the instance becomes pending, its node stays; the next cycle places it on server 2 and the
    store holds it twice (signature stale-entry-after-server-record-deleted) *)
Theorem C09H_remove_server_refuted : exists s tuples i once,
  all_ok Full c10_cfg rx_pre h0 = true /\
  all_wf c10_cfg (rx_pre ++ [HRemoveServer s; HCycle tuples i once]) h0 = true /\
  sound_op Core (hrun c10_cfg rx_pre h0) (HRemoveServer s) = false /\
  let st := hrun c10_cfg (rx_pre ++ [HRemoveServer s; HCycle tuples i once]) h0 in
  ~ no_double (h_store st) /\
  ~ (forall s' a, osim Core (lookup (h_store st) s' a) (lookup (model_entries i tuples) s' a) = true).
Proof.
  exists 1, [(7, None, None, Some 2, Some 200)], [(7, pd 200)], [].
  split; [exact (proj1 C09H_prefix_sound)|]. split; [vm_compute; reflexivity|]. split; [vm_compute; reflexivity|].
  split.
  - intros H. specialize (H 7 1 2). vm_compute in H. specialize (H eq_refl eq_refl). discriminate.
  - intros H. specialize (H 1 7). vm_compute in H. discriminate.
Qed.
Print Assumptions C09H_remove_server_refuted.

(** Loader.reload_server of a modified server whose presence is newer than the node: Server.put gives the instance a
    new expiry (300), nothing is written; the next cycle reports it unchanged and the node keeps 100 (signature
    stale-expiry-after-server-reload-not-republished) *)
Theorem C09H_reload_server_refuted : exists s outs tuples i once,
  all_ok Full c10_cfg rx_pre h0 = true /\
  all_wf c10_cfg (rx_pre ++ [HReloadServer s outs; HCycle tuples i once]) h0 = true /\
  sound_op Core (hrun c10_cfg rx_pre h0) (HReloadServer s outs) = false /\
  let st := hrun c10_cfg (rx_pre ++ [HReloadServer s outs; HCycle tuples i once]) h0 in
  ~ (forall s' a, osim Core (lookup (h_store st) s' a) (lookup (model_entries i tuples) s' a) = true).
Proof.
  exists 1, [(7, RPlaced (Some 300))], [(7, Some 1, Some 300, Some 1, Some 300)], [(7, pd 300)], [].
  split; [exact (proj1 C09H_prefix_sound)|]. split; [vm_compute; reflexivity|]. split; [vm_compute; reflexivity|].
  intros st H. specialize (H 1 7). vm_compute in H. discriminate.
Qed.
Print Assumptions C09H_reload_server_refuted.

(** the same reload is sound when Server.restore succeeds, when Server.put gives the expiry the node already carries,
    and when the restore fails and the node is deleted *)
Example C09H_reload_server_sound_uses :
  all_ok Full c10_cfg (rx_pre ++ [HReloadServer 1 [(7, RRestored)]; HReloadServer 1 [(7, RPlaced (Some 100))];
                                  HReloadServer 1 [(7, RFailed true false)];
                                  HCycle [(7, None, Some 100, None, Some 100)] [(7, pd 100)] []]) h0 = true.
Proof. vm_compute. reflexivity. Qed.

(** masterapi.delete_server has removed /placement/<s>, the master has not processed the event: a cycle in that window
    reports the instance unchanged and its node is missing (signature missing-entry-during-server-delete-race) *)
Theorem C09H_api_delete_alone_refuted : exists s tuples i once,
  all_ok Full c10_cfg rx_pre h0 = true /\
  all_wf c10_cfg (rx_pre ++ [HApiDelete s; HCycle tuples i once]) h0 = true /\
  sound_op Core (hrun c10_cfg rx_pre h0) (HApiDelete s) = false /\
  let st := hrun c10_cfg (rx_pre ++ [HApiDelete s; HCycle tuples i once]) h0 in
  ~ (forall s' a, osim Core (lookup (h_store st) s' a) (lookup (model_entries i tuples) s' a) = true).
Proof.
  exists 1, [(7, Some 1, Some 100, Some 1, Some 100)], [(7, pd 100)], [].
  split; [exact (proj1 C09H_prefix_sound)|]. split; [vm_compute; reflexivity|]. split; [vm_compute; reflexivity|].
  intros st H. specialize (H 1 7). vm_compute in H. discriminate.
Qed.
Print Assumptions C09H_api_delete_alone_refuted.

(** the record of server 1 is gone when a new master starts: init_schedule visits the servers of the new model only,
    the node under server 1 stays next to the new one *)
Theorem C09H_restart_server_gone_refuted : exists dels servers l,
  all_ok Full c10_cfg rx_pre h0 = true /\
  wf_op (hrun c10_cfg rx_pre h0) (HRestart dels servers l) = true /\
  sound_op Core (hrun c10_cfg rx_pre h0) (HRestart dels servers l) = false /\
  let st := hrun c10_cfg (rx_pre ++ [HRestart dels servers l]) h0 in
  ~ no_double (h_store st) /\ pubinvb Core st = false.
Proof.
  exists [], [2], [(7, (Some 2, pd 200))].
  split; [exact (proj1 C09H_prefix_sound)|]. split; [vm_compute; reflexivity|]. split; [vm_compute; reflexivity|].
  split; [|vm_compute; reflexivity].
  intros H. specialize (H 7 1 2). vm_compute in H. specialize (H eq_refl eq_refl). discriminate.
Qed.
Print Assumptions C09H_restart_server_gone_refuted.

(** identity group resized (3 -> 5) while instance 7 holds identity 0: the node keeps identity_count 3.  Not a field the
    statement names: the history is sound in Core mode and C09H_published_equals_model_core_all_histories covers it. *)
Definition gx_hist : list hop :=
  [HRestart [] [1] []; HLoadApp 7;
   HCycle [(7, None, None, Some 1, Some 100)] [(7, mkPD (Some 0) (Some 3) (Some 100))] [];
   HGroupCount [7] 5;
   HCycle [(7, Some 1, Some 100, Some 1, Some 100)] [(7, mkPD (Some 0) (Some 5) (Some 100))] []].
Theorem C09H_identity_count_refuted :
  all_wf c10_cfg gx_hist h0 = true /\ all_ok Core c10_cfg gx_hist h0 = true /\ all_ok Full c10_cfg gx_hist h0 = false /\
  lookup (h_store (hrun c10_cfg gx_hist h0)) 1 7 = Some (mkPD (Some 0) (Some 3) (Some 100)) /\
  expected (h_apps (hrun c10_cfg gx_hist h0)) 1 7 = Some (mkPD (Some 0) (Some 5) (Some 100)).
Proof. vm_compute. repeat split. Qed.
Print Assumptions C09H_identity_count_refuted.

(** * Non-vacuity: one sound history through every hop *)
Definition ex_hist : list hop :=
  [HRestart [] [1; 2] []; HLoadApp 7; HLoadApp 8;
   HCycle [(7, None, None, Some 1, Some 100); (8, None, None, Some 2, Some 100)]
          [(7, mkPD (Some 0) (Some 3) (Some 100)); (8, pd 100)] [];
   HIntegrity [(1, 7); (2, 8)]; HNoView 0; HServerSame 1; HLoadApp 7;
   HGroupCount [7] 3;
   HReloadServer 2 [(8, RRestored)];
   HLoadServer 3;
   HServerDeleted 2;
   HCycle [(7, Some 1, Some 100, Some 1, Some 100); (8, None, None, Some 3, Some 200)]
          [(7, mkPD (Some 0) (Some 3) (Some 100)); (8, pd 200)] [];
   HIntegrity [(1, 7); (3, 8)];
   HRemoveApp 7;
   HRemoveServer 1; HApiDelete 1;
   HRestart [] [3] [(8, (Some 3, pd 200))];
   HCycle [(8, Some 3, Some 200, Some 3, Some 260)] [(8, pd 260)] []].
Example C09H_nonvacuous :
  all_ok Full c10_cfg ex_hist h0 = true /\ all_ok Core c10_cfg ex_hist h0 = true /\
  pubinvb Full (hrun c10_cfg ex_hist h0) = true /\
  flat_state (hrun c10_cfg ex_hist h0) = [1; 8; 1; 3; -1; -1; 1; 260;  1; 3;  1; 3; 8; -1; -1; 1; 260] /\
  flat_store (h_store (hrun c10_cfg ex_hist h0)) = flat_store (model_entries [(8, pd 260)] [(8, Some 3, Some 200, Some 3, Some 260)]).
Proof. vm_compute. repeat split. Qed.
