(** The Loader glue: what a ZooKeeper record DECLARES is what the scheduler object carries
    (C03 partition label / traits / lease, C04 affinity and limits, C01 demand and capacity vectors, C05 identity
    group, C06 priority rule and what a reload of an existing instance refreshes).

    Model: Master/LoadApp.v (scheduler/loader.py Loader.load_app - new and existing instance -, _get_lease,
    _get_data_retention, create_server, load_server; scheduler/__init__.py Application / Affinity / Server
    constructors; utils.to_seconds; traits.create_code / encode).  The manifest keys, getter defaults and constants
    are [TM.Master.LoadAppRun.loadapp_tables], assembled from definitions harness/tables_loadapp.py regenerates from
    the Python AST on every run; a theorem that reads a table carries the premise [ltables_ok T = true], discharged
    for the generated tables by [C03L_tables_ok].  Size / cpu spellings: Codec/Units.v ([utables], Props/C01Units.v).

    Strings are lists of code points.  83 'S' 77 'M' 72 'H' 68 'D' (115 109 104 100 in lower case). *)
From Coq Require Import ZArith List Bool.
From RecordUpdate Require Import RecordSet.
From TM Require Import Codec.BaseN Codec.Dec Codec.Units Codec.UnitsP Codec.UnitsRun
     Sched.Vec Sched.Types Sched.Events Master.LoadApp Master.LoadAppP Master.LoadAppRun Gen.Tables.
Import ListNotations.
Open Scope Z_scope.

(** the keys, defaults and constants of the source are the ones the statements need *)
Theorem C03L_tables_ok : ltables_ok loadapp_tables = true.
Proof. vm_compute. reflexivity. Qed.
Print Assumptions C03L_tables_ok.

(** * Intervals (lease, data_retention_timeout): <n>s|m|h|d in any letter case, between blanks *)
Theorem C03L_to_seconds : forall T s n, ltables_ok T = true ->
  (spells s (str_of_Z n ++ [83]) = true -> to_seconds T (VStr s) = UOk n) /\
  (spells s (str_of_Z n ++ [77]) = true -> to_seconds T (VStr s) = UOk (n * 60)) /\
  (spells s (str_of_Z n ++ [72]) = true -> to_seconds T (VStr s) = UOk (n * 3600)) /\
  (spells s (str_of_Z n ++ [68]) = true -> to_seconds T (VStr s) = UOk (n * 86400)).
Proof.
  intros T s n H. apply ltables_ok_canon in H. subst T. repeat split; intros H.
  - rewrite (to_seconds_spelled s n 83 1 H eq_refl), Z.mul_1_r. reflexivity.
  - exact (to_seconds_spelled s n 77 60 H eq_refl).
  - exact (to_seconds_spelled s n 72 3600 H eq_refl).
  - exact (to_seconds_spelled s n 68 86400 H eq_refl).
Qed.
Print Assumptions C03L_to_seconds.

Theorem C03L_to_seconds_lower : forall T n, ltables_ok T = true ->
  to_seconds T (VStr (str_of_Z n ++ [115])) = UOk n /\ to_seconds T (VStr (str_of_Z n ++ [109])) = UOk (n * 60) /\
  to_seconds T (VStr (str_of_Z n ++ [104])) = UOk (n * 3600) /\
  to_seconds T (VStr (str_of_Z n ++ [100])) = UOk (n * 86400).
Proof.
  intros T n H. apply ltables_ok_canon in H. subst T.
  (* the lower-case suffix is read as the upper-case one *)
  assert (L : forall c C k, upper_c c = upper_c C -> plain_c C = true -> assoc C canon_time_scale = Some k ->
              to_seconds ltables_canon (VStr (str_of_Z n ++ [c])) = UOk (n * k)).
  { intros c C k Hc Hp Hk. rewrite (to_seconds_norm_only _ _ (VStr (str_of_Z n ++ [C]))).
    - apply (to_seconds_spelled _ n C k); [apply spells_plain; exact Hp|exact Hk].
    - cbn [py_str]. apply norm_same_upper. rewrite !upper_app. cbn [upper map]. rewrite Hc. reflexivity. }
  split; [rewrite (L 115 83 1), Z.mul_1_r; reflexivity|].
  repeat split; [apply (L 109 77)|apply (L 104 72)|apply (L 100 68)]; reflexivity.
Qed.
Print Assumptions C03L_to_seconds_lower.

(** a unit-less interval - the int n or the numeral, 0 included - is refused (the generic Exception) *)
Theorem C03L_to_seconds_unitless : forall T n, ltables_ok T = true ->
  to_seconds T (VInt n) = UException /\ to_seconds T (VStr (str_of_Z n)) = UException.
Proof.
  intros T n H. apply ltables_ok_canon in H. subst T.
  split; apply (to_seconds_unitless _ n); cbn [py_str]; apply norm_plain, str_of_Z_plain.
Qed.
Print Assumptions C03L_to_seconds_unitless.

Theorem C03L_to_seconds_case_blanks : forall T l r s1 s2, ltables_ok T = true ->
  blank l = true -> blank r = true -> upper s1 = upper s2 ->
  to_seconds T (VStr (l ++ s1 ++ r)) = to_seconds T (VStr s2).
Proof.
  intros T l r s1 s2 _ Hl Hr Hu. apply to_seconds_norm_only. cbn [py_str].
  rewrite (norm_blanks l s1 r Hl Hr). apply norm_same_upper. exact Hu.
Qed.
Print Assumptions C03L_to_seconds_case_blanks.

(** * A new instance: every declared attribute reaches the scheduler.Application unchanged *)
(** lease: to_seconds of the declared spelling; '0s' = 0 when the key is absent *)
Theorem C03L_lease : forall T U codes name m asg bl o, ltables_ok T = true ->
  load_new_app T U codes name m asg bl = UOk o ->
  to_seconds T (match m_lease m with Some v => v | None => lease_default end) = UOk (ao_lease o) /\
  (m_lease m = None -> ao_lease o = 0).
Proof.
  intros T U codes name m asg bl o H Hload. apply ltables_ok_canon in H. subst T.
  destruct (load_new_inv _ _ _ _ _ _ _ Hload) as (p & d & l & dem & tz & _ & _ & Hl & _ & _ & ->).
  cbn [ao_lease]. rewrite lease_canon in Hl. split; [destruct (m_lease m); exact Hl|].
  intros E. rewrite E, lease_default_zero in Hl. inversion Hl. reflexivity.
Qed.
Print Assumptions C03L_lease.

(** data_retention_timeout: None when absent (NOT the constructor's default 0), else to_seconds *)
Theorem C03L_data_retention : forall T U codes name m asg bl o, ltables_ok T = true ->
  load_new_app T U codes name m asg bl = UOk o ->
  match m_drt m with
  | None => ao_drt o = None
  | Some v => exists s, to_seconds T v = UOk s /\ ao_drt o = Some s
  end.
Proof.
  intros T U codes name m asg bl o H Hload. apply ltables_ok_canon in H. subst T.
  destruct (load_new_inv _ _ _ _ _ _ _ Hload) as (p & d & l & dem & tz & _ & Hd & _ & _ & _ & ->).
  cbn [ao_drt]. rewrite drt_canon in Hd. destruct (m_drt m) as [v|]; [|inversion Hd; reflexivity].
  apply ubind_ok in Hd as (s & Hs & Hd). inversion Hd. exists s. split; [exact Hs|reflexivity].
Qed.
Print Assumptions C03L_data_retention.

(** traits: the OR of the declared traits' codes; a trait the cell does not know sets the INVALID trait's bit (so
    the instance fits no server), never nothing; no traits declared: 0 *)
Theorem C03L_app_traits : forall T U codes name m asg bl o iv, ltables_ok T = true ->
  load_new_app T U codes name m asg bl = UOk o -> tfind invalid_trait codes = Some iv ->
  ao_traits o = fold_left (fun acc t => Z.lor acc (app_bit iv codes t)) (declared_traits m) 0 /\
  (forall t, In t (declared_traits m) -> sub (app_bit iv codes t) (ao_traits o)) /\
  (declared_traits m = [] -> ao_traits o = 0).
Proof.
  intros T U codes name m asg bl o iv H Hload Hi. apply ltables_ok_canon in H. subst T.
  destruct (load_new_inv _ _ _ _ _ _ _ Hload) as (p & d & l & dem & tz & _ & _ & _ & _ & He & ->).
  cbn [ao_traits]. rewrite (encode_app codes (declared_traits m) iv Hi) in He. inversion He. cbn [fst].
  repeat split.
  - intros t Hin. apply (fold_lor_in (app_bit iv codes)). exact Hin.
  - intros E. rewrite E. reflexivity.
Qed.
Print Assumptions C03L_app_traits.

Theorem C03L_codes_have_invalid : forall T ts, ltables_ok T = true ->
  exists iv, tfind invalid_trait (create_code T ts) = Some iv.
Proof. intros T ts H. apply ltables_ok_canon in H. subst T. apply create_code_has_invalid. Qed.
Print Assumptions C03L_codes_have_invalid.

(** schedule_once: the RAW manifest value is stored (None when absent); the scheduler tests its truthiness *)
Theorem C03L_schedule_once : forall T U codes name m asg bl o, ltables_ok T = true ->
  load_new_app T U codes name m asg bl = UOk o ->
  ao_once o = match m_once m with Some v => v | None => TNone end.
Proof.
  intros T U codes name m asg bl o H Hload. apply ltables_ok_canon in H. subst T.
  destruct (load_new_inv _ _ _ _ _ _ _ Hload) as (p & d & l & dem & tz & _ & _ & _ & _ & _ & ->).
  reflexivity.
Qed.
Print Assumptions C03L_schedule_once.

Theorem C03L_new_instance_flags : forall T U codes name m asg bl o, ltables_ok T = true ->
  load_new_app T U codes name m asg bl = UOk o ->
  ao_name o = name /\ ao_blacklisted o = bl /\ ao_evicted o = false /\ ao_unschedule o = false /\
  ao_renew o = false /\ ao_server o = None /\ ao_expiry o = None.
Proof.
  intros T U codes name m asg bl o H Hload. apply ltables_ok_canon in H. subst T.
  destruct (load_new_inv _ _ _ _ _ _ _ Hload) as (p & d & l & dem & tz & _ & _ & _ & _ & _ & ->).
  repeat split; reflexivity.
Qed.
Print Assumptions C03L_new_instance_flags.

(** affinity: the declared name, None when the manifest has none (the scheduler does NOT derive it from the
    instance name); limits: the declared level -> limit entries, every other level unlimited (None = inf) *)
Theorem C04L_affinity : forall T U codes name m asg bl o, ltables_ok T = true ->
  load_new_app T U codes name m asg bl = UOk o ->
  ao_aff o = m_affinity m /\ ao_limits o = aff_limits (m_limits m) /\
  (forall lv, limit_at o lv = match m_limits m with Some l => sfind lv l | None => None end).
Proof.
  intros T U codes name m asg bl o H Hload. apply ltables_ok_canon in H. subst T.
  destruct (load_new_inv _ _ _ _ _ _ _ Hload) as (p & d & l & dem & tz & _ & _ & _ & _ & _ & ->).
  repeat split. intros lv. unfold limit_at. cbn [ao_limits]. destruct (m_limits m); reflexivity.
Qed.
Print Assumptions C04L_affinity.

(** demand: resources(manifest) = [megabytes memory; cpu_units cpu; megabytes disk], in that order *)
Theorem C01L_demand : forall T U codes name m asg bl o, ltables_ok T = true ->
  load_new_app T U codes name m asg bl = UOk o ->
  resources U (m_res m) = UOk (ao_demand o) /\
  (units_tables_ok U = true ->
   exists mm c k, ao_demand o = [mm; c; k] /\ megabytes U (fval (r_memory (m_res m))) = UOk mm /\
                  cpu_units U (fval (r_cpu (m_res m))) = UOk c /\ megabytes U (fval (r_disk (m_res m))) = UOk k).
Proof.
  intros T U codes name m asg bl o H Hload. apply ltables_ok_canon in H. subst T.
  destruct (load_new_inv _ _ _ _ _ _ _ Hload) as (p & d & l & dem & tz & _ & _ & _ & Hr & _ & ->).
  cbn [ao_demand]. split; [exact Hr|]. intros HU. exact (res_inv U HU (m_res m) dem Hr).
Qed.
Print Assumptions C01L_demand.

(** identity_group: the declared name; no identity yet *)
Theorem C05L_identity_group : forall T U codes name m asg bl o, ltables_ok T = true ->
  load_new_app T U codes name m asg bl = UOk o -> ao_group o = m_group m /\ ao_identity o = None.
Proof.
  intros T U codes name m asg bl o H Hload. apply ltables_ok_canon in H. subst T.
  destruct (load_new_inv _ _ _ _ _ _ _ Hload) as (p & d & l & dem & tz & _ & _ & _ & _ & _ & ->).
  split; reflexivity.
Qed.
Print Assumptions C05L_identity_group.

(** priority: the manifest's unless absent or -1; then the matching assignment's, 1 without one *)
Theorem C06L_priority_rule : forall T m asg, ltables_ok T = true ->
  prio_of T m asg =
  match m_priority m with
  | None => UOk (base asg)
  | Some v => ubind (intv v) (fun p => if p =? -1 then UOk (base asg) else UOk p)
  end.
Proof. intros T m asg H. apply ltables_ok_canon in H. subst T. apply prio_canon. Qed.
Print Assumptions C06L_priority_rule.

Theorem C06L_new_priority : forall T U codes name m asg bl o, ltables_ok T = true ->
  load_new_app T U codes name m asg bl = UOk o ->
  (m_priority m = None -> ao_prio o = base asg) /\
  (forall v p, m_priority m = Some v -> intv v = UOk p -> ao_prio o = if p =? -1 then base asg else p).
Proof.
  intros T U codes name m asg bl o H Hload. apply ltables_ok_canon in H. subst T.
  destruct (load_new_inv _ _ _ _ _ _ _ Hload) as (p & d & l & dem & tz & Hp & _ & _ & _ & _ & ->).
  cbn [ao_prio]. rewrite prio_canon in Hp. split.
  - intros E. rewrite E in Hp. inversion Hp. reflexivity.
  - intros v q E Hv. rewrite E, Hv in Hp. cbn [ubind] in Hp. destruct (q =? -1); inversion Hp; reflexivity.
Qed.
Print Assumptions C06L_new_priority.

(** non-vacuity of the hypothesis [load_new_app ... = UOk o]: a manifest whose fields parse is loaded *)
Theorem C03L_new_total : forall T U codes name m asg bl p d l dem iv, ltables_ok T = true ->
  prio_of T m asg = UOk p -> drt_of T m = UOk d -> lease_of T m = UOk l -> resources U (m_res m) = UOk dem ->
  tfind invalid_trait codes = Some iv ->
  exists o, load_new_app T U codes name m asg bl = UOk o.
Proof.
  intros T U codes name m asg bl p d l dem iv H Hp Hd Hl Hr Hi. apply ltables_ok_canon in H. subst T. eexists.
  rewrite load_new_canon, Hp, Hd, Hl, Hr, (encode_app codes (declared_traits m) iv Hi). reflexivity.
Qed.
Print Assumptions C03L_new_total.

(** * An EXISTING instance (the manifest changed, or a reload): only priority, data_retention_timeout and the
      blacklist flag are refreshed.  Demand, affinity, limits, identity group, schedule_once, traits and lease stay
      what the FIRST manifest declared, whatever the new manifest says (as built; stated as it is). *)
Theorem C06L_refresh_frame : forall T m asg bl o o', ltables_ok T = true ->
  refresh_app T m asg bl o = UOk o' ->
  same_rest o o' /\ prio_of T m asg = UOk (ao_prio o') /\ drt_of T m = UOk (ao_drt o') /\ ao_blacklisted o' = bl.
Proof.
  intros T m asg bl o o' H Hr. apply ltables_ok_canon in H. subst T. rewrite refresh_canon in Hr.
  apply ubind_ok in Hr as (p & Hp & Hr). apply ubind_ok in Hr as (d & Hd & Hr). apply ubind_ok in Hr as (l & _ & Hr).
  inversion Hr. unfold same_rest. cbn. repeat split; assumption.
Qed.
Print Assumptions C06L_refresh_frame.

(** the outcome of a reload depends on the new manifest only through priority, data_retention_timeout and lease *)
Theorem C06L_refresh_depends : forall T m1 m2 asg bl o, ltables_ok T = true ->
  m_priority m1 = m_priority m2 -> m_drt m1 = m_drt m2 -> m_lease m1 = m_lease m2 ->
  refresh_app T m1 asg bl o = refresh_app T m2 asg bl o.
Proof.
  intros T m1 m2 asg bl o H Hp Hd Hl. apply ltables_ok_canon in H. subst T.
  rewrite !refresh_canon, !prio_canon, !drt_canon, !lease_canon, Hp, Hd, Hl. reflexivity.
Qed.
Print Assumptions C06L_refresh_depends.

(** the lease IS evaluated (and a malformed one fails the reload) although it is never assigned *)
Theorem C03L_refresh_lease_evaluated : forall T m asg bl o p d, ltables_ok T = true ->
  prio_of T m asg = UOk p -> drt_of T m = UOk d -> lease_of T m = UException ->
  refresh_app T m asg bl o = UException.
Proof.
  intros T m asg bl o p d H Hp Hd Hl. apply ltables_ok_canon in H. subst T. rewrite refresh_canon, Hp, Hd, Hl. reflexivity.
Qed.
Print Assumptions C03L_refresh_lease_evaluated.

Theorem C03L_load_app_dispatch : forall T U codes existing name mo asg bl, ltables_ok T = true ->
  load_app T U codes existing name mo asg bl =
  match mo, existing with
  | None, _ => UOk LRemove
  | Some m, Some o => ubind (refresh_app T m asg bl o) (fun o' => UOk (LLoaded o'))
  | Some m, None => ubind (load_new_app T U codes name m asg bl) (fun o' => UOk (LLoaded o'))
  end.
Proof. intros T U codes existing name mo asg bl _. unfold load_app. destruct mo, existing; reflexivity. Qed.
Print Assumptions C03L_load_app_dispatch.

(** * A server record *)
(** partition -> label; absent, null or empty: '_default' *)
Theorem C03L_server_label : forall T U codes now name r s codes', ltables_ok T = true ->
  create_server T U codes now name r = (UOk s, codes') ->
  so_label s = match sr_partition r with Some (c :: x) => c :: x | _ => default_label end.
Proof.
  intros T U codes now name r s codes' H Hc. apply ltables_ok_canon in H. subst T.
  destruct (create_server_inv _ _ _ _ _ _ _ Hc) as (tz & cap & _ & _ & ->). reflexivity.
Qed.
Print Assumptions C03L_server_label.

(** traits: the cell's codes only grow; every declared trait has a code afterwards and its bit is in the server's
    mask; when all are known already the codes are untouched *)
Theorem C03L_server_traits : forall T U codes now name r s codes', ltables_ok T = true ->
  create_server T U codes now name r = (UOk s, codes') ->
  (forall t v, tfind t codes = Some v -> tfind t codes' = Some v) /\
  (forall t, In t (declared_srv_traits r) -> exists v, tfind t codes' = Some v /\ sub v (so_traits s)) /\
  (Forall (fun t => tfind t codes <> None) (declared_srv_traits r) ->
   codes' = codes /\
   so_traits s = fold_left (fun acc t => Z.lor acc (app_bit 0 codes t)) (declared_srv_traits r) 0).
Proof.
  intros T U codes now name r s codes' H Hc. apply ltables_ok_canon in H. subst T.
  destruct (create_server_inv _ _ _ _ _ _ _ Hc) as (tz & cap & He & _ & ->). cbn [so_traits].
  unfold encode in He. change (flag [0; 1] 1) with true in He.
  destruct (encode_loop_add_new _ _ _ _ _ _ _ _ He) as (K1 & K2 & _).
  split; [exact K1|]. split; [exact K2|]. intros Hall.
  rewrite (encode_loop_known _ _ _ _ _ _ _ Hall) in He. inversion He. split; reflexivity.
Qed.
Print Assumptions C03L_server_traits.

(** the new trait codes are kept even when the record's capacity cannot be parsed (the dict is mutated first) *)
Theorem C03L_server_codes_survive : forall T U codes now name r, ltables_ok T = true ->
  exists tz, encode T [0; 1] codes (declared_srv_traits r) = UOk (tz, snd (create_server T U codes now name r)).
Proof.
  intros T U codes now name r H. apply ltables_ok_canon in H. subst T. rewrite create_server_canon.
  destruct (encode_srv_total codes (declared_srv_traits r)) as (tz & c' & He). rewrite He. exists tz. reflexivity.
Qed.
Print Assumptions C03L_server_codes_survive.

(** capacity: resources(record) = [megabytes memory; cpu_units cpu; megabytes disk]; all of it free *)
Theorem C01L_capacity : forall T U codes now name r s codes', ltables_ok T = true ->
  create_server T U codes now name r = (UOk s, codes') ->
  resources U (sr_res r) = UOk (so_cap s) /\ so_free s = so_cap s /\
  (units_tables_ok U = true ->
   exists mm c k, so_cap s = [mm; c; k] /\ megabytes U (fval (r_memory (sr_res r))) = UOk mm /\
                  cpu_units U (fval (r_cpu (sr_res r))) = UOk c /\ megabytes U (fval (r_disk (sr_res r))) = UOk k).
Proof.
  intros T U codes now name r s codes' H Hc. apply ltables_ok_canon in H. subst T.
  destruct (create_server_inv _ _ _ _ _ _ _ Hc) as (tz & cap & _ & Hr & ->). cbn [so_cap so_free].
  repeat split; [exact Hr|]. intros HU. exact (res_inv U HU (sr_res r) cap Hr).
Qed.
Print Assumptions C01L_capacity.

Theorem C03L_server_rest : forall T U codes now name r s codes', ltables_ok T = true ->
  create_server T U codes now name r = (UOk s, codes') ->
  so_name s = name /\ so_up_since s = match sr_up_since r with Some t => t | None => now end /\
  so_valid_until s = 0 /\ so_parent s = None.
Proof.
  intros T U codes now name r s codes' H Hc. apply ltables_ok_canon in H. subst T.
  destruct (create_server_inv _ _ _ _ _ _ _ Hc) as (tz & cap & _ & _ & ->). repeat split; reflexivity.
Qed.
Print Assumptions C03L_server_rest.

(** load_server attaches exactly the created server under the declared parent, when that bucket exists *)
Theorem C03L_server_attached : forall T U codes now buckets name ro s codes', ltables_ok T = true ->
  load_server T U codes now buckets name ro = (LSAttached s, codes') ->
  exists r p s0, ro = Some r /\ sr_parent r = Some p /\ existsb (str_eqb p) buckets = true /\
                 create_server T U codes now name r = (UOk s0, codes') /\
                 so_parent s = Some p /\ so_label s = so_label s0 /\ so_cap s = so_cap s0 /\
                 so_free s = so_free s0 /\ so_traits s = so_traits s0 /\ so_up_since s = so_up_since s0 /\
                 so_valid_until s = so_valid_until s0 /\ so_name s = so_name s0.
Proof.
  intros T U codes now buckets name ro s codes' _. unfold load_server. destruct ro as [r|]; [|discriminate].
  destruct (create_server T U codes now name r) as [[s0| | |] c'] eqn:Hc; try discriminate.
  destruct (sr_parent r) as [p|] eqn:Hp; [|discriminate]. destruct (existsb (str_eqb p) buckets) eqn:Hb; [|discriminate].
  intros H. inversion H. subst. exists r, p, s0. repeat split; assumption || reflexivity.
Qed.
Print Assumptions C03L_server_attached.

Theorem C03L_server_not_attached : forall T U codes now buckets name r, ltables_ok T = true ->
  (load_server T U codes now buckets name None = (LSNoData, codes)) /\
  (sr_parent r = None -> forall s c', create_server T U codes now name r = (UOk s, c') ->
     load_server T U codes now buckets name (Some r) = (LSAssertion, c')) /\
  (forall p, sr_parent r = Some p -> existsb (str_eqb p) buckets = false ->
     forall s c', create_server T U codes now name r = (UOk s, c') ->
     load_server T U codes now buckets name (Some r) = (LSNoParent, c')).
Proof.
  intros T U codes now buckets name r _. repeat split.
  - intros Hp s c' Hc. unfold load_server. rewrite Hc, Hp. reflexivity.
  - intros p Hp Hb s c' Hc. unfold load_server. rewrite Hc, Hp, Hb. reflexivity.
Qed.
Print Assumptions C03L_server_not_attached.

(** * The scheduler model's view (Sched/Events.v) *)
(** the record handed to OAddApp carries the object's attributes *)
Theorem C03L_sched_view : forall (id : str -> Z) none_aff order o,
  let a := sched_app id none_aff order o in
  a_name a = id (ao_name o) /\ a_prio a = ao_prio o /\ a_demand a = ao_demand o /\
  a_traits a = ao_traits o /\ a_lease a = ao_lease o /\ a_drt a = ao_drt o /\
  a_group a = option_map id (ao_group o) /\ a_once a = truthy (ao_once o) /\
  a_blacklisted a = ao_blacklisted o /\ a_identity a = ao_identity o /\ a_order a = order /\
  (forall lv, aff_limit a (id lv) = aget (id lv) (map (fun kv => (id (fst kv), snd kv)) (ao_limits o))).
Proof. intros id none_aff order o. cbn. repeat split; reflexivity. Qed.
Print Assumptions C03L_sched_view.

(** with an injective naming the record's limit lookup is the object's *)
Theorem C04L_sched_limits : forall (id : str -> Z) none_aff order o lv,
  (forall a b, id a = id b -> a = b) ->
  aff_limit (sched_app id none_aff order o) (id lv) = limit_at o lv.
Proof. intros id none_aff order o lv Hinj. exact (aget_map_id id Hinj lv (ao_limits o)). Qed.
Print Assumptions C04L_sched_limits.

(** a reload of an existing instance, as a run of the model, changes priority, data retention, blacklist flag and
    allocation of that instance and nothing else *)
Theorem C06L_reload_existing_cell : forall (id : str -> Z) none_aff c label path order o old,
  get_app (id (ao_name o)) (c_apps c) = Some old ->
  let c' := run c (load_app_ops id none_aff label path order true o) in
  get_app (id (ao_name o)) (c_apps c') =
    Some (old <| a_prio := ao_prio o |> <| a_drt := ao_drt o |> <| a_blacklisted := ao_blacklisted o |>
              <| a_alloc := Some (label, path) |>) /\
  (forall n, n <> id (ao_name o) -> get_app n (c_apps c') = get_app n (c_apps c)).
Proof.
  intros id none_aff c label path order o old H.
  exact (reload_ops_cell c (id (ao_name o)) _ _ _ label path (sched_app id none_aff order o) old eq_refl H).
Qed.
Print Assumptions C06L_reload_existing_cell.

(** * Non-vacuity, on the GENERATED tables *)
Definition LT := loadapp_tables.
Definition UT := units_tables.
Definition cell_codes : tcodes := create_code LT [[115; 115; 100]; [103; 112; 117]].     (* ["ssd"; "gpu"] *)
Example C03L_ex_codes : cell_codes = [(invalid_trait, 1); ([115; 115; 100], 2); ([103; 112; 117], 4)].
Proof. vm_compute. reflexivity. Qed.

(* {memory: "2G", cpu: "50%", disk: "512M", priority: "7", affinity: "foo.web", affinity_limits: {rack: 1},
    identity_group: "foo.grp", schedule_once: 1, data_retention_timeout: " 2H ", lease: "30m",
    traits: ["gpu"; "nvme"]} *)
Definition ex_full : manifest := {|
  m_priority := Some (VStr [55]);
  m_res := {| r_memory := Some (VStr [50; 71]); r_cpu := Some (VStr [53; 48; 37]);
              r_disk := Some (VStr [53; 49; 50; 77]) |};
  m_affinity := Some [102; 111; 111; 46; 119; 101; 98];
  m_limits := Some [([114; 97; 99; 107], 1)];
  m_group := Some [102; 111; 111; 46; 103; 114; 112];
  m_once := Some (TInt 1);
  m_drt := Some (VStr [32; 50; 72; 32]);
  m_lease := Some (VStr [51; 48; 109]);
  m_traits := Some [[103; 112; 117]; [110; 118; 109; 101]] |}.
Definition ex_name : str := [102; 111; 111; 46; 119; 101; 98; 35; 49].
Example C03L_ex_full :
  load_new_app LT UT cell_codes ex_name ex_full (Some 3) true =
  UOk (mkAO ex_name 7 [2048; 50; 512] (Some [102; 111; 111; 46; 119; 101; 98]) [([114; 97; 99; 107], 1)]
            (Some 7200) 1800 (Some [102; 111; 111; 46; 103; 114; 112]) None 5 (TInt 1) true false false false
            None None).
Proof. vm_compute. reflexivity. Qed.

(* {} apart from other keys: every default *)
Definition ex_empty : manifest := {|
  m_priority := None; m_res := {| r_memory := None; r_cpu := None; r_disk := None |}; m_affinity := None;
  m_limits := None; m_group := None; m_once := None; m_drt := None; m_lease := None; m_traits := None |}.
Example C03L_ex_defaults :
  load_new_app LT UT cell_codes ex_name ex_empty None false =
  UOk (mkAO ex_name 1 [0; 0; 0] None [] None 0 None None 0 TNone false false false false None None).
Proof. vm_compute. reflexivity. Qed.
Example C06L_ex_assignment_priority :
  prio_of LT ex_empty (Some 42) = UOk 42 /\
  prio_of LT {| m_priority := Some (VInt (-1)); m_res := m_res ex_empty; m_affinity := None; m_limits := None;
                m_group := None; m_once := None; m_drt := None; m_lease := None; m_traits := None |} (Some 42)
  = UOk 42 /\
  prio_of LT ex_full (Some 42) = UOk 7 /\ prio_of LT ex_empty None = UOk 1.
Proof. vm_compute. repeat split; reflexivity. Qed.
Example C04L_ex_limit_default :
  limit_at (mkAO ex_name 7 [] None [([114; 97; 99; 107], 1)] None 0 None None 0 TNone false false false false
                 None None) [99; 101; 108; 108] = None.
Proof. vm_compute. reflexivity. Qed.

(* a reload of the instance of ex_full with the empty manifest: priority back to the assignment's, data retention
   gone, blacklist flag cleared - and demand, affinity, limits, group, once, lease, traits as before *)
Example C06L_ex_refresh :
  match load_new_app LT UT cell_codes ex_name ex_full (Some 3) true with
  | UOk o => refresh_app LT ex_empty (Some 3) false o
  | _ => UException
  end =
  UOk (mkAO ex_name 3 [2048; 50; 512] (Some [102; 111; 111; 46; 119; 101; 98]) [([114; 97; 99; 107], 1)]
            None 1800 (Some [102; 111; 111; 46; 103; 114; 112]) None 5 (TInt 1) false false false false None None).
Proof. vm_compute. reflexivity. Qed.
(* lease: "5" (no unit) in the new manifest: the reload raises although the lease would not be assigned *)
Example C03L_ex_refresh_bad_lease :
  forall o, refresh_app LT {| m_priority := None; m_res := m_res ex_empty; m_affinity := None; m_limits := None;
                              m_group := None; m_once := None; m_drt := None; m_lease := Some (VStr [53]);
                              m_traits := None |} None false o = UException.
Proof. intros o. vm_compute. reflexivity. Qed.
Example C03L_ex_unknown_trait_without_codes :
  load_new_app LT UT [] ex_name ex_full None false = UException.
Proof. vm_compute. reflexivity. Qed.

(* servers: {memory: "16G", cpu: "400%", disk: "100G", traits: ["ssd"; "nvme"], parent: "rack0"} *)
Definition ex_srv : srv_rec := {|
  sr_partition := None;
  sr_res := {| r_memory := Some (VStr [49; 54; 71]); r_cpu := Some (VStr [52; 48; 48; 37]);
               r_disk := Some (VStr [49; 48; 48; 71]) |};
  sr_traits := Some [[115; 115; 100]; [110; 118; 109; 101]];
  sr_up_since := None;
  sr_parent := Some [114; 97; 99; 107; 48] |}.
Example C03L_ex_server :
  load_server LT UT cell_codes 1000 [[114; 97; 99; 107; 48]] [115; 49] (Some ex_srv) =
  (LSAttached (mkSO [115; 49] default_label [16384; 400; 102400] [16384; 400; 102400] 10 1000 0
                    (Some [114; 97; 99; 107; 48])),
   cell_codes ++ [([110; 118; 109; 101], 8)]).
Proof. vm_compute. reflexivity. Qed.
Example C03L_ex_server_empty_partition :
  fst (create_server LT UT cell_codes 1000 [115; 49]
         {| sr_partition := Some []; sr_res := sr_res ex_srv; sr_traits := None; sr_up_since := Some 5;
            sr_parent := None |}) =
  UOk (mkSO [115; 49] default_label [16384; 400; 102400] [16384; 400; 102400] 0 5 0 None).
Proof. vm_compute. reflexivity. Qed.
Example C03L_ex_server_named_partition :
  fst (create_server LT UT cell_codes 1000 [115; 49]
         {| sr_partition := Some [112; 49]; sr_res := sr_res ex_srv; sr_traits := None; sr_up_since := Some 5;
            sr_parent := None |}) =
  UOk (mkSO [115; 49] [112; 49] [16384; 400; 102400] [16384; 400; 102400] 0 5 0 None).
Proof. vm_compute. reflexivity. Qed.
(* capacity "16" (no unit): the record is refused, the new trait code stays *)
Example C03L_ex_server_codes_survive :
  create_server LT UT cell_codes 1000 [115; 49]
    {| sr_partition := None; sr_res := {| r_memory := Some (VStr [49; 54]); r_cpu := None; r_disk := None |};
       sr_traits := Some [[110; 118; 109; 101]]; sr_up_since := None; sr_parent := None |} =
  (UException, cell_codes ++ [([110; 118; 109; 101], 8)]).
Proof. vm_compute. reflexivity. Qed.
Example C03L_ex_server_unknown_parent :
  fst (load_server LT UT cell_codes 1000 [[114; 97; 99; 107; 49]] [115; 49] (Some ex_srv)) = LSNoParent.
Proof. vm_compute. reflexivity. Qed.
Example C03L_ex_seconds :
  to_seconds LT (VStr [49; 100]) = UOk 86400 /\ to_seconds LT (VStr [32; 57; 48; 77; 10]) = UOk 5400 /\
  to_seconds LT (VStr [53]) = UException /\ to_seconds LT (VInt 0) = UException /\
  to_seconds LT (VStr []) = UIndexError /\ to_seconds LT (VStr [104]) = UValueError.
Proof. vm_compute. repeat split; reflexivity. Qed.
(* the hypotheses of C03L_to_seconds hold for " 90m\n" *)
Example C03L_ex_spells : spells [32; 57; 48; 109; 10] (str_of_Z 90 ++ [77]) = true.
Proof. vm_compute. reflexivity. Qed.
