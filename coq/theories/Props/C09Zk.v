(** C09 / C17 / C18, the store-facing layer: the functions that perform the ZooKeeper writes -
    lib/python/treadmill/zkutils.py (_payload, create, put, update, get, get_default, ensure_exists, ensure_deleted)
    and scheduler/zkbackend.py (ZkBackend, ZkReadonlyBackend).

    Model: Store/ZkUtils.v (ZooKeeper server requests, kazoo's create(makepath), ZkClient's default ACL, the zkutils
    functions statement by statement, the backends).  Tie: harness/tables_zkutils.py pins the bodies by AST template
    and regenerates [zk_retry_table] (Gen/Tables.v) from the try statements; harness/props/zkutilsstage.py runs the
    real functions on the real ZkClient/KazooClient over an in-process server fake and compares result-or-exception
    and the whole tree after every call with [TM.Store.ZkUtilsRun.run_case].

    [wf N]: the parent of every node exists (what a ZooKeeper tree is; [wfb] decides it).  A path is a list of
    segments, a segment a list of character codes. *)
From Coq Require Import ZArith List Bool Lia.
From TM Require Import Store.ZkUtils Store.ZkUtilsP Store.ZkUtilsRun Gen.Tables.
Import ListNotations.
Open Scope Z_scope.

Definition retry_table_ok (tb : list (Z * Z * Z * Z)) : bool :=
  forallb (fun r => match r with (f, p, e, a) => Z.eqb (retry_after f p e) a && negb (Z.eqb a 0) end) tb
  && Nat.eqb (length tb) 9.

(** the source's try/except structure is the model's: every (function, primitive, exception) the source catches leads
    to the action the model takes, and there are exactly the nine catches the model has *)
Theorem C09Z_tables_ok : retry_table_ok zk_retry_table = true.
Proof. vm_compute. reflexivity. Qed.
Print Assumptions C09Z_tables_ok.

(** _payload: bytes verbatim (content and length), None empty, anything else through the encoder *)
Theorem C09Z_payload_bytes_verbatim : forall enc b,
  payload enc (PBytes b) = b /\ length (payload enc (PBytes b)) = length b.
Proof. split; reflexivity. Qed.
Print Assumptions C09Z_payload_bytes_verbatim.

Theorem C09Z_payload_none_empty : forall enc, payload enc PNone = [].
Proof. reflexivity. Qed.
Print Assumptions C09Z_payload_none_empty.

(** create of an existing node raises NodeExistsError and leaves the tree (data, versions, counters) as it was,
    whatever the payload, the acl and the flags *)
Theorem C09Z_create_existing_raises : forall enc t p d acl dflt eph,
  wf (nodes t) -> has (nodes t) p = true ->
  zu_create enc t p d acl false dflt eph = (RExn ENodeExists, t).
Proof.
  intros enc t p d acl dflt eph.
  apply k_create_existing.
Qed.
Print Assumptions C09Z_create_existing_raises.

(** put(check_content=True) on an existing node: the tree, version included, is unchanged iff the stored bytes
    equal the new payload (then None is returned); otherwise the payload is stored, the version is bumped, the
    ephemeral flag stays *)
Theorem C09Z_put_same_payload_no_write : forall enc t p d acl dflt eph n,
  wf (nodes t) -> find (nodes t) p = Some n ->
  (snd (zu_put enc t p d acl false dflt eph true) = t <-> n_data n = payload enc d) /\
  (n_data n = payload enc d -> zu_put enc t p d acl false dflt eph true = (RNone, t)) /\
  (n_data n <> payload enc d -> exists t', zu_put enc t p d acl false dflt eph true = (RPath p, t') /\
      find (nodes t') p = Some {| n_data := payload enc d; n_eph := n_eph n; n_ver := n_ver n + 1;
                                  n_acl := mk_default (realacl dflt acl) |}).
Proof.
  intros enc t p d acl dflt eph n W H. rewrite (zu_put_existing enc t p d acl dflt eph true n W H). cbn [andb].
  destruct (zl_eqb (n_data n) (payload enc d)) eqn:E.
  - apply zl_eqb_eq in E. cbn [snd]. tauto.
  - assert (Hne : n_data n <> payload enc d) by (rewrite <- zl_eqb_eq; congruence).
    destruct (set_and_acl_spec t p (payload enc d) (realacl dflt acl) n H) as [t' [E1 [_ E3]]].
    specialize (E3 p). rewrite path_eqb_refl in E3. rewrite E1. cbn [snd].
    split; [split; [intros ->|contradiction] | split; [contradiction | eauto]].
    (* the write moved the version, so the tree is not the old one *)
    rewrite H in E3. injection E3 as E3. apply (f_equal n_ver) in E3. cbn in E3. lia.
Qed.
Print Assumptions C09Z_put_same_payload_no_write.

(** put on an existing node, then get returns the payload; every other path is untouched; put(ephemeral=True) does not
    make an existing node ephemeral *)
Theorem C09Z_put_existing_then_get : forall enc t p d acl dflt eph n,
  wf (nodes t) -> find (nodes t) p = Some n ->
  exists t', zu_put enc t p d acl false dflt eph false = (RPath p, t') /\
    find (nodes t') p = Some {| n_data := payload enc d; n_eph := n_eph n; n_ver := n_ver n + 1;
                                n_acl := mk_default (realacl dflt acl) |}.
Proof.
  intros enc t p d acl dflt eph n W H. rewrite (zu_put_existing enc t p d acl dflt eph false n W H). cbn [andb].
  destruct (set_and_acl_spec t p (payload enc d) (realacl dflt acl) n H) as [t' [E1 [E2 E3]]].
  exists t'. split; [exact E1|]. rewrite E3, path_eqb_refl. reflexivity.
Qed.
Print Assumptions C09Z_put_existing_then_get.

Theorem C09Z_put_existing_others_unchanged : forall enc t p d acl dflt eph chk n,
  wf (nodes t) -> find (nodes t) p = Some n ->
  zu_put enc t p d acl false dflt eph chk =
  if chk && zl_eqb (n_data n) (payload enc d) then (RNone, t)
  else set_and_acl t p (payload enc d) (realacl dflt acl).
Proof. exact zu_put_existing. Qed.
Print Assumptions C09Z_put_existing_others_unchanged.

Theorem C09Z_set_and_acl_spec : forall t p pl ra n, find (nodes t) p = Some n ->
  exists t', set_and_acl t p pl ra = (RPath p, t') /\ cvs t' = cvs t /\
    forall q, find (nodes t') q =
      if path_eqb p q then Some {| n_data := pl; n_eph := n_eph n; n_ver := n_ver n + 1; n_acl := mk_default ra |}
      else find (nodes t) q.
Proof. exact set_and_acl_spec. Qed.
Print Assumptions C09Z_set_and_acl_spec.

(** update never creates: the set of existing paths is the same afterwards; on a missing node NoNodeError and no
    change; on an existing one only that node changes (payload, version + 1) - or nothing with check_content and an
    equal payload *)
Theorem C09Z_update_never_creates : forall enc t p d chk r t', zu_update enc t p d chk = (r, t') ->
  (forall q, has (nodes t') q = has (nodes t) q) /\
  (has (nodes t) p = false -> r = RExn ENoNode /\ t' = t) /\
  (forall q, q <> p -> find (nodes t') q = find (nodes t) q) /\
  (forall n, find (nodes t) p = Some n ->
     (r = RNone /\ t' = t /\ chk = true /\ n_data n = payload enc d) \/
     (r = RPath p /\ (chk = true -> n_data n <> payload enc d) /\
      find (nodes t') p = Some {| n_data := payload enc d; n_eph := n_eph n; n_ver := n_ver n + 1;
                                  n_acl := n_acl n |})).
Proof.
  intros enc t p d chk r t'.
  destruct (find (nodes t) p) as [n|] eqn:E.
  - assert (Hp : has (nodes t) p = true) by (apply has_true; eauto).
    rewrite (zu_update_existing enc t p d chk n E). destruct (chk && zl_eqb (n_data n) (payload enc d)) eqn:C.
    + apply andb_true_iff in C as [-> C]. apply zl_eqb_eq in C. intros [= <- <-].
      repeat split; try congruence. intros m [= <-]. auto.
    + intros [= <- <-]. cbn [nodes]. split; [intros q; apply has_upsert_present; exact Hp|].
      split; [congruence|]. split; [intros q Hq; rewrite find_upsert, path_eqb_neq by congruence; reflexivity|].
      intros m [= <-]. right. rewrite find_upsert, path_eqb_refl. repeat split.
      intros -> X. apply zl_eqb_eq in X. cbn [andb] in C. congruence.
  - rewrite (zu_update_missing enc t p d chk E). intros [= <- <-]. repeat split; discriminate.
Qed.
Print Assumptions C09Z_update_never_creates.

(** ensure_exists on an existing node: it still exists; the data is overwritten iff data is not None (b'' counts
    as given); only the ACL of that node is reset; nothing else changes *)
Theorem C09Z_ensure_exists_existing : forall enc t p acl d n, wf (nodes t) -> find (nodes t) p = Some n ->
  exists t', zu_ensure_exists enc t p acl false d = (RPath p, t') /\ cvs t' = cvs t /\
    forall q, find (nodes t') q =
      if path_eqb p q
      then Some (if is_none d
                 then {| n_data := n_data n; n_eph := n_eph n; n_ver := n_ver n; n_acl := mk_default (Some (mk_default acl)) |}
                 else {| n_data := payload enc d; n_eph := n_eph n; n_ver := n_ver n + 1;
                         n_acl := mk_default (Some (mk_default acl)) |})
      else find (nodes t) q.
Proof.
  intros enc t p acl d n W H. unfold zu_ensure_exists, c_create. rewrite k_create_existing by (try apply has_true; eauto).
  destruct (is_none d).
  - unfold c_set_acls, srv_set_acls. rewrite H. eexists. split; [reflexivity|]. split; [reflexivity|].
    intros q. cbn. apply find_upsert.
  - (* with data given the rest is put's except branch *)
    exact (set_and_acl_spec t p (payload enc d) (Some (mk_default acl)) n H).
Qed.
Print Assumptions C09Z_ensure_exists_existing.

(** ensure_deleted: no exception and no change when the node is absent; a node without children is removed and
    nothing else; recursive=False on a node with children raises NotEmptyError and deletes nothing *)
Theorem C09Z_ensure_deleted_absent : forall t p rec, has (nodes t) p = false ->
  zu_ensure_deleted t p rec = (RNone, t).
Proof.
  intros t p rec H. destruct p; [rewrite has_root in H; discriminate|]. apply has_false in H.
  unfold zu_ensure_deleted, del_quiet, srv_delete. destruct rec; cbn [ens_del]; rewrite H; reflexivity.
Qed.
Print Assumptions C09Z_ensure_deleted_absent.

Theorem C09Z_ensure_deleted_leaf : forall t p n, p <> [] -> find (nodes t) p = Some n -> children (nodes t) p = [] ->
  forall rec, exists t', zu_ensure_deleted t p rec = (RNone, t') /\
    forall q, find (nodes t') q = if path_eqb p q then None else find (nodes t) q.
Proof.
  intros t p n Hp H Hc rec. unfold zu_ensure_deleted. destruct rec; [cbn [ens_del]; rewrite H, Hc; cbn [fold_left]|];
    exact (del_quiet_leaf t p n Hp H Hc).
Qed.
Print Assumptions C09Z_ensure_deleted_leaf.

Theorem C09Z_ensure_deleted_nonrecursive_nonempty : forall t p n, p <> [] -> find (nodes t) p = Some n ->
  children (nodes t) p <> [] -> zu_ensure_deleted t p false = (RExn ENotEmpty, t).
Proof.
  intros t p n Hp H Hc. unfold zu_ensure_deleted, del_quiet, srv_delete.
  destruct p as [|s0 p0]; [congruence|]. cbv iota. rewrite H.
  destruct (children (nodes t) (s0 :: p0)); [congruence | reflexivity].
Qed.
Print Assumptions C09Z_ensure_deleted_nonrecursive_nonempty.

(** sequence nodes: the created name is path ++ "%010d" % (the parent's child version), it did not exist, and
    the parent's counter is one higher afterwards; different counters (below 10^10) give different names *)
Theorem C09Z_sequence_create_name : forall t p v acl eph p' t', srv_create t p v acl eph true = (RPath p', t') ->
  p' = seq_name p (cv_of (cvs t) (removelast p)) /\ has (nodes t) p' = false /\ has (nodes t') p' = true /\
  cv_of (cvs t') (removelast p) = cv_of (cvs t) (removelast p) + 1.
Proof.
  intros t p v acl eph p' t'.
  destruct (srv_createP t p v acl eph true) as [| | |_ Hp]; intros [= <- <-]. cbn [nodes cvs].
  split; [reflexivity|]. split; [exact Hp|]. split.
  - rewrite has_upsert, path_eqb_refl. reflexivity.
  - unfold cv_of at 1. rewrite !lookup_upsert, path_eqb_refl, path_eqb_neq; [reflexivity|].
    unfold seq_name. intros X. apply (f_equal (@length seg)) in X. rewrite app_length in X. cbn in X. lia.
Qed.
Print Assumptions C09Z_sequence_create_name.

Theorem C09Z_sequence_names_distinct : forall p a b, 0 <= a < 10 ^ 10 -> 0 <= b < 10 ^ 10 -> a <> b ->
  seq_name p a <> seq_name p b.
Proof.
  intros p a b Ha Hb Hab X. unfold seq_name in X. apply app_inv_head in X. inversion X as [Y].
  apply app_inv_head in Y. apply Hab. apply digits10_injective; assumption.
Qed.
Print Assumptions C09Z_sequence_names_distinct.

(** surprises of the real code, as witnesses.
    "this will never happen for sequence node" (comment in put): it does when somebody made a node with the name the
    counter yields next; put then falls into the except branch and set()s the UNSUFFIXED path: here "/a" is
    overwritten although a sequence put of "/a" was asked for *)
Theorem C09Z_put_sequence_collision_witness :
  let t0 := {| nodes := []; cvs := [] |} in
  let t1 := snd (c_create t0 [[97]] [120] None false false false) in
  let t2 := snd (c_create t1 [[97; 48;48;48;48;48;48;48;48;48;50]] [] None false false false) in
  fst (zu_put (fun x => x) t2 [[97]] (PBytes [121]) None true true false false) = RPath [[97]] /\
  option_map n_data (find (nodes (snd (zu_put (fun x => x) t2 [[97]] (PBytes [121]) None true true false false))) [[97]])
    = Some [121].
Proof. vm_compute. split; reflexivity. Qed.
Print Assumptions C09Z_put_sequence_collision_witness.

(** data=b'' is "given": it overwrites, data=None does not *)
Theorem C09Z_ensure_exists_empty_bytes_overwrites_witness :
  let t := {| nodes := [([[97]], mknode [120] false [31])]; cvs := [] |} in
  option_map n_data (find (nodes (snd (zu_ensure_exists (fun x => x) t [[97]] None false (PBytes [])))) [[97]]) = Some [] /\
  option_map n_data (find (nodes (snd (zu_ensure_exists (fun x => x) t [[97]] None false PNone))) [[97]]) = Some [120].
Proof. vm_compute. split; reflexivity. Qed.
Print Assumptions C09Z_ensure_exists_empty_bytes_overwrites_witness.

(** ZkReadonlyBackend's writers write nothing *)
Theorem C09Z_readonly_backend_never_writes : forall t p d chk,
  snd (ro_put t p d) = t /\ snd (ro_ensure_exists t p) = t /\ snd (ro_delete t p) = t /\ snd (ro_update t p d chk) = t.
Proof. repeat split. Qed.
Print Assumptions C09Z_readonly_backend_never_writes.

(** ZkBackend.put on an existing node is the map update of the in-memory backend *)
Theorem C09Z_backend_put_existing_is_map_update : forall enc aclf t p d n, wf (nodes t) -> find (nodes t) p = Some n ->
  exists t', bk_put enc aclf t p d = (RPath p, t') /\
    forall q, option_map n_data (find (nodes t') q) =
              if path_eqb p q then Some (payload enc d) else option_map n_data (find (nodes t) q).
Proof.
  intros enc aclf t p d n W H. unfold bk_put. rewrite (zu_put_existing enc t p d (aclf p) true false false n W H). cbn [andb].
  destruct (set_and_acl_spec t p (payload enc d) (realacl true (aclf p)) n H) as [t' [E1 [_ E3]]].
  exists t'. split; [exact E1|]. intros q. rewrite E3. destruct (path_eqb p q); reflexivity.
Qed.
Print Assumptions C09Z_backend_put_existing_is_map_update.

(** non-vacuity: a tree made by two puts *)
Definition C09Z_ex_tree : tree :=
  snd (zu_put enc0 (snd (zu_put enc0 empty_tree [[97]; [98]; [99]] (PBytes [32; 120; 10]) None false true true false))
         [[97]; [100]] (POther [123; 125]) None false true false false).

Example C09Z_ex_wf : wfb (nodes C09Z_ex_tree) = true.
Proof. vm_compute. reflexivity. Qed.
(** missing ancestors /a and /a/b were created empty and persistent; the payload is stored verbatim, ephemeral *)
Example C09Z_ex_put_makes_ancestors :
  map (fun q => option_map (fun n => (n_data n, n_eph n)) (find (nodes C09Z_ex_tree) q))
      [[[97]]; [[97]; [98]]; [[97]; [98]; [99]]; [[97]; [100]]; [[98]]]
  = [Some ([], false); Some ([], false); Some ([32; 120; 10], true); Some ([123; 125], false); None].
Proof. vm_compute. reflexivity. Qed.
Example C09Z_ex_create_existing : zu_create enc0 C09Z_ex_tree [[97]; [100]] (POther [123; 125]) None false true false
  = (RExn ENodeExists, C09Z_ex_tree).
Proof. vm_compute. reflexivity. Qed.
Example C09Z_ex_check_content_same :
  zu_put enc0 C09Z_ex_tree [[97]; [100]] (POther [123; 125]) None false true false true = (RNone, C09Z_ex_tree).
Proof. vm_compute. reflexivity. Qed.
Example C09Z_ex_child_of_ephemeral :
  fst (zu_put enc0 C09Z_ex_tree [[97]; [98]; [99]; [100]] PNone None false true false false) = RExn ENoChildEph.
Proof. vm_compute. reflexivity. Qed.
Example C09Z_ex_recursive_delete :
  let t' := snd (zu_ensure_deleted C09Z_ex_tree [[97]] true) in
  (fst (zu_ensure_deleted C09Z_ex_tree [[97]] true), length (nodes t'), fst (zu_ensure_deleted C09Z_ex_tree [[97]] false))
  = (RNone, 0%nat, RExn ENotEmpty).
Proof. vm_compute. reflexivity. Qed.
Example C09Z_ex_sequence :
  fst (zu_create enc0 C09Z_ex_tree [[97]; [115]] PNone None true true false)
  = RPath [[97]; [115; 48; 48; 48; 48; 48; 48; 48; 48; 48; 50]].
Proof. vm_compute. reflexivity. Qed.
Example C09Z_ex_update_missing : zu_update enc0 C09Z_ex_tree [[122]] PNone false = (RExn ENoNode, C09Z_ex_tree).
Proof. vm_compute. reflexivity. Qed.

Theorem C09Z_wfb_sound : forall N, wfb N = true -> wf N.
Proof.
  intros N H q Hq. destruct q as [|s q]; [apply has_root|]. destruct (has_In N (s :: q) Hq) as [n Hn]; [discriminate|].
  unfold wfb in H. rewrite forallb_forall in H. exact (H _ Hn).
Qed.
Print Assumptions C09Z_wfb_sound.

(** create (makepath) of a missing node, when it returns a path: that path is p, p was missing, exactly p and its
    missing ancestors are new (created_spec), wf is kept *)
Theorem C09Z_create_missing_spec : forall enc t p d acl dflt eph p' t', wf (nodes t) ->
  zu_create enc t p d acl false dflt eph = (RPath p', t') ->
  p' = p /\ has (nodes t) p = false /\ wf (nodes t') /\
  created_spec t t' p (payload enc d) eph (mk_default (realacl dflt acl)).
Proof.
  intros enc t p d acl dflt eph p' t' W H. unfold zu_create, c_create in H.
  pose proof (k_create_wf t p (payload enc d) (mk_default (realacl dflt acl)) eph false true W) as W'. rewrite H in W'.
  revert H. destruct (k_createP t p (payload enc d) (mk_default (realacl dflt acl)) eph W);
    intros [= <- <-]. auto.
Qed.
Print Assumptions C09Z_create_missing_spec.

(** what created_spec says in words: every existing path unchanged; all ancestors exist afterwards; a new path is p
    or an ancestor of p *)
Theorem C09Z_created_spec_facts : forall t t' p v eph A, has (nodes t) p = false -> created_spec t t' p v eph A ->
  (forall q, has (nodes t) q = true -> find (nodes t') q = find (nodes t) q) /\
  (forall q, is_anc q p = true -> has (nodes t') q = true) /\
  (forall q, has (nodes t) q = false -> has (nodes t') q = true -> q = p \/ is_anc q p = true).
Proof.
  intros t t' p v eph A Hp S. split; [|split]; intros q Hq.
  - rewrite S, Hq, andb_false_r. destruct (path_eqb_spec p q); [congruence | reflexivity].
  - unfold has. rewrite S, Hq. destruct (path_eqb p q); [reflexivity|]. cbn [andb].
    destruct (has (nodes t) q) eqn:E; [exact E | reflexivity].
  - unfold has. rewrite S. apply has_false in Hq. rewrite Hq. destruct (path_eqb_spec p q); [auto|].
    destruct (is_anc q p); [auto | discriminate].
Qed.
Print Assumptions C09Z_created_spec_facts.

Theorem C09Z_create_preserves_wf : forall enc t p d acl sequ dflt eph, wf (nodes t) ->
  wf (nodes (snd (zu_create enc t p d acl sequ dflt eph))).
Proof.
  intros enc t p d acl sequ dflt eph.
  apply k_create_wf.
Qed.
Print Assumptions C09Z_create_preserves_wf.

(** kazoo create without makepath: NoNodeError iff the parent is missing; the tree is unchanged *)
Theorem C09Z_create_nomakepath_nonode : forall t p v acl eph sequ,
  (has (nodes t) (removelast p) = false -> k_create t p v acl eph sequ false = (RExn ENoNode, t)) /\
  (forall t', k_create t p v acl eph sequ false = (RExn ENoNode, t') -> has (nodes t) (removelast p) = false /\ t' = t).
Proof.
  intros t p v acl eph sequ.
  unfold k_create. destruct (srv_createP t p v acl eph sequ); split; try congruence; intros t' [= <-]; auto.
Qed.
Print Assumptions C09Z_create_nomakepath_nonode.

(** put on ANY wf tree (node present or not, any flags but sequence), when it does not raise: it returns the path
    (or None: check_content and nothing to write); get returns the payload; every other path is unchanged except
    that the missing ancestors - only those - are new, empty and persistent *)
Theorem C09Z_put_then_get : forall enc t p d acl dflt eph chk r t', wf (nodes t) ->
  zu_put enc t p d acl false dflt eph chk = (r, t') -> (forall e, r <> RExn e) ->
  (r = RPath p \/ (r = RNone /\ chk = true /\ t' = t)) /\
  (exists n', find (nodes t') p = Some n' /\ n_data n' = payload enc d /\
              zu_get t' p = RData (payload enc d) (n_ver n') /\
              (r = RPath p -> n_acl n' = mk_default (realacl dflt acl))) /\
  (forall q, q <> p -> find (nodes t') q =
                       if is_anc q p && negb (has (nodes t) q)
                       then Some (mknode [] false (mk_default (realacl dflt acl))) else find (nodes t) q).
Proof.
  intros enc t p d acl dflt eph chk r t' W H Hne.
  destruct (has (nodes t) p) eqn:Hp.
  - destruct (proj1 (has_true _ _) Hp) as [n Hn]. rewrite (zu_put_existing enc t p d acl dflt eph chk n W Hn) in H.
    assert (Anc : forall q, is_anc q p && negb (has (nodes t) q) = false) by (intros q; apply anc_if_present; auto).
    destruct (chk && zl_eqb (n_data n) (payload enc d)) eqn:C.
    + injection H as <- <-. apply andb_true_iff in C as [C1 C2]. apply zl_eqb_eq in C2.
      split; [right; auto|]. split.
      * exists n. repeat split; auto; [unfold zu_get, srv_get; rewrite Hn, C2; reflexivity | discriminate].
      * intros q _. rewrite Anc. reflexivity.
    + destruct (set_and_acl_spec t p (payload enc d) (realacl dflt acl) n Hn) as [t2 [E1 [_ E3]]].
      rewrite E1 in H. injection H as <- <-. split; [left; reflexivity|]. split.
      * eexists. split; [rewrite E3, path_eqb_refl; reflexivity|]. cbn. repeat split.
        unfold zu_get, srv_get. rewrite E3, path_eqb_refl. reflexivity.
      * intros q Hq. rewrite E3, path_eqb_neq, Anc by congruence. reflexivity.
  - revert H. unfold zu_put, c_create.
    destruct (k_createP t p (payload enc d) (mk_default (realacl dflt acl)) eph W) as [|t1 _ S|]; [congruence | |];
      intros [= <- <-]; [|edestruct Hne; reflexivity].
    split; [left; reflexivity|]. split.
    + eexists. split; [rewrite S, path_eqb_refl; reflexivity|]. cbn. repeat split.
      unfold zu_get, srv_get. rewrite S, path_eqb_refl. reflexivity.
    + intros q Hq. rewrite S, path_eqb_neq by congruence. reflexivity.
Qed.
Print Assumptions C09Z_put_then_get.

Theorem C09Z_put_preserves_wf : forall enc t p d acl sequ dflt eph chk, wf (nodes t) ->
  wf (nodes (snd (zu_put enc t p d acl sequ dflt eph chk))).
Proof.
  intros enc t p d acl sequ dflt eph chk W. unfold zu_put, c_create.
  pose proof (k_create_wf t p (payload enc d) (mk_default (realacl dflt acl)) eph sequ true W) as W1.
  destruct (k_create _ _ _ _ _ _ _) as [[| | | | | | |[]] t1]; try exact W1. cbn [snd] in W1.
  pose proof (set_and_acl_wf t1 p (payload enc d) (realacl dflt acl) W1) as W2. destruct chk; [|exact W2].
  destruct (srv_get t1 p); try exact W2; try exact W1. destruct (zl_eqb d0 (payload enc d)); [exact W1 | exact W2].
Qed.
Print Assumptions C09Z_put_preserves_wf.

(** put p d; put p d: with check_content the second call returns None and changes nothing; without it the second
    call rewrites the same bytes - the tree differs from the first result in the version of p only, +1 *)
Theorem C09Z_put_idempotent : forall enc t p d acl dflt eph chk1 t1, wf (nodes t) ->
  zu_put enc t p d acl false dflt eph chk1 = (RPath p, t1) ->
  zu_put enc t1 p d acl false dflt eph true = (RNone, t1) /\
  exists n1 t2, find (nodes t1) p = Some n1 /\
    zu_put enc t1 p d acl false dflt eph false = (RPath p, t2) /\ cvs t2 = cvs t1 /\
    forall q, find (nodes t2) q =
              if path_eqb p q
              then Some {| n_data := n_data n1; n_eph := n_eph n1; n_ver := n_ver n1 + 1; n_acl := n_acl n1 |}
              else find (nodes t1) q.
Proof.
  intros enc t p d acl dflt eph chk1 t1 W H.
  pose proof (C09Z_put_preserves_wf enc t p d acl false dflt eph chk1 W) as W1. rewrite H in W1. cbn [snd] in W1.
  destruct (C09Z_put_then_get enc t p d acl dflt eph chk1 _ _ W H ltac:(discriminate)) as [_ [[n1 [F [D [_ Ac]]]] _]].
  specialize (Ac eq_refl). rewrite !(zu_put_existing enc t1 p d acl dflt eph _ n1 W1 F), D, zl_eqb_refl. cbn [andb].
  split; [reflexivity|].
  destruct (set_and_acl_spec t1 p (payload enc d) (realacl dflt acl) n1 F) as [t2 [E1 [E2 E3]]].
  exists n1, t2. rewrite D, Ac. auto.
Qed.
Print Assumptions C09Z_put_idempotent.

Theorem C09Z_ensure_exists_missing : forall enc t p acl d r t', wf (nodes t) -> has (nodes t) p = false ->
  zu_ensure_exists enc t p acl false d = (r, t') -> (forall e, r <> RExn e) ->
  r = RPath p /\ created_spec t t' p (payload enc d) false (mk_default (Some (mk_default acl))).
Proof.
  intros enc t p acl d r t' W Hp. unfold zu_ensure_exists, c_create.
  destruct (k_createP t p (payload enc d) (mk_default (Some (mk_default acl))) false W); [congruence | |];
    intros [= <- <-] Hne; [auto | edestruct Hne; reflexivity].
Qed.
Print Assumptions C09Z_ensure_exists_missing.

Theorem C09Z_ensure_exists_preserves_wf : forall enc t p acl sequ d, wf (nodes t) ->
  wf (nodes (snd (zu_ensure_exists enc t p acl sequ d))).
Proof.
  intros enc t p acl sequ d W. unfold zu_ensure_exists, c_create, c_set_acls.
  pose proof (k_create_wf t p (payload enc d) (mk_default (Some (mk_default acl))) false sequ true W) as W1.
  destruct (k_create _ _ _ _ _ _ _) as [[| | | | | | |[]] t1]; try exact W1. cbn [snd] in W1.
  apply wf_unless_exn; [destruct (is_none d); [exact W1 | apply srv_set_wf, W1]|]. intros t2 W2.
  apply wf_unless_exn; [apply srv_set_acls_wf, W2 | auto].
Qed.
Print Assumptions C09Z_ensure_exists_preserves_wf.

Theorem C09Z_update_preserves_wf : forall enc t p d chk, wf (nodes t) -> wf (nodes (snd (zu_update enc t p d chk))).
Proof.
  intros enc t p d chk W. unfold zu_update.
  assert (W2 : wf (nodes (snd (match srv_set t p (payload enc d) with
                               | (RExn e, t') => (RExn e, t') | (_, t') => (RPath p, t') end))))
    by (apply wf_unless_exn; [apply srv_set_wf, W | auto]).
  destruct chk; [|exact W2]. destruct (srv_get t p); try exact W2; try exact W.
  destruct (zl_eqb d0 (payload enc d)); [exact W | exact W2].
Qed.
Print Assumptions C09Z_update_preserves_wf.

(** ensure_deleted(recursive=True) of any path but "/" on a wf tree: the result is None - no exception, and the
    model's recursion fuel never runs out -, nothing at or below p is left, every other path is unchanged, wf kept;
    whether or not p existed *)
Theorem C09Z_ensure_deleted_recursive : forall t p, wf (nodes t) -> p <> [] ->
  exists t', zu_ensure_deleted t p true = (RNone, t') /\ removed t t' p /\ wf (nodes t').
Proof.
  intros t p W Hp. unfold zu_ensure_deleted.
  assert (B : bounded t p (maxlen (nodes t))).
  { intros q Hq _. pose proof (maxlen_bound _ _ Hq). destruct p; [congruence | cbn; lia]. }
  destruct (ens_del_spec _ t p W Hp B) as [t' [E R]]. exists t'. split; [exact E|]. split; [exact R|].
  exact (wf_remove_subtree _ _ p W Hp R).
Qed.
Print Assumptions C09Z_ensure_deleted_recursive.

(** ZkBackend refines the in-memory backend of the master harness (harness/emaster.py Mem) on the abstraction
    [abs t q] = the bytes stored at q: put = map update (+ empty missing ancestors), ensure_exists = insert empty if
    absent (+ ancestors), delete = removal of the path and all its descendants; everything else unchanged *)
Theorem C09Z_backend_put_refines : forall enc aclf t p d r t', wf (nodes t) ->
  bk_put enc aclf t p d = (r, t') -> (forall e, r <> RExn e) ->
  r = RPath p /\ wf (nodes t') /\ forall q, abs t' q = mem_put p (payload enc d) (abs t) q.
Proof.
  intros enc aclf t p d r t' W H Hne. unfold bk_put in H.
  pose proof (C09Z_put_preserves_wf enc t p d (aclf p) false true false false W) as W'. rewrite H in W'.
  destruct (C09Z_put_then_get enc t p d (aclf p) true false false r t' W H Hne) as [R [[n' [F [D _]]] O]].
  split; [destruct R as [R|[_ [R _]]]; [exact R | discriminate]|]. split; [exact W'|].
  intros q. unfold mem_put. destruct (path_eqb_spec p q) as [<-|N].
  - unfold abs. rewrite F. cbn. congruence.
  - unfold abs at 1. rewrite (O q) by congruence. apply abs_new_ancestors.
Qed.
Print Assumptions C09Z_backend_put_refines.

Theorem C09Z_backend_ensure_exists_refines : forall enc aclf t p r t', wf (nodes t) ->
  bk_ensure_exists enc aclf t p = (r, t') -> (forall e, r <> RExn e) ->
  r = RPath p /\ wf (nodes t') /\ forall q, abs t' q = mem_ensure p (abs t) q.
Proof.
  intros enc aclf t p r t' W H Hne. unfold bk_ensure_exists in H.
  pose proof (C09Z_ensure_exists_preserves_wf enc t p (aclf p) false PNone W) as W'. rewrite H in W'.
  destruct (has (nodes t) p) eqn:Hp.
  - destruct (proj1 (has_true _ _) Hp) as [n Hn].
    destruct (C09Z_ensure_exists_existing enc t p (aclf p) PNone n W Hn) as [t2 [E1 [_ E3]]].
    rewrite E1 in H. injection H as <- <-. split; [reflexivity|]. split; [exact W'|].
    intros q. unfold mem_ensure, abs at 1. rewrite E3. destruct (path_eqb_spec p q) as [<-|N]; cbn [orb is_none].
    + rewrite abs_fill_present by exact Hp. unfold abs. rewrite Hn. reflexivity.
    + destruct (is_anc q p) eqn:A; [|reflexivity].
      rewrite abs_fill_present; [reflexivity|]. exact (wf_anc_present _ _ _ W (W _ Hp) A).
  - destruct (C09Z_ensure_exists_missing enc t p (aclf p) PNone r t' W Hp H Hne) as [R S].
    split; [exact R|]. split; [exact W'|]. intros q. unfold mem_ensure, abs at 1. rewrite S.
    destruct (path_eqb_spec p q) as [<-|N]; cbn [orb]; [|apply abs_new_ancestors].
    unfold abs. apply has_false in Hp. rewrite Hp. reflexivity.
Qed.
Print Assumptions C09Z_backend_ensure_exists_refines.

Theorem C09Z_backend_delete_refines : forall t p, wf (nodes t) -> p <> [] ->
  exists t', bk_delete t p = (RNone, t') /\ wf (nodes t') /\ forall q, abs t' q = mem_delete p (abs t) q.
Proof.
  intros t p W Hp. destruct (C09Z_ensure_deleted_recursive t p W Hp) as [t' [E [R W']]]. exists t'.
  split; [exact E|]. split; [exact W'|]. intros q. unfold abs, mem_delete. rewrite R.
  destruct (prefixb p q); reflexivity.
Qed.
Print Assumptions C09Z_backend_delete_refines.

Example C09Z_ex_wf_prop : wf (nodes C09Z_ex_tree).
Proof. apply C09Z_wfb_sound. vm_compute. reflexivity. Qed.
Example C09Z_ex_backend_put_missing :
  let r := bk_put enc0 (fun _ => None) C09Z_ex_tree [[120]; [121]; [122]] (PBytes [1; 2]) in
  (fst r, map (abs (snd r)) [[[120]]; [[120]; [121]]; [[120]; [121]; [122]]; [[97]; [100]]; [[122]]])
  = (RPath [[120]; [121]; [122]], [Some []; Some []; Some [1; 2]; Some [123; 125]; None]).
Proof. vm_compute. reflexivity. Qed.
Example C09Z_ex_backend_delete :
  map (abs (snd (bk_delete C09Z_ex_tree [[97]; [98]]))) [[[97]]; [[97]; [98]]; [[97]; [98]; [99]]; [[97]; [100]]]
  = [Some []; None; None; Some [123; 125]].
Proof. vm_compute. reflexivity. Qed.
Example C09Z_ex_put_raises_under_ephemeral :   (* the hypothesis "does not raise" of C09Z_put_then_get can fail *)
  exists e, fst (zu_put enc0 C09Z_ex_tree [[97]; [98]; [99]; [100]] PNone None false true false false) = RExn e.
Proof. exists ENoChildEph. vm_compute. reflexivity. Qed.

(** create(makepath=True) of a missing node on a wf tree either makes it (then C09Z_create_missing_spec applies) or
    raises NoChildrenForEphemeralsError; no other exception *)
Theorem C09Z_create_missing_outcome : forall t p v acl eph, wf (nodes t) -> has (nodes t) p = false ->
  (exists t', k_create t p v acl eph false true = (RPath p, t')) \/
  (exists t', k_create t p v acl eph false true = (RExn ENoChildEph, t')).
Proof.
  intros t p v acl eph W H. destruct (k_createP t p v acl eph W); [congruence | left | right]; eauto.
Qed.
Print Assumptions C09Z_create_missing_outcome.
