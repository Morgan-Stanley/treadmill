(** C14  Node VIPs, firewall rules and endpoint specs have exactly one owner.

    Model: Node/Owners.v (VipMgr, RuleMgr, EndpointsMgr, endpoints.garbage_collect,
    NetworkResourceService on top of VipMgr).  All theorems quantify over every operation
    sequence [ops] by any number of owners, from any well-formed start state (in particular
    from empty directories), and are proved by induction over [ops] in Node/OwnersP.v. *)
From Coq Require Import ZArith List Bool.
From TM Require Import Node.Owners Node.OwnersP.
From TM Require Import Base.ShapeCanon.
Import ListNotations.
Open Scope Z_scope.

(** a key (address, rule file, endpoint spec) never has two holders *)
Theorem C14_exclusive : forall c ops s0, wf c s0 ->
  let s := run c ops s0 in
  (forall k o1 o2, In (k, o1) (s_vips s) -> In (k, o2) (s_vips s) -> o1 = o2) /\
  (forall k o1 o2, In (k, o1) (s_rules s) -> In (k, o2) (s_rules s) -> o1 = o2) /\
  (forall k o1 o2, In (k, o1) (s_specs s) -> In (k, o2) (s_specs s) -> o1 = o2).
Proof.
  intros c ops s0 H. destruct (run_wf c ops s0 H) as (Hv & Hr & Hs & _).
  exact (conj (fun k o1 o2 => NoDup_functional Z.eqb zeqb_spec k o1 o2 _ Hv)
        (conj (fun k o1 o2 => NoDup_functional Z.eqb zeqb_spec k o1 o2 _ Hr)
              (fun k o1 o2 => NoDup_functional spec_eqb spec_eqb_spec k o1 o2 _ Hs))).
Qed.
Print Assumptions C14_exclusive.

(** an entry appears only through a create operation of its owner, on a key nobody held: nobody takes over a held key *)
Theorem C14_no_takeover : forall c p s,
  (forall k o, In (k, o) (s_vips (fst (step c p s))) -> ~ In (k, o) (s_vips s) ->
               creates_for p = Some o /\ lookup Z.eqb k (s_vips s) = None) /\
  (forall k o, In (k, o) (s_rules (fst (step c p s))) -> ~ In (k, o) (s_rules s) ->
               creates_for p = Some o /\ lookup Z.eqb k (s_rules s) = None) /\
  (forall k o, In (k, o) (s_specs (fst (step c p s))) -> ~ In (k, o) (s_specs s) ->
               creates_for p = Some o /\ lookup spec_eqb k (s_specs s) = None).
Proof.
  intros c p s.
  exact (conj (fun k o => tstep_new Z.eqb _ _ _ _ k o (step_vips_tstep c p s))
        (conj (fun k o => tstep_new Z.eqb _ _ _ _ k o (step_rules_tstep c p s))
              (fun k o => tstep_new spec_eqb _ _ _ _ k o (step_specs_tstep c p s)))).
Qed.
Print Assumptions C14_no_takeover.

(** every allocated address lies in the configured network *)
Theorem C14_in_network : forall c ops s0 a o, wf c s0 -> In (a, o) (s_vips (run c ops s0)) -> in_cidr c a = true.
Proof.
  intros c ops s0 a o H. destruct (run_wf c ops s0 H) as (_ & _ & _ & _ & Hc). rewrite Forall_forall in Hc.
  exact (Hc (a, o)).
Qed.
Print Assumptions C14_in_network.

(** every allocated address is a host address, never the network or the broadcast address, unless a caller picked
    such an address explicitly (no caller in the tree passes picked_ip; see C14_picked_network_address below) *)
Theorem C14_hosts_only : forall c ops s0 a o,
  4 <= c_size c -> forallb (picks_host c) ops = true -> all_hosts c s0 ->
  In (a, o) (s_vips (run c ops s0)) ->
  a <> c_base c /\ a <> c_base c + c_size c - 1 /\ in_cidr c a = true.
Proof.
  intros c ops s0 a o H1 H2 H3 H4. pose proof (run_hosts c ops s0 H1 H2 H3) as H. unfold all_hosts in H.
  rewrite Forall_forall in H. exact (is_host_not_edge c a (H (a, o) H4)).
Qed.
Print Assumptions C14_hosts_only.

(** what alloc returns: an address that was free, now held by the caller, the first free host of the network *)
Theorem C14_alloc_returns : forall c o t,
  match vip_alloc c o None t with
  | (RAddr a, t') =>
      lookup Z.eqb a t = None /\ t' = t ++ [(a, o)] /\ in_cidr c a = true /\ (4 <= c_size c -> is_host c a = true) /\
      (forall y, hosts_first c <= y < a -> lookup Z.eqb y t <> None)
  | (_, t') => t' = t
  end.
Proof.
  intros c o t. pose proof (vip_alloc_returns c o None t) as H. destruct (vip_alloc c o None t) as [[] t']; try exact H.
  destruct H as (H1 & H2 & H3 & _ & H5). destruct (H5 eq_refl). auto.
Qed.
Print Assumptions C14_alloc_returns.

(** only the owner releases: in every reachable state, an entry survives every operation except its owner's own
    release (direct, or its deleted / not replayed service request) and a collection while the owner does not exist *)
Theorem C14_owner_only_release : forall c ops s0, wf c s0 ->
  let s := run c ops s0 in forall p,
  (forall k o, In (k, o) (s_vips s) -> may_remove_vip s p k o = false -> In (k, o) (s_vips (fst (step c p s)))) /\
  (forall k o, In (k, o) (s_rules s) -> may_remove_rule s p k o = false -> In (k, o) (s_rules (fst (step c p s)))) /\
  (forall k o, In (k, o) (s_specs s) -> may_remove_spec s p k o = false -> In (k, o) (s_specs (fst (step c p s)))).
Proof.
  intros c ops s0 H s p. pose proof (run_wf c ops s0 H) as Hw.
  exact (conj (fun k o => step_keeps_vip c p s k o Hw)
        (conj (fun k o => step_keeps_rule c p s k o Hw) (fun k o => step_keeps_spec c p s k o Hw))).
Qed.
Print Assumptions C14_owner_only_release.

(** the same over whole histories: an entry is still there after any sequence in which nobody entitled removed it *)
Theorem C14_entry_survives : forall c ops s,  wf c s ->
  (forall k o, In (k, o) (s_vips s) -> undisturbed may_remove_vip c ops s k o = true -> In (k, o) (s_vips (run c ops s))) /\
  (forall k o, In (k, o) (s_rules s) -> undisturbed may_remove_rule c ops s k o = true -> In (k, o) (s_rules (run c ops s))) /\
  (forall k o, In (k, o) (s_specs s) -> undisturbed may_remove_spec c ops s k o = true -> In (k, o) (s_specs (run c ops s))).
Proof.
  intros c ops s H.
  exact (conj (fun k o => run_keeps s_vips _ c k o (fun p s => step_keeps_vip c p s k o) ops s H)
        (conj (fun k o => run_keeps s_rules _ c k o (fun p s => step_keeps_rule c p s k o) ops s H)
              (fun k o => run_keeps s_specs _ c k o (fun p s => step_keeps_spec c p s k o) ops s H))).
Qed.
Print Assumptions C14_entry_survives.

(** a release by anybody but the holder (or of a key nobody holds) leaves the whole node state as it was *)
Theorem C14_nonowner_release_noop : forall c s,
  (forall x a, lookup Z.eqb a (s_vips s) <> Some x -> fst (step c (VipFree x a) s) = s) /\
  (forall k x, lookup Z.eqb k (s_rules s) <> Some x -> fst (step c (RuleUnlink k x) s) = s) /\
  (forall k x, lookup spec_eqb k (s_specs s) <> Some x -> fst (step c (SpecUnlink k (Some x)) s) = s) /\
  (forall a pr e x, (forall k o, In (k, o) (s_specs s) -> spec_matches a pr e k = true -> o <> x) ->
                    fst (step c (SpecUnlinkAll a pr e (Some x)) s) = s).
Proof.
  intros c s. split; [|split; [|split]]; cbn [step fst unlink_spec].
  - intros x a H. rewrite (release_noop Z.eqb) by exact H. destruct s; reflexivity.
  - intros k x H. rewrite (release_noop Z.eqb) by exact H. destruct s; reflexivity.
  - intros k x H. rewrite (release_noop spec_eqb) by exact H. destruct s; reflexivity.
  - intros a pr e x H. rewrite unlink_all_noop by exact H. destruct s; reflexivity.
Qed.
Print Assumptions C14_nonowner_release_noop.

(** garbage collection removes exactly the entries whose owner does not exist and touches nothing else *)
Theorem C14_gc_exact : forall c s,
  (let s' := fst (step c VipGc s) in
   (forall k o, In (k, o) (s_vips s') <-> In (k, o) (s_vips s) /\ In o (s_res s)) /\
   s_rules s' = s_rules s /\ s_specs s' = s_specs s /\ s_res s' = s_res s /\ s_apps s' = s_apps s /\
   s_devs s' = s_devs s /\ s_veth s' = s_veth s) /\
  (let s' := fst (step c RuleGc s) in
   (forall k o, In (k, o) (s_rules s') <-> In (k, o) (s_rules s) /\ In o (s_apps s)) /\
   s_vips s' = s_vips s /\ s_specs s' = s_specs s /\ s_res s' = s_res s /\ s_apps s' = s_apps s /\
   s_devs s' = s_devs s /\ s_veth s' = s_veth s) /\
  (let s' := fst (step c SpecGc s) in
   (forall k o, In (k, o) (s_specs s') <-> In (k, o) (s_specs s) /\ In o (s_apps s)) /\
   s_vips s' = s_vips s /\ s_rules s' = s_rules s /\ s_res s' = s_res s /\ s_apps s' = s_apps s /\
   s_devs s' = s_devs s /\ s_veth s' = s_veth s).
Proof.
  intros c s. cbn. split; [|split]; (split; [intros k o; exact (gc_In _ (k, o) _)|repeat split; reflexivity]).
Qed.
Print Assumptions C14_gc_exact.

(** owners appear at arbitrary points, also in the middle of a collection: a history with collections during which
    an owner appears and registers an entry ([XVipGcWith], [XRuleGcWith], [XSpecGcWith]) is the history in which
    "appears; registers; collect" take place in that order - so every theorem of this file, all of which quantify
    over all operation lists, covers such histories; the two headline invariants restated: *)
Theorem C14_concurrent_histories : forall c xs s0,
  xrun c xs s0 = run c (flat_map lin xs) s0 /\
  (wf c s0 ->
   (forall k o1 o2, In (k, o1) (s_vips (xrun c xs s0)) -> In (k, o2) (s_vips (xrun c xs s0)) -> o1 = o2) /\
   (forall k o1 o2, In (k, o1) (s_rules (xrun c xs s0)) -> In (k, o2) (s_rules (xrun c xs s0)) -> o1 = o2) /\
   (forall k o1 o2, In (k, o1) (s_specs (xrun c xs s0)) -> In (k, o2) (s_specs (xrun c xs s0)) -> o1 = o2) /\
   (forall a o, In (a, o) (s_vips (xrun c xs s0)) -> in_cidr c a = true)).
Proof.
  intros c xs s0. split; [exact (xrun_lin c xs s0)|]. intros H. rewrite (xrun_lin c xs s0).
  destruct (C14_exclusive c (flat_map lin xs) s0 H) as (E1 & E2 & E3).
  exact (conj E1 (conj E2 (conj E3 (fun a o => C14_in_network c (flat_map lin xs) s0 a o H)))).
Qed.
Print Assumptions C14_concurrent_histories.

(** an entry whose owner exists at the moment the collector visits it is never reclaimed: in a collection during
    which owner [o] appears and registers, exactly the entries whose owner is neither live before nor [o] go;
    everything held by a live owner or by the newcomer stays, the newcomer's new entry included *)
Theorem C14_gc_live_at_visit : forall c s,
  (forall k o, let s' := fst (xstep c (XRuleGcWith k o) s) in
     (forall k' o', In (k', o') (s_rules s') <->
                    In (k', o') (s_rules (run c [AppUp o; RuleCreate k o] s)) /\ In o' (add_z o (s_apps s))) /\
     (forall k' o', In (k', o') (s_rules s) -> In o' (add_z o (s_apps s)) -> In (k', o') (s_rules s')) /\
     (lookup Z.eqb k (s_rules s) = None -> In (k, o) (s_rules s')) /\
     s_vips s' = s_vips s /\ s_specs s' = s_specs s /\ s_res s' = s_res s /\ s_devs s' = s_devs s) /\
  (forall k o, let s' := fst (xstep c (XSpecGcWith k o) s) in
     (forall k' o', In (k', o') (s_specs s') <->
                    In (k', o') (s_specs (run c [AppUp o; SpecCreate k o] s)) /\ In o' (add_z o (s_apps s))) /\
     (forall k' o', In (k', o') (s_specs s) -> In o' (add_z o (s_apps s)) -> In (k', o') (s_specs s')) /\
     (lookup spec_eqb k (s_specs s) = None -> In (k, o) (s_specs s')) /\
     s_vips s' = s_vips s /\ s_rules s' = s_rules s /\ s_res s' = s_res s /\ s_devs s' = s_devs s) /\
  (forall o picked, let s' := fst (xstep c (XVipGcWith o picked) s) in
     (forall k' o', In (k', o') (s_vips s') <->
                    In (k', o') (s_vips (run c [ResUp o; VipAlloc o picked] s)) /\ In o' (add_z o (s_res s))) /\
     (forall k' o', In (k', o') (s_vips s) -> In o' (add_z o (s_res s)) -> In (k', o') (s_vips s')) /\
     (forall a, snd (step c (VipAlloc o picked) (fst (step c (ResUp o) s))) = RAddr a -> In (a, o) (s_vips s')) /\
     s_rules s' = s_rules s /\ s_specs s' = s_specs s /\ s_apps s' = s_apps s /\ s_devs s' = s_devs s).
Proof.
  intros c s. split; [|split].
  - intros k o.
    cbn [xstep lin run fst]. rewrite step_rule_create. cbn.
    destruct (gc_created Z.eqb zeqb_spec k o o (add_z o (s_apps s)) (s_rules s)) as [G1 G2].
    split; [intros; apply gc_In|]. split; [intros k' o'; apply (G1 (k', o'))|]. split; [|auto].
    intros H. apply G2; [exact H|]. apply In_add_z. left; reflexivity.
  - intros k o.
    cbn [xstep lin run fst]. rewrite step_spec_create. cbn.
    destruct (gc_created spec_eqb spec_eqb_spec k o (sp_app k) (add_z o (s_apps s)) (s_specs s)) as [G1 G2].
    split; [intros; apply gc_In|]. split; [intros k' o'; apply (G1 (k', o'))|]. split; [|auto].
    intros H. apply G2; [exact H|]. apply In_add_z. left; reflexivity.
  - intros o picked.
    cbn [xstep lin run fst]. rewrite !step_vip_alloc. cbn.
    destruct (gc_alloc c o picked (add_z o (s_res s)) (s_vips s)) as [G1 G2].
    split; [intros; apply gc_In|]. split; [intros k' o'; apply (G1 (k', o'))|]. split; [|auto].
    intros a H. apply G2; [exact H|]. apply In_add_z. left; reflexivity.
Qed.
Print Assumptions C14_gc_live_at_visit.

(** synchronize: every stale device is deleted and its address freed, no stale device remains, nothing is
    added, and (when it completes) the surviving addresses belong to existing owners *)
Theorem C14_sync_frees_stale : forall c ops s0, wf c s0 ->
  let s := run c ops s0 in
  let s' := fst (step c SvcSync s) in
  (forall o, dev_stale (s_devs s) o = true -> dget o (s_devs s') = None) /\
  (forall o d, dget o (s_devs s') = Some d -> d_stale d = false /\ dget o (s_devs s) = Some d) /\
  (forall o k, dev_stale (s_devs s) o = true -> dev_holds (s_devs s) o k = true -> ~ In (k, o) (s_vips s')) /\
  (forall k o, In (k, o) (s_vips s') -> In (k, o) (s_vips s)) /\
  (snd (step c SvcSync s) = ROk -> forall k o, In (k, o) (s_vips s') -> In o (s_res s)) /\
  s_rules s' = s_rules s /\ s_specs s' = s_specs s /\ s_res s' = s_res s /\ s_apps s' = s_apps s.
Proof.
  intros c ops s0 Hw0 s. destruct (run_wf c ops s0 Hw0 : wf c s) as (Hv & _ & _ & Hd & _). cbn [step].
  pose proof (svc_sync_dirs s) as E. injection E as E1 E2 E3 E4.
  pose proof (fun k o => proj1 (svc_sync_In s k o Hv Hd)) as I.
  split; [|split; [|split; [|split; [|split; [|auto]]]]].
  - intros o Ho. rewrite svc_sync_dget, Ho by exact Hd. reflexivity.
  - intros o d. exact (svc_sync_dget_Some s o d Hd).
  - intros o k Ho Hh Hin. apply I in Hin. tauto.
  - intros k o Hin. apply I in Hin. tauto.
  - intros Hr k o Hin. apply I in Hin. tauto.
Qed.
Print Assumptions C14_sync_frees_stale.

(** a repeated create request returns the same address and allocates nothing *)
Theorem C14_reuse : forall c ops mid s0 o env env' a,
  let s1 := fst (step c (SvcCreate o env) (run c ops s0)) in
  snd (step c (SvcCreate o env) (run c ops s0)) = RAddr a ->
  forallb (keeps_dev o) mid = true ->
  let s2 := run c mid s1 in
  snd (step c (SvcCreate o env') s2) = RAddr a /\ s_vips (fst (step c (SvcCreate o env') s2)) = s_vips s2.
Proof.
  intros c ops mid s0 o env env' a.
  cbn [step]. intros Hr Hk. apply svc_create_records in Hr.
  assert (Hh : dev_holds (s_devs (fst (svc_create c o env (run c ops s0)))) o a = true)
    by (apply dev_holds_iff; eexists; split; [exact Hr|reflexivity]).
  destruct (svc_create_reuse c o env' _ a (run_keeps_dev c mid _ o a Hk Hh)) as (H1 & H2 & _). auto.
Qed.
Print Assumptions C14_reuse.

(** on the schedules the resource-service framework produces, what the service believes is what the directory says:
    a device's address is held by that device's owner, hence no two devices share an address *)
Theorem C14_service_consistent : forall c ops, guarded c ops empty_state = true ->
  let s := run c ops empty_state in
  (forall o a, dev_holds (s_devs s) o a = true -> lookup Z.eqb a (s_vips s) = Some o) /\
  (forall o1 o2 a, dev_holds (s_devs s) o1 a = true -> dev_holds (s_devs s) o2 a = true -> o1 = o2).
Proof.
  intros c ops H s.
  pose proof (run_consistent c ops empty_state (wf_empty c) H consistent_empty) as Hc.
  exact (conj Hc (fun o1 o2 a => consistent_exclusive s o1 o2 a Hc)).
Qed.
Print Assumptions C14_service_consistent.

(** * Non-vacuity: a history with three owners, a non-owner's release, a dead owner and a collection *)
Definition ex_c := {| c_base := 167772160; c_size := 8 |}.              (* 10.0.0.0/29 *)
Definition ex_spec := {| sp_app := 9; sp_proto := 0; sp_ep := 0; sp_rport := 5000; sp_pid := 77; sp_port := 8000 |}.
Definition ex_ops :=
  [ ResUp 1; ResUp 2; AppUp 1; AppUp 2;
    VipAlloc 1 None; VipAlloc 2 None; VipAlloc 3 None;       (* owner 3 never existed *)
    VipFree 2 167772161;                                     (* non-owner release of owner 1's address *)
    RuleCreate 1 1; RuleCreate 1 2; RuleUnlink 1 2; SpecCreate ex_spec 1; SpecUnlinkAll 9 None None (Some 2);
    VipGc; ResDown 2; VipGc; AppDown 1; RuleGc; SpecGc ].

Example C14_nonvacuous :
  wf ex_c empty_state /\
  forallb (picks_host ex_c) ex_ops = true /\
  s_vips (run ex_c (firstn 13 ex_ops) empty_state) = [(167772161, 1); (167772162, 2); (167772163, 3)] /\
  s_rules (run ex_c (firstn 13 ex_ops) empty_state) = [(1, 1)] /\
  s_specs (run ex_c (firstn 13 ex_ops) empty_state) = [(ex_spec, 1)] /\
  s_vips (run ex_c (firstn 14 ex_ops) empty_state) = [(167772161, 1); (167772162, 2)] /\
  s_vips (run ex_c ex_ops empty_state) = [(167772161, 1)] /\
  s_rules (run ex_c ex_ops empty_state) = [] /\ s_specs (run ex_c ex_ops empty_state) = [] /\
  undisturbed may_remove_vip ex_c (skipn 5 ex_ops) (run ex_c (firstn 5 ex_ops) empty_state) 167772161 1 = true /\
  undisturbed may_remove_vip ex_c (skipn 6 ex_ops) (run ex_c (firstn 6 ex_ops) empty_state) 167772162 2 = false.
Proof. split; [exact (wf_empty ex_c)|]. vm_compute. repeat split. Qed.

(** a collection during which owner 2 (gone before) re-appears and registers rule 3: its old rule 2, its new rule 3
    and live owner 1's rule survive, dead owner 4's rule goes *)
Example C14_concurrent_nonvacuous :
  let s := run ex_c [AppUp 1; AppUp 2; AppUp 4; RuleCreate 1 1; RuleCreate 2 2; RuleCreate 4 4; AppDown 2; AppDown 4] empty_state in
  s_rules s = [(1, 1); (2, 2); (4, 4)] /\ s_apps s = [1] /\
  s_rules (fst (xstep ex_c (XRuleGcWith 3 2) s)) = [(1, 1); (2, 2); (3, 2)] /\
  s_rules (fst (step ex_c RuleGc s)) = [(1, 1)].
Proof. vm_compute. repeat split. Qed.

(** service schedule: create, repeat, restart + replay + synchronize frees the device that was not replayed *)
Definition ex_svc :=
  [ ResUp 1; SvcCreate 1 1; ResUp 2; SvcCreate 2 3; SvcCreate 1 1; ResDown 2;
    SvcRestart; SvcCreate 1 1; SvcSync; ResUp 3; SvcCreate 3 2 ].
Example C14_service_nonvacuous :
  guarded ex_c ex_svc empty_state = true /\
  snd (step ex_c (SvcCreate 1 1) (run ex_c (firstn 4 ex_svc) empty_state)) = RAddr 167772161 /\
  s_vips (run ex_c (firstn 8 ex_svc) empty_state) = [(167772161, 1); (167772162, 2)] /\
  dev_stale (s_devs (run ex_c (firstn 8 ex_svc) empty_state)) 2 = true /\
  s_vips (run ex_c (firstn 9 ex_svc) empty_state) = [(167772161, 1)] /\
  s_vips (run ex_c ex_svc empty_state) = [(167772161, 1); (167772162, 3)].
Proof. vm_compute. repeat split. Qed.

(** * Observations on the unchanged code (not violations of the statement) *)
(** alloc(owner, picked_ip=network address) succeeds: "in the network" holds, "host address" only for scanned ones *)
Example C14_picked_network_address :
  step ex_c (VipAlloc 1 (Some 167772160)) empty_state = (set_vips empty_state [(167772160, 1)], RAddr 167772160).
Proof. vm_compute. reflexivity. Qed.

(** EndpointsMgr.create_spec compares the existing owner with [appname] instead of [owner]: a repeated request of
    the same owner raises (RuleMgr.create_rule is idempotent), and a request whose appname equals the basename of
    the *other* holder returns normally although the spec stays with that holder.  The entry never changes hands. *)
Example C14_spec_repeat_raises :
  let s1 := fst (step ex_c (SpecCreate ex_spec 1) empty_state) in
  step ex_c (SpecCreate ex_spec 1) s1 = (s1, RExists) /\
  step ex_c (RuleCreate 1 1) (fst (step ex_c (RuleCreate 1 1) empty_state)) = (fst (step ex_c (RuleCreate 1 1) empty_state), ROk) /\
  let s2 := fst (step ex_c (SpecCreate ex_spec 9) empty_state) in
  step ex_c (SpecCreate ex_spec 2) s2 = (s2, ROk) /\ s_specs s2 = [(ex_spec, 9)].
Proof. vm_compute. repeat split. Qed.

(** the functions named by this property's anchors still have the statement skeleton the model was written from
    (re-extracted from the Python AST on every run, harness/tables_shape.py + harness/shape_pins.json; kept last so that
    a difference does not stop the theorems above from being checked) *)
Theorem C14_source_shape : shapes_ok_C14 = true.
Proof. vm_compute. reflexivity. Qed.
Print Assumptions C14_source_shape.
