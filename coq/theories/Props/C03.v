(** C03  Placements honour partition, traits, server state and lease lifetime.
    Proved on the model for the cycle run from every reachable state (Sched/TurnP.v: per-turn specification of the
    placement loop incl. the eviction scan, the restore of an eviction and the renewal paths; Sched/CycleP.v;
    Sched/Reach.v). The "after every cycle" half is refuted on the code as it is (known finding, kept because
    repairing it would contradict C07/C08 as stated): [C03_after_refuted]. *)
From Coq Require Import ZArith QArith List Bool.
From TM Require Import Sched.Vec Sched.Types Sched.Tree Sched.Cycle Sched.Events Sched.Steps Sched.FrameP
                       Sched.InvAcct Sched.InvIdent Sched.TurnP Sched.CycleP Sched.Reach.
From TM Require Import Base.ShapeCanon.
Import ListNotations.
Open Scope Z_scope.

(** whatever puts an instance on a server goes through Server.put, whose guard establishes label, traits, lifetime,
    room and server-level affinity head-room *)
Theorem C03_put_guard : forall c s a lease, put_guard c s a lease = true ->
  (forall l, app_label a = Some l -> l = s_label s) /\
  (app_traits c a = 0 \/ has_traits (s_traits s) (app_traits c a) = true) /\
  (lease = 0 \/ c_now c + lease < s_valid_until s) /\
  under_limit (cget (a_aff a) (s_counters s)) (aff_limit a LEVEL_SERVER) = true /\
  any_gt (a_demand a) (s_free s) = false /\
  a_server a = None /\ ~ In (a_name a) (s_apps s).
Proof. exact put_guard_spec. Qed.
Print Assumptions C03_put_guard.

(** a fresh placement walk and the eviction scan leave every server that is not up exactly as it was *)
Theorem C03_fresh_put_only_up : forall fuel c b an n s,
  get_srv n (c_servers c) = Some s -> s_state s <> Up ->
  get_srv n (c_servers (fst (bucket_put fuel c b an))) = Some s.
Proof. intros fuel c b an n s H1 H2. exact (bucket_put_nonup fuel c b an n s H1 H2). Qed.
Print Assumptions C03_fresh_put_only_up.

Theorem C03_eviction_only_up : forall victims placer c ev n s,
  get_srv n (c_servers c) = Some s -> s_state s <> Up ->
  get_srv n (c_servers (fst (evict_scan victims placer c ev))) = Some s.
Proof. intros victims placer c ev n s H1 H2. exact (evict_scan_nonup victims placer c ev n s H1 H2). Qed.
Print Assumptions C03_eviction_only_up.

(** a whole cycle is a sequence of primitive transitions whose only placing one is the guarded put *)
Theorem C03_cycle_is_guarded_steps : forall c choices, psteps c (fst (fst (schedule c choices))).
Proof. exact schedule_ps. Qed.
Print Assumptions C03_cycle_is_guarded_steps.

(** if an instance ends the cycle on a server other than the one it started on, that server is up and - measured on
    the state before the cycle - carries the partition label of the instance's allocation, offers every trait of the
    instance and of its allocation, and (non-zero lease) is not due for reboot before now + lease *)
Theorem C03_new_assignment : forall c ch x a a' n, reachable c ->
  get_app x (c_apps c) = Some a -> get_app x (c_apps (step c (OSchedule ch))) = Some a' ->
  a_server a' = Some n -> a_server a <> Some n ->
  exists s, get_srv n (c_servers c) = Some s /\ s_state s = Up /\
            (forall l, app_label a = Some l -> l = s_label s) /\
            (app_traits c a = 0 \/ has_traits (s_traits s) (app_traits c a) = true) /\
            (a_lease a = 0 \/ c_now c + a_lease a < s_valid_until s).
Proof. intros c ch x a a' n Hr. exact (new_assignment c ch (reachable_Good c Hr) x a a' n). Qed.
Print Assumptions C03_new_assignment.

(** the same for one cycle from any state satisfying the invariants *)
Theorem C03_cycle_spec : forall c ch, Acct c -> Ident c -> parts_wf c ->
  forall x a, In x (part_apps (c_parts c)) -> get_app x (c_apps c) = Some a -> (a_server a <> None -> has_id a) ->
  exists a', get_app x (c_apps (fst (fst (schedule c ch)))) = Some a' /\
    forall n, a_server a' = Some n -> a_server a <> Some n ->
      exists s, get_srv n (c_servers c) = Some s /\ s_state s = Up /\ guard_facts c s a.
Proof.
  intros c ch HA HI Hwf x a Hin Ha Hid.
  destruct (schedule_final c ch HA HI Hwf x a Hin Ha Hid) as (a' & Ha' & (_ & _ & _ & H4)).
  exists a'. split; [exact Ha'|exact H4].
Qed.
Print Assumptions C03_cycle_spec.

(** the code as it is: instance 1 is placed in partition 4000, then assigned to an allocation of partition 4001; it
    keeps its old server *)
Definition ex_a (n o : Z) : app :=
  mkApp n 1 [10;10;10] 3000 [] 0 0 None None false o None None None None false false false false (-1).
Definition ex_ops : list op :=
  [ OAddBucket 2001 3 2000; OAddServer 1000 2001 [100;100;100] 4000 0 0; OAddServer 1001 2001 [100;100;100] 4001 0 0;
    OAddApp 4000 [] (ex_a 1 1); OSchedule []; OAddApp 4001 [] (ex_a 1 1); OSchedule [] ].
Theorem C03_after_refuted :
  let c := run (init_cell 3 2000 1) ex_ops in
  exists a s, get_app 1 (c_apps c) = Some a /\ a_server a = Some 1000 /\ get_srv 1000 (c_servers c) = Some s /\
              app_label a = Some 4001 /\ s_label s = 4000.
Proof. vm_compute. eexists. eexists. repeat split; reflexivity. Qed.
Print Assumptions C03_after_refuted.

Example C03_nonvacuous :
  exists s a, get_srv 1000 (c_servers (run (init_cell 3 2000 1) (firstn 4 ex_ops))) = Some s /\
              get_app 1 (c_apps (run (init_cell 3 2000 1) (firstn 4 ex_ops))) = Some a /\
              put_guard (run (init_cell 3 2000 1) (firstn 4 ex_ops)) s a 0 = true.
Proof. vm_compute. eexists. eexists. repeat split; reflexivity. Qed.

(** non-vacuity of C03_new_assignment: in the refutation history the first cycle assigns instance 1 (pending before)
    to server 1000 from a reachable state *)
Example C03_new_assignment_nonvacuous :
  let c := run (init_cell 3 2000 1) (firstn 4 ex_ops) in
  reachable c /\ option_map a_server (get_app 1 (c_apps c)) = Some None /\
  option_map a_server (get_app 1 (c_apps (step c (OSchedule [])))) = Some (Some 1000).
Proof.
  split; [exists 3%nat, 2000, 1, (firstn 4 ex_ops); split; [apply wf_ops_allb_sound; vm_compute; reflexivity|reflexivity]|].
  vm_compute. split; reflexivity.
Qed.

(** the functions of treadmill/scheduler/__init__.py these theorems were proved about still have the statement
    skeleton the model was written from (re-extracted from the Python AST on every run, harness/tables_shape.py;
    kept last so that a difference does not stop the theorems above from being checked) *)
Theorem C03_source_shape : shapes_ok_C03 = true.
Proof. vm_compute. reflexivity. Qed.
Print Assumptions C03_source_shape.
