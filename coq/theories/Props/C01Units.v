(** C01, last sentence: "Capacities and demands mean the same quantity however they are spelled
    (1G = 1024M, 100% = 100)", for all unit spellings of the same quantity.

    Model: Codec/Units.v (utils.cpu_units / size_to_bytes / kilobytes / megabytes and scheduler/loader.py
    resources, at string level; strings are lists of code points, int()/str() are Codec/Dec.v).
    The suffix table utils._SIZE_SCALE, the multipliers 1024 / 1000, the modifier 'B', the divisors of
    kilobytes / megabytes, the '%' of cpu_units and the parser assignment / key order / default of
    resources are [TM.Codec.UnitsRun.units_tables], assembled from definitions that harness/tables_units.py
    regenerates from the source on every run; every theorem about a table T carries the premise [units_tables_ok T = true],
    discharged for the generated tables by [C01U_tables_ok].

    [str_of_Z n] is str(n) (a '-' and decimal digits, no leading zeros); every theorem holds for ALL integers n
    (no bound; negative n included - Python's // and Coq's Z.div both floor).  66 'B' 75 'K' 77 'M' 71 'G'
    84 'T' 37 '%'. *)
From Coq Require Import ZArith List Bool Lia.
From TM Require Import Codec.BaseNP Codec.Dec Codec.Units Codec.UnitsP Codec.UnitsRun.
Import ListNotations.
Open Scope Z_scope.

(** the source's suffix table, multipliers and parser assignment are the ones the statement needs *)
Theorem C01U_tables_ok : units_tables_ok units_tables = true.
Proof. vm_compute. reflexivity. Qed.
Print Assumptions C01U_tables_ok.

(** every suffix c of the table (exponent e), with or without the modifier, in ANY letter case and between
    blanks ([spells s t]: s.upper().strip() == t): n * 1024^e bytes, n * 1000^e with the modifier; kilobytes and
    megabytes are the floors of that quantity *)
Theorem C01U_every_suffix : forall T s n c e dec, units_tables_ok T = true ->
  spells s (spell n c dec) = true -> assoc c canon_scale = Some e ->
  size_to_bytes T (VStr s) = UOk (denote n e dec) /\
  kilobytes T (VStr s) = UOk (denote n e dec / 1024) /\
  megabytes T (VStr s) = UOk (denote n e dec / 1048576).
Proof.
  intros T s n c e dec H Hs%str_eqb_eq Hc. repeat split;
    [apply (size_to_bytes_spelled T H s n c e dec)|apply (kilobytes_spelled T H s n c e dec)
     |apply (megabytes_spelled T H s n c e dec)]; assumption.
Qed.
Print Assumptions C01U_every_suffix.

(** the strings that [spells] accepts include the canonical one and every re-casing of it between blanks *)
Theorem C01U_spells_recased : forall n c e dec l r s,
  assoc c canon_scale = Some e -> blank l = true -> blank r = true -> upper s = upper (spell n c dec) ->
  spells (l ++ s ++ r) (spell n c dec) = true.
Proof.
  intros n c e dec l r s Hc Hl Hr Hu. pose proof (spells_canon n c e dec Hc) as Ht. unfold spells in *.
  fold (norm (l ++ s ++ r)). fold (norm (spell n c dec)) in Ht.
  rewrite norm_blanks, (norm_same_upper s _ Hu) by assumption. exact Ht.
Qed.
Print Assumptions C01U_spells_recased.

Lemma canon_all T n c e dec : units_tables_ok T = true -> assoc c canon_scale = Some e ->
  size_to_bytes T (VStr (spell n c dec)) = UOk (denote n e dec) /\
  kilobytes T (VStr (spell n c dec)) = UOk (denote n e dec / 1024) /\
  megabytes T (VStr (spell n c dec)) = UOk (denote n e dec / 1048576).
Proof. intros H Hc. exact (C01U_every_suffix T _ n c e dec H (spells_canon n c e dec Hc) Hc). Qed.

(** 1G = 1024M: both spellings give 1024*n megabytes *)
Theorem C01U_G_is_1024M : forall T n, units_tables_ok T = true ->
  megabytes T (VStr (str_of_Z n ++ [71])) = UOk (1024 * n) /\
  megabytes T (VStr (str_of_Z (1024 * n) ++ [77])) = UOk (1024 * n).
Proof.
  intros T n H.
  destruct (canon_all T n 71 3 false H eq_refl) as [_ [_ HG]].
  destruct (canon_all T (1024 * n) 77 2 false H eq_refl) as [_ [_ HM]].
  unfold spell in *. rewrite HG, HM. unfold denote. cbv iota. change (1024 ^ 3) with 1073741824.
  change (1024 ^ 2) with 1048576. split; apply f_equal.
  - replace (n * 1073741824) with (1024 * n * 1048576) by lia. apply Z.div_mul. lia.
  - apply Z.div_mul. lia.
Qed.
Print Assumptions C01U_G_is_1024M.

(** 1T = 1024G = 1024*1024 M *)
Theorem C01U_T_is_1024G : forall T n, units_tables_ok T = true ->
  megabytes T (VStr (str_of_Z n ++ [84])) = UOk (1024 * 1024 * n) /\
  megabytes T (VStr (str_of_Z (1024 * n) ++ [71])) = UOk (1024 * 1024 * n).
Proof.
  intros T n H.
  destruct (canon_all T n 84 4 false H eq_refl) as [_ [_ HT]].
  destruct (canon_all T (1024 * n) 71 3 false H eq_refl) as [_ [_ HG]].
  unfold spell in *. rewrite HT, HG. unfold denote. cbv iota. change (1024 ^ 4) with 1099511627776.
  change (1024 ^ 3) with 1073741824. split; apply f_equal.
  - replace (n * 1099511627776) with (1024 * 1024 * n * 1048576) by lia. apply Z.div_mul. lia.
  - replace (1024 * n * 1073741824) with (1024 * 1024 * n * 1048576) by lia. apply Z.div_mul. lia.
Qed.
Print Assumptions C01U_T_is_1024G.

(** K: 1024 bytes; kilobytes is exact, megabytes floors *)
Theorem C01U_K_floor : forall T n, units_tables_ok T = true ->
  size_to_bytes T (VStr (str_of_Z n ++ [75])) = UOk (1024 * n) /\
  kilobytes T (VStr (str_of_Z n ++ [75])) = UOk n /\
  megabytes T (VStr (str_of_Z n ++ [75])) = UOk (n / 1024).
Proof.
  intros T n H. destruct (canon_all T n 75 1 false H eq_refl) as [HB [HK HM]].
  unfold spell in *. rewrite HB, HK, HM. unfold denote. cbv iota. change (1024 ^ 1) with 1024.
  repeat split; apply f_equal.
  - lia.
  - apply Z.div_mul. lia.
  - change 1048576 with (1024 * 1024). apply Z.div_mul_cancel_r; lia.
Qed.
Print Assumptions C01U_K_floor.

(** M is exact in both *)
Theorem C01U_M_exact : forall T n, units_tables_ok T = true ->
  kilobytes T (VStr (str_of_Z n ++ [77])) = UOk (1024 * n) /\
  megabytes T (VStr (str_of_Z n ++ [77])) = UOk n.
Proof.
  intros T n H. destruct (canon_all T n 77 2 false H eq_refl) as [_ [HK HM]].
  unfold spell in *. rewrite HK, HM. unfold denote. cbv iota. change (1024 ^ 2) with 1048576.
  split; apply f_equal.
  - replace (n * 1048576) with (1024 * n * 1024) by lia. apply Z.div_mul. lia.
  - apply Z.div_mul. lia.
Qed.
Print Assumptions C01U_M_exact.

(** a lone B is bytes: both conversions floor *)
Theorem C01U_B_is_bytes : forall T n, units_tables_ok T = true ->
  size_to_bytes T (VStr (str_of_Z n ++ [66])) = UOk n /\
  kilobytes T (VStr (str_of_Z n ++ [66])) = UOk (n / 1024) /\
  megabytes T (VStr (str_of_Z n ++ [66])) = UOk (n / 1048576).
Proof.
  intros T n H. destruct (canon_all T n 66 0 false H eq_refl) as [HB [HK HM]].
  unfold spell in *. rewrite HB, HK, HM. unfold denote. cbv iota. change (1024 ^ 0) with 1.
  rewrite Z.mul_1_r. repeat split; reflexivity.
Qed.
Print Assumptions C01U_B_is_bytes.

(** the B modifier means powers of 1000: nGB = n * 10^9 bytes = n * 10^9 // 2^20 megabytes *)
Theorem C01U_decimal_modifier : forall T n, units_tables_ok T = true ->
  size_to_bytes T (VStr (str_of_Z n ++ [75; 66])) = UOk (n * 1000) /\
  size_to_bytes T (VStr (str_of_Z n ++ [77; 66])) = UOk (n * 1000000) /\
  size_to_bytes T (VStr (str_of_Z n ++ [71; 66])) = UOk (n * 1000000000) /\
  megabytes T (VStr (str_of_Z n ++ [77; 66])) = UOk (n * 1000000 / 1048576) /\
  megabytes T (VStr (str_of_Z n ++ [71; 66])) = UOk (n * 1000000000 / 1048576).
Proof.
  intros T n H.
  destruct (canon_all T n 75 1 true H eq_refl) as [HK _].
  destruct (canon_all T n 77 2 true H eq_refl) as [HM [_ HMm]].
  destruct (canon_all T n 71 3 true H eq_refl) as [HG [_ HGm]].
  unfold spell, denote in *. cbv iota in *. change (1000 ^ 1) with 1000 in *. change (1000 ^ 2) with 1000000 in *.
  change (1000 ^ 3) with 1000000000 in *.
  repeat split; assumption.
Qed.
Print Assumptions C01U_decimal_modifier.

(** same quantity => same value, for any two spellings (different suffixes, modifiers, cases, blanks) *)
Theorem C01U_same_quantity : forall T s1 n1 c1 e1 d1 s2 n2 c2 e2 d2, units_tables_ok T = true ->
  spells s1 (spell n1 c1 d1) = true -> assoc c1 canon_scale = Some e1 ->
  spells s2 (spell n2 c2 d2) = true -> assoc c2 canon_scale = Some e2 ->
  (denote n1 e1 d1 = denote n2 e2 d2 -> size_to_bytes T (VStr s1) = size_to_bytes T (VStr s2)) /\
  (denote n1 e1 d1 / 1024 = denote n2 e2 d2 / 1024 -> kilobytes T (VStr s1) = kilobytes T (VStr s2)) /\
  (denote n1 e1 d1 / 1048576 = denote n2 e2 d2 / 1048576 -> megabytes T (VStr s1) = megabytes T (VStr s2)).
Proof.
  intros T s1 n1 c1 e1 d1 s2 n2 c2 e2 d2 H H1 C1 H2 C2.
  destruct (C01U_every_suffix T s1 n1 c1 e1 d1 H H1 C1) as (-> & -> & ->).
  destruct (C01U_every_suffix T s2 n2 c2 e2 d2 H H2 C2) as (-> & -> & ->).
  repeat split; congruence.
Qed.
Print Assumptions C01U_same_quantity.

(** case- and blank-insensitivity for ARBITRARY strings (well-formed or not, errors included): the four parsers
    depend on their argument only through value.upper().strip().  [is_ascii]: the model's upper()/strip() are
    the ASCII ones (the hypothesis is the domain on which the model is tied to the code, not a proof need) *)
Theorem C01U_case_and_blanks : forall T l r s1 s2, units_tables_ok T = true ->
  is_ascii (l ++ s1 ++ r) = true -> is_ascii s2 = true ->
  blank l = true -> blank r = true -> upper s1 = upper s2 ->
  size_to_bytes T (VStr (l ++ s1 ++ r)) = size_to_bytes T (VStr s2) /\
  kilobytes T (VStr (l ++ s1 ++ r)) = kilobytes T (VStr s2) /\
  megabytes T (VStr (l ++ s1 ++ r)) = megabytes T (VStr s2) /\
  cpu_units T (VStr (l ++ s1 ++ r)) = cpu_units T (VStr s2).
Proof. intros T l r s1 s2 H _ _. apply case_and_blanks. Qed.
Print Assumptions C01U_case_and_blanks.

Theorem C01U_lower_case : forall T l r s, units_tables_ok T = true ->
  is_ascii (l ++ s ++ r) = true -> blank l = true -> blank r = true ->
  size_to_bytes T (VStr (l ++ lower s ++ r)) = size_to_bytes T (VStr s) /\
  kilobytes T (VStr (l ++ lower s ++ r)) = kilobytes T (VStr s) /\
  megabytes T (VStr (l ++ lower s ++ r)) = megabytes T (VStr s) /\
  cpu_units T (VStr (l ++ lower s ++ r)) = cpu_units T (VStr s).
Proof. intros T l r s H _ Hl Hr. apply (case_and_blanks T l r); [exact Hl|exact Hr|apply upper_lower]. Qed.
Print Assumptions C01U_lower_case.

(** 100% = 100: "n%", "n" and the int n are all n *)
Theorem C01U_cpu_percent : forall T n, units_tables_ok T = true ->
  cpu_units T (VStr (str_of_Z n ++ [37])) = UOk n /\ cpu_units T (VStr (str_of_Z n)) = UOk n /\
  cpu_units T (VInt n) = UOk n.
Proof.
  intros T n H. repeat split.
  - apply (cpu_units_spelled T H _ n true), norm_str_sfx. reflexivity.
  - exact (cpu_units_numeral T H (VStr _) n eq_refl).
  - exact (cpu_units_numeral T H (VInt n) n eq_refl).
Qed.
Print Assumptions C01U_cpu_percent.

(** what is NOT accepted: a unit-less size, as text or as a number, is the generic Exception in kilobytes unless it is 0
    (size_to_bytes reads it as bytes) *)
Theorem C01U_unitless : forall T n, units_tables_ok T = true ->
  kilobytes T (VStr (str_of_Z n)) = (if n =? 0 then UOk 0 else UException) /\
  kilobytes T (VInt n) = (if n =? 0 then UOk 0 else UException) /\
  size_to_bytes T (VStr (str_of_Z n)) = UOk n.
Proof.
  intros T n H. repeat split; try (apply (kilobytes_unitless_val T H), norm_str).
  rewrite (tables_ok_canon T H). unfold size_to_bytes. fold (norm (str_of_Z n)). rewrite norm_str.
  cbn [un_mod un_scale utables_canon].
  (* the last character is a digit: neither the modifier nor a suffix *)
  destruct (unsnoc_str n) as (i & d & Hu & Hs & _). rewrite Hu.
  replace (d =? 66) with false by (destruct (d =? 66) eqn:E; [apply Z.eqb_eq in E; subst d; discriminate Hs|reflexivity]).
  rewrite Hu, Hs. apply uint_str.
Qed.
Print Assumptions C01U_unitless.

(** resources(data) is exactly [megabytes memory; cpu_units cpu; megabytes disk] (absent key = the int 0):
    it succeeds iff the three parsers succeed, with that vector and nothing else *)
Theorem C01U_resources_vector : forall T d, units_tables_ok T = true ->
  (forall m c k, megabytes T (fval (r_memory d)) = UOk m -> cpu_units T (fval (r_cpu d)) = UOk c ->
                 megabytes T (fval (r_disk d)) = UOk k -> resources T d = UOk [m; c; k]) /\
  (forall l, resources T d = UOk l ->
             exists m c k, l = [m; c; k] /\ megabytes T (fval (r_memory d)) = UOk m /\
                           cpu_units T (fval (r_cpu d)) = UOk c /\ megabytes T (fval (r_disk d)) = UOk k).
Proof. intros T d H. exact (conj (res_vector T H d) (res_inv T H d)). Qed.
Print Assumptions C01U_resources_vector.

(** total on well-formed records: each size field absent / zero / <n><c>[B] in any case between blanks, the cpu
    field absent / int / <n> / <n>% *)
Theorem C01U_resources_total : forall T d sm sc sd, units_tables_ok T = true ->
  fspells (r_memory d) sm = true -> fwf sm = true ->
  cspells (r_cpu d) sc = true ->
  fspells (r_disk d) sd = true -> fwf sd = true ->
  resources T d = UOk [fbytes sm / 1048576; cval sc; fbytes sd / 1048576].
Proof.
  intros T d sm sc sd H H1 W1 H2 H3 W3.
  apply (res_vector T H); [apply megabytes_field|apply cpu_field|apply megabytes_field]; assumption.
Qed.
Print Assumptions C01U_resources_total.

(** two records whose fields denote the same numbers of megabytes / cpu units give the same resource vector *)
Theorem C01U_resources_same : forall T d1 sm1 sc1 sd1 d2 sm2 sc2 sd2, units_tables_ok T = true ->
  fspells (r_memory d1) sm1 = true -> fwf sm1 = true -> cspells (r_cpu d1) sc1 = true ->
  fspells (r_disk d1) sd1 = true -> fwf sd1 = true ->
  fspells (r_memory d2) sm2 = true -> fwf sm2 = true -> cspells (r_cpu d2) sc2 = true ->
  fspells (r_disk d2) sd2 = true -> fwf sd2 = true ->
  fbytes sm1 / 1048576 = fbytes sm2 / 1048576 -> cval sc1 = cval sc2 ->
  fbytes sd1 / 1048576 = fbytes sd2 / 1048576 ->
  resources T d1 = resources T d2 /\
  resources T d1 = UOk [fbytes sm1 / 1048576; cval sc1; fbytes sd1 / 1048576].
Proof.
  intros T d1 sm1 sc1 sd1 d2 sm2 sc2 sd2 H A1 A2 A3 A4 A5 B1 B2 B3 B4 B5 E1 E2 E3.
  rewrite (C01U_resources_total T d1 sm1 sc1 sd1 H A1 A2 A3 A4 A5), (C01U_resources_total T d2 sm2 sc2 sd2 H B1 B2 B3 B4 B5), E1, E2, E3.
  split; reflexivity.
Qed.
Print Assumptions C01U_resources_same.

(** * Non-vacuity (on the GENERATED tables): the hypotheses are satisfiable and the conclusions are the
      expected numbers; the error constructors are reachable *)
Definition s_ (l : list Z) : pyval := VStr l.
(* "2G" = 2048 = "2048M" = " 2g " *)
Example C01U_ex_G : megabytes units_tables (s_ [50; 71]) = UOk 2048.
Proof. vm_compute. reflexivity. Qed.
Example C01U_ex_M : megabytes units_tables (s_ [50; 48; 52; 56; 77]) = UOk 2048.
Proof. vm_compute. reflexivity. Qed.
Example C01U_ex_lower_blank : megabytes units_tables (s_ [32; 50; 103; 9]) = UOk 2048.
Proof. vm_compute. reflexivity. Qed.
(* "1023K" = 0 MB, 1023 KB; "3GB" = 3*10^9 // 2^20 = 2861 *)
Example C01U_ex_floor : megabytes units_tables (s_ [49; 48; 50; 51; 75]) = UOk 0.
Proof. vm_compute. reflexivity. Qed.
Example C01U_ex_floor_kb : kilobytes units_tables (s_ [49; 48; 50; 51; 75]) = UOk 1023.
Proof. vm_compute. reflexivity. Qed.
Example C01U_ex_GB : megabytes units_tables (s_ [51; 71; 66]) = UOk 2861.
Proof. vm_compute. reflexivity. Qed.
(* "100%" = 100 = "100" *)
Example C01U_ex_pct : cpu_units units_tables (s_ [49; 48; 48; 37]) = UOk 100.
Proof. vm_compute. reflexivity. Qed.
Example C01U_ex_nopct : cpu_units units_tables (s_ [49; 48; 48]) = UOk 100.
Proof. vm_compute. reflexivity. Qed.
(* the hypotheses of C01U_every_suffix / C01U_spells_recased hold for " 3gB\n" *)
Example C01U_ex_spells : spells [32; 51; 103; 66; 10] (spell 3 71 true) = true.
Proof. vm_compute. reflexivity. Qed.
Example C01U_ex_scale : assoc 71 canon_scale = Some 3.
Proof. vm_compute. reflexivity. Qed.
(* errors: "" and "B" IndexError; "5" unit-less Exception; "1.5G" and "5%" ValueError; "G" ValueError *)
Example C01U_ex_empty : size_to_bytes units_tables (s_ []) = UIndexError.
Proof. vm_compute. reflexivity. Qed.
Example C01U_ex_lone_B : megabytes units_tables (s_ [66]) = UIndexError.
Proof. vm_compute. reflexivity. Qed.
Example C01U_ex_unitless : megabytes units_tables (s_ [53]) = UException.
Proof. vm_compute. reflexivity. Qed.
Example C01U_ex_float : megabytes units_tables (s_ [49; 46; 53; 71]) = UValueError.
Proof. vm_compute. reflexivity. Qed.
Example C01U_ex_pct_size : megabytes units_tables (s_ [53; 37]) = UException.
Proof. vm_compute. reflexivity. Qed.
Example C01U_ex_size_cpu : cpu_units units_tables (s_ [53; 71]) = UValueError.
Proof. vm_compute. reflexivity. Qed.
(* resources: {memory: "1g", cpu: " 50% ", disk absent} = [1024; 50; 0]; the spelling hypotheses hold for it;
   {memory: "1024M", cpu: 50, disk: "0"} gives the same vector *)
Definition ex_rec1 : rspec :=
  {| r_memory := Some (s_ [49; 103]); r_cpu := Some (s_ [32; 53; 48; 37; 32]); r_disk := None |}.
Definition ex_rec2 : rspec :=
  {| r_memory := Some (s_ [49; 48; 50; 52; 77]); r_cpu := Some (VInt 50); r_disk := Some (s_ [48]) |}.
Example C01U_ex_resources : resources units_tables ex_rec1 = UOk [1024; 50; 0].
Proof. vm_compute. reflexivity. Qed.
Example C01U_ex_resources2 : resources units_tables ex_rec2 = UOk [1024; 50; 0].
Proof. vm_compute. reflexivity. Qed.
Example C01U_ex_res_hyps :
  fspells (r_memory ex_rec1) (FSized 1 71 false) && fwf (FSized 1 71 false) &&
  cspells (r_cpu ex_rec1) (CNum 50 true) && fspells (r_disk ex_rec1) FAbsent &&
  fspells (r_memory ex_rec2) (FSized 1024 77 false) && cspells (r_cpu ex_rec2) (CInt 50) &&
  fspells (r_disk ex_rec2) FZero = true.
Proof. vm_compute. reflexivity. Qed.
Example C01U_ex_res_error :
  resources units_tables {| r_memory := Some (s_ [49; 71]); r_cpu := Some (s_ [49; 71]); r_disk := None |}
  = UValueError.
Proof. vm_compute. reflexivity. Qed.
