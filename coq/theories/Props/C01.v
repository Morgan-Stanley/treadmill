(** C01  No server is oversubscribed; every instance sits on at most one server.

    Model: Sched/{Types,Tree,Cycle,Events}.v, tied to the source by the E-cell correspondence.
    Proof: Sched/Steps.v shows that a whole scheduling cycle (pre-phases, queue, placement loop with eviction,
    restore and renewal) is a sequence of eight primitive transitions; Sched/InvAcct.v shows that the accounting
    invariant [Acct] is preserved by each primitive and by every event between cycles. Unbounded: any number of
    servers, instances, cycles; any dimension. *)
From Coq Require Import ZArith QArith List Bool.
From TM Require Import Sched.Vec Sched.Types Sched.Tree Sched.Cycle Sched.Events Sched.MapsP Sched.Steps Sched.InvAcct.
From TM Require Import Sched.TurnP Sched.Reach Sched.ReloadP.
From TM Require Import Base.ShapeCanon Master.SrvState Master.SrvStateP.
Import ListNotations.
Open Scope Z_scope.

(** every state reachable from the empty cell by well-formed events and cycles satisfies the invariant *)
Theorem C01_invariant : forall dim root level ops,
  wf_ops (init_cell dim root level) ops -> Acct (run (init_cell dim root level) ops).
Proof. intros dim root level ops H. exact (Acct_run ops _ H (Acct_init dim root level)). Qed.
Print Assumptions C01_invariant.

(** one cycle, from ANY state satisfying the invariant and for ANY identity choices *)
Theorem C01_cycle : forall c choices, Acct c -> Acct (fst (fst (schedule c choices))).
Proof. exact Acct_schedule. Qed.
Print Assumptions C01_cycle.

(** what the invariant says, per server: free = capacity - summed demand, componentwise, and free >= 0
    (so the summed demand never exceeds the capacity in any dimension) *)
Theorem C01_accounting : forall c s, Acct c -> In s (c_servers c) ->
  vadd (s_free s) (total (c_apps c) (c_dim c) (s_apps s)) = s_cap s /\ nonneg (s_free s) /\
  length (s_free s) = c_dim c /\ length (s_cap s) = c_dim c.
Proof.
  intros c s HA Hin. pose proof (In_get_srv _ _ (ac_srv_names _ HA) Hin) as Hg.
  destruct (ac_srv_dims _ HA _ _ Hg) as (H1 & H2 & H3).
  exact (conj (ac_acct _ HA _ _ Hg) (conj H3 (conj H2 H1))).
Qed.
Print Assumptions C01_accounting.

(** the two views agree: a server lists exactly the instances that name it, without repetition,
    and an instance is listed by at most one server *)
Theorem C01_views : forall c, Acct c ->
  (forall s m, In s (c_servers c) -> In m (s_apps s) ->
     exists a, get_app m (c_apps c) = Some a /\ a_server a = Some (s_name s)) /\
  (forall a s, In a (c_apps c) -> In s (c_servers c) -> a_server a = Some (s_name s) -> In (a_name a) (s_apps s)) /\
  (forall s, In s (c_servers c) -> NoDup (s_apps s)) /\
  (forall s1 s2 m, In s1 (c_servers c) -> In s2 (c_servers c) -> In m (s_apps s1) -> In m (s_apps s2) -> s1 = s2).
Proof.
  intros c HA. pose proof (ac_srv_names _ HA) as Hns. pose proof (ac_app_names _ HA) as Hna.
  split; [|split; [|split]].
  - intros s m Hs Hm. exact (ac_listed _ HA _ _ _ (In_get_srv _ _ Hns Hs) Hm).
  - intros a s Ha Hs Hsv. exact (ac_placed _ HA _ _ _ _ (In_get_app _ _ Hna Ha) Hsv (In_get_srv _ _ Hns Hs)).
  - intros s Hs. exact (ac_nodup _ HA _ _ (In_get_srv _ _ Hns Hs)).
  - intros s1 s2 m H1 H2 Hm1 Hm2.
    destruct (ac_listed _ HA _ _ _ (In_get_srv _ _ Hns H1) Hm1) as (a1 & Ha1 & Hs1).
    destruct (ac_listed _ HA _ _ _ (In_get_srv _ _ Hns H2) Hm2) as (a2 & Ha2 & Hs2).
    rewrite Ha1 in Ha2. inversion Ha2; subst a2. rewrite Hs1 in Hs2. inversion Hs2 as [Hn].
    pose proof (In_get_srv _ _ Hns H1) as G1. pose proof (In_get_srv _ _ Hns H2) as G2.
    rewrite Hn in G1. rewrite G1 in G2. inversion G2. reflexivity.
Qed.
Print Assumptions C01_views.

(** non-vacuity: a history with pressure, an eviction and a removed server is well-formed, and its final state
    has a placed instance *)
Definition ex_a (n p o : Z) (d : vec) : app :=
  mkApp n p d 3000 [] 0 0 None None false o None None None None false false false false (-1).
Definition ex_ops : list op :=
  [ OAddBucket 2001 3 2000; OAddServer 1000 2001 [100;100;100] 4000 0 0; OAddServer 1001 2001 [100;100;100] 4000 0 0;
    OAddApp 4000 [] (ex_a 1 1 1 [60;60;60]); OAddApp 4000 [] (ex_a 2 1 2 [60;60;60]); OSchedule [];
    OAddApp 4000 [] (ex_a 3 9 3 [80;80;80]); OSchedule []; ORemoveServer 1000 false; OSchedule [] ].
Example C01_nonvacuous_wf : wf_ops (init_cell 3 2000 1) ex_ops.
Proof. apply wf_opsb_sound. vm_compute. reflexivity. Qed.
Example C01_nonvacuous_run :
  map (fun a => (a_name a, a_server a)) (c_apps (run (init_cell 3 2000 1) ex_ops))
  = [(1, None); (2, None); (3, Some 1001)].
Proof. vm_compute. reflexivity. Qed.

(** Loader level: reload_server keeps the running Server object - with its capacity and free vector - only when the
    new declaration is identical in capacity (exactly), partition label, own traits and parent bucket; otherwise the
    server is replaced and its placements are re-evaluated (model Master/SrvState.v same_decl, whose decision drives the
    correspondence stage of harness/props/c08master.py; comparing the capacities with math.isclose, seeded/c01-is-same-isclose, is what this excludes) *)
Theorem C01_reload_keeps_only_identical : forall old new, same_decl old new = true -> old = new.
Proof. exact reload_keeps_only_identical. Qed.
Print Assumptions C01_reload_keeps_only_identical.

(** Loader level: a server that is NOT identical to its new declaration is reloaded - Loader.remove_server
    (Server.remove_all, then parent.remove_node), Loader.load_server, Loader.restore_placement(restore_identity=False)
    for the placements recorded under it - and the accounting invariant (with every other invariant of a reachable
    state) holds afterwards, whatever the new capacity is and whichever of the recorded instances still fit: the
    sequence is a run of operations of the alphabet (Sched/ReloadP.v [reload_ops]) whose side conditions follow from
    the call site (vectors of the cell's dimension; the recorded placements are those the model holds on that server) *)
Theorem C01_reload_server : forall c name parent cap label traits vu vb ex xs,
  reachable c -> get_srv name (c_servers c) <> None ->
  length cap = c_dim c -> nonneg cap -> NoDup xs ->
  (forall x a, In x xs -> app_of c x = Some a -> a_server a = Some name) ->
  let c' := run c (reload_ops name parent cap label traits vu vb ex xs) in
  reachable c' /\ Acct c'.
Proof.
  intros c name parent cap label traits vu vb ex xs HR Hex Hl Hn Hnd Hrec c'.
  assert (W : wf_ops_all c (reload_ops name parent cap label traits vu vb ex xs))
    by (apply reload_wf; try assumption; apply reachable_Good; exact HR).
  assert (R' : reachable c') by (apply reachable_run; assumption).
  split; [exact R'|]. apply (proj1 (reachable_Good _ R')).
Qed.
Print Assumptions C01_reload_server.

(** non-vacuity: the server is declared again with a smaller capacity; of its two instances one fits again *)
Example C01_reload_nonvacuous :
  let c := run (init_cell 3 2000 1)
             [ OAddBucket 2001 3 2000; OAddServer 1000 2001 [100;100;100] 4000 0 0;
               OAddApp 4000 [] (ex_a 1 1 1 [40;40;40]); OAddApp 4000 [] (ex_a 2 1 2 [40;40;40]); OSchedule [] ] in
  let ops := reload_ops 1000 2001 [50;50;50] 4000 0 0 (fun _ => false) (fun _ => 0) [1; 2] in
  map (fun a => (a_name a, a_server a)) (c_apps c) = [(1, Some 1000); (2, Some 1000)] /\
  map (fun a => (a_name a, a_server a)) (c_apps (run c ops)) = [(1, Some 1000); (2, None)] /\
  map (fun s => (s_name s, s_free s)) (c_servers (run c ops)) = [(1000, [10;10;10])] /\
  wf_ops_allb c ops = true.
Proof. vm_compute. repeat split. Qed.

(** the functions of treadmill/scheduler/__init__.py these theorems were proved about still have the statement
    skeleton the model was written from (re-extracted from the Python AST on every run, harness/tables_shape.py;
    kept last so that a difference does not stop the theorems above from being checked) *)
Theorem C01_source_shape : shapes_ok_C01 = true.
Proof. vm_compute. reflexivity. Qed.
Print Assumptions C01_source_shape.
