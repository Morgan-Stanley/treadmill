(** C16, the third mechanism its anchors name: "runtime.allocate_network_ports keeps prod and non-prod port ranges disjoint
    and ports distinct" (lib/python/treadmill/runtime/__init__.py:128-222).

    Model: Node/Ports.v (_allocate_sockets, _allocate_network_ports_proto, allocate_network_ports, statement by
    statement).  The five constants PORT_SPAN, PROD_PORT_LOW/HIGH, NONPROD_PORT_LOW/HIGH are
    [TM.Node.PortsRun.ports_tables], assembled from definitions that harness/tables_ports.py regenerates from
    the source on every run (the shape of the three functions is pinned there by AST template); the theorems that
    need the constants carry the premise [ports_tables_ok T = true], discharged by [C16P_tables_ok].

    Inputs of the model that come from the implementation: the list random.sample returned for each protocol
    ([sample_ok]: no repetition, inside the pool of the manifest's environment) and, per socket type, the set of
    ports on which bind() fails with EADDRINUSE ([busy : Z -> bool], any predicate).  Every theorem holds for ALL
    manifests, samples and busy sets.

    Environment codes 0 dev 1 qa 2 uat 3 prod; protocol codes 0 (no 'proto' key = tcp) 1 tcp 2 udp. *)
From Coq Require Import ZArith List Bool Lia.
From TM Require Import Node.Ports Node.PortsP Node.PortsRun Gen.Tables.
Import ListNotations.
Open Scope Z_scope.

(** the source's constants: two well-formed, disjoint port ranges, each at least PORT_SPAN wide *)
Theorem C16P_tables_ok : ports_tables_ok ports_tables = true.
Proof. vm_compute. reflexivity. Qed.
Print Assumptions C16P_tables_ok.

(** random.sample(pool, PORT_SPAN) can be drawn (no ValueError) *)
Theorem C16P_sample_possible : forall T e, ports_tables_ok T = true ->
  0 < pt_span T <= pool_high T e - pool_low T e + 1.
Proof.
  intros T e.
  unfold pool_low, pool_high. intros HT. apply ports_tables_ok_spec in HT. destruct (is_prod_env e); lia.
Qed.
Print Assumptions C16P_sample_possible.

(** _allocate_sockets in closed form: the first [count] free ports of the sample in sample order, provided [count]
    free ports occur BEFORE the last element of the sample ([enough]); otherwise the error, raised after binding
    every free port of the sample *)
Theorem C16P_sockets_spec : forall busy sample count,
  allocate_sockets busy sample count =
  if enough busy sample count then SOk (firstn count (free busy sample)) else SErr (free busy sample).
Proof. exact allocate_sockets_spec. Qed.
Print Assumptions C16P_sockets_spec.

Theorem C16P_enough_iff : forall busy sample count,
  enough busy sample count = true <->
  sample <> [] /\ (count <= length (free busy (removelast sample)))%nat.
Proof.
  intros busy s count.
  unfold enough. destruct s as [|p s].
  - split; [discriminate | intros [H _]; now elim H].
  - rewrite Nat.leb_le. split; [intros H; split; [discriminate | exact H] | tauto].
Qed.
Print Assumptions C16P_enough_iff.

(** the ports of one call are pairwise distinct, none of them is busy, all are from the sample, and there are
    exactly [count] of them *)
Theorem C16P_sockets_distinct_free : forall busy sample count l,
  NoDup sample -> allocate_sockets busy sample count = SOk l ->
  NoDup l /\ (forall p, In p l -> busy p = false /\ In p sample) /\
  length l = count /\ l = firstn count (free busy sample).
Proof.
  intros busy sample count l Hnd H.
  exact (conj (proj1 (alloc_ok_distinct busy sample count l Hnd H))
          (conj (proj2 (alloc_ok_distinct busy sample count l Hnd H))
             (conj (proj1 (proj2 (alloc_ok busy sample count l H))) (proj1 (alloc_ok busy sample count l H))))).
Qed.
Print Assumptions C16P_sockets_distinct_free.

(** the error.  Strictly more free ports in the sample than needed: never.  Fewer: always (after binding all of
    them).  EXACTLY as many as needed: raised iff the last element of the sample is one of them - the loop tests
    len(sockets) == count at the top of the next iteration, and there is none: the for-else raises
    ContainerSetupError('count < count') although all the ports were bound *)
Theorem C16P_more_free_never_error : forall busy sample count,
  (count < length (free busy sample))%nat ->
  allocate_sockets busy sample count = SOk (firstn count (free busy sample)).
Proof.
  intros busy sample count H. rewrite allocate_sockets_spec, enough_spec by (intros ->; cbn in H; lia).
  replace (_ <=? _)%nat with true; [reflexivity|]. symmetry. apply Nat.leb_le. destruct (busy _); lia.
Qed.
Print Assumptions C16P_more_free_never_error.

Theorem C16P_fewer_free_error : forall busy sample count,
  (length (free busy sample) < count)%nat ->
  allocate_sockets busy sample count = SErr (free busy sample).
Proof.
  intros busy sample count H. rewrite allocate_sockets_spec. destruct sample as [|p s]; [reflexivity|].
  rewrite enough_spec by discriminate. replace (_ <=? _)%nat with false; [reflexivity|].
  symmetry. apply Nat.leb_gt. lia.
Qed.
Print Assumptions C16P_fewer_free_error.

Theorem C16P_exactly_enough_boundary : forall busy sample count,
  sample <> [] -> length (free busy sample) = count ->
  allocate_sockets busy sample count =
  if busy (last sample 0) then SOk (free busy sample) else SErr (free busy sample).
Proof.
  intros busy sample count Hne <-. rewrite allocate_sockets_spec, enough_spec, firstn_all by exact Hne.
  destruct (busy (last sample 0)); [rewrite Nat.add_0_r, Nat.leb_refl; reflexivity|].
  replace (_ <=? _)%nat with false; [reflexivity|]. symmetry. apply Nat.leb_gt. lia.
Qed.
Print Assumptions C16P_exactly_enough_boundary.

Theorem C16P_error_iff : forall busy sample count,
  (exists got, allocate_sockets busy sample count = SErr got) <->
  sample = [] \/ (length (free busy sample) < count)%nat \/
  (length (free busy sample) = count /\ busy (last sample 0) = false).
Proof.
  intros busy sample count.
  destruct sample as [|p s]; [split; [now left | now exists []]|].
  rewrite allocate_sockets_spec, enough_spec by discriminate.
  destruct (busy (last (p :: s) 0)); destruct (_ <=? _)%nat eqn:L;
    [apply Nat.leb_le in L | apply Nat.leb_gt in L | apply Nat.leb_le in L | apply Nat.leb_gt in L].
  - split; [intros [got H]; discriminate | intros [H | [H | [_ H]]]; [discriminate | lia | discriminate]].
  - split; [right; left; lia | eauto].
  - split; [intros [got H]; discriminate | intros [H | [H | [H _]]]; [discriminate | lia | lia]].
  - split; [right | eauto]. destruct (Nat.eq_dec (length (free busy (p :: s))) count); [now right | left; lia].
Qed.
Print Assumptions C16P_error_iff.

(** "the error iff fewer free ports than needed are in the sample" does NOT hold: enough free ports, yet the error *)
Theorem C16P_error_iff_fewer_refuted :
  exists busy sample count,
    NoDup sample /\ sample <> [] /\ length (free busy sample) = count /\
    allocate_sockets busy sample count = SErr (free busy sample) /\ length (free busy sample) = count.
Proof.
  exists (fun _ => false), [40960], 1%nat. repeat split; try reflexivity; try discriminate.
  constructor; [intros []|constructor].
Qed.
Print Assumptions C16P_error_iff_fewer_refuted.

(** the error value carries what was bound: all free ports of the sample, at most [count] *)
Theorem C16P_error_value : forall busy sample count got,
  allocate_sockets busy sample count = SErr got ->
  got = free busy sample /\ (length got <= count)%nat /\ enough busy sample count = false.
Proof.
  intros busy sample count got.
  rewrite allocate_sockets_spec. destruct (enough busy sample count) eqn:E; [discriminate|].
  intros [= <-]. split; [reflexivity|]. split; [|reflexivity].
  destruct sample as [|p s]; [cbn; lia|]. rewrite enough_spec in E by discriminate.
  apply Nat.leb_gt in E. destruct (busy (last (p :: s) 0)); lia.
Qed.
Print Assumptions C16P_error_value.

(** one protocol pass: n = number of endpoints of that protocol ('proto' absent = tcp).  The sockets are the n
    endpoint ports followed by the ephemeral ports; the endpoint at manifest index i gets the socket whose index is
    the number of same-protocol endpoints before it; endpoints of other protocols are not touched; names, protocols,
    order and number of endpoints never change *)
Theorem C16P_proto_pass : forall busy sample proto eps ec eps' eph socks,
  allocate_proto busy sample proto eps ec = POk eps' eph socks ->
  let n := n_matching proto eps in
  allocate_sockets busy sample (n + ec) = SOk socks /\
  length socks = (n + ec)%nat /\
  socks = firstn n socks ++ eph /\ length eph = ec /\ eph = skipn n socks /\
  length eps' = length eps /\
  map ep_name eps' = map ep_name eps /\ map ep_proto eps' = map ep_proto eps /\
  real_ports proto eps' = map Some (firstn n socks) /\
  (forall i e, nth_error eps i = Some e ->
     if ep_matches proto e
     then exists p, nth_error socks (n_matching proto (firstn i eps)) = Some p /\
                    (n_matching proto (firstn i eps) < n)%nat /\
                    nth_error eps' i = Some (set_real e p)
     else nth_error eps' i = Some e).
Proof.
  intros busy sample proto eps ec eps' eph socks H n. unfold allocate_proto in H. cbv zeta in H. fold n in H.
  destruct (allocate_sockets busy sample (n + ec)) as [l|got] eqn:A; [|discriminate].
  inversion H; subst eps' eph socks. clear H.
  pose proof (alloc_ok _ _ _ _ A) as [_ [Hlen _]].
  split; [reflexivity|]. split; [assumption|].
  split; [symmetry; apply firstn_skipn|].
  split; [rewrite skipn_length; lia|]. split; [reflexivity|].
  split; [apply assign_length|].
  destruct (assign_names proto eps l) as [Hn1 Hn2]. split; [assumption|]. split; [assumption|].
  assert (Hle : (n_matching proto eps <= length l)%nat) by (fold n; lia).
  split.
  - now apply real_ports_assign.
  - intros i e Hi. pose proof (assign_nth proto eps l i e Hle Hi) as Hnth.
    destruct (ep_matches proto e) eqn:M; [|assumption].
    destruct Hnth as [p [Hp He]]. exists p. split; [assumption|]. split; [|assumption].
    eapply n_matching_firstn_lt; eassumption.
Qed.
Print Assumptions C16P_proto_pass.

Theorem C16P_proto_error : forall busy sample proto eps ec got,
  allocate_proto busy sample proto eps ec = PErr got ->
  allocate_sockets busy sample (n_matching proto eps + ec) = SErr got.
Proof.
  intros busy sample proto eps ec got.
  unfold allocate_proto.
  destruct (allocate_sockets busy sample (n_matching proto eps + ec)) as [l|g]; [discriminate|].
  intros H. now inversion H.
Qed.
Print Assumptions C16P_proto_error.

(** what "gets the socket p" means: real_port = p; port 0 becomes p, any other port is kept; name and protocol
    are kept *)
Theorem C16P_port_zero : forall e p,
  ep_real (set_real e p) = Some p /\
  (ep_port e = 0 -> ep_port (set_real e p) = p) /\
  (ep_port e <> 0 -> ep_port (set_real e p) = ep_port e) /\
  ep_name (set_real e p) = ep_name e /\ ep_proto (set_real e p) = ep_proto e.
Proof.
  intros e p.
  unfold set_real; cbn. repeat split.
  - intros ->. reflexivity.
  - intros H. destruct (ep_port e =? 0) eqn:E; [apply Z.eqb_eq in E; contradiction | reflexivity].
Qed.
Print Assumptions C16P_port_zero.

(** the whole result as a function of the two socket allocations; a tcp error leaves the manifest untouched *)
Theorem C16P_network_outcome : forall m st su bt bu,
  let r := allocate_network_ports m st su bt bu in
  match allocate_sockets bt st (n_tcp m) with
  | SErr got => r_out r = OErrTcp got /\ r_eps r = m_eps m /\
                r_eph_tcp r = EKeep (m_eph_tcp m) /\ r_eph_udp r = EKeep (m_eph_udp m)
  | SOk tcp =>
      r_eph_tcp r = EPorts (skipn (n_matching P_TCP (m_eps m)) tcp) /\
      match allocate_sockets bu su (n_udp m) with
      | SErr got => r_out r = OErrUdp got /\ r_eps r = assign P_TCP (m_eps m) tcp /\
                    r_eph_udp r = EKeep (m_eph_udp m)
      | SOk udp => r_out r = OOk tcp udp /\
                   r_eps r = assign P_UDP (assign P_TCP (m_eps m) tcp) udp /\
                   r_eph_udp r = EPorts (skipn (n_matching P_UDP (m_eps m)) udp)
      end
  end.
Proof.
  intros m st su bt bu.
  unfold allocate_network_ports, allocate_proto, n_tcp, n_udp. cbv zeta.
  destruct (allocate_sockets bt st _) as [tcp|got]; [|cbn; repeat split].
  rewrite n_matching_assign.
  destruct (allocate_sockets bu su _) as [udp|got]; cbn; repeat split.
Qed.
Print Assumptions C16P_network_outcome.

(** allocate_network_ports, success: distinct free ports of the environment's pool, their number, and their
    assignment to the endpoints, for every manifest, both samples, both busy sets *)
Theorem C16P_network_ok : forall T m st su bt bu tcp udp,
  sample_ok T (m_env m) st -> sample_ok T (m_env m) su ->
  r_out (allocate_network_ports m st su bt bu) = OOk tcp udp ->
  let r := allocate_network_ports m st su bt bu in
  let nt := n_matching P_TCP (m_eps m) in
  let nu := n_matching P_UDP (m_eps m) in
  length tcp = n_tcp m /\ length udp = n_udp m /\
  NoDup tcp /\ NoDup udp /\
  (forall p, In p tcp -> bt p = false) /\ (forall p, In p udp -> bu p = false) /\
  (forall p, In p tcp \/ In p udp -> in_pool T (m_env m) p = true) /\
  tcp = firstn (n_tcp m) (free bt st) /\ udp = firstn (n_udp m) (free bu su) /\
  real_ports P_TCP (r_eps r) = map Some (firstn nt tcp) /\
  real_ports P_UDP (r_eps r) = map Some (firstn nu udp) /\
  r_eph_tcp r = EPorts (skipn nt tcp) /\ r_eph_udp r = EPorts (skipn nu udp) /\
  length (skipn nt tcp) = ecount (m_eph_tcp m) /\ length (skipn nu udp) = ecount (m_eph_udp m) /\
  length (r_eps r) = length (m_eps m) /\
  map ep_name (r_eps r) = map ep_name (m_eps m) /\ map ep_proto (r_eps r) = map ep_proto (m_eps m) /\
  (forall i e, nth_error (m_eps m) i = Some e ->
     if ep_matches P_TCP e
     then exists p, nth_error tcp (n_matching P_TCP (firstn i (m_eps m))) = Some p /\
                    nth_error (r_eps r) i = Some (set_real e p)
     else if ep_matches P_UDP e
     then exists p, nth_error udp (n_matching P_UDP (firstn i (m_eps m))) = Some p /\
                    nth_error (r_eps r) i = Some (set_real e p)
     else nth_error (r_eps r) i = Some e).
Proof.
  intros T m st su bt bu tcp udp.
  intros [Hndt Hpt] [Hndu Hpu] Hout r nt nu.
  pose proof (C16P_network_outcome m st su bt bu) as Hno. cbv zeta in Hno. fold r in Hno, Hout.
  destruct (allocate_sockets bt st (n_tcp m)) as [tcp'|got] eqn:At;
    [|destruct Hno as [Ho _]; rewrite Ho in Hout; discriminate].
  destruct Hno as [HephT Hno].
  destruct (allocate_sockets bu su (n_udp m)) as [udp'|got] eqn:Au;
    [|destruct Hno as [Ho _]; rewrite Ho in Hout; discriminate].
  destruct Hno as [Ho [Heps Hephu]]. rewrite Ho in Hout. inversion Hout; subst tcp' udp'. clear Hout Ho.
  pose proof (alloc_ok _ _ _ _ At) as [Htcp [Hlt _]].
  pose proof (alloc_ok _ _ _ _ Au) as [Hudp [Hlu _]].
  pose proof (alloc_ok_distinct _ _ _ _ Hndt At) as [Hdt Hint].
  pose proof (alloc_ok_distinct _ _ _ _ Hndu Au) as [Hdu Hinu].
  rewrite Forall_forall in Hpt, Hpu.
  assert (Hlet : (n_matching P_TCP (m_eps m) <= length tcp)%nat) by (unfold n_tcp in Hlt; lia).
  assert (Hleu : (n_matching P_UDP (assign P_TCP (m_eps m) tcp) <= length udp)%nat)
    by (rewrite n_matching_assign; unfold n_udp in Hlu; lia).
  split; [assumption|]. split; [assumption|]. split; [assumption|]. split; [assumption|].
  split; [intros p Hp; now apply Hint|]. split; [intros p Hp; now apply Hinu|].
  split; [intros p [Hp|Hp]; [apply Hpt; now apply Hint | apply Hpu; now apply Hinu]|].
  split; [assumption|]. split; [assumption|].
  split.
  { rewrite Heps. unfold real_ports.
    rewrite (assign_filter_other P_UDP (ep_matches P_TCP))
      by (try reflexivity; intros e He; unfold ep_matches in *; apply Z.eqb_eq in He; rewrite He; reflexivity).
    now apply real_ports_assign. }
  split.
  { rewrite Heps, real_ports_assign by assumption. now rewrite n_matching_assign. }
  split; [assumption|]. split; [assumption|].
  split; [rewrite skipn_length; unfold n_tcp in Hlt; fold nt in Hlt; lia|].
  split; [rewrite skipn_length; unfold n_udp in Hlu; fold nu in Hlu; lia|].
  split; [rewrite Heps, !assign_length; reflexivity|].
  split; [rewrite Heps; destruct (assign_names P_UDP (assign P_TCP (m_eps m) tcp) udp) as [H1 _]; rewrite H1;
          apply assign_names|].
  split; [rewrite Heps; destruct (assign_names P_UDP (assign P_TCP (m_eps m) tcp) udp) as [_ H2]; rewrite H2;
          apply assign_names|].
  intros i e Hi. rewrite Heps. apply assign_tcp_udp_nth; [exact Hlet | unfold n_udp in Hlu; lia | exact Hi].
Qed.
Print Assumptions C16P_network_ok.

(** which of the three outcomes: decided by [enough] on the two samples (so: with the boundary case above) *)
Theorem C16P_network_error_iff : forall m st su bt bu,
  let r := allocate_network_ports m st su bt bu in
  ((exists got, r_out r = OErrTcp got) <-> enough bt st (n_tcp m) = false) /\
  ((exists got, r_out r = OErrUdp got) <-> enough bt st (n_tcp m) = true /\ enough bu su (n_udp m) = false) /\
  ((exists tcp udp, r_out r = OOk tcp udp) <-> enough bt st (n_tcp m) = true /\ enough bu su (n_udp m) = true).
Proof.
  intros m st su bt bu r. pose proof (C16P_network_outcome m st su bt bu) as Hno. cbv zeta in Hno. fold r in Hno.
  rewrite !allocate_sockets_spec in Hno.
  destruct (enough bt st (n_tcp m)).
  - destruct Hno as [_ Hno]. destruct (enough bu su (n_udp m)); destruct Hno as [Ho _]; rewrite Ho;
      (split; [|split]); (split; intros H; crush_out; eauto).
  - destruct Hno as [Ho _]. rewrite Ho. (split; [|split]); (split; intros H; crush_out; eauto).
Qed.
Print Assumptions C16P_network_error_iff.

(** a udp error leaves the tcp half written on the manifest (real ports, ephemeral list), the udp half as it was *)
Theorem C16P_network_udp_error_state : forall m st su bt bu got,
  r_out (allocate_network_ports m st su bt bu) = OErrUdp got ->
  let r := allocate_network_ports m st su bt bu in
  exists tcp, allocate_sockets bt st (n_tcp m) = SOk tcp /\
    allocate_sockets bu su (n_udp m) = SErr got /\
    r_eps r = assign P_TCP (m_eps m) tcp /\
    real_ports P_TCP (r_eps r) = map Some (firstn (n_matching P_TCP (m_eps m)) tcp) /\
    filter (ep_matches P_UDP) (r_eps r) = filter (ep_matches P_UDP) (m_eps m) /\
    r_eph_tcp r = EPorts (skipn (n_matching P_TCP (m_eps m)) tcp) /\ r_eph_udp r = EKeep (m_eph_udp m).
Proof.
  intros m st su bt bu got Hout r. pose proof (C16P_network_outcome m st su bt bu) as Hno. cbv zeta in Hno. fold r in Hno, Hout.
  destruct (allocate_sockets bt st (n_tcp m)) as [tcp|g] eqn:At;
    [|destruct Hno as [Ho _]; rewrite Ho in Hout; discriminate].
  destruct Hno as [Hept Hno].
  destruct (allocate_sockets bu su (n_udp m)) as [udp|g] eqn:Au;
    [destruct Hno as [Ho _]; rewrite Ho in Hout; discriminate|].
  destruct Hno as [Ho [Heps Hepu]]. rewrite Ho in Hout. inversion Hout; subst g.
  pose proof (alloc_ok _ _ _ _ At) as [_ [Hlt _]].
  exists tcp. split; [reflexivity|]. split; [reflexivity|]. split; [assumption|].
  split.
  { rewrite Heps. apply real_ports_assign. unfold n_tcp in Hlt. lia. }
  split.
  { rewrite Heps. apply assign_filter_other; [reflexivity|]. intros e. apply matches_tcp_udp. }
  split; assumption.
Qed.
Print Assumptions C16P_network_udp_error_state.

(** the prod ('uat', 'prod') and non-prod pools share no port *)
Theorem C16P_pools_disjoint : forall T e1 e2 p,
  ports_tables_ok T = true -> is_prod_env e1 = true -> is_prod_env e2 = false ->
  in_pool T e1 p = true -> in_pool T e2 p = true -> False.
Proof.
  intros T e1 e2 p.
  unfold in_pool, pool_low, pool_high. intros HT -> -> Ha Hb. apply ports_tables_ok_spec in HT. lia.
Qed.
Print Assumptions C16P_pools_disjoint.

(** hence a prod container and a non-prod container never hold the same port number, whatever the protocol *)
Theorem C16P_env_disjoint : forall T m1 st1 su1 bt1 bu1 tcp1 udp1 m2 st2 su2 bt2 bu2 tcp2 udp2 p,
  ports_tables_ok T = true ->
  sample_ok T (m_env m1) st1 -> sample_ok T (m_env m1) su1 ->
  sample_ok T (m_env m2) st2 -> sample_ok T (m_env m2) su2 ->
  is_prod_env (m_env m1) = true -> is_prod_env (m_env m2) = false ->
  r_out (allocate_network_ports m1 st1 su1 bt1 bu1) = OOk tcp1 udp1 ->
  r_out (allocate_network_ports m2 st2 su2 bt2 bu2) = OOk tcp2 udp2 ->
  In p tcp1 \/ In p udp1 -> In p tcp2 \/ In p udp2 -> False.
Proof.
  intros T m1 st1 su1 bt1 bu1 tcp1 udp1 m2 st2 su2 bt2 bu2 tcp2 udp2 p HT A1 A2 B1 B2 E1 E2 O1 O2 H1 H2.
  pose proof (C16P_network_ok T m1 st1 su1 bt1 bu1 tcp1 udp1 A1 A2 O1) as K1. cbv zeta in K1.
  pose proof (C16P_network_ok T m2 st2 su2 bt2 bu2 tcp2 udp2 B1 B2 O2) as K2. cbv zeta in K2.
  destruct K1 as (_ & _ & _ & _ & _ & _ & P1 & _). destruct K2 as (_ & _ & _ & _ & _ & _ & P2 & _).
  exact (C16P_pools_disjoint T _ _ p HT E1 E2 (P1 p H1) (P2 p H2)).
Qed.
Print Assumptions C16P_env_disjoint.

(** a tcp endpoint and a udp endpoint of one container MAY get the same number: two socket types, two
    independent samples and busy sets.  Real behaviour (the DNAT rules and endpoint specs carry the protocol) *)
Theorem C16P_tcp_udp_may_share :
  exists m st su bt bu p,
    NoDup st /\ NoDup su /\
    let r := allocate_network_ports m st su bt bu in
    r_out r = OOk [p] [p] /\
    real_ports P_TCP (r_eps r) = [Some p] /\ real_ports P_UDP (r_eps r) = [Some p].
Proof.
  exists share_manifest, [40960; 40961], [40960; 40961], (fun _ => false), (fun _ => false), 40960.
  split; [|split].
  - repeat constructor; cbn; intuition discriminate.
  - repeat constructor; cbn; intuition discriminate.
  - cbv zeta. repeat split.
Qed.
Print Assumptions C16P_tcp_udp_may_share.

(** the boolean sample check used by the Examples implies the hypothesis of the theorems *)
Theorem C16P_sample_okb : forall T e s, sample_okb T e s = true -> sample_ok T e s.
Proof.
  intros T e s.
  unfold sample_okb, sample_ok. intros H. apply andb_true_iff in H as [Hn Hf]. split.
  - now apply nodupb_NoDup.
  - apply Forall_forall. rewrite forallb_forall in Hf. exact Hf.
Qed.
Print Assumptions C16P_sample_okb.

(** * Non-vacuity, on the GENERATED constants *)
Definition ep_ (name proto port : Z) : endpoint :=
  {| ep_name := name; ep_proto := proto; ep_port := port; ep_real := None |}.
Definition none_busy : Z -> bool := fun _ => false.

(* a prod manifest: http (no proto key, port 0), dns/udp 53, ssh/tcp 22, one 'sctp' endpoint; 2 tcp + 1 udp ephemeral *)
Definition ex_m : manifest :=
  {| m_env := ENV_PROD; m_eps := [ep_ 1 0 0; ep_ 2 2 53; ep_ 3 1 22; ep_ 4 7 9];
     m_eph_tcp := Some 2%nat; m_eph_udp := Some 1%nat |}.
Definition ex_st : list Z := [40000; 32768; 40959; 33000; 35000; 36000].
Definition ex_su : list Z := [32768; 40000; 33333].
Definition ex_bt : Z -> bool := fun p => p =? 32768.

Example C16P_ex_samples_ok :
  sample_okb ports_tables ENV_PROD ex_st && sample_okb ports_tables ENV_PROD ex_su = true.
Proof. vm_compute. reflexivity. Qed.

(* tcp: 32768 is busy and skipped; http gets 40000 (and port 40000), ssh 40959, ephemeral 33000 35000;
   udp: dns gets 32768 - the number that is busy for tcp - ephemeral 40000 (also http's tcp port) *)
Example C16P_ex_run :
  let r := allocate_network_ports ex_m ex_st ex_su ex_bt none_busy in
  r_out r = OOk [40000; 40959; 33000; 35000] [32768; 40000] /\
  r_eps r = [ {| ep_name := 1; ep_proto := 0; ep_port := 40000; ep_real := Some 40000 |};
              {| ep_name := 2; ep_proto := 2; ep_port := 53; ep_real := Some 32768 |};
              {| ep_name := 3; ep_proto := 1; ep_port := 22; ep_real := Some 40959 |};
              ep_ 4 7 9 ] /\
  r_eph_tcp r = EPorts [33000; 35000] /\ r_eph_udp r = EPorts [40000].
Proof. vm_compute. repeat split. Qed.

(* one more tcp ephemeral port: 5 needed, 5 free in the sample, the fifth is its last element: the error, after
   binding all five *)
Example C16P_ex_boundary :
  let m := {| m_env := ENV_PROD; m_eps := m_eps ex_m; m_eph_tcp := Some 3%nat; m_eph_udp := Some 1%nat |} in
  length (free ex_bt ex_st) = 5%nat /\ n_tcp m = 5%nat /\
  r_out (allocate_network_ports m ex_st ex_su ex_bt none_busy) = OErrTcp [40000; 40959; 33000; 35000; 36000].
Proof. vm_compute. repeat split. Qed.

(* the same on a whole-pool permutation (what random.sample(pool, PORT_SPAN) returns: PORT_SPAN is the pool size):
   the pool in ascending order, everything busy but the last two ports *)
Definition all_but_last_two : busyspec := {| bs_ports := []; bs_ranges := [(32768, 40957)] |}.
Definition whole_pool : sampspec := {| ss_full := true; ss_prefix := [] |}.
Example C16P_ex_whole_pool :
  Z.of_nat (length (mk_sample ports_tables ENV_PROD whole_pool)) = 8192 /\
  allocate_sockets (busy_of all_but_last_two) (mk_sample ports_tables ENV_PROD whole_pool) 1 = SOk [40958] /\
  allocate_sockets (busy_of all_but_last_two) (mk_sample ports_tables ENV_PROD whole_pool) 2 = SErr [40958; 40959].
Proof.
  (* the 8192 ports are not enumerated (that is slow to re-check): the pool stays a [zrange] of symbolic length *)
  unfold whole_pool. rewrite mk_sample_whole_pool.
  change (pool_list ports_tables ENV_PROD) with (zrange 32768 (Z.to_nat (8190 + 2))).
  split; [rewrite zrange_length; apply Z2Nat.id; discriminate|].
  apply (alloc_all_but_last_two (busy_of all_but_last_two) 32768 8190); try easy.
  intros p Hp. unfold busy_of, all_but_last_two. cbn. lia.
Qed.

(* the udp pass raising leaves the tcp half written *)
Example C16P_ex_udp_error :
  let r := allocate_network_ports ex_m ex_st [32768] ex_bt none_busy in
  r_out r = OErrUdp [32768] /\ r_eph_tcp r = EPorts [33000; 35000] /\ r_eph_udp r = EKeep (Some 1%nat) /\
  real_ports P_TCP (r_eps r) = [Some 40000; Some 40959] /\ real_ports P_UDP (r_eps r) = [None].
Proof. vm_compute. repeat split. Qed.

(* non-prod environments (and any unknown environment string) use the other range *)
Example C16P_ex_pools :
  map (sample_request ports_tables) [ENV_DEV; ENV_QA; ENV_UAT; ENV_PROD; 9] =
  [[40960; 49152; 8192]; [40960; 49152; 8192]; [32768; 40960; 8192]; [32768; 40960; 8192]; [40960; 49152; 8192]].
Proof. vm_compute. reflexivity. Qed.

(* the hypotheses of C16P_env_disjoint are satisfiable *)
Example C16P_ex_env_hyps :
  is_prod_env (m_env ex_m) = true /\ is_prod_env ENV_DEV = false /\
  sample_okb ports_tables ENV_DEV [40960; 49151; 45000] = true /\
  sample_okb ports_tables ENV_DEV ex_st = false.
Proof. vm_compute. repeat split. Qed.
