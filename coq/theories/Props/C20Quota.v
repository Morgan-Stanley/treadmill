(** C20, the instance API quotas: "instance API quotas bound total and per-proid scheduled instances"
    (api/instance.py:24-31 and the quota check at the top of the nested create, :145-161).

    Model: Api/Quota.v.  Names are lists of code points; the stats dict (ZooKeeper node /scheduled-stats, written by
    the master's _calculate_aggregate, read through masterapi.get_scheduled_stats) is an association list
    proid -> count.  The two quotas, the '.' of rsrc_id[:rsrc_id.find('.')], the default of .get, the schema bounds
    of count and the key expression / increment of the master's aggregate are [TM.Api.QuotaRun.quota_tables],
    assembled from definitions that harness/tables_quota.py regenerates from the source on every run (the statement
    shape of the quota part of create is pinned there by AST template).  Theorems that depend on the constants carry
    the premise [quota_tables_ok T = true], discharged for the generated tables by [C20Q_tables_ok].

    46 '.'  35 '#'  102 111 111 "foo"  98 97 114 "bar"  110 111 100 111 116 "nodot". *)
From Coq Require Import ZArith List Bool Lia ZifyBool.
From TM Require Import Codec.BaseN Api.Quota Api.QuotaP Api.QuotaRun.
Import ListNotations.
Open Scope Z_scope.

(** the source's constants: '.' in the API and in the master, absent proid = 0, the master counts every name once,
    1 <= minimum <= maximum of count <= proid quota <= total quota *)
Theorem C20Q_tables_ok : quota_tables_ok quota_tables = true.
Proof. vm_compute. reflexivity. Qed.
Print Assumptions C20Q_tables_ok.

(** the constants are the documented numbers: 50000 in total, 10000 per proid, count in 1..1000 *)
Theorem C20Q_constants_canonical : quota_tables_canonical quota_tables = true.
Proof. vm_compute. reflexivity. Qed.
Print Assumptions C20Q_constants_canonical.

(** sound and complete: a create is accepted iff both sums stay within the quotas *)
Theorem C20Q_accept_iff : forall T st rsrc_id count,
  quota_check T st rsrc_id count = Accept <->
  total_apps st + count <= q_total T /\ proid_apps T st rsrc_id + count <= q_proid T.
Proof. exact check_accept_iff. Qed.
Print Assumptions C20Q_accept_iff.

(** the order of the two errors: 'Total ...' whenever the total is exceeded (whatever the proid's count);
    'Proid ...' only when the total fits *)
Theorem C20Q_error_order : forall T st rsrc_id count,
  (quota_check T st rsrc_id count = TotalExceeded <-> total_apps st + count > q_total T) /\
  (quota_check T st rsrc_id count = ProidExceeded <->
   total_apps st + count <= q_total T /\ proid_apps T st rsrc_id + count > q_proid T).
Proof. intros T st rsrc_id count. exact (conj (check_total_iff T st rsrc_id count) (check_proid_iff T st rsrc_id count)). Qed.
Print Assumptions C20Q_error_order.

(** the decorated create: a count outside the schema bounds never reaches the check, one inside gets the check *)
Theorem C20Q_count_schema : forall T st rsrc_id count,
  (api_create T st rsrc_id count = None <-> (count < q_count_min T \/ q_count_max T < count)) /\
  (forall o, api_create T st rsrc_id count = Some o ->
             q_count_min T <= count <= q_count_max T /\ o = quota_check T st rsrc_id count).
Proof.
  intros T st r c.
  unfold api_create, count_ok.
  destruct ((q_count_min T <=? c) && (c <=? q_count_max T)) eqn:E.
  - apply andb_true_iff in E. destruct E as [E1 E2]. split.
    + split; [intros H; discriminate H|lia].
    + intros o H. inversion H. split; [lia|reflexivity].
  - apply andb_false_iff in E. split.
    + split; [intros _; lia|reflexivity].
    + intros o H. discriminate H.
Qed.
Print Assumptions C20Q_count_schema.

(** the proid that is charged: the text before the FIRST '.' *)
Theorem C20Q_proid_is_prefix : forall T pre post, quota_tables_ok T = true ->
  ~ In 46 pre -> proid_of T (pre ++ 46 :: post) = pre.
Proof.
  intros T pre post H Hn. destruct (tables_ok_fields T H) as [Hs _]. rewrite <- Hs in *.
  exact (proid_of_split T pre post Hn).
Qed.
Print Assumptions C20Q_proid_is_prefix.

(** WITHOUT a '.' (find = -1) the proid is rsrc_id[:-1]: the name without its last character *)
Theorem C20Q_proid_without_dot : forall T name, has_sep T name = false -> proid_of T name = removelast name.
Proof. exact proid_of_nosep. Qed.
Print Assumptions C20Q_proid_without_dot.

(** for EVERY sequence of requests (any names, any counts), starting from stats within the quotas and updated by
    exactly the accepted creates: the total and every proid's count stay within the quotas *)
Theorem C20Q_invariant : forall T st reqs, quota_tables_ok T = true -> within T st ->
  within T (fst (run T st reqs)).
Proof.
  intros T st reqs H Hw. destruct (tables_ok_fields T H) as (_ & Hd & _).
  exact (run_within T reqs Hd st Hw).
Qed.
Print Assumptions C20Q_invariant.

(** "updated by exactly the accepted creates": one outcome per request, each the check against the stats reached
    by the requests before it; the final total / count of a proid is the initial one plus the accepted counts *)
Theorem C20Q_run_frame : forall T st reqs, quota_tables_ok T = true ->
  length (snd (run T st reqs)) = length reqs /\
  (forall a r b, reqs = a ++ r :: b ->
     nth_error (snd (run T st reqs)) (length a) = Some (quota_check T (fst (run T st a)) (fst r) (snd r))) /\
  stats_total (fst (run T st reqs)) = stats_total st + accepted_sum reqs (snd (run T st reqs)) /\
  (forall p, stats_get (q_default T) (fst (run T st reqs)) p
             = stats_get (q_default T) st p + accepted_sum_for T p reqs (snd (run T st reqs))).
Proof.
  intros T st reqs H. destruct (tables_ok_fields T H) as (_ & Hd & _).
  split; [apply run_length|]. split; [|split; [apply run_total|intros p; apply run_get; exact Hd]].
  intros a r b E. subst reqs. apply run_nth.
Qed.
Print Assumptions C20Q_run_frame.

(** with the schema's counts (>= 1) the number of accepted creates is bounded by the room that was left *)
Theorem C20Q_accepted_bounded : forall T st reqs, quota_tables_ok T = true -> counts_ok T reqs = true ->
  within T st -> accepted_n (snd (run T st reqs)) <= q_total T - stats_total st.
Proof.
  intros T st reqs Hok Hc Hw. destruct (tables_ok_fields T Hok) as (_ & Hd & Hmin & _).
  pose proof (run_within T reqs Hd st Hw) as [Ht _].
  rewrite run_total in Ht.
  pose proof (accepted_n_le_sum reqs (snd (run T st reqs)) (q_count_min T) Hmin (run_length T reqs st)
                (counts_ok_min T reqs Hc)).
  lia.
Qed.
Print Assumptions C20Q_accepted_bounded.

Theorem C20Q_withinb : forall T st, withinb T st = true -> within T st.
Proof.
  intros T st.
  unfold withinb, within. intros H.
  apply andb_true_iff in H. destruct H as [H H3]. apply andb_true_iff in H. destruct H as [H1 H2].
  split; [lia|]. intros p.
  destruct (get_default_or_in (q_default T) st p) as [E|[kv [Hin Hk]]].
  - rewrite E. lia.
  - rewrite forallb_forall in H3. specialize (H3 kv Hin). rewrite Hk in H3. lia.
Qed.
Print Assumptions C20Q_withinb.

(** what the check does NOT guarantee.  The stats are a ZooKeeper node rewritten by the master when /scheduled
    changes, not the API's own count: two creates checked against the same node are both accepted and together exceed
    the proid quota (checked one after the other the second is refused) *)
Definition ex_stale_proid : stats := [([102; 111; 111], q_proid quota_tables - 1)].
Theorem C20Q_stale_proid_refuted :
  exists st r1 c1 r2 c2,
    withinb quota_tables st = true /\ count_ok quota_tables c1 = true /\ count_ok quota_tables c2 = true /\
    snd (run_stale quota_tables st st [(r1, c1); (r2, c2)]) = [Accept; Accept] /\
    (stats_get 0 (fst (run_stale quota_tables st st [(r1, c1); (r2, c2)])) (proid_of quota_tables r1)
       >? q_proid quota_tables) = true /\
    snd (run quota_tables st [(r1, c1); (r2, c2)]) = [Accept; ProidExceeded].
Proof.
  exists ex_stale_proid, [102; 111; 111; 46; 97], 1, [102; 111; 111; 46; 98], 1.
  vm_compute. repeat split; reflexivity.
Qed.
Print Assumptions C20Q_stale_proid_refuted.

(** the same for the total quota: five proids, 49999 instances, two creates of 1000 *)
Definition ex_stale_total : stats :=
  [([97; 97], q_proid quota_tables); ([98; 98], q_proid quota_tables); ([99; 99], q_proid quota_tables);
   ([100; 100], q_proid quota_tables); ([101; 101], q_total quota_tables - 4 * q_proid quota_tables - 1001)].
Theorem C20Q_stale_total_refuted :
  exists st r1 c1 r2 c2,
    withinb quota_tables st = true /\ count_ok quota_tables c1 = true /\ count_ok quota_tables c2 = true /\
    snd (run_stale quota_tables st st [(r1, c1); (r2, c2)]) = [Accept; Accept] /\
    (stats_total (fst (run_stale quota_tables st st [(r1, c1); (r2, c2)])) >? q_total quota_tables) = true /\
    snd (run quota_tables st [(r1, c1); (r2, c2)]) = [Accept; TotalExceeded].
Proof.
  exists ex_stale_total, [102; 111; 111; 46; 97], 1000, [98; 97; 114; 46; 98], 1000.
  vm_compute. repeat split; reflexivity.
Qed.
Print Assumptions C20Q_stale_total_refuted.

(** what does hold against stale stats, with the schema's counts: n accepted creates overshoot a quota by at most
    (n - 1) * 1000 *)
Theorem C20Q_stale_partial : forall T st reqs, quota_tables_ok T = true -> counts_ok T reqs = true -> within T st ->
  let n := accepted_n (snd (run_stale T st st reqs)) in
  stats_total (fst (run_stale T st st reqs)) <= q_total T + Z.max 0 (n - 1) * q_count_max T /\
  forall p, stats_get (q_default T) (fst (run_stale T st st reqs)) p
            <= q_proid T + Z.max 0 (n - 1) * q_count_max T.
Proof.
  intros T st reqs.
  intros Hok Hc [Ht Hp]. destruct (tables_ok_fields T Hok) as (_ & Hd & Hmin & Hmm & _).
  pose proof (counts_ok_max T reqs Hc) as Hmax. rewrite forallb_forall in Hmax.
  cbv zeta. rewrite stale_total. split; [|intros p; rewrite (stale_get T st p reqs Hd)];
    rewrite stale_outcomes; fold (checks T st reqs).
  - rewrite accepted_sum_w. apply stale_weight_bound; [exact Ht|].
    intros r Hin E. apply check_accept_iff in E as [E _]. specialize (Hmax r Hin). unfold total_apps in E. lia.
  - rewrite accepted_sum_for_w. apply stale_weight_bound; [apply Hp|].
    intros r Hin E. apply check_accept_iff in E as [_ E]. specialize (Hmax r Hin). specialize (Hp p). unfold proid_apps in E.
    destruct (str_eqb (proid_of T (fst r)) p) eqn:Ep; [apply BaseNP.str_eqb_eq in Ep; subst p|]; lia.
Qed.
Print Assumptions C20Q_stale_partial.

(** the body of create alone (behind the schema, which admits only names with a '.'; reachable as
    create.__wrapped__): a name without '.' is charged to rsrc_id[:-1].  A "proid" at its quota gets 1000 more
    accepted, the entry of another key refuses it, and the master files its instances under a third key *)
Theorem C20Q_dotless_body_refuted :
  exists name,
    has_sep quota_tables name = false /\
    str_eqb (proid_of quota_tables name) name = false /\
    quota_check quota_tables [(name, q_proid quota_tables)] name (q_count_max quota_tables) = Accept /\
    quota_check quota_tables [(removelast name, q_proid quota_tables)] name 1 = ProidExceeded /\
    str_eqb (agg_key quota_tables (name ++ 35 :: [48; 48; 48; 48; 48; 48; 48; 48; 48; 49]))
            (proid_of quota_tables name) = false.
Proof. exists [110; 111; 100; 111; 116]. vm_compute. repeat split; reflexivity. Qed.
Print Assumptions C20Q_dotless_body_refuted.

(** the writer of the stats agrees with the reader: the master's aggregate of a list of names has the number of names
    as its total and, under every key, the number of names with that key *)
Theorem C20Q_master_aggregate : forall T names, quota_tables_ok T = true ->
  stats_total (aggregate T names) = Z.of_nat (length names) /\
  forall p, stats_get (q_default T) (aggregate T names) p = count_proid T p names.
Proof.
  intros T names H. destruct (tables_ok_fields T H) as (_ & Hd & _ & _ & _ & _ & _ & Hinc). rewrite Hd.
  exact (conj (aggregate_total T names Hinc) (fun p => aggregate_get T p names Hinc)).
Qed.
Print Assumptions C20Q_master_aggregate.

(** the instances rsrc_id#<suffix> of a create are filed by the master under the key the API charged - for a
    rsrc_id with a '.' *)
Theorem C20Q_instances_same_key : forall T rsrc_id sfx, quota_tables_ok T = true -> has_sep T rsrc_id = true ->
  agg_key T (rsrc_id ++ 35 :: sfx) = proid_of T rsrc_id.
Proof.
  intros T rsrc_id sfx H Hs. destruct (tables_ok_fields T H) as (Hsep & _ & _ & _ & _ & _ & Hasep & _).
  exact (agg_key_inst T rsrc_id sfx (eq_trans Hasep (eq_sym Hsep)) Hs).
Qed.
Print Assumptions C20Q_instances_same_key.

(** on the real population: the API checks against the master's aggregate of /scheduled, an accepted create adds
    its instance nodes.  For every sequence of creates with names the schema admits (a '.'), one after the other: the
    number of scheduled instances and the number of every proid stay within the quotas *)
Theorem C20Q_system_invariant : forall T names reqs, quota_tables_ok T = true -> sys_names_ok T reqs = true ->
  sys_within T names -> sys_within T (fst (sys_run T names reqs)).
Proof. intros T names reqs H Hn. exact (sys_run_within T reqs H Hn names). Qed.
Print Assumptions C20Q_system_invariant.

(** * Non-vacuity (on the GENERATED tables) *)
Definition foo_a : str := [102; 111; 111; 46; 97].            (* "foo.a" *)
Definition foo_b_c : str := [102; 111; 111; 46; 98; 46; 99].  (* "foo.b.c" *)
Definition bar_x : str := [98; 97; 114; 46; 120].             (* "bar.x" *)
Definition ex_stats : stats := [([102; 111; 111], q_proid quota_tables - 2); ([98; 97; 114], 5)].
Definition ex_reqs : list request := [(foo_a, 1); (foo_b_c, 2); (foo_a, 1); (bar_x, 1000); (foo_a, 1)].

Example C20Q_ex_hyps : withinb quota_tables ex_stats && counts_ok quota_tables ex_reqs = true.
Proof. vm_compute. reflexivity. Qed.

(* 9998 + 1 ok; + 2 too many for foo; + 1 ok (10000); bar + 1000 ok; foo full *)
Example C20Q_ex_run :
  run quota_tables ex_stats ex_reqs =
  ([([102; 111; 111], q_proid quota_tables); ([98; 97; 114], 1005)],
   [Accept; ProidExceeded; Accept; Accept; ProidExceeded]).
Proof. vm_compute. reflexivity. Qed.

(* both exceeded: the total is reported *)
Example C20Q_ex_both :
  quota_check quota_tables ex_stale_total foo_a 1000 = Accept /\
  quota_check quota_tables ex_stale_total [97; 97; 46; 120] 1000 = ProidExceeded /\
  quota_check quota_tables (([102; 102], 2) :: ex_stale_total) [97; 97; 46; 120] 1000 = TotalExceeded.
Proof. vm_compute. repeat split; reflexivity. Qed.

(* proid: first '.', '@' is part of it, no '.' drops the last character, '' stays '' *)
Example C20Q_ex_proid :
  proid_of quota_tables foo_b_c = [102; 111; 111] /\
  proid_of quota_tables [97; 64; 102; 111; 111; 46; 120] = [97; 64; 102; 111; 111] /\
  proid_of quota_tables [110; 111; 100; 111; 116] = [110; 111; 100; 111] /\
  proid_of quota_tables [46; 120] = [] /\
  proid_of quota_tables [] = [].
Proof. vm_compute. repeat split; reflexivity. Qed.

(* the schema of count *)
Example C20Q_ex_count :
  api_create quota_tables [] foo_a 0 = None /\ api_create quota_tables [] foo_a 1001 = None /\
  api_create quota_tables [] foo_a 1 = Some Accept /\ api_create quota_tables [] foo_a 1000 = Some Accept.
Proof. vm_compute. repeat split; reflexivity. Qed.

(* the loop on names: two creates, the master's aggregate after them *)
Definition ex_sys : list sys_request := [(foo_a, [[49]; [50]]); (bar_x, [[51]]); (foo_b_c, [[52]])].
Example C20Q_ex_sys :
  sys_names_ok quota_tables ex_sys = true /\
  snd (sys_run quota_tables [] ex_sys) = [Accept; Accept; Accept] /\
  aggregate quota_tables (fst (sys_run quota_tables [] ex_sys)) = [([102; 111; 111], 3); ([98; 97; 114], 1)] /\
  count_proid quota_tables [102; 111; 111] (fst (sys_run quota_tables [] ex_sys)) = 3.
Proof. vm_compute. repeat split; reflexivity. Qed.
