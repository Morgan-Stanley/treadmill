(** C11 for a STARTING master: the cell it builds is a reachable state of the scheduler model - from the EMPTY cell,
    with no assumption about an earlier in-memory state - for every table, every naming and every snapshot that meets
    the side condition [store_ok], which conditions on the snapshot alone imply; one store inside and one outside the
    side condition are evaluated.

    Model.  Master/LoadModel.v: Loader.load_model (scheduler/loader.py:93-106) as a function from a snapshot of the
    store - /traits, /partitions, /buckets with level and parent, /cell, /servers with record, presence and recorded
    state, /allocations, /scheduled with the manifests, /identity-groups, /placement/<server>/<instance> - to a list
    of operations of Sched/Events.v: load_partitions, load_buckets / load_cell, load_servers (LoadApp.load_server,
    adjust_server_state, set_server_valid_until), load_allocations, load_apps (LoadApp.load_app on a new instance +
    find_default_assignment), load_identity_groups, then Master/RestoreAll.v [restore_all] / [restore_placements].
    Inputs rather than modelled: the fnmatch decisions of find_assignment and _is_blacklisted, the valid_until
    Partition.add assigns, the clock, the global-order counter, the bijection [id] between strings and identifiers.
    Tie: harness/props/c11load.py - every load_model() of E-master histories and of directly generated stores, the
    canonical dump of the real Master.cell right after load_model() against vm_compute of [load_model_full].
    NOT covered: a snapshot outside [store_ok] - an instance recorded under two servers (C11_duplicate_removed_from_both
    covers the master-level model), a recorded identity that another member of the group also records, a group member
    recorded without identity: [C11M_outside_duplicate] shows the run and the master-level model then differ. *)
From Coq Require Import ZArith QArith List Bool.
From TM Require Import Codec.BaseN Codec.Dec Codec.Units.
From TM Require Import Sched.Vec Sched.Types Sched.Queue Sched.Tree Sched.Cycle Sched.Events Sched.InvIdent Sched.TurnP
                       Sched.KeepP Sched.Reach.
From TM Require Import Master.LoadApp Master.Publish Master.Restore Master.RestoreSched Master.RestoreAll
                       Master.RestoreBridge Master.LoadModel Master.LoadModelP.
Import ListNotations.
Open Scope Z_scope.

(** LoadApp per record + the first loop of restore_placements is a run of the model from [init_cell 3 root 'cell'] *)
Theorem C11M_load_model_is_a_run : forall T U id none_aff st, store_ok T U id none_aff st ->
  load_model_cell T U id none_aff st = run (init_of id st) (load_model_ops T U id none_aff st).
Proof.
  intros T U id none_aff st H. destruct (store_ok_wf _ _ _ _ _ H) as (_ & HG & W).
  unfold load_model_cell, load_model_ops. rewrite run_app. apply restore_all_is_run; assumption.
Qed.
Print Assumptions C11M_load_model_is_a_run.

(** the duplicate pass is idle: nobody is recorded twice *)
Theorem C11M_load_model_full_is_a_run : forall T U id none_aff st, store_ok T U id none_aff st ->
  load_model_full T U id none_aff st = run (init_of id st) (load_model_ops T U id none_aff st).
Proof.
  intros T U id none_aff st H. rewrite <- (C11M_load_model_is_a_run _ _ _ _ _ H).
  apply dedup_idle, H.
Qed.
Print Assumptions C11M_load_model_full_is_a_run.

Theorem C11M_loaded_cell_reachable : forall T U id none_aff st, store_ok T U id none_aff st ->
  reachable (load_model_full T U id none_aff st).
Proof.
  intros T U id none_aff st H. rewrite (C11M_load_model_full_is_a_run _ _ _ _ _ H).
  exists DIM, (root_of id st), (id CELL_LEVEL), (load_model_ops T U id none_aff st). split; [apply H|reflexivity].
Qed.
Print Assumptions C11M_loaded_cell_reachable.

(** [Good] of Sched/Reach.v: accounting, identities, allocation queues, "placed => holds an identity" *)
Theorem C11M_loaded_cell_Good : forall T U id none_aff st, store_ok T U id none_aff st ->
  Good (load_model_full T U id none_aff st).
Proof. intros T U id none_aff st H. apply reachable_Good, C11M_loaded_cell_reachable, H. Qed.
Print Assumptions C11M_loaded_cell_Good.

(** the hypotheses of Props/C11.v C11_rebuilt_cell_reachable and C11_first_cycle_after_failover, discharged for the cell
    load_model has built before restore_placements *)
Theorem C11M_before_restore_reachable : forall T U id none_aff st, store_ok T U id none_aff st ->
  reachable (loaded_cell T U id none_aff st) /\
  wf_ops_all (loaded_cell T U id none_aff st) (RestoreBridge.ops_of_store true (store_srecs T U id none_aff st)).
Proof.
  intros T U id none_aff st H. destruct (store_ok_wf _ _ _ _ _ H) as (W1 & _ & W2). split; [|exact W2].
  exists DIM, (root_of id st), (id CELL_LEVEL), (pre_ops T U id none_aff st). split; [exact W1|reflexivity].
Qed.
Print Assumptions C11M_before_restore_reachable.

(** the end-of-cycle theorems of C05 / C03 for the FIRST cycle of a freshly started master; Props/C11.v
    C11_first_cycle_after_failover assumes [reachable] of the cell before the restore, here nothing is assumed *)
Theorem C11M_first_cycle_identities : forall T U id none_aff st ch, store_ok T U id none_aff st ->
  let c1 := load_model_full T U id none_aff st in
  forall x a', app_of (step c1 (OSchedule ch)) x = Some a' ->
    (a_server a' = None -> no_id a') /\ (a_server a' <> None -> has_id a') /\
    (forall g i k, holds a' g i -> gcount (step c1 (OSchedule ch)) g = Some k -> 0 <= i < k).
Proof. intros T U id none_aff st ch H c1. apply end_of_cycle_identities, C11M_loaded_cell_Good, H. Qed.
Print Assumptions C11M_first_cycle_identities.

Theorem C11M_first_cycle_new_assignment : forall T U id none_aff st ch, store_ok T U id none_aff st ->
  let c1 := load_model_full T U id none_aff st in
  forall x a a' n, app_of c1 x = Some a -> app_of (step c1 (OSchedule ch)) x = Some a' ->
    a_server a' = Some n -> a_server a <> Some n ->
    exists s, get_srv n (c_servers c1) = Some s /\ s_state s = Up /\ guard_facts c1 s a.
Proof. intros T U id none_aff st ch H c1. apply new_assignment, C11M_loaded_cell_Good, H. Qed.
Print Assumptions C11M_first_cycle_new_assignment.

(** the side condition is decidable: [store_okb] runs the boolean checkers of Sched/Reach.v on the operations *)
Theorem C11M_store_okb_sound : forall T U id none_aff st,
  store_okb T U id none_aff st = true -> store_ok T U id none_aff st.
Proof.
  intros T U id none_aff st H. unfold store_okb in H.
  apply andb_true_iff in H as [H H4]. apply andb_true_iff in H as [H H3]. apply andb_true_iff in H as [H1 H2].
  split; [exact H1|]. split; [exact H2|]. split; [apply z_distinct_NoDup; exact H3|apply wf_ops_allb_sound; exact H4].
Qed.
Print Assumptions C11M_store_okb_sound.

(** the side condition follows from conditions on the SNAPSHOT alone ([store_wfb]):
    - no record makes load_model raise, the assignment inputs are in range
    - bucket records: distinct names; a bucket is listed under /cell or names a listed parent, not both; id "server" = 0
    - the attached servers have distinct identifiers; their capacities parse to vectors of 3 non-negative numbers
    - the entries of /scheduled have distinct identifiers; demands parse to vectors of 3 non-negative numbers
    - identity-group counts are >= 0
    - every instance is recorded under at most one placement node (so: not under two servers); a node of a scheduled
      instance carries an identity (>= 0) exactly when the instance belongs to an identity group; no identity is
      recorded twice within one group *)
Theorem C11M_store_conditions : forall T U id none_aff st,
  store_wfb T U id none_aff st = true -> store_ok T U id none_aff st.
Proof. exact store_wfb_ok. Qed.
Print Assumptions C11M_store_conditions.

Theorem C11M_remove_all_idle_at_load : forall T U id none_aff st, store_wfb T U id none_aff st = true ->
  load_model_full_ra T U id none_aff st = load_model_full T U id none_aff st.
Proof. exact load_model_full_ra_eq. Qed.
Print Assumptions C11M_remove_all_idle_at_load.

Theorem C11M_everything_from_the_snapshot : forall T U id none_aff st ch, store_wfb T U id none_aff st = true ->
  let c1 := load_model_full T U id none_aff st in
  c1 = run (init_of id st) (load_model_ops T U id none_aff st) /\
  load_model_full_ra T U id none_aff st = c1 /\
  reachable c1 /\ Good c1 /\
  forall x a', app_of (step c1 (OSchedule ch)) x = Some a' ->
    (a_server a' = None -> no_id a') /\ (a_server a' <> None -> has_id a') /\
    (forall g i k, holds a' g i -> gcount (step c1 (OSchedule ch)) g = Some k -> 0 <= i < k).
Proof.
  intros T U id none_aff st ch H c1. pose proof (C11M_store_conditions _ _ _ _ _ H) as K.
  split; [exact (C11M_load_model_full_is_a_run _ _ _ _ _ K)|].
  split; [exact (C11M_remove_all_idle_at_load _ _ _ _ _ H)|].
  split; [exact (C11M_loaded_cell_reachable _ _ _ _ _ K)|].
  split; [exact (C11M_loaded_cell_Good _ _ _ _ _ K)|exact (C11M_first_cycle_identities _ _ _ _ _ ch K)].
Qed.
Print Assumptions C11M_everything_from_the_snapshot.

Theorem C11M_restore_side_conditions : forall c srecs,
  Good c -> clean c -> (forall sr, In sr srecs -> In (sr_name sr) (map s_name (c_servers c))) ->
  restore_okb (c_apps c) srecs = true -> wf_ops_all c (restore_ops srecs).
Proof. exact restore_wf. Qed.
Print Assumptions C11M_restore_side_conditions.

Theorem C11M_loader_ops_abstract : forall ops c v', arun (view_of c) ops = Some v' ->
  wf_ops_all c ops /\ view_of (run c ops) = v'.
Proof. exact arun_sound. Qed.
Print Assumptions C11M_loader_ops_abstract.

(** * Non-vacuity.  A cell 'cell' with two racks; srv1 (rack:1) and srv2 (rack:2, trait ssd) with presence nodes, srv3
    (rack:2) without; allocation foo/x (rank 50, reserving 1000M, 100 percent, 1000M) assigning foo.* with priority 30;
    identity group g1 of 3; four instances: foo.app#1 and foo.app#2 (group g1; #2 with a lease), bar.app#3 (priority
    7), bar.app#4 (schedule-once).  Recorded: foo.app#1 under srv1 with identity 2 and expiry 1700000777, bar.app#3 under
    srv2 with expiry 1700000888.  Identifiers: server 0 cell 1 _default 2 rack:1 3 rack 4 rack:2 5 srv1 6 foo.app#1 7
    srv2 8 bar.app#3 9 srv3 10 foo 11 x 12 bar 13 bar.app 14 bar.app#4 15 foo.app 16 g1 17 foo.app#2 18.
    (The terms are what harness/props/c11load.py emits for that store; [ex_impl_flat] is the dump of the REAL Master.cell
    after load_model() on it.) *)
Definition ex_ids : list (str * Z) :=
  [([115;101;114;118;101;114], 0);
   ([99;101;108;108], 1);
   ([95;100;101;102;97;117;108;116], 2);
   ([114;97;99;107;58;49], 3);
   ([114;97;99;107], 4);
   ([114;97;99;107;58;50], 5);
   ([115;114;118;49], 6);
   ([102;111;111;46;97;112;112;35;48;48;48;48;48;48;48;48;48;49], 7);
   ([115;114;118;50], 8);
   ([98;97;114;46;97;112;112;35;48;48;48;48;48;48;48;48;48;51], 9);
   ([115;114;118;51], 10);
   ([102;111;111], 11);
   ([120], 12);
   ([98;97;114], 13);
   ([98;97;114;46;97;112;112], 14);
   ([98;97;114;46;97;112;112;35;48;48;48;48;48;48;48;48;48;52], 15);
   ([102;111;111;46;97;112;112], 16);
   ([103;49], 17);
   ([102;111;111;46;97;112;112;35;48;48;48;48;48;48;48;48;48;50], 18)].
Definition ex_id (s : str) : Z := match sfind s ex_ids with Some z => z | None => -1 end.
Definition ex_store : store :=
  (mkStore [99;101;108;108] 1700000050 11 [[115;115;100]] [] [(mkBE [114;97;99;107;58;49] None None); (mkBE
  [114;97;99;107;58;50] None None)] [[114;97;99;107;58;49]; [114;97;99;107;58;50]] [(mkSE [115;114;118;49] (Some {|
  sr_partition := None; sr_res := {| r_memory := (Some (VStr [52;48;48;48;77])); r_cpu := (Some (VStr
  [52;48;48;37])); r_disk := (Some (VStr [52;48;48;48;77])) |}; sr_traits := None; sr_up_since := (Some 1699999000);
  sr_parent := (Some [114;97;99;107;58;49]) |}) (Some 19000) 1701734399 (Some (Up, 1699999500)) [(mkPN
  [102;111;111;46;97;112;112;35;48;48;48;48;48;48;48;48;48;49] (Some 2) 1700000777 30000)]); (mkSE [115;114;118;50]
  (Some {| sr_partition := None; sr_res := {| r_memory := (Some (VStr [50;48;48;48;77])); r_cpu := (Some (VStr
  [50;48;48;37])); r_disk := (Some (VStr [51;48;48;48;77])) |}; sr_traits := (Some [[115;115;100]]); sr_up_since :=
  (Some 1699999000); sr_parent := (Some [114;97;99;107;58;50]) |}) (Some 20000) 1701734399 (Some (Up, 1699999500))
  [(mkPN [98;97;114;46;97;112;112;35;48;48;48;48;48;48;48;48;48;51] None 1700000888 31000)]); (mkSE [115;114;118;51]
  (Some {| sr_partition := None; sr_res := {| r_memory := (Some (VStr [51;48;48;48;77])); r_cpu := (Some (VStr
  [51;48;48;37])); r_disk := (Some (VStr [51;48;48;48;77])) |}; sr_traits := None; sr_up_since := (Some 1699999000);
  sr_parent := (Some [114;97;99;107;58;50]) |}) None 0 (Some (Up, 1699999500)) [])] [(mkAE
  [95;100;101;102;97;117;108;116] [102;111;111;47;120] {| r_memory := (Some (VStr [49;48;48;48;77])); r_cpu := (Some
  (VStr [49;48;48;37])); r_disk := (Some (VStr [49;48;48;48;77])) |} (Some 50) (Some 0) None (Some []) [30])] [(mkAP
  [98;97;114;46;97;112;112;35;48;48;48;48;48;48;48;48;48;51] (Some {| m_priority := (Some (VInt 7)); m_res := {|
  r_memory := (Some (VStr [51;48;48;77])); r_cpu := (Some (VStr [50;48;37])); r_disk := (Some (VStr [51;48;48;77]))
  |}; m_affinity := (Some [98;97;114;46;97;112;112]); m_limits := None; m_group := None; m_once := None; m_drt :=
  None; m_lease := None; m_traits := None |}) None false); (mkAP
  [98;97;114;46;97;112;112;35;48;48;48;48;48;48;48;48;48;52] (Some {| m_priority := None; m_res := {| r_memory :=
  (Some (VStr [49;53;48;48;77])); r_cpu := (Some (VStr [49;53;48;37])); r_disk := (Some (VStr [49;50;48;48;77])) |};
  m_affinity := (Some [98;97;114;46;97;112;112]); m_limits := None; m_group := None; m_once := (Some (TBool true));
  m_drt := None; m_lease := None; m_traits := None |}) None false); (mkAP
  [102;111;111;46;97;112;112;35;48;48;48;48;48;48;48;48;48;49] (Some {| m_priority := None; m_res := {| r_memory :=
  (Some (VStr [53;48;48;77])); r_cpu := (Some (VStr [53;48;37])); r_disk := (Some (VStr [53;48;48;77])) |};
  m_affinity := (Some [102;111;111;46;97;112;112]); m_limits := None; m_group := (Some [103;49]); m_once := None;
  m_drt := None; m_lease := None; m_traits := None |}) (Some (0%nat, 0%nat)) false); (mkAP
  [102;111;111;46;97;112;112;35;48;48;48;48;48;48;48;48;48;50] (Some {| m_priority := None; m_res := {| r_memory :=
  (Some (VStr [56;48;48;77])); r_cpu := (Some (VStr [49;48;48;37])); r_disk := (Some (VStr [51;48;48;77])) |};
  m_affinity := (Some [102;111;111;46;97;112;112]); m_limits := None; m_group := (Some [103;49]); m_once := None;
  m_drt := None; m_lease := (Some (VStr [54;48;48;115])); m_traits := None |}) (Some (0%nat, 0%nat)) false)] [(mkGE
  [103;49] (Some (Some 3)))]).
Definition ex_impl_flat : list Z :=
  [1700000050; 4; 9; 7; 1; 8; (-1); 1; 1700000888; 0; 0; 0; 0; (-1); 2; 2; 2; 13; 15; 1; (-1); (-1); (-1); 0; 0; 0;
  0; (-1); 2; 2; 2; 13; 7; 30; 1; 6; 1; 2; 1; 1700000777; 0; 0; 0; 0; (-1); 2; 2; 11; 12; 18; 30; (-1); (-1); (-1);
  0; 0; 0; 0; (-1); 2; 2; 11; 12; 3; 6; 0; 1700000050; 1701734399; 3; 3500; 350; 3500; 1; 7; 1; 16; 1; 8; 0;
  1700000050; 1701734399; 3; 1700; 180; 2700; 1; 9; 1; 14; 1; 10; 1; 1700000050; 0; 3; 3000; 300; 3000; 0; 0; 3; 1;
  3; 3500; 350; 3500; 1; 2; 2; 2; 14; 1; 16; 1; 0; 2; 3; 5; 3; 3; 3500; 350; 3500; 1; 2; 0; 1; 16; 1; 0; 1; 6; 5; 3;
  1700; 180; 2700; 1; 2; 2; 1; 14; 1; 0; 2; 8; 10; 1; 17; 3; 2; 0; 1; 1; 2; 3; 0; 0; 0; 100; 0; 0; 0; 2; 11; 3; 0;
  0; 0; 100; 0; 0; 0; 1; 12; 3; 1000; 100; 1000; 50; 0; 0; 2; 7; 18; 0; 2; 3; 0; 0; 0; 100; 0; 0; 0; 1; 13; 3; 0; 0;
  0; 100; 0; 0; 2; 9; 15; 0; 9; 3; 300; 20; 300; 14; 0; 0; 0; (-1); (-1); 0; 11; 15; 3; 1500; 150; 1200; 14; 0; 0;
  0; (-1); (-1); 1; 12; 7; 3; 500; 50; 500; 16; 0; 0; 0; (-1); 1; 17; 0; 13; 18; 3; 800; 100; 300; 16; 0; 0; 600;
  (-1); 1; 17; 0; 14; 6; 1; 3; 3; 4000; 400; 4000; 2; 0; 8; 1; 5; 3; 2000; 200; 3000; 2; 2; 10; 1; 5; 3; 3000; 300;
  3000; 2; 0; 1; 1; (-1); 3; 4; 1; 1; 5; 4; 1; 1].

Definition ex_T := ltables_canon.
Definition ex_U := utables_canon.
Definition ex_cell := load_model_full ex_T ex_U ex_id (-2) ex_store.
Definition ex_view (c : cell) (n : Z) := option_map (fun a => (a_server a, a_expiry a, a_identity a)) (get_app n (c_apps c)).

Example C11M_nonvacuous_conditions :
  store_wfb ex_T ex_U ex_id (-2) ex_store = true /\ store_okb ex_T ex_U ex_id (-2) ex_store = true /\
  length (load_model_ops ex_T ex_U ex_id (-2) ex_store) = 25%nat /\
  map sr_name (store_srecs ex_T ex_U ex_id (-2) ex_store) = [6; 8; 10].
Proof. vm_compute. repeat split. Qed.

(** a conjunct that is a theorem is taken out before the others are evaluated *)
Lemma seventh_of_eight (A1 A2 A3 A4 A5 A6 A7 A8 : Prop) :
  A7 -> A1 /\ A2 /\ A3 /\ A4 /\ A5 /\ A6 /\ A8 -> A1 /\ A2 /\ A3 /\ A4 /\ A5 /\ A6 /\ A7 /\ A8.
Proof. tauto. Qed.

(** the two recorded instances are where they were recorded, with the recorded expiry and identity; the two others
    are pending; the group has lost identity 2; srv3 is down; and the whole cell is, field by field, what the real
    master built *)
Example C11M_nonvacuous_cell :
  ex_view ex_cell 7 = Some (Some 6, Some 1700000777, Some 2) /\
  ex_view ex_cell 9 = Some (Some 8, Some 1700000888, None) /\
  ex_view ex_cell 18 = Some (None, None, None) /\ ex_view ex_cell 15 = Some (None, None, None) /\
  aget 17 (c_groups ex_cell) = Some (mkGroup 3 [0; 1]) /\
  map (fun s => (s_name s, s_state s, s_apps s)) (c_servers ex_cell) = [(6, Up, [7]); (8, Up, [9]); (10, Down, [])] /\
  ex_cell = run (init_of ex_id ex_store) (load_model_ops ex_T ex_U ex_id (-2) ex_store) /\
  dump_cell ex_cell ++ dump_static ex_cell = ex_impl_flat.
Proof.
  apply seventh_of_eight; [|vm_compute; repeat split].
  exact (C11M_load_model_full_is_a_run _ _ _ _ _ (C11M_store_conditions _ _ _ _ _ (proj1 C11M_nonvacuous_conditions))).
Qed.

(** the first cycle of that master: the two recorded instances stay, foo.app#2 is placed and takes an identity of the
    group (the hypotheses of C11M_first_cycle_identities are met, its conclusion is not empty) *)
Example C11M_nonvacuous_first_cycle :
  let c2 := step ex_cell (OSchedule []) in
  ex_view c2 7 = Some (Some 6, Some 1700000777, Some 2) /\
  ex_view c2 9 = Some (Some 8, Some 1700000888, None) /\
  (exists s e, ex_view c2 18 = Some (Some s, Some e, Some 0)) /\
  gcount c2 17 = Some 3.
Proof. vm_compute. repeat split. eexists. eexists. reflexivity. Qed.

(** * Outside the side condition: the same store with foo.app#1 ALSO recorded under srv2.  [store_okb] is false; the
    real master (and the master-level model) restores the instance under both servers and the duplicate pass takes it
    off both - the run of the alphabet, where ORestore refuses an instance that names a server, leaves it on srv1 *)
Definition ex_store_dup : store :=
  (mkStore [99;101;108;108] 1700000050 11 [[115;115;100]] [] [(mkBE [114;97;99;107;58;49] None None); (mkBE
  [114;97;99;107;58;50] None None)] [[114;97;99;107;58;49]; [114;97;99;107;58;50]] [(mkSE [115;114;118;49] (Some {|
  sr_partition := None; sr_res := {| r_memory := (Some (VStr [52;48;48;48;77])); r_cpu := (Some (VStr
  [52;48;48;37])); r_disk := (Some (VStr [52;48;48;48;77])) |}; sr_traits := None; sr_up_since := (Some 1699999000);
  sr_parent := (Some [114;97;99;107;58;49]) |}) (Some 19000) 1701734399 (Some (Up, 1699999500)) [(mkPN
  [102;111;111;46;97;112;112;35;48;48;48;48;48;48;48;48;48;49] (Some 2) 1700000777 30000)]); (mkSE [115;114;118;50]
  (Some {| sr_partition := None; sr_res := {| r_memory := (Some (VStr [50;48;48;48;77])); r_cpu := (Some (VStr
  [50;48;48;37])); r_disk := (Some (VStr [51;48;48;48;77])) |}; sr_traits := (Some [[115;115;100]]); sr_up_since :=
  (Some 1699999000); sr_parent := (Some [114;97;99;107;58;50]) |}) (Some 20000) 1701734399 (Some (Up, 1699999500))
  [(mkPN [98;97;114;46;97;112;112;35;48;48;48;48;48;48;48;48;48;51] None 1700000888 31000); (mkPN
  [102;111;111;46;97;112;112;35;48;48;48;48;48;48;48;48;48;49] (Some 2) 1700000999 99000)]); (mkSE [115;114;118;51]
  (Some {| sr_partition := None; sr_res := {| r_memory := (Some (VStr [51;48;48;48;77])); r_cpu := (Some (VStr
  [51;48;48;37])); r_disk := (Some (VStr [51;48;48;48;77])) |}; sr_traits := None; sr_up_since := (Some 1699999000);
  sr_parent := (Some [114;97;99;107;58;50]) |}) None 0 (Some (Up, 1699999500)) [])] [(mkAE
  [95;100;101;102;97;117;108;116] [102;111;111;47;120] {| r_memory := (Some (VStr [49;48;48;48;77])); r_cpu := (Some
  (VStr [49;48;48;37])); r_disk := (Some (VStr [49;48;48;48;77])) |} (Some 50) (Some 0) None (Some []) [30])] [(mkAP
  [98;97;114;46;97;112;112;35;48;48;48;48;48;48;48;48;48;51] (Some {| m_priority := (Some (VInt 7)); m_res := {|
  r_memory := (Some (VStr [51;48;48;77])); r_cpu := (Some (VStr [50;48;37])); r_disk := (Some (VStr [51;48;48;77]))
  |}; m_affinity := (Some [98;97;114;46;97;112;112]); m_limits := None; m_group := None; m_once := None; m_drt :=
  None; m_lease := None; m_traits := None |}) None false); (mkAP
  [98;97;114;46;97;112;112;35;48;48;48;48;48;48;48;48;48;52] (Some {| m_priority := None; m_res := {| r_memory :=
  (Some (VStr [49;53;48;48;77])); r_cpu := (Some (VStr [49;53;48;37])); r_disk := (Some (VStr [49;50;48;48;77])) |};
  m_affinity := (Some [98;97;114;46;97;112;112]); m_limits := None; m_group := None; m_once := (Some (TBool true));
  m_drt := None; m_lease := None; m_traits := None |}) None false); (mkAP
  [102;111;111;46;97;112;112;35;48;48;48;48;48;48;48;48;48;49] (Some {| m_priority := None; m_res := {| r_memory :=
  (Some (VStr [53;48;48;77])); r_cpu := (Some (VStr [53;48;37])); r_disk := (Some (VStr [53;48;48;77])) |};
  m_affinity := (Some [102;111;111;46;97;112;112]); m_limits := None; m_group := (Some [103;49]); m_once := None;
  m_drt := None; m_lease := None; m_traits := None |}) (Some (0%nat, 0%nat)) false); (mkAP
  [102;111;111;46;97;112;112;35;48;48;48;48;48;48;48;48;48;50] (Some {| m_priority := None; m_res := {| r_memory :=
  (Some (VStr [56;48;48;77])); r_cpu := (Some (VStr [49;48;48;37])); r_disk := (Some (VStr [51;48;48;77])) |};
  m_affinity := (Some [102;111;111;46;97;112;112]); m_limits := None; m_group := (Some [103;49]); m_once := None;
  m_drt := None; m_lease := (Some (VStr [54;48;48;115])); m_traits := None |}) (Some (0%nat, 0%nat)) false)] [(mkGE
  [103;49] (Some (Some 3)))]).
Definition ex_impl_flat_dup : list Z :=
  [1700000050; 4; 9; 7; 1; 8; (-1); 1; 1700000888; 0; 0; 0; 0; (-1); 2; 2; 2; 13; 15; 1; (-1); (-1); (-1); 0; 0; 0;
  0; (-1); 2; 2; 2; 13; 7; 30; (-1); 1; 2; (-1); 1; 0; 0; 0; (-1); 2; 2; 11; 12; 18; 30; (-1); (-1); (-1); 0; 0; 0;
  0; (-1); 2; 2; 11; 12; 3; 6; 0; 1700000050; 1701734399; 3; 4000; 400; 4000; 0; 0; 8; 0; 1700000050; 1701734399; 3;
  1700; 180; 2700; 1; 9; 1; 14; 1; 10; 1; 1700000050; 0; 3; 3000; 300; 3000; 0; 0; 3; 1; 3; 4000; 400; 4000; 1; 2;
  2; 1; 14; 1; 0; 2; 3; 5; 3; 3; 4000; 400; 4000; 1; 2; 0; 0; 0; 1; 6; 5; 3; 1700; 180; 2700; 1; 2; 2; 1; 14; 1; 0;
  2; 8; 10; 1; 17; 3; 2; 0; 1; 1; 2; 3; 0; 0; 0; 100; 0; 0; 0; 2; 11; 3; 0; 0; 0; 100; 0; 0; 0; 1; 12; 3; 1000; 100;
  1000; 50; 0; 0; 2; 7; 18; 0; 2; 3; 0; 0; 0; 100; 0; 0; 0; 1; 13; 3; 0; 0; 0; 100; 0; 0; 2; 9; 15; 0; 9; 3; 300;
  20; 300; 14; 0; 0; 0; (-1); (-1); 0; 11; 15; 3; 1500; 150; 1200; 14; 0; 0; 0; (-1); (-1); 1; 12; 7; 3; 500; 50;
  500; 16; 0; 0; 0; (-1); 1; 17; 0; 13; 18; 3; 800; 100; 300; 16; 0; 0; 600; (-1); 1; 17; 0; 14; 6; 1; 3; 3; 4000;
  400; 4000; 2; 0; 8; 1; 5; 3; 2000; 200; 3000; 2; 2; 10; 1; 5; 3; 3000; 300; 3000; 2; 0; 1; 1; (-1); 3; 4; 1; 1; 5;
  4; 1; 1].

Example C11M_outside_duplicate :
  let cf := load_model_full ex_T ex_U ex_id (-2) ex_store_dup in
  let cr := run (init_of ex_id ex_store_dup) (load_model_ops ex_T ex_U ex_id (-2) ex_store_dup) in
  store_okb ex_T ex_U ex_id (-2) ex_store_dup = false /\ store_wfb ex_T ex_U ex_id (-2) ex_store_dup = false /\
  dump_cell cf ++ dump_static cf = ex_impl_flat_dup /\
  ex_view cf 7 = Some (None, None, Some 2) /\ ex_view cr 7 = Some (Some 6, Some 1700000999, Some 2).
Proof. vm_compute. repeat split. Qed.
