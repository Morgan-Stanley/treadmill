(** C13  A container is running or in cleanup, never both, and follows the cache.

    Model: Node/AppCfg.v (AppCfgMgr handlers after the repairs of _synchronize, _on_deleted and
    _on_created; MonitorContainerCleanup.execute; Cleanup.invoke; inotify as a FIFO queue).

    Proved for ALL event sequences (every reachable state, every iteration order):
      - an unchanged running container is left running by every handler (C13_unchanged_stays);
      - a container with an exitinfo / aborted / oom file that is not running is started by no handler
        (C13_no_restart_finished);
      - after a resynchronisation the running link of every instance is given by [expected_running]
        (C13_sync_running): the cached manifest runs exactly when it can be configured;
      - a running container whose cache entry is gone or replaced is handed to cleanup (C13_gone_to_cleanup_event, C13_gone_to_cleanup_sync);
      - the link-shape invariant (C13_one_link_partial).
    Still refuted (recorded findings): two cleanup links through the two naming schemes
    (C13_one_link_refuted) and a finished container re-created after its cleanup while the placement
    still exists (C13_finished_recreated_refuted). *)
From Coq Require Import ZArith List Bool.
From TM Require Import Node.AppCfg Node.AppCfgP.
From TM Require Import Base.ShapeCanon.
Import ListNotations.
Open Scope Z_scope.

(** * Refutations that remain (known findings) *)

(** _terminate names the cleanup link after the container, _synchronize after the instance *)
Definition w_two_cleanup_links : list op :=
  [ReadyUp; Deliver [] []; CachePut 0 0 true; Deliver [] []; CacheDel 0; Deliver [] [];
   Restart; ReadyUp; Deliver [] []].
Theorem C13_one_link_refuted :
  exists ops, let s := run ops init in
    one_link s = false /\
    lget (cleanup s) (LCont (0, 0)) = Some (0, 0) /\ lget (cleanup s) (LInst 0) = Some (0, 0).
Proof. exists w_two_cleanup_links. vm_compute. repeat split. Qed.
Print Assumptions C13_one_link_refuted.

(** the container finished and was cleaned up, the placement (cache entry) is still there, readiness
    flips: the same container name is configured and started again *)
Definition w_finished_recreated : list op :=
  [CachePut 0 0 true; ReadyUp; Deliver [] []; Deliver [] []; Exit 0 KExit; CleanupDone (LInst 0);
   ReadyDown; Deliver [] []; ReadyUp; Deliver [] []].
Theorem C13_finished_recreated_refuted :
  exists ops, let s := run ops init in
    memb cont_eqb (0, 0) (finished s) = true /\ rget (running s) 0 = Some (0, 0).
Proof. exists w_finished_recreated. vm_compute. split; reflexivity. Qed.
Print Assumptions C13_finished_recreated_refuted.

(** * What is proved, for every event sequence *)

(** a container can be linked only as running/<its instance>, cleanup/<its instance> and
    cleanup/<its own name>: at most one running link, two cleanup links only through the two naming schemes *)
Theorem C13_one_link_partial : forall ops,
  let s := run ops init in
  (forall i c, rget (running s) i = Some c -> i = app_name c) /\
  (forall l c, lget (cleanup s) l = Some c -> l = LInst (app_name c) \/ l = LCont c).
Proof.
  intros ops.
  exact (conj (fun i c H => eq_sym (proj1 (links_wf_all ops) i c H)) (proj2 (links_wf_all ops))).
Qed.
Print Assumptions C13_one_link_partial.

(** the first ready event of an inactive manager is a resynchronisation *)
Theorem C13_first_sync : forall s oc oi,
  active s = false -> handle s EvReadyUp oc oi = synchronize (with_active s true) oc oi.
Proof.
  intros s oc oi H. cbn. now rewrite H.
Qed.
Print Assumptions C13_first_sync.

(** an unchanged running container is left running: every reachable state, EVERY handler call (created,
    deleted -- also a stale one --, ready up/down incl. a resynchronisation with other generations in apps/) *)
Theorem C13_unchanged_stays : forall ops e oc oi i f ok,
  let s := run ops init in
  rget (running s) i = Some (i, f) -> aget (apps s) (i, f) <> None -> cget (cache s) i = Some (f, ok) ->
  rget (running (handle s e oc oi)) i = Some (i, f).
Proof.
  intros ops e oc oi i f ok.
  exact (unchanged_stays (run ops init) e oc oi i f ok (proj1 (reachable_ok ops)) (proj2 (reachable_ok ops))).
Qed.
Print Assumptions C13_unchanged_stays.

(** a container that has an exitinfo / aborted / oom file and is not running is started by no handler call *)
Theorem C13_no_restart_finished : forall ops e oc oi c fl,
  let s := run ops init in
  aget (apps s) c = Some fl -> flagged fl = true -> rget (running s) (app_name c) <> Some c ->
  rget (running (handle s e oc oi)) (app_name c) <> Some c.
Proof.
  intros ops e oc oi c fl.
  exact (no_restart_finished (run ops init) e oc oi c fl (proj1 (reachable_ok ops)) (proj2 (reachable_ok ops))).
Qed.
Print Assumptions C13_no_restart_finished.

(** after a resynchronisation the running link of every instance is [expected_running]: the cached manifest's
    container if it was already running, or if it is not in cleanup, not finished and configure succeeds;
    otherwise none (a running generation without a matching manifest is terminated) *)
Theorem C13_sync_running : forall ops oc oi i,
  let s := run ops init in
  rget (running (synchronize s oc oi)) i = expected_running s i.
Proof.
  intros ops oc oi i.
  exact (sync_running_general (run ops init) oc oi i (proj1 (reachable_ok ops)) (proj2 (reachable_ok ops))).
Qed.
Print Assumptions C13_sync_running.

(** in particular: a cached, configurable manifest whose container does not exist yet is running afterwards,
    whatever older generations of the instance are in apps/ *)
Theorem C13_sync_configures_new : forall ops oc oi i f,
  let s := run ops init in
  cget (cache s) i = Some (f, true) -> aget (apps s) (i, f) = None ->
  rget (running (synchronize s oc oi)) i = Some (i, f).
Proof.
  intros ops oc oi i f.
  exact (sync_configures_new (run ops init) oc oi i f (proj1 (reachable_ok ops)) (proj2 (reachable_ok ops))).
Qed.
Print Assumptions C13_sync_configures_new.

(** a deleted event of an active manager hands the instance's running container to cleanup, unless the event
    is stale (the running container was configured from the manifest that exists now) *)
Theorem C13_gone_to_cleanup_event : forall s i c oc oi,
  active s = true -> rget (running s) i = Some c -> runs_manifest s i = false ->
  let s' := handle s (EvDeleted i) oc oi in
  rget (running s') i = None /\ lget (cleanup s') (LCont c) = Some c /\
  (forall j, j <> i -> rget (running s') j = rget (running s) j).
Proof.
  intros s i c oc oi Ha Hr Hm. cbn. rewrite Ha, Hm. cbn. repeat split.
  - now rewrite terminate_running, Z.eqb_refl.
  - unfold terminate. rewrite Hr. cbn. unfold lget. rewrite lget_mset. now rewrite (proj2 (lname_eqb_spec _ _) eq_refl).
  - intros j Hj. rewrite terminate_running. now rewrite (proj2 (Z.eqb_neq i j)) by congruence.
Qed.
Print Assumptions C13_gone_to_cleanup_event.

(** a resynchronisation hands over a running generation whose manifest is gone, or was replaced by one that is
    not configured yet, and then configures the new manifest *)
Theorem C13_gone_to_cleanup_sync : forall ops oc oi i x,
  let s := run ops init in
  linked s (rget (running s) i) = Some x ->
  (forall f ok, cget (cache s) i = Some (f, ok) -> aget (apps s) (i, f) = None) ->
  lget (cleanup (synchronize s oc oi)) (LCont x) = Some x /\
  rget (running (synchronize s oc oi)) i = match cget (cache s) i with Some (f, true) => Some (i, f) | _ => None end.
Proof.
  intros ops oc oi i x.
  exact (sync_hands_over (run ops init) oc oi i x (proj1 (reachable_ok ops)) (proj2 (reachable_ok ops))).
Qed.
Print Assumptions C13_gone_to_cleanup_sync.

(** a created event configures the container of the current cache entry, unless it already finished *)
Theorem C13_created_configures : forall s i f oc oi,
  active s = true -> rget (running s) i = None -> cget (cache s) i = Some (f, true) ->
  is_finished s i = false ->
  rget (running (handle s (EvCreated i) oc oi)) i = Some (i, f).
Proof.
  intros s i f oc oi Ha Hr Hc Hf. cbn. rewrite Ha, Hr, Hf. cbn. now rewrite configure_running, Z.eqb_refl, Hc.
Qed.
Print Assumptions C13_created_configures.

(** * The histories that refuted the statement before the repairs, as regression examples *)
Definition w_late_event : list op :=
  [ReadyUp; CachePut 0 0 true; Deliver [] []; Exit 0 KExit; Deliver [] []].
Definition w_stale_delete : list op :=
  [ReadyUp; Deliver [] []; CachePut 0 0 true; CacheDel 0; CachePut 0 1 true;
   Deliver [] []; Deliver [] []; Deliver [] []].
Definition w_two_generations (oc : list cont) : list op :=
  [ReadyUp; Deliver [] []; CachePut 0 0 true; Deliver [] []; CacheDel 0; Deliver [] [];
   CachePut 0 1 true; Deliver [] []; ReadyDown; Deliver [] []; ReadyUp; Deliver oc []].
Definition w_replaced_while_down : list op :=
  [CachePut 0 0 true; ReadyUp; Deliver [] []; Deliver [] []; CachePut 0 1 true; Restart; ReadyUp; Deliver [] []].

Example C13_regressions :
  (let s := run w_late_event init in rget (running s) 0 = None /\ one_link s = true) /\
  (let s := run w_stale_delete init in rget (running s) 0 = Some (0, 1) /\ cleanup s = [] /\ one_link s = true) /\
  (forall oc, oc = [(0, 0); (0, 1)] \/ oc = [(0, 1); (0, 0)] ->
     rget (running (run (w_two_generations oc) init)) 0 = Some (0, 1)) /\
  (let s := run w_replaced_while_down init in
     rget (running s) 0 = Some (0, 1) /\ lget (cleanup s) (LCont (0, 0)) = Some (0, 0) /\ one_link s = true).
Proof.
  split; [vm_compute; auto | split; [vm_compute; auto | split]].
  - intros oc [->| ->]; vm_compute; reflexivity.
  - vm_compute. auto.
Qed.

(** non-vacuity of the hypotheses: a reachable state with a running unchanged container (kept), one whose
    cache entry is gone (handed over), a finished one (not restarted) and a new manifest (configured) *)
Definition ex_ops : list op :=
  [ReadyUp; Deliver [] []; CachePut 0 0 true; Deliver [] []; CachePut 1 1 true; Deliver [] [];
   CachePut 2 2 true; Deliver [] []; Flag (2, 2) KOom; Boot; CachePut 1 3 true; CachePut 3 4 true;
   CacheDel 0; CachePut 0 5 true].
Example C13_nonvacuous :
  let s := run ex_ops init in let s' := synchronize s [] [] in
  active s = false /\
  (exists fl, aget (apps s) (2, 2) = Some fl /\ flagged fl = true) /\ cget (cache s) 2 = Some (2, true) /\
  rget (running s') 0 = Some (0, 5) /\ rget (running s') 1 = Some (1, 3) /\ rget (running s') 2 = None /\
  rget (running s') 3 = Some (3, 4) /\ lget (cleanup s') (LInst 2) = Some (2, 2) /\ one_link s' = true.
Proof. vm_compute. repeat split. eexists; split; reflexivity. Qed.

(** the functions named by this property's anchors still have the statement skeleton the model was written from
    (re-extracted from the Python AST on every run, harness/tables_shape.py + harness/shape_pins.json; kept last so that
    a difference does not stop the theorems above from being checked) *)
Theorem C13_source_shape : shapes_ok_C13 = true.
Proof. vm_compute. reflexivity. Qed.
Print Assumptions C13_source_shape.
