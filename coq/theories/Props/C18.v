(** C18  Archiving trace history never loses or prematurely archives events.

    Model: [TM.Trace.Archive] (cleanup_trace / cleanup_finished / cleanup_server_trace /
    _zk.upload_batch / _zk.cleanup / _zk.download_batch as ordered lists of ZooKeeper writes).
    [trace_cut b now expires sched s k] is the store after cleanup_trace stopped after k writes
    (k >= number of writes: the complete run).  All statements are for ALL stores (any shard
    population), ALL batch sizes / clocks and EVERY cut k. *)
From Coq Require Import ZArith List Bool Lia.
From TM Require Import Trace.Archive Trace.ArchiveP.
From TM Require Import Base.ShapeCanon.
Import ListNotations.
Open Scope Z_scope.

(** every event live beforehand is, after any number of writes, still live or in some snapshot *)
Theorem C18_lossless : forall (s : tstore) b now expires sched k e,
  keys_unique e_key s = true -> In e (live s) ->
  In e (live (trace_cut b now expires sched s k)) \/ archived trow_of (trace_cut b now expires sched s k) e.
Proof.
  intros s b now expires sched k e Hk. apply sel_lossless; [apply keys_unique_NoDup, Hk | apply trace_cands_live].
Qed.
Print Assumptions C18_lossless.

(** an event that is no longer live is returned by download_batch for its instance *)
Theorem C18_retrievable : forall (s : tstore) b now expires sched k e,
  keys_unique e_key s = true -> In e (live s) ->
  In e (live (trace_cut b now expires sched s k)) \/
  exists n rows, In (n, rows) (hist (trace_cut b now expires sched s k)) /\ In (e_key e) (download rows (e_inst e)).
Proof.
  intros s b now expires sched k e Hk He.
  destruct (C18_lossless s b now expires sched k e Hk He) as [H|H]; [left; exact H|].
  right. apply archived_download. exact H.
Qed.
Print Assumptions C18_retrievable.

(** events of scheduled instances and events not older than the expiry stay live at every cut; every
    snapshot that appears is new (sequence number >= the old counter), holds exactly batch_size rows, each
    the row of an event that was live, unscheduled and older than the expiry; old snapshots are unchanged;
    no live node appears *)
Theorem C18_selection : forall (s : tstore) b now expires sched k,
  keys_unique e_key s = true ->
  (forall e, In e (live s) -> is_scheduled sched e = true \/ now - expires <= e_ts e ->
             In e (live (trace_cut b now expires sched s k))) /\
  (forall h, In h (hist (trace_cut b now expires sched s k)) ->
     In h (hist s) \/
     (seq s <= fst h /\ length (snd h) = b /\
      forall r, In r (snd h) -> exists e, In e (live s) /\ r = trow_of e /\
                                          is_scheduled sched e = false /\ e_ts e < now - expires)) /\
  (forall h, In h (hist s) -> In h (hist (trace_cut b now expires sched s k))) /\
  (forall e, In e (live (trace_cut b now expires sched s k)) -> In e (live s)).
Proof.
  intros s b now expires sched k Hk.
  destruct (sel_cut e_key trow_of s b _ (keys_unique_NoDup e_key s Hk) (trace_cands_live now expires sched s)
              (fun e => trace_candidate now expires sched e = true) k (trace_cands_In now expires sched s))
    as (H1 & H2 & H3 & H4).
  split; [|split; [|split; assumption]].
  - intros e He Hp. apply H1; [exact He|]. unfold trace_candidate, expired.
    destruct Hp as [Hp|Hp]; [rewrite Hp; discriminate | lia].
  - intros h Hh. destruct (H2 h Hh) as [Hh'|(Hn & Hl & Hr)]; [left; exact Hh'|]. right. split; [exact Hn|]. split; [exact Hl|].
    intros r Hin. destruct (Hr r Hin) as (e & He & Hc & ->). exists e.
    unfold trace_candidate, expired in Hc. apply andb_true_iff in Hc as [Hc1 Hc2]. apply negb_true_iff in Hc1.
    repeat split; auto. lia.
Qed.
Print Assumptions C18_selection.

(** partial batches are untouched: of the expired unscheduled events sorted by (timestamp, shard, name)
    the first (n / b) * b are archived by the complete run, the remaining n mod b < b -- the newest --
    stay live at every cut *)
Theorem C18_partial_batch : forall (s : tstore) b now expires sched,
  (0 < b)%nat -> keys_unique e_key s = true ->
  (length (leftover b (trace_candidates now expires sched s)) < b)%nat /\
  length (archived_part b (trace_candidates now expires sched s))
    = (length (trace_candidates now expires sched s) / b * b)%nat /\
  (forall k e, In e (leftover b (trace_candidates now expires sched s)) ->
               In e (live (trace_cut b now expires sched s k))) /\
  (forall a c, In a (archived_part b (trace_candidates now expires sched s)) ->
               In c (leftover b (trace_candidates now expires sched s)) -> ev_leb a c = true) /\
  (forall e, In e (live (trace_done b now expires sched s)) <->
             In e (live s) /\ ~ In e (archived_part b (trace_candidates now expires sched s))) /\
  (forall e, In e (archived_part b (trace_candidates now expires sched s)) ->
             archived trow_of (trace_done b now expires sched s) e).
Proof.
  intros s b now expires sched Hb Hk. pose proof (keys_unique_NoDup e_key s Hk) as Hnd.
  pose proof (trace_cands_live now expires sched s) as Hsub.
  split; [apply leftover_length; exact Hb|]. split; [apply archived_part_length|].
  split; [intros k e; apply sel_leftover_stay; auto using trace_cands_NoDup|].
  split; [|split; intros e; apply (sel_complete e_key trow_of s b _ Hnd Hsub e)].
  intros a c. apply sorted_firstn_skipn. apply isort_sorted; [apply ev_leb_total | apply ev_leb_trans].
Qed.
Print Assumptions C18_partial_batch.

(** finished records: lossless at every cut *)
Theorem C18_lossless_finished : forall (s : fstore) b now expires k f,
  keys_unique f_inst s = true -> In f (live s) ->
  In f (live (fin_cut b now expires s k)) \/ archived fin_row (fin_cut b now expires s k) f.
Proof.
  intros s b now expires k f Hk. apply sel_lossless; [apply keys_unique_NoDup, Hk | apply fin_cands_live].
Qed.
Print Assumptions C18_lossless_finished.

(** finished records: young records and the partial batch stay; new snapshots hold batch_size expired records
    (with their data); old snapshots unchanged *)
Theorem C18_selection_finished : forall (s : fstore) b now expires k,
  keys_unique f_inst s = true ->
  (forall f, In f (live s) -> now - expires <= f_mtime f -> In f (live (fin_cut b now expires s k))) /\
  (forall h, In h (hist (fin_cut b now expires s k)) ->
     In h (hist s) \/
     (seq s <= fst h /\ length (snd h) = b /\ forall r, In r (snd h) -> In r (live s) /\ f_mtime r < now - expires)) /\
  (forall h, In h (hist s) -> In h (hist (fin_cut b now expires s k))) /\
  (forall f, In f (leftover b (fin_candidates now expires s)) -> In f (live (fin_cut b now expires s k))) /\
  ((0 < b)%nat -> (length (leftover b (fin_candidates now expires s)) < b)%nat).
Proof.
  intros s b now expires k Hk. pose proof (keys_unique_NoDup f_inst s Hk) as Hnd.
  pose proof (fin_cands_live now expires s) as Hsub.
  destruct (sel_cut f_inst fin_row s b _ Hnd Hsub (fun f => f_mtime f < now - expires) k (fin_cands_In now expires s))
    as (H1 & H2 & H3 & _).
  split; [|split; [|split; [exact H3|split]]].
  - intros f Hf Hy. apply H1; [exact Hf | lia].
  - intros h Hh. destruct (H2 h Hh) as [Hh'|(Hn & Hl & Hr)]; [left; exact Hh'|]. right. split; [exact Hn|]. split; [exact Hl|].
    intros r Hin. destruct (Hr r Hin) as (f & Hf & Hc & ->). split; assumption.
  - intros f Hf. apply sel_leftover_stay; auto. apply NoDup_filter. exact (NoDup_map_inv _ _ Hnd).
  - apply leftover_length.
Qed.
Print Assumptions C18_selection_finished.

(** pruning (any directory, any cut): live nodes and the sequence counter are untouched, no snapshot appears,
    and every snapshot with fewer than max_count greater names -- the newest -- is kept *)
Theorem C18_prune : forall (A R : Type) (key : A -> Z) (row_of : A -> R) (s : store A R) maxc k,
  live (cut key row_of s (prune_writes maxc s) k) = live s /\
  seq (cut key row_of s (prune_writes maxc s) k) = seq s /\
  (forall h, In h (hist (cut key row_of s (prune_writes maxc s) k)) -> In h (hist s)) /\
  (nodupb (map fst (hist s)) = true -> forall h, In h (hist s) ->
     Z.of_nat (count_gt (fst h) (map fst (hist s))) < maxc ->
     In h (hist (cut key row_of s (prune_writes maxc s) k))).
Proof.
  intros A R key row_of s maxc k.
  destruct (prune_cut key row_of s maxc k) as [H1 [H2 [H3 H4]]]. repeat split; auto.
  intros Hnd. apply H4. apply nodupb_NoDup. exact Hnd.
Qed.
Print Assumptions C18_prune.

(** the complete pruning run keeps exactly the max_count greatest names *)
Theorem C18_prune_complete : forall (A R : Type) (key : A -> Z) (row_of : A -> R) (s : store A R) maxc h,
  nodupb (map fst (hist s)) = true ->
  (In h (hist (apply_writes key row_of s (prune_writes maxc s))) <->
   In h (hist s) /\ Z.of_nat (count_gt (fst h) (map fst (hist s))) < maxc).
Proof.
  intros A R key row_of s maxc h Hnd. apply prune_complete. apply nodupb_NoDup. exact Hnd.
Qed.
Print Assumptions C18_prune_complete.

(** download_batch returns an archived event for its instance, and only rows of the requested instance *)
Theorem C18_download : forall (s : tstore) e,
  archived trow_of s e ->
  exists n rows, In (n, rows) (hist s) /\ In (e_key e) (download rows (e_inst e)) /\
                 forall i k, In k (download rows i) -> exists r, In r rows /\ r_inst r = i /\ r_key r = k.
Proof.
  intros s e H. destruct (archived_download s e H) as [n [rows [H1 H2]]]. exists n, rows.
  repeat split; auto. intros i k Hk. apply download_spec. exact Hk.
Qed.
Print Assumptions C18_download.

(** server trace: the loop terminates (batch_size >= 1), is lossless at every cut, uploads full batches only
    and leaves fewer than batch_size events *)
Theorem C18_server : forall (s : tstore) b W,
  keys_unique e_key s = true -> cleanup_server_trace_writes b s = Some W ->
  (forall k e, In e (live s) ->
     In e (live (cut e_key trow_of s W k)) \/ archived trow_of (cut e_key trow_of s W k) e) /\
  (forall k h, In h (hist (cut e_key trow_of s W k)) -> In h (hist s) \/ (seq s <= fst h /\ length (snd h) = b)) /\
  (length (live (apply_writes e_key trow_of s W)) < b)%nat.
Proof.
  intros s b W Hk HW. unfold cleanup_server_trace_writes in HW.
  destruct (server_loop_batches _ _ _ _ HW) as [batches [-> [Hin [Hlen Hfin]]]].
  split; [|split].
  - intros k e He. apply archive_lossless; auto. apply keys_unique_NoDup. exact Hk.
  - intros k h Hh. apply archive_new_snapshot in Hh as [Hh|[batch [Hb [E Hn]]]]; [left; exact Hh|].
    right. split; [exact Hn|]. rewrite E, map_length. apply Hlen. exact Hb.
  - exact Hfin.
Qed.
Print Assumptions C18_server.

Theorem C18_server_terminates : forall (s : tstore) b,
  (0 < b)%nat -> cleanup_server_trace_writes b s <> None.
Proof.
  intros s b Hb. apply server_loop_terminates; [exact Hb | lia].
Qed.
Print Assumptions C18_server_terminates.

(** observation: the archived trace row never carries the node's payload (data = None); finished rows do *)
Theorem C18_payload_not_archived : forall e : event, r_data (trow_of e) = None.
Proof. intros e. exact eq_refl. Qed.
Print Assumptions C18_payload_not_archived.

(** non-vacuity: two instances (7 scheduled, 8 finished), events around the boundary now - expires = 100,
    batch size 2: events 1,2 of instance 8 are archived, event 3 (partial batch) and the boundary event 4 stay,
    the expired event 5 of the scheduled instance stays; a stop after 2 writes leaves event 1 in the snapshot
    only and event 2 both live and archived. *)
Definition ex_ev (inst ts key : Z) : event := {| e_shard := 12; e_inst := inst; e_ts := ts; e_key := key; e_data := 5 |}.
Definition ex_s : tstore :=
  {| live := [ex_ev 8 90 1; ex_ev 8 95 2; ex_ev 8 99 3; ex_ev 8 100 4; ex_ev 7 50 5]; hist := []; seq := 3 |}.
Example C18_nonvacuous :
  keys_unique e_key ex_s = true /\
  map e_key (live (trace_done 2 160 60 [7] ex_s)) = [3; 4; 5] /\
  hist (trace_done 2 160 60 [7] ex_s) = [(3, [trow_of (ex_ev 8 90 1); trow_of (ex_ev 8 95 2)])] /\
  map e_key (live (trace_cut 2 160 60 [7] ex_s 2)) = [2; 3; 4; 5] /\
  length (cleanup_trace_writes 2 160 60 [7] ex_s) = 3%nat /\
  download [trow_of (ex_ev 8 90 1); trow_of (ex_ev 8 95 2)] 8 = [1; 2] /\
  map fst (hist (apply_writes e_key trow_of {| live := []; hist := [(4, []); (9, []); (5, [])]; seq := 10 |}
                              (prune_writes 2 {| live := @nil event; hist := [(4, @nil trow); (9, []); (5, [])]; seq := 10 |})))
    = [9; 5] /\
  cleanup_server_trace_writes 2 ex_s <> None.
Proof. vm_compute. repeat split; discriminate. Qed.

(** the functions named by this property's anchors still have the statement skeleton the model was written from
    (re-extracted from the Python AST on every run, harness/tables_shape.py + harness/shape_pins.json; kept last so that
    a difference does not stop the theorems above from being checked) *)
Theorem C18_source_shape : shapes_ok_C18 = true.
Proof. vm_compute. reflexivity. Qed.
Print Assumptions C18_source_shape.
