(** C09  The published placement equals the scheduler's model after every cycle.

    Model: Master/Publish.v.  A cycle = Cell.schedule (Sched/Cycle.v [schedule], its own properties C01..C08)
    followed by the publication, which is a function of the placement tuples the cycle returned and of the
    per-instance data {identity, identity_count, expires} read from cell.apps.

    The publication theorems hold for all tuple lists and all stores under two hypotheses that tie the store to what
    the cycle read, which the publication cannot check because it reads nothing back:
      [within_before]        no entry of a listed instance outside its `before` server
      [unchanged_published]  for an instance the cycle left alone the stored data is the current data.
    Both are necessary on the current tree (known findings; the model follows the code): C09_unchanged_needed_refuted
    (signature stale-expiry-after-server-reload-not-republished) and C10_stale_entry_refuted (Props/C10.v,
    Loader.remove_server).
    Oracle and correspondence only (E-master, harness/props/c09.py): that the real handlers between two cycles keep
    the two hypotheses (they do not always: see the signatures above), and that Cell.schedule's tuples are what the
    Sched model computes (E-cell). *)
From Coq Require Import ZArith List Bool.
From TM Require Import Master.Publish Master.PublishP Gen.Tables.
From TM Require Import Base.ShapeCanon.
Import ListNotations.
Open Scope Z_scope.

Definition c10_cfg : cfg :=
  cfg_of_tables c10_reschedule_phases c10_changed_filter c10_init_phases c10_init_flags c10_integrity_flags.

Theorem C09_source_shape : cfg_canonical c10_cfg = true.
Proof. vm_compute. reflexivity. Qed.
Print Assumptions C09_source_shape.

(** after Master.reschedule the store holds, for every listed instance, exactly one entry: under the `after` server
    with the current data, none if pending; every other node is untouched *)
Theorem C09_publication : forall tuples i once st,
  NoDup (map t_name tuples) ->
  within_before tuples st ->
  unchanged_published tuples i st ->
  let final := apply_writes st (reschedule_writes c10_cfg tuples i once) in
  (forall t, In t tuples -> forall s,
     lookup final s (t_name t) = if oeqb (t_sa t) (Some s) then Some (get_info i (t_name t)) else None) /\
  (forall a, ~ In a (map t_name tuples) -> forall s, lookup final s a = lookup st s a).
Proof.
  intros tuples i once st H1 H2 H3.
  exact (resched_final c10_cfg tuples i once st C09_source_shape H1 H2 H3).
Qed.
Print Assumptions C09_publication.

(** the same as equality, node by node, with the model's placement *)
Theorem C09_published_equals_model : forall tuples i once st,
  NoDup (map t_name tuples) ->
  within_before tuples st ->
  unchanged_published tuples i st ->
  (forall s a, has st s a = true -> In a (map t_name tuples)) ->
  forall s a, lookup (apply_writes st (reschedule_writes c10_cfg tuples i once)) s a =
              lookup (model_entries i tuples) s a.
Proof.
  intros tuples i once st H1 H2 H3 H4.
  exact (resched_equals_model c10_cfg tuples i once st C09_source_shape H1 H2 H3 H4).
Qed.
Print Assumptions C09_published_equals_model.

(** after Master.init_schedule the nodes under every server of the model are exactly server.apps, each with the
    current placement data (identity, identity_count, expires) *)
Theorem C09_startup_content : forall st i members,
  NoDup (map fst members) ->
  let final := apply_writes st (init_writes c10_cfg st i members) in
  (forall s correct, In (s, correct) members -> forall a,
     lookup final s a = if zmem a correct then Some (get_info i a) else None) /\
  (forall s, ~ In s (map fst members) -> forall a, lookup final s a = lookup st s a).
Proof.
  intros st i members H. exact (init_final c10_cfg st i members C09_source_shape H).
Qed.
Print Assumptions C09_startup_content.

(** group shrunk while no master ran: the store says identity 2, the restarted model runs the instance with identity 0
    on the same server.  Before the repair "fix: init_schedule reconciles the content of placement nodes, not only
    their names" init_schedule left the node as it was; the repaired code rewrites it *)
Example C09_startup_content_regression :
  let st := [(1, 7, mkPD (Some 2) (Some 3) (Some 100))] in
  let i := [(7, mkPD (Some 0) (Some 2) (Some 100))] in
  flat_writes (init_writes c10_cfg st i [(1, [7])]) = [3; 3; 1; 2; 1; 7; 1; 0; 1; 2; 1; 100; 6] /\
  lookup (apply_writes st (init_writes c10_cfg st i [(1, [7])])) 1 7 = Some (get_info i 7).
Proof. vm_compute. split; reflexivity. Qed.

(** [unchanged_published] is necessary: the cycle reports instance 7 as unchanged (same server, same expiry) but a
    handler has given it a new expiry since the node was written (Loader.reload_server re-puts instances with a new
    expiry): nothing is rewritten *)
Theorem C09_unchanged_needed_refuted : exists tuples i once st t s,
  NoDup (map t_name tuples) /\ within_before tuples st /\ In t tuples /\ t_sa t = Some s /\
  lookup (apply_writes st (reschedule_writes c10_cfg tuples i once)) s (t_name t) <> Some (get_info i (t_name t)).
Proof.
  exists [(7, Some 1, Some 200, Some 1, Some 200)], [(7, mkPD None None (Some 200))], [],
         [(1, 7, mkPD None None (Some 100))], (7, Some 1, Some 200, Some 1, Some 200), 1.
  split; [repeat constructor; cbn; intuition|].
  split; [apply within_beforeb_sound; vm_compute; reflexivity|].
  split; [left; reflexivity|]. split; [reflexivity|]. vm_compute. discriminate.
Qed.
Print Assumptions C09_unchanged_needed_refuted.

(** non-vacuity: the cycle of Props/C10.v's example; the published store is the model's placement *)
Definition ex_d (e : Z) : pdata := mkPD None None (Some e).
Definition ex_tuples : list ptuple :=
  [(1, Some 10, Some 100, Some 11, Some 200); (2, Some 10, Some 100, Some 10, Some 300);
   (3, None, None, Some 11, Some 200); (4, Some 11, Some 100, None, None); (5, Some 10, Some 100, Some 10, Some 100)].
Definition ex_info : info := [(1, ex_d 200); (2, ex_d 300); (3, ex_d 200); (4, mkPD None None None); (5, ex_d 100)].
Definition ex_store : store := [(10, 1, ex_d 100); (10, 2, ex_d 100); (11, 4, ex_d 100); (10, 5, ex_d 100)].
Example C09_nonvacuous :
  nodupb (map t_name ex_tuples) = true /\ within_beforeb ex_tuples ex_store = true /\
  unchanged_publishedb canonical_cfg ex_tuples ex_info ex_store = true /\
  forallb (fun e => zmem (e_app e) (map t_name ex_tuples)) ex_store = true /\
  flat_store (apply_writes ex_store (reschedule_writes c10_cfg ex_tuples ex_info [4])) =
    [4; 10; 2; -1; -1; 1; 300; 10; 5; -1; -1; 1; 100; 11; 1; -1; -1; 1; 200; 11; 3; -1; -1; 1; 200] /\
  flat_store (model_entries ex_info ex_tuples) =
    [4; 10; 2; -1; -1; 1; 300; 10; 5; -1; -1; 1; 100; 11; 1; -1; -1; 1; 200; 11; 3; -1; -1; 1; 200].
Proof. vm_compute. repeat split. Qed.

(** the functions named by this property's anchors still have the statement skeleton the model was written from
    (re-extracted from the Python AST on every run, harness/tables_shape.py + harness/shape_pins.json; kept last so that
    a difference does not stop the theorems above from being checked) *)
Theorem C09_anchor_shape : shapes_ok_C09 = true.
Proof. vm_compute. reflexivity. Qed.
Print Assumptions C09_anchor_shape.
