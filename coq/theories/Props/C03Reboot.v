(** C03 / C02, "lease lifetime": an instance with a lease is only put on a server whose [valid_until] (its next
    reboot) lies after now + lease.  Sched/*.v takes [valid_until] as a given attribute of a server; this file is
    about the code that COMPUTES it: scheduler.Partition (reboot buckets), RebootBucket, reboot_dates.

    Model: Sched/Reboot.v.  Time stamps are integers (seconds), servers are ids, float('inf') is [None].
    [reboot_dates] is a function [ds : nat -> Z] (n-th date yielded); [sched_ds W wd0 tz d0] is that function
    for a weekly schedule W, over day numbers, the weekday of day 0 and the zone's standard offset being
    parameters (daylight saving is not modelled).  [tick] has explicit fuel: [TFuel] = ran out, [TIndex] =
    IndexError; [add] returns [None] for IndexError.  DEFAULT_SERVER_UPTIME, MIN_SERVER_UPTIME and the default
    schedule are [TM.Sched.RebootRun.reboot_tables], assembled from definitions that harness/tables_reboot.py
    regenerates from the source on every run (which also pins the statement shape of Partition.__init__ /
    _find_bucket / add / remove / tick, RebootBucket.* and reboot_dates); theorems that need their values carry
    the premise [reboot_tables_ok C = true], discharged by [C03R_tables_ok].

    [reach C ds now p]: p is a state of a Partition object - built by the constructor, then any sequence of
    tick / add / remove that returned - and [now] is the argument of the last tick. *)
From Coq Require Import ZArith List Bool Sorted.
From TM Require Import Sched.Reboot Sched.RebootP Sched.RebootRun Gen.Tables.
Import ListNotations.
Open Scope Z_scope.

(** the source's constants are the ones the statement needs: 21 days, 1 day, default schedule daily 23:59:59 *)
Theorem C03R_tables_ok : reboot_tables_ok reboot_tables = true.
Proof. vm_compute. reflexivity. Qed.
Print Assumptions C03R_tables_ok.

(** the valid_until a server gets is the time stamp of one of the buckets; the server sits in that bucket
    afterwards; time stamps, the other buckets and the generator state are untouched.  All bucket lists. *)
Theorem C03R_valid_until_is_bucket : forall C s up ts p v p', add C s up ts p = Some (v, p') ->
  exists i b, nth_error (p_buckets p) i = Some b /\ b_ts b = v /\
    nth_error (p_buckets p') i = Some (bucket_add s b) /\ In s (b_srv (bucket_add s b)) /\
    (forall j, j <> i -> nth_error (p_buckets p') j = nth_error (p_buckets p) j) /\
    map b_ts (p_buckets p') = map b_ts (p_buckets p) /\ p_last p' = p_last p /\ p_idx p' = p_idx p.
Proof.
  intros C s up ts p v p' H. destruct (add_inv _ _ _ _ _ _ _ H) as (i & b & Hc & Hn & Hv & Hp). subst p' v. exists i, b.
  split; [exact Hn|]. split; [reflexivity|]. cbn [set_buckets p_buckets p_last p_idx].
  split; [rewrite upd_nth_nth, Nat.eqb_refl, Hn; reflexivity|]. split; [apply bucket_add_in|].
  split; [|split; [apply upd_nth_map, bucket_add_ts|split; reflexivity]].
  intros j Hj. rewrite upd_nth_nth. destruct (Nat.eqb i j) eqn:E; [apply Nat.eqb_eq in E; congruence|reflexivity].
Qed.
Print Assumptions C03R_valid_until_is_bucket.

(** add never raises on a non-empty bucket list *)
Theorem C03R_add_total : forall C s up ts p, p_buckets p <> [] -> exists v p', add C s up ts p = Some (v, p').
Proof. exact add_total. Qed.
Print Assumptions C03R_add_total.

(** the first bucket is not beyond up_since + DEFAULT_SERVER_UPTIME, no explicit time stamp names a bucket and
    SOME bucket lies in [up_since + MIN_SERVER_UPTIME, up_since + DEFAULT_SERVER_UPTIME]: so does the chosen one *)
Theorem C03R_window : forall C s up ts p v p' ba,
  overdue C up (p_buckets p) = false -> explicit_idx ts (p_buckets p) = None ->
  In ba (p_buckets p) -> admissible C up ba ->
  add C s up ts p = Some (v, p') ->
  up + rc_min C <= v <= up + rc_uptime C.
Proof. exact add_in_window. Qed.
Print Assumptions C03R_window.

(** overdue: the first bucket is later than up_since + DEFAULT_SERVER_UPTIME => the FIRST bucket, whatever
    time stamp was asked for and whatever the loads *)
Theorem C03R_overdue_first : forall C s up ts p b0 r, p_buckets p = b0 :: r -> b_ts b0 > up + rc_uptime C ->
  add C s up ts p = Some (b_ts b0, set_buckets p (bucket_add s b0 :: r)).
Proof. exact add_overdue_first. Qed.
Print Assumptions C03R_overdue_first.

(** an explicit (truthy) time stamp that names an existing bucket is honoured unless the server is overdue; its cost is
    not looked at (see [C03R_explicit_early_refuted]) *)
Theorem C03R_explicit_honoured : forall C s up t p, t <> 0 -> In t (map b_ts (p_buckets p)) ->
  overdue C up (p_buckets p) = false -> exists p', add C s up (Some t) p = Some (t, p').
Proof.
  intros C s up t p Ht Hin Ho. destruct (find_idx_in _ _ Hin) as [i Hi].
  assert (He : explicit_idx (Some t) (p_buckets p) = Some i).
  { unfold explicit_idx. destruct (Z.eqb_spec t 0); [contradiction|exact Hi]. }
  destruct (find_idx_spec _ _ _ Hi) as (b & Hn & Hbt & _).
  unfold add. rewrite (choose_explicit _ _ _ _ _ Ho He), Hn, Hbt. eexists. reflexivity.
Qed.
Print Assumptions C03R_explicit_honoured.

(** neither overdue nor explicit: the result is min(reversed(buckets), key=cost): no bucket is cheaper and every LATER bucket is
    strictly dearer ([clt]: Python's < on ints and inf) *)
Theorem C03R_cheapest_latest : forall C s up ts p v p',
  overdue C up (p_buckets p) = false -> explicit_idx ts (p_buckets p) = None ->
  add C s up ts p = Some (v, p') ->
  exists i b, nth_error (p_buckets p) i = Some b /\ b_ts b = v /\
    (forall j bj, nth_error (p_buckets p) j = Some bj -> clt (cost C up bj) (cost C up b) = false) /\
    (forall j bj, nth_error (p_buckets p) j = Some bj -> (i < j)%nat -> clt (cost C up b) (cost C up bj) = true).
Proof. exact add_cheapest_latest. Qed.
Print Assumptions C03R_cheapest_latest.

(** in loads: against any admissible bucket j the chosen one is admissible, not more loaded, and strictly less
    loaded when j is later - the least loaded admissible bucket wins, ties go to the LATEST *)
Theorem C03R_least_loaded : forall C s up ts p v p' j bj,
  overdue C up (p_buckets p) = false -> explicit_idx ts (p_buckets p) = None ->
  add C s up ts p = Some (v, p') ->
  nth_error (p_buckets p) j = Some bj -> admissible C up bj ->
  exists i b, nth_error (p_buckets p) i = Some b /\ b_ts b = v /\ admissible C up b /\
    load b <= load bj /\ ((i < j)%nat -> load b < load bj).
Proof. exact add_least_loaded. Qed.
Print Assumptions C03R_least_loaded.

(** NO bucket admissible (every cost +inf), not overdue, no explicit time stamp: min over equal keys returns
    the first item of reversed(buckets) - the server gets the LAST bucket *)
Theorem C03R_none_admissible_last : forall C s up ts p v p' pre bl,
  overdue C up (p_buckets p) = false -> explicit_idx ts (p_buckets p) = None ->
  (forall b, In b (p_buckets p) -> ~ admissible C up b) ->
  p_buckets p = pre ++ [bl] ->
  add C s up ts p = Some (v, p') -> v = b_ts bl.
Proof.
  intros C s up ts p v p' pre bl Ho He Hnone Hl H.
  destruct (add_cheapest_latest _ _ _ _ _ _ _ Ho He H) as (i & b & Hn & <- & _ & Hlate). rewrite Hl in Hn, Hlate.
  f_equal. apply (inf_cost_last C up pre bl i b Hn); [|exact Hlate].
  destruct (cost C up b) as [n|] eqn:Ec; [|reflexivity]. destruct (Hnone b); [|exact (proj1 (cost_some _ _ _ _ Ec))].
  rewrite Hl. eapply nth_error_In. exact Hn.
Qed.
Print Assumptions C03R_none_admissible_last.

(** tick(now) on a state that satisfies the invariant (constructor state or non-empty), for a strictly
    increasing date stream: the result again satisfies the invariant, is strictly sorted, contains no bucket older
    than now, ends with a bucket beyond now + DEFAULT_SERVER_UPTIME (so it is non-empty), keeps every old bucket
    that is not older than now (with its servers) and adds only empty buckets *)
Theorem C03R_tick : forall C ds now fuel p p', StrictInc ds -> 0 <= rc_uptime C -> Inv ds p ->
  (p_buckets p <> [] \/ p_last p <= now + rc_uptime C) ->
  tick C ds fuel now p = TOk p' ->
  Inv ds p' /\ Current C now p' /\ StronglySorted Z.lt (tss p') /\
  now + rc_uptime C < p_last p' /\
  (forall b, In b (p_buckets p) -> now <= b_ts b -> In b (p_buckets p')) /\
  (forall b, In b (p_buckets p') -> In b (p_buckets p) \/ b_srv b = []) /\
  (forall b, In b (p_buckets p') -> now <= b_ts b).
Proof. intros C ds now fuel p p' Hinc _ HI _. exact (tick_spec C ds now fuel p p' Hinc HI). Qed.
Print Assumptions C03R_tick.

(** tick never raises IndexError, and [fuel_bound] fuel is enough (the first loop terminates) *)
Theorem C03R_tick_no_index_error : forall C ds now fuel p, 0 <= rc_uptime C -> Inv ds p ->
  (p_buckets p <> [] \/ p_last p <= now + rc_uptime C) -> tick C ds fuel now p <> TIndex.
Proof. exact tick_no_index_error. Qed.
Print Assumptions C03R_tick_no_index_error.

Theorem C03R_tick_terminates : forall C ds now fuel p, StrictInc ds -> (fuel_bound C ds now p <= fuel)%nat ->
  tick C ds fuel now p <> TFuel.
Proof. exact tick_enough_fuel. Qed.
Print Assumptions C03R_tick_terminates.

(** every state of a Partition object: consecutive dates of the stream, current for the last tick's now (nothing
    older, last bucket beyond now + DEFAULT_SERVER_UPTIME), server sets without repetition *)
Theorem C03R_reach_inv : forall C ds, StrictInc ds -> 0 <= rc_uptime C -> forall now p, reach C ds now p ->
  Inv ds p /\ Current C now p /\ SetLike p.
Proof. intros C ds Hinc _. exact (reach_inv C ds Hinc). Qed.
Print Assumptions C03R_reach_inv.

(** the dates of a weekly schedule with some weekday 0..6 and times of day: strictly increasing, at most
    8 days - 1 s apart, the first one on the start day or within six days after it *)
Theorem C03R_sched_dates : forall W wd0 tz d0, sched_live W = true -> sched_tod_ok W = true ->
  StrictInc (sched_ds W wd0 tz d0) /\ GapBound (sched_ds W wd0 tz d0) 691199 /\
  d0 * 86400 - tz <= sched_ds W wd0 tz d0 0 < (d0 + 7) * 86400 - tz.
Proof.
  intros W wd0 tz d0 Hl Ht.
  exact (conj (sched_ds_inc W wd0 tz Hl Ht d0) (conj (sched_ds_gap W wd0 tz Hl Ht d0) (sched_ds_first W wd0 tz Hl Ht d0))).
Qed.
Print Assumptions C03R_sched_dates.

(** a schedule without any weekday 0..6 (e.g. {"7": ...}): no date is ever produced - the real constructor walks
    to date.max (about 3 s) and raises OverflowError *)
Theorem C03R_dead_schedule_no_date : forall W wd0 d, sched_live W = false -> next_day W wd0 7 d = None.
Proof.
  intros W wd0 d H. destruct (next_day W wd0 7 d) as [d'|] eqn:E; [|reflexivity]. exfalso.
  destruct (next_day_spec _ _ _ _ _ E) as [_ Hl]. unfold sched_live in H.
  assert (Hex : existsb (fun k => match lookup k W with Some _ => true | None => false end) [0; 1; 2; 3; 4; 5; 6] = true).
  { apply existsb_exists. exists (weekday wd0 d'). split; [apply in_week, weekday_range|].
    destruct (lookup (weekday wd0 d') W); [reflexivity|congruence]. }
  congruence.
Qed.
Print Assumptions C03R_dead_schedule_no_date.

(** a Partition of a weekly schedule (or the default one): sorted, current, add and tick never fail *)
Theorem C03R_sched_partition : forall C W wd0 tz d0 now p,
  reboot_tables_ok C = true -> sched_given_ok W = true ->
  reach C (sched_ds (eff_sched C W) wd0 tz d0) now p ->
  StronglySorted Z.lt (tss p) /\ Current C now p /\ SetLike p /\
  (forall s up ts, exists v p', add C s up ts p = Some (v, p')) /\
  (forall fuel now', tick C (sched_ds (eff_sched C W) wd0 tz d0) fuel now' p <> TIndex) /\
  (forall fuel now', (fuel_bound C (sched_ds (eff_sched C W) wd0 tz d0) now' p <= fuel)%nat ->
     exists p', tick C (sched_ds (eff_sched C W) wd0 tz d0) fuel now' p = TOk p').
Proof.
  intros C W wd0 tz d0 now p HT HW Hr. destruct (tables_ok_arith C HT) as (_ & _ & H3 & _).
  destruct (sched_stream C W wd0 tz d0 HT HW) as [Hinc _].
  destruct (reach_inv C _ Hinc now p Hr) as (HI & Hc & HS).
  destruct (reach_total C _ now p Hinc H3 Hr) as (Ha & Hb & Hd).
  split; [exact (Inv_sorted _ _ Hinc HI)|]. repeat split; assumption.
Qed.
Print Assumptions C03R_sched_partition.

(** THE STATEMENT, lower half: in every state of a Partition object, a server booted no later than
    now + DEFAULT_SERVER_UPTIME - MIN_SERVER_UPTIME (now = the last tick) that is added without an explicit
    time stamp naming a bucket is never scheduled for a reboot earlier than MIN_SERVER_UPTIME after its boot -
    overdue or not, admissible bucket or not *)
Theorem C03R_no_early_reboot : forall C ds now p s up ts v p',
  reboot_tables_ok C = true -> StrictInc ds -> reach C ds now p ->
  up + rc_min C <= now + rc_uptime C ->
  explicit_idx ts (p_buckets p) = None ->
  add C s up ts p = Some (v, p') ->
  up + rc_min C <= v.
Proof.
  intros C ds now p s up ts v p' HT Hinc Hr Hup He H. destruct (tables_ok_arith C HT) as (H1 & _).
  destruct (reach_inv C ds Hinc now p Hr) as (_ & Hc & _).
  exact (no_early_reboot C now s up ts p v p' H1 Hc Hup He H).
Qed.
Print Assumptions C03R_no_early_reboot.

(** THE STATEMENT, both halves, for a weekly schedule: such a server, unless overdue, ALWAYS has an admissible
    bucket and gets a reboot time between 1 and 21 days after its boot *)
Theorem C03R_sched_window : forall C W wd0 tz d0 now p s up ts v p',
  reboot_tables_ok C = true -> sched_given_ok W = true ->
  reach C (sched_ds (eff_sched C W) wd0 tz d0) now p ->
  overdue C up (p_buckets p) = false ->
  up + rc_min C <= now + rc_uptime C ->
  explicit_idx ts (p_buckets p) = None ->
  add C s up ts p = Some (v, p') ->
  up + rc_min C <= v <= up + rc_uptime C.
Proof.
  intros C W wd0 tz d0 now p s up ts v p' HT HW Hr Ho Hup He H. destruct (tables_ok_arith C HT) as (_ & H2 & _).
  destruct (sched_stream C W wd0 tz d0 HT HW) as [Hinc Hgap].
  destruct (reach_inv C _ Hinc now p Hr) as (HI & Hc & _).
  exact (window_guaranteed C _ 691199 now s up ts p v p' Hgap H2 HI Hc Ho Hup He H).
Qed.
Print Assumptions C03R_sched_window.

(** * Witnesses: what does NOT hold *)
(** a server whose up_since lies more than 20 days in the future (a wrong clock on the node) has no admissible
    bucket, gets the LAST bucket, and that is BEFORE its boot time + MIN_SERVER_UPTIME (here before its boot) *)
Theorem C03R_future_boot_refuted : exists p v p',
  init_sched reboot_tables [(0, (1, 2, 3))] 3 0 100 1700000123 = TOk p /\
  add reboot_tables 1 (1700000123 + 30 * 86400) None p = Some (v, p') /\
  overdue reboot_tables (1700000123 + 30 * 86400) (p_buckets p) = false /\
  v < 1700000123 + 30 * 86400.
Proof.
  eexists. eexists. eexists. split; [vm_compute; reflexivity|]. split; [vm_compute; reflexivity|].
  split; vm_compute; reflexivity.
Qed.
Print Assumptions C03R_future_boot_refuted.

(** an explicit time stamp is honoured even when it is earlier than up_since + MIN_SERVER_UPTIME: a server
    booted one hour ago, whose presence record still names tonight's bucket, is rebooted tonight *)
Theorem C03R_explicit_early_refuted : exists p v p',
  init_sched reboot_tables [] 3 0 100 1700000123 = TOk p /\
  add reboot_tables 1 (1700000123 - 3600) (Some 1700006399) p = Some (v, p') /\
  v = 1700006399 /\ v < (1700000123 - 3600) + rc_min reboot_tables.
Proof.
  (* one closed test, evaluated once; [p], [v], [p'] stay variables below *)
  assert (H : match init_sched reboot_tables [] 3 0 100 1700000123 with
              | TOk p => match add reboot_tables 1 (1700000123 - 3600) (Some 1700006399) p with
                         | Some (v, _) => (v =? 1700006399) && (v <? (1700000123 - 3600) + rc_min reboot_tables)
                         | None => false
                         end
              | _ => false
              end = true) by (vm_compute; reflexivity).
  destruct (init_sched reboot_tables [] 3 0 100 1700000123) as [p| |]; try discriminate.
  exists p. destruct (add reboot_tables 1 (1700000123 - 3600) (Some 1700006399) p) as [[v p']|]; [|discriminate].
  exists v, p'. apply andb_prop in H. destruct H as [Hv Hlt]. apply Z.eqb_eq in Hv. apply Z.ltb_lt in Hlt. auto.
Qed.
Print Assumptions C03R_explicit_early_refuted.

(** add does not take the server out of the bucket it sits in: added twice (without remove) with a different
    outcome, it is counted in the load of two buckets *)
Theorem C03R_double_membership_refuted : exists p v1 p1 v2 p2 b1 b2,
  init_sched reboot_tables [] 3 0 100 1700000123 = TOk p /\
  add reboot_tables 1 (1700000123 - 86400) None p = Some (v1, p1) /\
  add reboot_tables 1 (1700000123 - 86400) (Some 1700006399) p1 = Some (v2, p2) /\
  v1 <> v2 /\ In b1 (p_buckets p2) /\ In b2 (p_buckets p2) /\ b_ts b1 <> b_ts b2 /\
  In 1 (b_srv b1) /\ In 1 (b_srv b2).
Proof.
  assert (H : match init_sched reboot_tables [] 3 0 100 1700000123 with
              | TOk p =>
                match add reboot_tables 1 (1700000123 - 86400) None p with
                | Some (v1, p1) =>
                  match add reboot_tables 1 (1700000123 - 86400) (Some 1700006399) p1 with
                  | Some (v2, p2) =>
                    match nth_error (p_buckets p2) 0, nth_error (p_buckets p2) 19 with
                    | Some b1, Some b2 =>
                      negb (v1 =? v2) && negb (b_ts b1 =? b_ts b2) && mem 1 (b_srv b1) && mem 1 (b_srv b2)
                    | _, _ => false
                    end
                  | None => false
                  end
                | None => false
                end
              | _ => false
              end = true) by (vm_compute; reflexivity).
  destruct (init_sched reboot_tables [] 3 0 100 1700000123) as [p| |]; try discriminate. exists p.
  destruct (add reboot_tables 1 (1700000123 - 86400) None p) as [[v1 p1]|]; [|discriminate]. exists v1, p1.
  destruct (add reboot_tables 1 (1700000123 - 86400) (Some 1700006399) p1) as [[v2 p2]|]; [|discriminate]. exists v2, p2.
  destruct (nth_error (p_buckets p2) 0) as [b1|] eqn:E1; [|discriminate].
  destruct (nth_error (p_buckets p2) 19) as [b2|] eqn:E2; [|discriminate]. exists b1, b2.
  apply andb_prop in H as [H Hm2]. apply andb_prop in H as [H Hm1]. apply andb_prop in H as [Hv Ht].
  apply negb_true_iff, Z.eqb_neq in Hv, Ht. apply mem_in in Hm1, Hm2. apply nth_error_In in E1, E2.
  repeat split; assumption.
Qed.
Print Assumptions C03R_double_membership_refuted.

(** * Non-vacuity *)
Definition ex_ds : nat -> Z := sched_ds (eff_sched reboot_tables [(0, (1, 2, 3)); (3, (22, 0, 0))]) 3 0 19675.
Definition ex_p : part :=
  match init reboot_tables ex_ds 100 1700000123 with TOk p => p | _ => part0 0 end.

(** [ex_p], evaluated once for the examples below: seven empty buckets *)
Lemma ex_p_eq : ex_p = {| p_buckets := map (fun t => {| b_ts := t; b_srv := [] |})
                                           [1700172000; 1700442123; 1700776800; 1701046923; 1701381600; 1701651723;
                                            1701986400];
                          p_last := 1701986400; p_idx := 7 |}.
Proof. vm_compute. reflexivity. Qed.

(** the constructor returns, so [reach] is inhabited; the hypotheses of the schedule theorems hold *)
Example C03R_ex_reach : reach reboot_tables ex_ds 1700000123 ex_p.
Proof. apply (R_init reboot_tables ex_ds 100 1700000123 ex_p). rewrite ex_p_eq. vm_compute. reflexivity. Qed.
Example C03R_ex_sched_ok : sched_given_ok [(0, (1, 2, 3)); (3, (22, 0, 0))] = true /\ sched_given_ok [] = true /\
  sched_ok (default_sched reboot_tables) = true.
Proof. vm_compute. repeat split; reflexivity. Qed.
Example C03R_ex_buckets : tss ex_p = [1700172000; 1700442123; 1700776800; 1701046923; 1701381600; 1701651723;
                                      1701986400] /\ p_last ex_p = 1701986400.
Proof. rewrite ex_p_eq. split; reflexivity. Qed.
(** a server booted three days ago: not overdue, no explicit time stamp; it gets the latest empty admissible bucket *)
Example C03R_ex_window : overdue reboot_tables (1700000123 - 259200) (p_buckets ex_p) = false /\
  explicit_idx None (p_buckets ex_p) = None /\
  option_map fst (add reboot_tables 7 (1700000123 - 259200) None ex_p) = Some 1701381600 /\
  (1700000123 - 259200) + 86400 <= 1701381600 <= (1700000123 - 259200) + 1814400.
Proof. rewrite ex_p_eq. vm_compute. repeat split; try reflexivity; discriminate. Qed.
(** least loaded wins: with that bucket taken, the next server of the same age goes to the one before it *)
Example C03R_ex_least_loaded :
  match add reboot_tables 7 (1700000123 - 259200) None ex_p with
  | Some (_, p1) => option_map fst (add reboot_tables 8 (1700000123 - 259200) None p1)
  | None => None
  end = Some 1701046923.
Proof. rewrite ex_p_eq. vm_compute. reflexivity. Qed.
(** overdue: booted 30 days ago, asks for a later bucket, gets the first one *)
Example C03R_ex_overdue : overdue reboot_tables (1700000123 - 2592000) (p_buckets ex_p) = true /\
  option_map fst (add reboot_tables 9 (1700000123 - 2592000) (Some 1701046923) ex_p) = Some 1700172000.
Proof. rewrite ex_p_eq. vm_compute. split; reflexivity. Qed.
(** explicit time stamp honoured *)
Example C03R_ex_explicit :
  option_map fst (add reboot_tables 9 (1700000123 - 259200) (Some 1700442123) ex_p) = Some 1700442123.
Proof. rewrite ex_p_eq. vm_compute. reflexivity. Qed.
(** tick three days later: the first bucket is dropped, the list is extended, the server stays in its bucket *)
Example C03R_ex_tick :
  match add reboot_tables 7 (1700000123 - 259200) None ex_p with
  | Some (_, p1) => match tick reboot_tables ex_ds 100 (1700000123 + 259200) p1 with
                    | TOk p2 => Some (tss p2, map b_srv (p_buckets p2))
                    | _ => None
                    end
  | None => None
  end = Some ([1700442123; 1700776800; 1701046923; 1701381600; 1701651723; 1701986400; 1702256523],
              [[]; []; []; [7]; []; []; []]).
Proof. rewrite ex_p_eq. vm_compute. reflexivity. Qed.
(** fuel exhaustion is visible; a schedule keyed 7 is dead, one keyed 6 is live *)
Example C03R_ex_fuel : tick reboot_tables ex_ds 2 1700000123 (part0 1700000123) = TFuel /\
  sched_live [(7, (1, 2, 3))] = false /\ sched_live [(6, (1, 2, 3))] = true.
Proof. vm_compute. repeat split; reflexivity. Qed.
