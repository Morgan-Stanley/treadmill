(** C10  A master crash at any point never leaves an instance placed twice.

    Model: Master/Publish.v (publication = pure function to an ordered write list; store = the
    /placement/<server>/<app> nodes).  The order of the loops of Master.reschedule / Master.init_schedule, the
    changed-placement filter, the two-pass / content-reconciling form of init_schedule and the map update of
    check_placement_integrity are read from master.py / loader.py on every run (Gen.Tables c10_...).

    The theorems hold for all inputs and every crash point, without a bound.  [within_before] (the store holds nothing
    for a listed instance outside the server the cycle read as `before`) is the exact invariant of
    C10_crash_no_double; it is necessary on the current tree (known finding, the model follows the code):
    C10_stale_entry_refuted.
    Oracle and correspondence only (harness/props/c10.py, E-master): that [within_before] / "every node under a server
    of the model" hold between cycles for the real handlers, and that the restarted master (load_model;
    init_schedule; check_placement_integrity) completes on every cut. *)
From Coq Require Import ZArith List Bool.
From TM Require Import Master.Publish Master.PublishP Gen.Tables.
From TM Require Import Base.ShapeCanon.
Import ListNotations.
Open Scope Z_scope.

Definition c10_cfg : cfg :=
  cfg_of_tables c10_reschedule_phases c10_changed_filter c10_init_phases c10_init_flags c10_integrity_flags.

(** the source has the shape the proofs are about: reschedule = deletions, then creations, then _unschedule_evicted,
    then _save_placement, both comparisons in the filter; init_schedule = one loop over all servers deleting, a second
    one creating and reconciling content; check_placement_integrity updates app2server after a repair *)
Theorem C10_source_shape : cfg_canonical c10_cfg = true.
Proof. vm_compute. reflexivity. Qed.
Print Assumptions C10_source_shape.
Lemma c10_cfg_is : c10_cfg = canonical_cfg.
Proof. exact (cfg_canonical_eq c10_cfg C10_source_shape). Qed.

(** every prefix of the write list of Master.reschedule leaves no instance under two servers *)
Theorem C10_crash_no_double : forall tuples i once st k,
  NoDup (map t_name tuples) ->
  no_double st ->
  within_before tuples st ->
  no_double (apply_writes st (firstn k (reschedule_writes c10_cfg tuples i once))).
Proof.
  intros tuples i once st k H1 H2 H3.
  exact (resched_prefix_no_double c10_cfg tuples i once st k C10_source_shape H1 H2 H3).
Qed.
Print Assumptions C10_crash_no_double.

(** the whole write list of reschedule produces exactly the `after` column *)
Theorem C10_published_after_all_writes : forall tuples i once st,
  NoDup (map t_name tuples) ->
  within_before tuples st ->
  unchanged_published tuples i st ->
  let final := apply_writes st (reschedule_writes c10_cfg tuples i once) in
  (forall t, In t tuples -> forall s,
     lookup final s (t_name t) = if oeqb (t_sa t) (Some s) then Some (get_info i (t_name t)) else None) /\
  (forall a, ~ In a (map t_name tuples) -> forall s, lookup final s a = lookup st s a).
Proof.
  intros tuples i once st H1 H2 H3.
  exact (resched_final c10_cfg tuples i once st C10_source_shape H1 H2 H3).
Qed.
Print Assumptions C10_published_after_all_writes.

(** every prefix of the write list of Master.init_schedule (all stale nodes of all servers deleted first, then the
    missing ones created / differing ones rewritten) leaves no instance under two servers, provided every node lies
    under a server of the model *)
Theorem C10_init_crash_no_double : forall st i members k,
  no_double st ->
  functional (members_target members) ->
  (forall s a, has st s a = true -> In s (map fst members)) ->
  no_double (apply_writes st (firstn k (init_writes c10_cfg st i members))).
Proof.
  intros st i members k H1 H2 H3.
  exact (init_prefix_no_double c10_cfg st i members k C10_source_shape H1 H2 H3).
Qed.
Print Assumptions C10_init_crash_no_double.

(** non-vacuity on the input of corpus/c10.json: instance 7 recorded under server 2, the start-up cycle moved it to
    server 1, server 1 first in cell.members().  Before the repair "fix: init_schedule removes all stale placement
    before it creates any" a cut left it under both; the repaired code is free of double entries at every cut:
    [ensure 1; ensure 2; delete 2/7; put 1/7; save] *)
Definition rx_store : store := [(2, 7, mkPD None None (Some 100))].
Definition rx_info : info := [(7, mkPD None None (Some 100))].
Definition rx_members : list (Z * list Z) := [(1, [7]); (2, [])].
Example C10_init_crash_regression :
  no_double rx_store /\ functional (members_target rx_members) /\
  (forall s a, has rx_store s a = true -> In s (map fst rx_members)) /\
  flat_writes (init_writes c10_cfg rx_store rx_info rx_members) =
    [5; 3; 1; 3; 2; 1; 2; 7; 2; 1; 7; -1; -1; 1; 100; 6] /\
  doubles_at_cuts rx_store (init_writes c10_cfg rx_store rx_info rx_members) = [0; 0; 0; 0; 0; 0].
Proof.
  split; [apply no_doubleb_sound; vm_compute; reflexivity|]. split.
  - intros a s1 s2 [c1 [I1 Z1]] [c2 [I2 Z2]]. cbn in I1, I2.
    destruct I1 as [I1|[I1|[]]], I2 as [I2|[I2|[]]]; inversion I1; inversion I2; subst; try reflexivity;
      cbn in Z1, Z2; discriminate.
  - split.
    + intros s a H. unfold rx_store, has in H. cbn [existsb] in H. rewrite orb_false_r in H.
      apply key_is_true in H as [<- _]. cbn. auto.
    + split; vm_compute; reflexivity.
Qed.

(** the hypothesis of C10_crash_no_double cannot be dropped: the store still holds 1/7 while the model has
    un-placed 7 (Loader.remove_server); the next cycle places 7 on server 2 *)
Theorem C10_stale_entry_refuted : exists tuples i once st,
  NoDup (map t_name tuples) /\ no_double st /\
  ~ no_double (apply_writes st (reschedule_writes c10_cfg tuples i once)).
Proof.
  exists [(7, None, None, Some 2, Some 100)], [(7, mkPD None None (Some 100))], [],
         [(1, 7, mkPD None None (Some 50))].
  split; [repeat constructor; cbn; intuition|].
  split; [apply no_doubleb_sound; vm_compute; reflexivity|].
  intros H. specialize (H 7 1 2). vm_compute in H. specialize (H eq_refl eq_refl). discriminate.
Qed.
Print Assumptions C10_stale_entry_refuted.

(** Loader.check_placement_integrity *)
Theorem C10_integrity_on_clean_store : forall wh placed pairs,
  NoDup (map snd pairs) ->
  fst (integrity (cf_integ_update c10_cfg) wh placed pairs) = [] /\
  (snd (integrity (cf_integ_update c10_cfg) wh placed pairs) = IOk <-> forall a s, In (a, s) placed -> In (s, a) pairs) /\
  (snd (integrity (cf_integ_update c10_cfg) wh placed pairs) = IOk \/
   snd (integrity (cf_integ_update c10_cfg) wh placed pairs) = IAssertFailed).
Proof. intros wh placed pairs H. exact (integrity_nodup (cf_integ_update c10_cfg) wh placed pairs H). Qed.
Print Assumptions C10_integrity_on_clean_store.

Theorem C10_integrity_delete_only : forall wh placed pairs,
  Forall (fun w => is_put w = false) (fst (integrity (cf_integ_update c10_cfg) wh placed pairs)).
Proof. intros wh placed pairs. exact (integrity_writes_delete_only (cf_integ_update c10_cfg) wh placed pairs). Qed.
Print Assumptions C10_integrity_delete_only.

(** unless the first pass hits its own "no repair possible" assertion, the check passes -- after removing the
    duplicates it found -- whenever every placed instance has an entry under the model's server *)
Theorem C10_integrity_repair_then_pass : forall wh placed pairs,
  (forall a s, In (a, s) placed -> wh a = Some (Some s) /\ In (s, a) pairs) ->
  snd (integrity (cf_integ_update c10_cfg) wh placed pairs) <> IKeyError ->
  snd (integrity (cf_integ_update c10_cfg) wh placed pairs) <> IAssertNeither ->
  snd (integrity (cf_integ_update c10_cfg) wh placed pairs) = IOk.
Proof.
  rewrite c10_cfg_is. intros wh placed pairs H1 H2 H3. exact (integrity_repair_then_pass wh placed pairs H1 H2 H3).
Qed.
Print Assumptions C10_integrity_repair_then_pass.

(** instance 7 under servers 1 and 2, the model has it on 2 (the entry listed second).  The check deletes 1/7, after
    which the store is exactly the model, and passes; before the repair "fix: check_placement_integrity keeps its
    app2server map in step with its own repair" it ended in 'Placement integrity failed.' *)
Example C10_integrity_regression :
  let st := [(1, 7, no_pdata); (2, 7, no_pdata)] in
  let r := integrity (cf_integ_update c10_cfg) (where_of [(7, 2)] [7]) [(7, 2)] (store_pairs st [1; 2]) in
  fst r = [WDel 1 7] /\ snd r = IOk /\ flat_store (apply_writes st (fst r)) = [1; 2; 7; -1; -1; -1].
Proof. vm_compute. repeat split. Qed.

(** Loader.restore_placements: after the duplicate pass no instance is left under two servers, and an instance
    restored under exactly one server keeps its node *)
Theorem C10_restart_drops_duplicates : forall restored st,
  (forall s a, has st s a = true -> exists l, In (s, l) restored /\ zmem a l = true) ->
  let final := apply_writes st (dedup_writes restored) in
  no_double final /\
  (forall s a, restored_on restored a = [s] -> lookup final s a = lookup st s a).
Proof. intros restored st H. exact (dedup_no_double restored st H). Qed.
Print Assumptions C10_restart_drops_duplicates.

(** non-vacuity: a cycle that moves 1 (srv 10 -> 11), renews 2 on 10, places 3 on 11, evicts 4 from 11 and
    leaves 5 alone; the store agrees with the `before` column; crash point 3 lies between the two passes *)
Definition ex_d (e : Z) : pdata := mkPD None None (Some e).
Definition ex_tuples : list ptuple :=
  [(1, Some 10, Some 100, Some 11, Some 200); (2, Some 10, Some 100, Some 10, Some 300);
   (3, None, None, Some 11, Some 200); (4, Some 11, Some 100, None, None); (5, Some 10, Some 100, Some 10, Some 100)].
Definition ex_info : info := [(1, ex_d 200); (2, ex_d 300); (3, ex_d 200); (4, mkPD None None None); (5, ex_d 100)].
Definition ex_store : store := [(10, 1, ex_d 100); (10, 2, ex_d 100); (11, 4, ex_d 100); (10, 5, ex_d 100)].
Example C10_nonvacuous :
  nodupb (map t_name ex_tuples) = true /\ no_doubleb ex_store = true /\ within_beforeb ex_tuples ex_store = true /\
  unchanged_publishedb canonical_cfg ex_tuples ex_info ex_store = true /\
  flat_writes (reschedule_writes c10_cfg ex_tuples ex_info [4]) =
    [8; 1; 10; 1;  1; 11; 4;  2; 11; 1; -1; -1; 1; 200;  2; 10; 2; -1; -1; 1; 300;  2; 11; 3; -1; -1; 1; 200;
     4; 4;  5; 4;  6] /\
  doubles_at_cuts ex_store (reschedule_writes c10_cfg ex_tuples ex_info [4]) = [0; 0; 0; 0; 0; 0; 0; 0; 0] /\
  flat_store (apply_writes ex_store (reschedule_writes c10_cfg ex_tuples ex_info [4])) =
    flat_store (model_entries ex_info ex_tuples).
Proof. vm_compute. repeat split. Qed.

(** the functions named by this property's anchors still have the statement skeleton the model was written from
    (re-extracted from the Python AST on every run, harness/tables_shape.py + harness/shape_pins.json; kept last so that
    a difference does not stop the theorems above from being checked) *)
Theorem C10_anchor_shape : shapes_ok_C10 = true.
Proof. vm_compute. reflexivity. Qed.
Print Assumptions C10_anchor_shape.
