(** C20  The app monitor converges to the target count without overshoot.

    Model: Mon/AppMon.v (reevaluate + the _run_sync watch callbacks).  Time is in
    ticks ([tps] per second, any positive [tps]); tokens are scaled by
    _INTERVAL * tps, so [m_tok c = available * scale].  The constants are
    [TM.Gen.Tables.c20_consts], regenerated from sproc/appmonitor.py on every run. *)
From Coq Require Import ZArith List Bool Sorting.Sorted.
From TM Require Import Mon.AppMon Mon.AppMonP Gen.Tables.
From TM Require Import Base.ShapeCanon.
Import ListNotations.
Open Scope Z_scope.

Definition P20 (tps : Z) : params := {| p_k := c20_consts; p_tps := tps |}.

(** the source's constants are the ones the property names: 2 * count tokens per 3600 s, cap 2 * count *)
Theorem C20_constants_canonical : consts_canonical c20_consts = true.
Proof. vm_compute. reflexivity. Qed.
Print Assumptions C20_constants_canonical.

Theorem C20_constants_ok : consts_okb c20_consts = true.
Proof. vm_compute. reflexivity. Qed.
Print Assumptions C20_constants_ok.

Theorem C20_params_ok : forall tps, 0 < tps -> params_ok (P20 tps).
Proof. intros tps. exact (consts_ok_params c20_consts tps C20_constants_ok). Qed.
Print Assumptions C20_params_ok.

(** every POST /instance/<app>?count=k of an evaluation: the monitor is configured and not suspended,
    1 <= k <= missing, k <= floor(available after this evaluation's refill), in fact k = min of the two,
    and 0 <= available <= 2 * count *)
Theorem C20_create_bounded : forall tps s res n k r, 0 < tps -> state_inv (P20 tps) s ->
  In (n, ACreate k r) (actions_of (P20 tps) s res) ->
  exists c, active s n c /\ r = res_of res n /\
            1 <= k /\ k <= missing s n c /\ k <= whole_tokens (P20 tps) s c /\
            k = Z.min (missing s n c) (whole_tokens (P20 tps) s c) /\
            k * scale (P20 tps) <= m_tok (refill (P20 tps) (st_clock s) c) /\
            0 <= m_tok (refill (P20 tps) (st_clock s) c) <= cap (P20 tps) c.
Proof. intros tps s res n k r Ht. exact (create_bounded (P20 tps) s res n k r (C20_params_ok tps Ht)). Qed.
Print Assumptions C20_create_bounded.

(** convergence step: an active monitor with instances missing asks for exactly min(missing, floor(available))
    when that is positive, issues nothing when no whole token is left, and nothing when at the target *)
Theorem C20_create_complete : forall tps s res n c, 0 < tps -> state_inv (P20 tps) s -> active s n c ->
  (0 < missing s n c -> 1 <= whole_tokens (P20 tps) s c ->
   In (n, ACreate (Z.min (missing s n c) (whole_tokens (P20 tps) s c)) (res_of res n)) (actions_of (P20 tps) s res)) /\
  (0 < missing s n c -> whole_tokens (P20 tps) s c <= 0 -> forall a, ~ In (n, a) (actions_of (P20 tps) s res)) /\
  (missing s n c = 0 -> forall a, ~ In (n, a) (actions_of (P20 tps) s res)).
Proof. intros tps s res n c _. exact (create_complete (P20 tps) s res n c). Qed.
Print Assumptions C20_create_complete.

(** every bulk delete of an evaluation removes exactly the surplus: the first (fifo / no policy) or the last
    (lifo) [current - count] entries of the instance list, leaving [count] *)
Theorem C20_delete_exact : forall tps s res n ids ok, 0 < tps -> state_inv (P20 tps) s ->
  In (n, ADelete ids ok) (actions_of (P20 tps) s res) ->
  exists c, active s n c /\ ok = is_success (res_of res n) /\ missing s n c < 0 /\
            zlen ids = - missing s n c /\
            (((m_policy c = PNone \/ m_policy c = PFifo) /\
              exists kept, insts_of (st_scheduled s) n = ids ++ kept /\ zlen kept = m_count c) \/
             (m_policy c = PLifo /\
              exists kept, insts_of (st_scheduled s) n = kept ++ ids /\ zlen kept = m_count c)).
Proof. intros tps s res n ids ok _. exact (delete_exact (P20 tps) s res n ids ok). Qed.
Print Assumptions C20_delete_exact.

(** a surplus under a valid policy is deleted in the same evaluation; under any other policy value nothing happens *)
Theorem C20_delete_complete : forall tps s res n c, 0 < tps -> state_inv (P20 tps) s -> active s n c ->
  missing s n c < 0 ->
  (valid_policy (m_policy c) ->
   exists ids, In (n, ADelete ids (is_success (res_of res n))) (actions_of (P20 tps) s res)) /\
  (m_policy c = POther -> forall a, ~ In (n, a) (actions_of (P20 tps) s res)).
Proof. intros tps s res n c _. exact (delete_complete (P20 tps) s res n c). Qed.
Print Assumptions C20_delete_complete.

(** on the age-sorted instance list: fifo deletes only instances older than every one kept, lifo only newer *)
Theorem C20_delete_oldest_or_newest : forall tps s res n ids ok, 0 < tps -> state_inv (P20 tps) s ->
  StronglySorted Z.lt (insts_of (st_scheduled s) n) ->
  In (n, ADelete ids ok) (actions_of (P20 tps) s res) ->
  exists c kept, lookup (st_monitors s) n = Some c /\ zlen kept = m_count c /\
    (forall x, In x (insts_of (st_scheduled s) n) <-> In x ids \/ In x kept) /\
    ((m_policy c = PNone \/ m_policy c = PFifo) -> forall x y, In x ids -> In y kept -> x < y) /\
    (m_policy c = PLifo -> forall x y, In x ids -> In y kept -> y < x).
Proof. intros tps s res n ids ok _. exact (delete_order (P20 tps) s res n ids ok). Qed.
Print Assumptions C20_delete_oldest_or_newest.

(** at most one REST call per application and evaluation; in particular never a create and a delete *)
Theorem C20_one_call_per_app : forall tps s res, state_inv (P20 tps) s -> NoDup (keys (actions_of (P20 tps) s res)).
Proof. intros tps. exact (one_action_per_app (P20 tps)). Qed.
Print Assumptions C20_one_call_per_app.

Theorem C20_never_create_and_delete : forall tps s res n k r ids ok, state_inv (P20 tps) s ->
  In (n, ACreate k r) (actions_of (P20 tps) s res) -> In (n, ADelete ids ok) (actions_of (P20 tps) s res) -> False.
Proof. intros tps. exact (never_create_and_delete (P20 tps)). Qed.
Print Assumptions C20_never_create_and_delete.

(** a suspended monitor and an application without monitor: no REST call, configuration and tokens untouched *)
Theorem C20_inactive_no_action : forall tps s res n, state_inv (P20 tps) s ->
  (lookup (st_monitors s) n = None \/ is_susp (st_suspended s) n (st_clock s) = true) ->
  (forall a, ~ In (n, a) (actions_of (P20 tps) s res)) /\
  lookup (st_monitors (after (P20 tps) s res)) n = lookup (st_monitors s) n.
Proof. intros tps. exact (inactive_no_action (P20 tps)). Qed.
Print Assumptions C20_inactive_no_action.

(** tokens are deducted for successfully created instances only, and stay within [0, 2 * count] *)
Theorem C20_tokens_after : forall tps s res n c, 0 < tps -> state_inv (P20 tps) s -> active s n c ->
  exists c', lookup (st_monitors (after (P20 tps) s res)) n = Some c' /\
             m_count c' = m_count c /\ m_policy c' = m_policy c /\ m_last c' = st_clock s /\
             m_tok c' = m_tok (refill (P20 tps) (st_clock s) c)
                        - scale (P20 tps) * created_in n (actions_of (P20 tps) s res) /\
             0 <= m_tok c' <= cap (P20 tps) c.
Proof. intros tps s res n c Ht. exact (tokens_after (P20 tps) s res n c (C20_params_ok tps Ht)). Qed.
Print Assumptions C20_tokens_after.

(** histories: from the initial state, any sequence of clock advances (>= 0), (re)configurations (count >= 0),
    removals, instance-list changes and evaluations with arbitrary REST outcomes keeps every monitor's bucket
    within 0 <= available <= 2 * count (so every theorem above applies at every evaluation of every history) *)
Theorem C20_invariant : forall tps clock0 w0 evs, 0 < tps -> 0 <= clock0 -> Forall event_ok evs ->
  state_inv (P20 tps) (fst (run (P20 tps) (init_state clock0 w0) evs)).
Proof.
  intros tps clock0 w0 evs Ht Hc.
  exact (run_inv (P20 tps) evs (C20_params_ok tps Ht) (init_state clock0 w0) (init_state_inv (P20 tps) clock0 w0 Hc)).
Qed.
Print Assumptions C20_invariant.

Theorem C20_invariant_step : forall tps s evs, 0 < tps -> state_inv (P20 tps) s -> Forall event_ok evs ->
  state_inv (P20 tps) (fst (run (P20 tps) s evs)).
Proof. intros tps s evs Ht. exact (run_inv (P20 tps) evs (C20_params_ok tps Ht) s). Qed.
Print Assumptions C20_invariant_step.

(** the budget over histories: while monitor [name] is not reconfigured or removed, the instances successfully
    created for it over ANY event sequence are bounded by the tokens it had plus 2 * count per 3600 s of elapsed
    time:  created <= available(t0) + (2 * count / 3600) * (t1 - t0), multiplied through by 3600 * tps *)
Theorem C20_budget : forall tps name evs s c, 0 < tps -> state_inv (P20 tps) s -> Forall event_ok evs ->
  forallb (no_reconf name) evs = true -> lookup (st_monitors s) name = Some c ->
  3600 * tps * created name (snd (run (P20 tps) s evs))
    <= m_tok c + 2 * m_count c * (st_clock (fst (run (P20 tps) s evs)) - m_last c).
Proof. intros tps name evs s c. exact (run_budget_hourly c20_consts tps name evs s c C20_constants_canonical). Qed.
Print Assumptions C20_budget.

(** sharper, with what is left: spent + left <= had + accrued between the two refills *)
Theorem C20_budget_exact : forall tps name evs s c, 0 < tps -> state_inv (P20 tps) s -> Forall event_ok evs ->
  forallb (no_reconf name) evs = true -> lookup (st_monitors s) name = Some c ->
  exists c', lookup (st_monitors (fst (run (P20 tps) s evs))) name = Some c' /\ m_count c' = m_count c /\
             m_last c <= m_last c' /\
             scale (P20 tps) * created name (snd (run (P20 tps) s evs)) + m_tok c'
               <= m_tok c + k_rate c20_consts * m_count c * (m_last c' - m_last c).
Proof. intros tps name evs s c Ht. exact (run_budget (P20 tps) name evs (C20_params_ok tps Ht) s c). Qed.
Print Assumptions C20_budget_exact.

(** a removed (or never configured) monitor causes no action until it is configured again *)
Theorem C20_removed_no_action : forall tps name evs s, 0 < tps -> state_inv (P20 tps) s -> Forall event_ok evs ->
  forallb (no_configure name) evs = true -> lookup (st_monitors s) name = None ->
  lookup (st_monitors (fst (run (P20 tps) s evs))) name = None /\
  Forall (no_action_for name) (snd (run (P20 tps) s evs)).
Proof. intros tps name evs s Ht. exact (run_absent (P20 tps) name evs (C20_params_ok tps Ht) s). Qed.
Print Assumptions C20_removed_no_action.

(** * Non-vacuity: a concrete history (1 tick = 1 s) that exercises every branch the theorems speak about *)
Definition ex_events : list event :=
  [ EConfigure 1 3 PLifo; EConfigure 2 2 PNone;
    EScheduled [(2, [10; 11; 12; 13])];
    EAdvance 1;   EEval [];                              (* app 1: create 3; app 2: delete [10; 11] (fifo) *)
    EScheduled [(1, [20; 21; 22; 23; 24]); (2, [12; 13])];
    EAdvance 1;   EEval [];                              (* app 1: delete [23; 24] (lifo) *)
    EScheduled [(2, [12; 13])];
    EAdvance 1;   EEval [(1, RNotFound)];                (* app 1: create 3 asked, not found: suspended, no deduction *)
    EAdvance 10;  EEval [];                              (* app 1 suspended: nothing *)
    EAdvance 300; EEval [];                              (* app 1 active again: create 3, tokens 0 and a bit *)
    EAdvance 1;   EEval [];                              (* app 1: rate limited *)
    EAdvance 600; EEval [];                              (* one token accrued: create 1 *)
    ERemove 1;
    EAdvance 5;   EEval [] ].                            (* no monitor: nothing *)

Definition ex_acts := map eo_actions (snd (run (P20 1) (init_state 1000 []) ex_events)).

Example C20_nonvacuous :
  ex_acts =
    [ [(1, ACreate 3 RSuccess); (2, ADelete [10; 11] true)];
      [(1, ADelete [23; 24] true)];
      [(1, ACreate 3 RNotFound)];
      [];
      [(1, ACreate 3 RSuccess)];
      [];
      [(1, ACreate 1 RSuccess)];
      [] ] /\
  created 1 (snd (run (P20 1) (init_state 1000 []) ex_events)) = 7 /\
  (* the hypotheses of C20_budget hold for monitor 2 from the state reached after the two configurations *)
  forallb (no_reconf 2) (skipn 2 ex_events) = true /\
  lookup (st_monitors (fst (run (P20 1) (init_state 1000 []) (firstn 2 ex_events)))) 2
    = Some {| m_count := 2; m_tok := 14400; m_last := 1000; m_policy := PNone |} /\
  Forall event_ok ex_events.
Proof. split; [vm_compute; reflexivity|]. split; [vm_compute; reflexivity|]. split; [vm_compute; reflexivity|].
  split; [vm_compute; reflexivity|]. repeat constructor; cbn; discriminate. Qed.

(** the hypothesis [no_reconf] of C20_budget is needed: rewriting the monitor node (even with the same count)
    installs a full bucket, so a history with reconfigurations is bounded per configuration only *)
Definition ex_reset : list event :=
  [ EConfigure 1 3 PNone; EAdvance 1; EEval []; EEval []; EConfigure 1 3 PNone; EEval []; EEval []; EEval [] ].
Example C20_reconfigure_refills :
  let r := run (P20 1) (init_state 1000 []) ex_reset in
  created 1 (snd r) = 12 /\ st_clock (fst r) = 1001.
Proof. vm_compute. split; reflexivity. Qed.

(** the functions named by this property's anchors still have the statement skeleton the model was written from
    (re-extracted from the Python AST on every run, harness/tables_shape.py + harness/shape_pins.json; kept last so that
    a difference does not stop the theorems above from being checked) *)
Theorem C20_source_shape : shapes_ok_C20 = true.
Proof. vm_compute. reflexivity. Qed.
Print Assumptions C20_source_shape.
