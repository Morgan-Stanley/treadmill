(** C08  Server failure handling: data retention, frozen servers, blacklisting.
    Proved on the model: for every cell state, what the first phase, the eviction scan, a fresh placement walk and the
    placement loop do about servers that are not up and blacklisted instances (Sched/FrameP.v); for the cycle run from
    every reachable state (any history of the operation alphabet satisfying the side conditions wf_ops_all), who keeps
    and who loses a placement (Sched/KeepP.v, Sched/CycleP.v, Sched/Reach.v); at master level, what `since` is.
    That a server that is not up receives no new instance is C03_new_assignment.
    Two exemptions the statement does not list are refuted on the code as it is (known findings, behaviour looks
    intended): [C08_shrink_refuted], which is why C08_keeps_placement carries the valid-identity premise, and
    [C08_renewal_refuted] (hence the premise a_renew = false; C07 exempts a failing renewal, C08 does not). *)
From Coq Require Import ZArith QArith List Bool.
From TM Require Import Sched.Vec Sched.Types Sched.Queue Sched.Tree Sched.Cycle Sched.Events Sched.FrameP
                       Sched.KeepP Sched.Reach Master.SrvState Master.SrvStateP.
From TM Require Import Base.ShapeCanon.
Import ListNotations.
Open Scope Z_scope.

(** which instances the first phase moves off an inactive server *)
Theorem C08_retention_decision : forall c s n, In n (to_be_moved c s) <->
  In n (s_apps s) /\ exists a, get_app n (c_apps c) = Some a /\
    ((s_state s = Down /\ expired c (s_since s) a = true) \/ (s_state s = Frozen /\ a_unschedule a = true)).
Proof. exact to_be_moved_spec. Qed.
Print Assumptions C08_retention_decision.

Theorem C08_expired : forall c since a, expired c since a = true <->
  match a_drt a with None => 0 <= c_now c | Some t => since + t <= c_now c end.
Proof. exact expired_spec. Qed.
Print Assumptions C08_expired.

(** the eviction scan and a fresh placement walk leave every server that is not up exactly as it was *)
Theorem C08_no_capacity_eviction_meanwhile : forall victims placer c ev n s,
  get_srv n (c_servers c) = Some s -> s_state s <> Up ->
  get_srv n (c_servers (fst (evict_scan victims placer c ev))) = Some s.
Proof. intros victims placer c ev n s H1 H2. exact (evict_scan_nonup victims placer c ev n s H1 H2). Qed.
Print Assumptions C08_no_capacity_eviction_meanwhile.

Theorem C08_nonup_receives_nothing : forall fuel c b an n s,
  get_srv n (c_servers c) = Some s -> s_state s <> Up ->
  get_srv n (c_servers (fst (bucket_put fuel c b an))) = Some s.
Proof. intros fuel c b an n s H1 H2. exact (bucket_put_nonup fuel c b an n s H1 H2). Qed.
Print Assumptions C08_nonup_receives_nothing.

(** the placement loop does nothing for a blacklisted instance *)
Theorem C08_blacklisted_skipped : forall rq st an a,
  get_app an (c_apps (l_cell st)) = Some a -> a_blacklisted a = true -> place_one rq st an = st.
Proof. exact place_one_blacklisted. Qed.
Print Assumptions C08_blacklisted_skipped.

(** an instance on a server that is not up - down for less than its data-retention time, or frozen and not marked for
    unscheduling - that is not blacklisted, not flagged for renewal, holds an identity valid for the current group size
    and is not ranked beyond the utilisation cap in this cycle's queue, is on the same server, with the same expiry and
    identity, after the cycle (so nothing evicts it for capacity meanwhile) *)
Theorem C08_keeps_placement : forall c ch x a n s, reachable c ->
  get_app x (c_apps c) = Some a -> a_server a = Some n -> get_srv n (c_servers c) = Some s -> s_state s <> Up ->
  (s_state s = Down -> expired c (s_since s) a = false) ->
  (s_state s = Frozen -> a_unschedule a = false) ->
  a_blacklisted a = false -> a_renew a = false ->
  (forall i g grp, a_identity a = Some i -> a_group a = Some g -> aget g (c_groups c) = Some grp -> i < g_count grp) ->
  (forall label q e, In (label, q) (snd (fst (schedule c ch))) -> In e q -> e_app e = x -> e_rank e <> UNPLACED_RANK) ->
  exists a', get_app x (c_apps (step c (OSchedule ch))) = Some a' /\ a_server a' = Some n /\
             a_expiry a' = a_expiry a /\ a_identity a' = a_identity a.
Proof.
  intros c ch x a n s Hr Ha Hsv Hs Hst Hd Hf Hbl Hren Hid Hrank.
  apply (reachable_keeps c ch x a n s (reachable_Good c Hr)); [|exact Hst|exact Hren|exact Hrank].
  constructor; try assumption. intros i g k Hi Hg Hk. unfold gcount in Hk.
  destruct (aget g (c_groups c)) as [grp|] eqn:E; [|discriminate]. inversion Hk; subst k. exact (Hid i g grp Hi Hg E).
Qed.
Print Assumptions C08_keeps_placement.

(** once the retention time has run out (or the instance on a frozen server is marked for unscheduling) it is not on
    that server after the cycle *)
Theorem C08_loses_placement : forall c ch x a n s, reachable c ->
  get_app x (c_apps c) = Some a -> a_server a = Some n -> get_srv n (c_servers c) = Some s ->
  (s_state s = Down /\ expired c (s_since s) a = true) \/ (s_state s = Frozen /\ a_unschedule a = true) ->
  exists a', get_app x (c_apps (step c (OSchedule ch))) = Some a' /\ a_server a' <> Some n.
Proof. intros c ch x a n s Hr. exact (reachable_moves c ch x a n s (reachable_Good c Hr)). Qed.
Print Assumptions C08_loses_placement.

(** a blacklisted instance ends the cycle without a server and without an identity *)
Theorem C08_blacklisted_unplaced : forall c ch x a, reachable c ->
  get_app x (c_apps c) = Some a -> a_blacklisted a = true ->
  exists a', get_app x (c_apps (step c (OSchedule ch))) = Some a' /\ a_server a' = None /\
             (a_group a' = None \/ a_identity a' = None).
Proof. intros c ch x a Hr. exact (reachable_blacklisted c ch x a (reachable_Good c Hr)). Qed.
Print Assumptions C08_blacklisted_unplaced.

(** master level (Master/SrvState.v, model of Loader.adjust_server_state / adjust_presence / load_server and
    Master._record_server_state for one server): whatever presence changes, master (re)starts and record reloads have
    happened, a server that is down in memory and has a stored record has exactly that record and its `since` is the time
    a master first saw its presence gone in the current absence; an up server never has a record saying "down" (a stale
    one would be replayed at the next failure and cut the retention short) *)
Theorem C08_master_since : forall pres ops st t, Forall natural ops ->
  let r := grun (init_srv pres) None ops in
  sv_mem (fst r) = Some (st, t) ->
  (st = Down -> sv_rec (fst r) <> None -> sv_rec (fst r) = Some (Down, t) /\ snd r = Some t) /\
  (st = Up -> snd r = None /\ forall u, sv_rec (fst r) <> Some (Down, u)).
Proof. exact down_since_is_observed_loss. Qed.
Print Assumptions C08_master_since.

(** the code as it is: an instance on a down server inside its retention window is removed when its identity group
    shrinks below its identity. Group of 3, instance 3 holds identity 2 on a server that went down at 1000 with retention 100;
    the group shrinks to 2; the cycle at 1001 removes the instance although retention lasts until 1100 *)
Definition ex_a (n o : Z) : app :=
  mkApp n 1 [10;10;10] 3000 [] 0 0 (Some 100) (Some 5000) false o None None None None false false false false (-1).
Definition ex_ops : list op :=
  [ OAddBucket 2001 3 2000; OAddServer 1000 2001 [100;100;100] 4000 0 0; OConfigGroup 5000 3; OTick 1000;
    OAddApp 4000 [] (ex_a 1 1); OAddApp 4000 [] (ex_a 2 2); OAddApp 4000 [] (ex_a 3 3);
    OSchedule [(1, 0); (2, 1); (3, 2)]; OSetState 1000 Down 1000; OConfigGroup 5000 2; OTick 1001; OSchedule [] ].
Theorem C08_shrink_refuted :
  let c0 := run (init_cell 3 2000 1) (firstn 11 ex_ops) in
  let c := run (init_cell 3 2000 1) ex_ops in
  exists a0 a s, get_app 3 (c_apps c0) = Some a0 /\ a_server a0 = Some 1000 /\ a_drt a0 = Some 100 /\
                 get_srv 1000 (c_servers c0) = Some s /\ s_state s = Down /\ s_since s + 100 > c_now c0 /\
                 get_app 3 (c_apps c) = Some a /\ a_server a = None.
Proof. vm_compute. eexists. eexists. eexists. repeat split; reflexivity. Qed.
Print Assumptions C08_shrink_refuted.

(** the code as it is: an instance flagged for renewal whose lease no longer fits is moved off a frozen server. Instance 1 (lease 50) runs on server 1000, which is
    frozen and then announces a reboot at 1010; flagged for renewal at 1000 the lease no longer fits, and the cycle moves
    the instance to server 1001 although it was not marked for unscheduling *)
Definition ex_l (n o : Z) : app :=
  mkApp n 1 [10;10;10] 3000 [] 0 50 (Some 100) None false o None None None None false false false false (-1).
Definition ex_ops_renew : list op :=
  [ OAddBucket 2001 3 2000; OAddServer 1000 2001 [100;100;100] 4000 0 5000; OTick 1000; OAddApp 4000 [] (ex_l 1 1);
    OSchedule []; OAddServer 1001 2001 [100;100;100] 4000 0 9000; OSetState 1000 Frozen 1000; OSetValidUntil 1000 1010;
    OSetRenew 1; OSchedule [] ].
Theorem C08_renewal_refuted :
  let c0 := run (init_cell 3 2000 1) (firstn 9 ex_ops_renew) in
  let c := run (init_cell 3 2000 1) ex_ops_renew in
  exists a0 s a, get_app 1 (c_apps c0) = Some a0 /\ a_server a0 = Some 1000 /\ a_unschedule a0 = false /\
                 a_blacklisted a0 = false /\ a_renew a0 = true /\
                 get_srv 1000 (c_servers c0) = Some s /\ s_state s = Frozen /\
                 get_app 1 (c_apps c) = Some a /\ a_server a = Some 1001.
Proof. vm_compute. eexists. eexists. eexists. repeat split; reflexivity. Qed.
Print Assumptions C08_renewal_refuted.

(** non-vacuity of C08_keeps_placement: the same history without the shrink; instance 3 sits on the down server inside
    its retention window and is still there after the cycle *)
Definition ex_ops_keep : list op :=
  [ OAddBucket 2001 3 2000; OAddServer 1000 2001 [100;100;100] 4000 0 0; OConfigGroup 5000 3; OTick 1000;
    OAddApp 4000 [] (ex_a 1 1); OAddApp 4000 [] (ex_a 2 2); OAddApp 4000 [] (ex_a 3 3);
    OSchedule [(1, 0); (2, 1); (3, 2)]; OSetState 1000 Down 1000; OTick 1001 ].
Example C08_keeps_nonvacuous_reachable : reachable (run (init_cell 3 2000 1) ex_ops_keep).
Proof. exists 3%nat, 2000, 1, ex_ops_keep. split; [apply wf_ops_allb_sound; vm_compute; reflexivity|reflexivity]. Qed.
Example C08_keeps_nonvacuous :
  let c := run (init_cell 3 2000 1) ex_ops_keep in
  (exists a s, get_app 3 (c_apps c) = Some a /\ a_server a = Some 1000 /\ get_srv 1000 (c_servers c) = Some s /\
               s_state s = Down /\ expired c (s_since s) a = false /\ a_blacklisted a = false /\ a_renew a = false /\
               a_identity a = Some 2) /\
  forallb (fun lq => forallb (fun e => negb (Z.eqb (e_rank e) UNPLACED_RANK)) (snd lq)) (snd (fst (schedule c []))) = true /\
  option_map a_server (get_app 3 (c_apps (step c (OSchedule [])))) = Some (Some 1000).
Proof. vm_compute. split; [eexists; eexists; repeat split; reflexivity|split; reflexivity]. Qed.

(** the functions of treadmill/scheduler/__init__.py these theorems were proved about still have the statement
    skeleton the model was written from (re-extracted from the Python AST on every run, harness/tables_shape.py;
    kept last so that a difference does not stop the theorems above from being checked) *)
Theorem C08_source_shape : shapes_ok_C08 = true.
Proof. vm_compute. reflexivity. Qed.
Print Assumptions C08_source_shape.
