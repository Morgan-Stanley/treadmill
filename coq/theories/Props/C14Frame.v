(** C14, the schedules of the resource-service framework (services/_base_service.py, _linux_base_service.py).

    [C14_service_consistent] (Props/C14.v) is stated for operation lists that satisfy [guarded].  Here the framework
    that produces those lists is a model of its own (Node/SvcFrame.v: client put / delete / get, _check_requests,
    _on_created, _on_deleted, the start-up sequence of LinuxResourceService._run), tied to the source by the translator
    section `svcframe` (shape pins + the file names) and by differential execution of the REAL framework with a
    recording implementation (harness/props/svcframe.py).  The lemmas behind the proofs: Node/SvcFrameP.v. *)
From Coq Require Import ZArith List Bool Lia.
From TM Require Import Node.Owners Node.OwnersP Node.SvcFrame Node.SvcFrameP Node.SvcFrameRun Gen.Tables.
Import ListNotations.
Open Scope Z_scope.

(** the source's file names: request.yml, reply.yml, svc_req_id are three different plain names, none a dot name *)
Theorem C14F_tables_ok : svcframe_tables_ok = true.
Proof. vm_compute. reflexivity. Qed.
Print Assumptions C14F_tables_ok.

(** (a) between SvcRestart and SvcSync the start-up hands over exactly the requests whose link resolves and whose
    request.yml passes the schema, each with its own payload, in directory (glob) order; everything else it does in
    between is bookkeeping that needs no guard *)
Theorem C14F_startup_replays_all : forall c order t s, nodup_z order = true ->
  let ops := snd (fst (startup c order t s)) in
  (exists mid, ops = SvcRestart :: mid ++ [SvcSync] /\ forallb quiet mid = true) /\
  creates ops = to_replay order t.
Proof.
  intros c order t s Hnd. destruct (startup_mid c order t s) as (mid & E & M).
  exact (conj (ex_intro _ mid (conj E (mild_quiet mid M))) (startup_creates c order t s Hnd)).
Qed.
Print Assumptions C14F_startup_replays_all.

Theorem C14F_startup_replays_once : forall c order t s n env,
  nodup_z order = true -> In n order -> is_dot n = false -> req_env (fget n t) = Some env ->
  filter (fun x => fst x =? n) (creates (snd (fst (startup c order t s)))) = [(n, env)].
Proof.
  intros c order t s n env Hnd Hin Hdot Hreq. rewrite (startup_creates c order t s Hnd). unfold to_replay.
  apply (count_flat_single (fun k => req_env (fget k t))).
  - apply NoDup_filter. apply nodup_z_NoDup. exact Hnd.
  - exact (In_glob _ _ _ Hin Hdot (req_env_live _ _ Hreq)).
  - exact Hreq.
Qed.
Print Assumptions C14F_startup_replays_once.

Theorem C14F_startup_replays_only : forall c order t s n env,
  nodup_z order = true -> In (n, env) (creates (snd (fst (startup c order t s)))) ->
  In n order /\ is_dot n = false /\ req_env (fget n t) = Some env.
Proof.
  intros c order t s n env Hnd Hin. rewrite (startup_creates c order t s Hnd) in Hin. exact (In_to_replay order t n env Hin).
Qed.
Print Assumptions C14F_startup_replays_only.

(** (b) the hypothesis of C14_service_consistent holds for what the framework does at start-up, from every
    implementation state whose resources cover the links that resolve *)
Theorem C14F_startup_guarded : forall c order t s,
  (forall n, live (fget n t) = true -> In n (s_res s)) ->
  guarded c (snd (fst (startup c order t s))) s = true.
Proof.
  intros c order t s Hc. destruct (startup c order t s) as [[t' ops] dels] eqn:E.
  exact (proj1 (startup_sound c order t s t' ops dels E Hc)).
Qed.
Print Assumptions C14F_startup_guarded.

(** the same for every history: any number of service starts and stops interleaved with client requests, repeated
    requests, releases, containers that vanish, request files that vanish, stray events.  The operation list is the one
    the implementation state of the model was computed with. *)
Theorem C14F_frame_run_guarded : forall c fs,
  guarded c (frame_ops c fs) empty_state = true /\
  f_own (fst (frame_run c fs fstate0)) = run c (frame_ops c fs) empty_state.
Proof.
  intros c fs. destruct (frame_run_inv c fs fstate0 covers_empty) as (G & R & _). exact (conj G R).
Qed.
Print Assumptions C14F_frame_run_guarded.

(** so the conclusion of C14_service_consistent holds after every history of the framework, without a premise *)
Theorem C14F_service_consistent : forall c fs,
  let s := f_own (fst (frame_run c fs fstate0)) in
  (forall o a, dev_holds (s_devs s) o a = true -> lookup Z.eqb a (s_vips s) = Some o) /\
  (forall o1 o2 a, dev_holds (s_devs s) o1 a = true -> dev_holds (s_devs s) o2 a = true -> o1 = o2).
Proof.
  intros c fs s. destruct (C14F_frame_run_guarded c fs) as (G & R). unfold s. rewrite R.
  pose proof (run_consistent c (frame_ops c fs) empty_state (wf_empty c) G consistent_empty) as Hc.
  exact (conj Hc (fun o1 o2 a => consistent_exclusive _ o1 o2 a Hc)).
Qed.
Print Assumptions C14F_service_consistent.

(** (c) the client *)
Theorem C14F_get_after_delete : forall e, client_get (fst (client_delete e)) = None \/ e_uid e = false.
Proof.
  intros e. unfold client_delete. destruct (e_uid e); [left; reflexivity|right; reflexivity].
Qed.
Print Assumptions C14F_get_after_delete.

Theorem C14F_delete_twice : forall e,
  fst (client_delete (fst (client_delete e))) = fst (client_delete e) /\
  snd (client_delete (fst (client_delete e))) = CNone.
Proof. intros e. unfold client_delete. destruct (e_uid e) eqn:E; cbn; [auto|rewrite E; auto]. Qed.
Print Assumptions C14F_delete_twice.

Theorem C14F_put_existing_removes_reply : forall n env e, live e = true -> e_uid e = true ->
  client_get (fst (client_put n env e)) = None /\ snd (client_put n env e) = CCreated /\
  e_req (fst (client_put n env e)) = Some env /\ live (fst (client_put n env e)) = true.
Proof.
  intros n env e Hl Hu. destruct (client_put_live n env e (or_intror Hl)) as (H1 & H2 & H3 & H4 & H5).
  unfold client_get. rewrite H3, H5, Hu. auto.
Qed.
Print Assumptions C14F_put_existing_removes_reply.

Theorem C14F_put_answer_get : forall c n env t s up, 0 <= n -> 0 <= env ->
  let st1 := fst (fstep c (FPut n env) {| f_tbl := t; f_own := s; f_up := up |}) in
  e_uid (fget n t) = false \/ live (fget n t) = true ->
  (up = true ->
   exists r, client_get (fget n (f_tbl st1)) = Some r /\
             In (SvcCreate n env) (snd (fstep c (FPut n env) {| f_tbl := t; f_own := s; f_up := up |}))) /\
  (up = false -> client_get (fget n (f_tbl st1)) = (if e_uid (fget n t) then None else client_get (fget n t))).
Proof.
  intros c n env t s up Hn Henv st1 Hpre. unfold st1, fstep, fstep_raw. cbn [f_tbl f_own f_up].
  destruct (client_put_live n env _ Hpre) as (Hev & Hl & Hd & Hr & Hrep).
  destruct (client_put n env (fget n t)) as [e' ev]. cbn [fst snd] in *. subst ev. split; intros ->.
  - rewrite (on_created_handed c n _ _ env).
    + cbn [fst snd f_tbl]. rewrite !fget_fset_same. unfold client_get. cbn. rewrite Hd. eexists. split; [reflexivity|].
      apply in_or_app. right. left. reflexivity.
    + unfold is_dot. lia.
    + rewrite fget_fset_same. unfold req_env. rewrite Hl, Hr. destruct (Z.ltb_spec env 0); [lia|reflexivity].
  - cbn [fst snd f_tbl]. rewrite fget_fset_same. unfold client_get at 1. rewrite Hd. exact Hrep.
Qed.
Print Assumptions C14F_put_answer_get.

(** * Non-vacuity *)
Definition exf_c := {| c_base := 167772160; c_size := 8 |}.              (* 10.0.0.0/29 *)
(** two requests; the service stops; container 2 vanishes, container 3 asks; the service starts again and finds the
    directory listed as 3, 2, 1 *)
Definition exf_hist := [FBoot []; FPut 1 1; FPut 2 2; FGet 2; FStop; FGone 2; FPut 3 1; FBoot [3; 2; 1]].

Example C14F_nonvacuous :
  frame_ops exf_c exf_hist =
    [SvcRestart; SvcSync; ResUp 1; SvcCreate 1 1; ResUp 2; SvcCreate 2 2; ResDown 2; ResUp 3;
     SvcRestart; SvcCreate 3 1; SvcCreate 1 1; SvcSync; SvcDelete 2] /\
  (let st := fst (frame_run exf_c exf_hist fstate0) in
   client_get (fget 1 (f_tbl st)) = Some (RepOk 167772161) /\
   client_get (fget 3 (f_tbl st)) = Some (RepOk 167772163) /\
   fget 2 (f_tbl st) = absent /\
   s_vips (f_own st) = [(167772161, 1); (167772163, 3)]) /\
  (let st := fst (frame_run exf_c (firstn 7 exf_hist) fstate0) in
   nodup_z [3; 2; 1] = true /\
   to_replay [3; 2; 1] (f_tbl st) = [(3, 1); (1, 1)] /\
   res_covers (f_tbl st) (f_own st) = true).
Proof. vm_compute. repeat split. Qed.

(** a request whose request.yml is gone is not handed over: the framework removes its link instead, and the
    implementation is told about the deletion after synchronize; a payload the schema rejects gets the _error reply
    without a call *)
Example C14F_missing_request_file :
  frame_ops exf_c [FBoot []; FPut 1 1; FPut 2 (-1); FStop; FRmReq 1; FBoot [1; 2]; FGet 2] =
    [SvcRestart; SvcSync; ResUp 1; SvcCreate 1 1; ResUp 2; SvcRestart; ResDown 1; SvcSync; SvcDelete 1] /\
  client_get (fget 2 (f_tbl (fst (frame_run exf_c [FBoot []; FPut 1 1; FPut 2 (-1)] fstate0)))) = Some RepErr.
Proof. vm_compute. repeat split. Qed.

(** * (d) the start-up WITHOUT the replay ([startup_noreplay]: _on_created hands nothing over at start-up).
    The guard of C14_service_consistent does not notice - after SvcRestart every device is stale, so synchronize is
    "allowed" - but the live, answered owner 1 loses the address its reply.yml still names; with the replay it keeps
    it.  What excludes such a start-up is statement (a), not the guard. *)
Definition exf_before := fst (frame_run exf_c [FBoot []; FPut 1 1; FStop] fstate0).

Theorem C14F_noreplay_loses_address_refuted :
  exists c order t s a,
    live (fget 1 t) = true /\ client_get (fget 1 t) = Some (RepOk a) /\ In (a, 1) (s_vips s) /\ In 1 (s_res s) /\
    guarded c (snd (fst (startup_noreplay c order t s))) s = true /\
    creates (snd (fst (startup_noreplay c order t s))) = [] /\ to_replay order t = [(1, 1)] /\
    s_vips (run c (snd (fst (startup_noreplay c order t s))) s) = [] /\
    s_vips (run c (snd (fst (startup c order t s))) s) = [(a, 1)].
Proof.
  exists exf_c, [1], (f_tbl exf_before), (f_own exf_before), 167772161. vm_compute.
  repeat split; left; reflexivity.
Qed.
Print Assumptions C14F_noreplay_loses_address_refuted.

(** * The content of the replay: a live, replayed owner keeps its address across a start-up.
    Side condition [sole_addr o a s]: [a] is the only entry of [o] in vips/.  After SvcRestart (initialize) the device
    of an owner carries the address listed LAST for it in vips/; SvcCreate then finds that device and re-uses its
    address without allocating (Owners.svc_create, branch [dget o = Some d], [d_ip d = Some a]); it never
    re-allocates for an owner that has a vips entry.  With two entries the kept one is listing-order dependent
    ([C14F_two_addresses_order_dependent]). *)
Theorem C14F_startup_keeps_live_address : forall c order t s o a,
  wf c s -> (forall n, live (fget n t) = true -> In n (s_res s)) ->
  nodup_z order = true -> In o order -> is_dot o = false -> replayable (fget o t) = true ->
  lookup Z.eqb a (s_vips s) = Some o -> sole_addr o a s = true ->
  let s' := run c (snd (fst (startup c order t s))) s in
  lookup Z.eqb a (s_vips s') = Some o /\ dev_holds (s_devs s') o a = true /\ dev_stale (s_devs s') o = false.
Proof.
  intros c order t s o a Hw Hc Hnd Hord Hdot Hrep Hlk Hsole s'.
  destruct (startup_keeps_core c order t s o a Hw Hc Hnd Hord Hdot Hrep (lookup_In Z.eqb zeqb_spec _ _ _ Hlk)
              (sole_addr_sole o a s Hsole)) as (Hw' & [Hv Hh] & _ & Hf).
  split; [apply (NoDup_lookup Z.eqb zeqb_spec); [exact (proj1 Hw')|exact Hv]|split; [exact Hh|exact Hf]].
Qed.
Print Assumptions C14F_startup_keeps_live_address.

(** the reclaim direction: an address the start-up takes from its holder belonged to a request that is not handed
    over - the container is gone, request.yml is gone, or the schema rejects the payload *)
Theorem C14F_startup_frees_only_gone_or_unreplayable : forall c order t s o a,
  wf c s -> (forall n, live (fget n t) = true -> In n (s_res s)) ->
  nodup_z order = true -> In o order -> is_dot o = false ->
  lookup Z.eqb a (s_vips s) = Some o -> sole_addr o a s = true ->
  lookup Z.eqb a (s_vips (run c (snd (fst (startup c order t s))) s)) <> Some o ->
  replayable (fget o t) = false.
Proof.
  intros c order t s o a Hw Hc Hnd Hord Hdot Hlk Hsole Hlost. destruct (replayable (fget o t)) eqn:Er; [|reflexivity].
  exfalso. apply Hlost. exact (proj1 (C14F_startup_keeps_live_address c order t s o a Hw Hc Hnd Hord Hdot Er Hlk Hsole)).
Qed.
Print Assumptions C14F_startup_frees_only_gone_or_unreplayable.

(** whole histories: from the empty node, after any history [fs1], an owner that reads [a] in its reply, holds [a]
    (directory and device) and holds nothing else keeps it through every continuation [fs2] that leaves its request
    alone ([spares]: no client delete of [o], its container does not vanish, nobody removes its request.yml, its own
    puts carry a valid payload, every start lists the directory without repetition and with [o] in it) - across any
    number of restarts, other owners' requests and releases, stray events; and any reply it reads names [a].
    PARTIAL in one respect: that the owner holds what its reply names ([lookup], [dev_holds], [sole_addr] at the end of
    [fs1]) is a hypothesis here, not derived from [fs1]. *)
Theorem C14F_history_keeps_told_address_partial : forall c o a fs1 fs2,
  let st1 := fst (frame_run c fs1 fstate0) in
  0 <= o -> replayable (fget o (f_tbl st1)) = true ->
  client_get (fget o (f_tbl st1)) = Some (RepOk a) ->
  lookup Z.eqb a (s_vips (f_own st1)) = Some o -> dev_holds (s_devs (f_own st1)) o a = true ->
  sole_addr o a (f_own st1) = true ->
  forallb (spares o) fs2 = true ->
  let st2 := fst (frame_run c fs2 st1) in
  lookup Z.eqb a (s_vips (f_own st2)) = Some o /\ dev_holds (s_devs (f_own st2)) o a = true /\
  replayable (fget o (f_tbl st2)) = true /\
  (client_get (fget o (f_tbl st2)) = None \/ client_get (fget o (f_tbl st2)) = Some (RepOk a)).
Proof.
  intros c o a fs1 fs2 st1 Ho Hr Hg Hlk Hh Hso Hsp st2.
  destruct (frame_run_inv c fs1 fstate0 covers_empty) as (_ & Hrun & Hc1). fold st1 in Hrun, Hc1.
  apply (keeps_inv_elim c), frame_run_keeps; [unfold is_dot; lia|exact Hsp|].
  apply keeps_inv_intro; auto. rewrite Hrun. apply run_wf, wf_empty.
Qed.
Print Assumptions C14F_history_keeps_told_address_partial.

(** non-vacuity: owner 1 is told .1; then restarts, another owner coming and going, a repeated request of owner 1
    with another environment, a stray event, a stop with a request in between - owner 1 still holds .1 *)
Definition exf_fs1 := [FBoot []; FPut 1 1].
Definition exf_fs2 := [FPut 2 2; FStop; FBoot [2; 1]; FDelete 2; FPut 1 3; FTouch (PName 1); FStop; FPut 3 1; FGone 2;
                       FBoot [1; 3]; FGet 1].
Example C14F_history_nonvacuous :
  let st1 := fst (frame_run exf_c exf_fs1 fstate0) in
  let st2 := fst (frame_run exf_c exf_fs2 st1) in
  replayable (fget 1 (f_tbl st1)) = true /\ client_get (fget 1 (f_tbl st1)) = Some (RepOk 167772161) /\
  lookup Z.eqb 167772161 (s_vips (f_own st1)) = Some 1 /\ dev_holds (s_devs (f_own st1)) 1 167772161 = true /\
  sole_addr 1 167772161 (f_own st1) = true /\ forallb (spares 1) exf_fs2 = true /\
  client_get (fget 1 (f_tbl st2)) = Some (RepOk 167772161) /\
  s_vips (f_own st2) = [(167772161, 1); (167772162, 3)].
Proof. vm_compute. repeat split. Qed.

(** the side condition is needed: an owner with two entries in vips/ (a second one allocated behind the service)
    comes out of the start-up with the address listed last on its device, not the one it was told *)
Example C14F_two_addresses_order_dependent :
  let s := run exf_c [ResUp 1; SvcCreate 1 1; VipAlloc 1 None] empty_state in
  let t := [(1, {| e_link := true; e_dir := true; e_req := Some 1; e_uid := true; e_reply := Some (RepOk 167772161) |})] in
  let s' := run exf_c (snd (fst (startup exf_c [1] t s))) s in
  dev_holds (s_devs s) 1 167772161 = true /\ sole_addr 1 167772161 s = false /\
  dev_holds (s_devs s') 1 167772161 = false /\ dev_holds (s_devs s') 1 167772162 = true /\
  s_vips s' = [(167772161, 1); (167772162, 1)].
Proof. vm_compute. repeat split. Qed.
