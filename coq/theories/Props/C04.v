(** C04  Affinity limits hold at every level of the topology.

    The second sentence of the statement ("the per-node affinity counts the scheduler keeps equal the true counts") is
    a theorem at every level (Sched/InvAff.v for servers, Sched/InvCount.v for buckets, over the primitive-transition
    decomposition of Sched/Steps.v), for all histories of events and cycles in which instances of one affinity
    declare the same limits (the property's own proviso).  The first sentence holds at server level
    (C04_server_limit) and is refuted above it on the code as it is (C04_levels_refuted; known finding, TODO in the
    source): the counters are right, the limit is not consulted on the eviction and restore paths. *)
From Coq Require Import ZArith QArith List Bool.
From TM Require Import Sched.Vec Sched.Types Sched.Tree Sched.Cycle Sched.Events Sched.MapsP Sched.Steps
                       Sched.InvAcct Sched.InvAff Sched.InvCount.
From TM Require Import Base.ShapeCanon.
Import ListNotations.
Open Scope Z_scope.

(** the invariant holds in every reachable state, and is kept by any cycle *)
Theorem C04_invariant : forall dim root level ops,
  wf_ops_aff (init_cell dim root level) ops -> AA (run (init_cell dim root level) ops).
Proof. intros dim root level ops H. exact (AA_run ops _ H (AA_init dim root level)). Qed.
Print Assumptions C04_invariant.

Theorem C04_cycle : forall c choices, Aff c -> Aff (fst (fst (schedule c choices))).
Proof. exact Aff_schedule. Qed.
Print Assumptions C04_cycle.

(** the per-server affinity counter the scheduler keeps equals the true count *)
Theorem C04_server_counts : forall c s aff, AA c -> In s (c_servers c) ->
  cget aff (s_counters s) = count_aff (c_apps c) aff (s_apps s).
Proof.
  intros c s aff [HA HF] Hin. exact (af_exact _ HF _ _ aff (In_get_srv _ _ (ac_srv_names _ HA) Hin)).
Qed.
Print Assumptions C04_server_counts.

(** no server holds more instances of an affinity than they allow at server level *)
Theorem C04_server_limit : forall c s m a L, AA c -> In s (c_servers c) -> In m (s_apps s) ->
  get_app m (c_apps c) = Some a -> aff_limit a LEVEL_SERVER = Some L ->
  count_aff (c_apps c) (a_aff a) (s_apps s) <= L.
Proof.
  intros c s m a L [HA HF] Hin Hm Ha HL.
  pose proof (In_get_srv _ _ (ac_srv_names _ HA) Hin) as Hg.
  rewrite <- (af_exact _ HF _ _ (a_aff a) Hg). exact (af_limit _ HF _ _ _ _ _ Hg Hm Ha HL).
Qed.
Print Assumptions C04_server_limit.

(** in every reachable state the affinity counter kept by EVERY bucket - rack, pod, cell - equals the number of
    instances of that affinity placed on the servers below it (parent chain), for all histories including topology
    changes (servers added, moved between racks, removed) and every path of a cycle (walk, eviction scan, restore).
    Side conditions: a new bucket has a fresh name and an existing parent, a new or moved server an existing
    parent. *)
Theorem C04_bucket_counts : forall dim root level ops,
  wf_ops_aff (init_cell dim root level) ops -> wf_ops_cnt (init_cell dim root level) ops ->
  let c := run (init_cell dim root level) ops in
  forall b aff, In b (c_buckets c) ->
    cget aff (b_counters b) = placed_below c (b_name b) aff /\ cget aff (b_counters b) = srv_count c (b_name b) aff.
Proof. exact bucket_counts_reachable. Qed.
Print Assumptions C04_bucket_counts.

(** the root counter equals the number placed in the cell *)
Theorem C04_cell_counts : forall dim root level ops,
  wf_ops_aff (init_cell dim root level) ops -> wf_ops_cnt (init_cell dim root level) ops ->
  let c := run (init_cell dim root level) ops in
  exists b, get_bkt root (c_buckets c) = Some b /\ forall aff, cget aff (b_counters b) = placed_in_cell c aff.
Proof. exact root_counts_reachable. Qed.
Print Assumptions C04_cell_counts.

Theorem C04_counts_cycle : forall c ch, TreeWf c -> CountExact c ->
  TreeWf (fst (fst (schedule c ch))) /\ CountExact (fst (fst (schedule c ch))).
Proof. exact CountExact_schedule. Qed.
Print Assumptions C04_counts_cycle.

(** the eviction path puts an instance straight on a server and exceeds a rack limit: rack limit 1, a filler and an instance of affinity 3000 in one rack; a higher-priority
    instance of the same affinity arrives, evicts the filler and lands next to the first one *)
Definition ex_x (n p o : Z) : app :=
  mkApp n p [60;60;60] 3000 [(3, 1)] 0 0 None None false o None None None None false false false false (-1).
Definition ex_f (n o : Z) : app :=
  mkApp n 1 [60;60;60] 3001 [] 0 0 None None false o None None None None false false false false (-1).
Definition ex_ops : list op :=
  [ OAddBucket 2001 3 2000; OAddServer 1000 2001 [100;100;100] 4000 0 0; OAddServer 1001 2001 [100;100;100] 4000 0 0;
    OAddApp 4000 [] (ex_x 1 1 1); OAddApp 4000 [] (ex_f 2 2); OSchedule [];
    OAddApp 4000 [] (ex_x 3 9 3); OSchedule [] ].
Theorem C04_levels_refuted :
  exists ops, wf_ops_aff (init_cell 3 2000 1) ops /\
    let c := run (init_cell 3 2000 1) ops in
    exists b a, get_bkt 2001 (c_buckets c) = Some b /\ b_level b = 3 /\ get_app 3 (c_apps c) = Some a /\
                a_server a <> None /\ aff_limit a 3 = Some 1 /\ cget (a_aff a) (b_counters b) = 2.
Proof.
  exists ex_ops. split.
  - apply wf_ops_affb_sound. vm_compute. reflexivity.
  - vm_compute. eexists. eexists. repeat split; try reflexivity. discriminate.
Qed.
Print Assumptions C04_levels_refuted.

(** non-vacuity of the proved part: the same history satisfies the hypotheses, and a server-level limit is active *)
Definition ex_y (n p o : Z) : app :=
  mkApp n p [30;30;30] 3002 [(0, 1)] 0 0 None None false o None None None None false false false false (-1).
Example C04_nonvacuous :
  map (fun a => (a_name a, a_server a))
      (c_apps (run (init_cell 3 2000 1)
                   [OAddBucket 2001 3 2000; OAddServer 1000 2001 [100;100;100] 4000 0 0;
                    OAddApp 4000 [] (ex_y 1 1 1); OAddApp 4000 [] (ex_y 2 1 2); OSchedule []]))
  = [(1, Some 1000); (2, None)].
Proof. vm_compute. reflexivity. Qed.

(** non-vacuity of C04_bucket_counts: the refutation history satisfies both side conditions; the rack counter is 2
    with two instances of affinity 3000 really below the rack *)
Example C04_bucket_counts_nonvacuous :
  wf_ops_cntb (init_cell 3 2000 1) ex_ops = true /\
  placed_below (run (init_cell 3 2000 1) ex_ops) 2001 3000 = 2.
Proof. vm_compute. split; reflexivity. Qed.

(** the functions of treadmill/scheduler/__init__.py these theorems were proved about still have the statement
    skeleton the model was written from (re-extracted from the Python AST on every run, harness/tables_shape.py;
    kept last so that a difference does not stop the theorems above from being checked) *)
Theorem C04_source_shape : shapes_ok_C04 = true.
Proof. vm_compute. reflexivity. Qed.
Print Assumptions C04_source_shape.
