(** C06  The scheduling queue orders instances by rank, reservation and priority.
    Model: Sched/Queue.v (Allocation.priv_utilization_queue / utilization_queue / heapq.merge), tied to the source by
    the E-cell correspondence (the queue handed to _find_placements is part of every cycle's digest). Everything is
    proved for every allocation tree (any depth) and every population (Sched/QueueP.v, Sched/MergeOrderP.v). *)
From Coq Require Import ZArith QArith List Bool Lia Permutation Sorted.
From TM Require Import Sched.Vec Sched.Types Sched.Queue Sched.QueueP Sched.MergeOrderP Gen.Tables.
From TM Require Import Base.ShapeCanon.
Import ListNotations.
Open Scope Z_scope.

(** the model's constants are the source's (regenerated on every run) *)
Theorem C06_constants :
  sched_unplaced_rank = UNPLACED_RANK /\ sched_default_rank = al_rank (empty_alloc 3) /\
  sched_max_utilization_is_inf = true.
Proof. vm_compute. repeat split. Qed.
Print Assumptions C06_constants.

(** every instance of the partition is considered *)
Theorem C06_perm : forall dim free keps apps al,
  Permutation (map e_app (util_queue dim free keps apps al)) (map a_name (lookup_apps (all_apps al) apps)).
Proof. exact util_queue_perm. Qed.
Print Assumptions C06_perm.

(** exactly once: no instance twice when the allocation tree lists no instance twice *)
Theorem C06_each_once : forall dim free keps apps al,
  NoDup (map a_name (lookup_apps (all_apps al) apps)) -> NoDup (map e_app (util_queue dim free keps apps al)).
Proof.
  intros dim free keps apps al H.
  exact (Permutation_NoDup (Permutation_sym (util_queue_perm dim free keps apps al)) H).
Qed.
Print Assumptions C06_each_once.

(** ranks are non-decreasing along the queue (lower-ranked allocations first), given rank_adjustment >= 0,
    priorities >= 0, non-negative demands/reservations *)
Theorem C06_rank_mono : forall dim free keps apps al,
  apps_ok dim apps -> alloc_ok al -> Sorted Z.le (map e_rank (util_queue dim free keps apps al)).
Proof.
  intros dim free keps apps al Hok Hal. apply util_queue_rank_sorted. rewrite alloc_ok_all in Hal. revert Hal.
  apply alloc_all_impl. intros a (Ha & Hr & Hn). apply priv_queue_rank_sorted; assumption.
Qed.
Print Assumptions C06_rank_mono.

(** inside an allocation: priority, then running before pending, then first-come *)
Theorem C06_alloc_order : forall dim al apps,
  map e_app (priv_queue dim al apps) = map a_name (sort_apps (lookup_apps (al_apps al) apps)) /\
  StronglySorted key_le (sort_apps (lookup_apps (al_apps al) apps)).
Proof. exact priv_queue_order. Qed.
Print Assumptions C06_alloc_order.

Theorem C06_rank_decision : forall rank adj maxu res av l acc ub,
  Forall (fun e => e_rank e = rank_of rank adj maxu (e_ub e) (e_ua e)) (priv_loop rank adj maxu res av l acc ub).
Proof.
  intros rank adj maxu res av. induction l as [|a r IH]; intros acc ub; [constructor|]. rewrite priv_loop_cons.
  destruct (rescore res av (acc, ub) (a_demand a) (a_prio a)) as [[acc' ub1] ua1]. constructor; [reflexivity|apply IH].
Qed.
Print Assumptions C06_rank_decision.

(** boosted rank <=> utilisation before the instance is negative (all dimensions of the preceding cumulative demand
    below the reservation) and within the cap *)
Theorem C06_boost : forall rank adj maxu ub ua, 0 < adj -> rank < UNPLACED_RANK ->
  (rank_of rank adj maxu ub ua = rank - adj <->
   util_ltb ub (Some 0%Q) = true /\ (match maxu with None => true | Some m => util_leb ua (Some (m - 1)%Q) end) = true).
Proof.
  intros rank adj maxu ub ua Ha Hr. unfold rank_of.
  destruct (match maxu with None => true | Some m => util_leb ua (Some (m - 1)%Q) end);
  destruct (util_ltb ub (Some 0%Q)); split; intros H; try tauto; try lia; try (destruct H; discriminate).
Qed.
Print Assumptions C06_boost.

(** unplaced rank <=> utilisation after exceeds cap - 1 *)
Theorem C06_cap : forall rank adj maxu ub ua, 0 <= adj -> rank < UNPLACED_RANK ->
  (rank_of rank adj maxu ub ua = UNPLACED_RANK <-> exists m, maxu = Some m /\ util_leb ua (Some (m - 1)%Q) = false).
Proof.
  intros rank adj maxu ub ua Ha Hr. unfold rank_of. destruct maxu as [m|].
  - destruct (util_leb ua (Some (m - 1)%Q)) eqn:E.
    + split; [destruct (util_ltb ub (Some 0%Q)); lia|]. intros (m' & Hm & Hf). inversion Hm; subst. congruence.
    + split; [intros _; exists m; auto|reflexivity].
  - split; [destruct (util_ltb ub (Some 0%Q)); lia|]. intros (m' & Hm & _). discriminate.
Qed.
Print Assumptions C06_cap.

(** for EVERY allocation of the tree, at any depth: its own instances appear in the final queue of the partition in
    exactly the order of its private queue, i.e. in app-key order - the parent merges never reorder them *)
Theorem C06_merge_keeps_order : forall dim free keps apps al sub,
  NoDup (all_apps al) -> sub_of al sub ->
  filter (fun n => zmem n (al_apps sub)) (map e_app (util_queue dim free keps apps al))
  = map a_name (sort_apps (lookup_apps (al_apps sub) apps)).
Proof. exact merge_keeps_alloc_order. Qed.
Print Assumptions C06_merge_keeps_order.

(** two instances of one allocation: strictly smaller key => earlier in the final queue *)
Theorem C06_alloc_order_before : forall dim free keps apps al sub x y,
  NoDup (all_apps al) -> sub_of al sub ->
  In x (lookup_apps (al_apps sub) apps) -> In y (lookup_apps (al_apps sub) apps) -> ~ key_le y x ->
  let names := map e_app (util_queue dim free keps apps al) in
  (exists l1 l2 l3, names = l1 ++ a_name x :: l2 ++ a_name y :: l3) /\
  (forall l1 l2 l3, names <> l1 ++ a_name y :: l2 ++ a_name x :: l3).
Proof. exact alloc_order_before. Qed.
Print Assumptions C06_alloc_order_before.

(** priority-0 instances come after all others of the same rank, at every depth. "Utilisation-before is infinite
    iff priority 0" does NOT survive the re-scoring of a parent allocation (a non-zero-priority entry following a
    priority-0 entry of a lower rank inherits +inf, [mo_ub_none_nonzero_prio]); the order is still right because the
    comparison falls through to utilisation-after. *)
Theorem C06_zero_last : forall dim free keps apps al, apps_ok dim apps -> alloc_ok al ->
  let q := util_queue dim free keps apps al in
  forall e1 e2, In e1 q -> In e2 q -> e_prio e1 = 0 -> e_prio e2 <> 0 -> e_rank e1 = e_rank e2 ->
    (exists l1 l2 l3, q = l1 ++ e2 :: l2 ++ e1 :: l3) /\ (forall l1 l2 l3, q <> l1 ++ e1 :: l2 ++ e2 :: l3).
Proof. exact util_queue_zero_last. Qed.
Print Assumptions C06_zero_last.

(** non-vacuity: a two-level tree; boosted, normal, capped and priority-0 entries all occur *)
Definition ex_app (n p o : Z) (d : vec) (srv : option Z) : app :=
  mkApp n p d 3000 [] 0 0 None None false o None srv None None false false false false (-1).
Definition ex_apps := [ ex_app 1 5 1 [100;100;100] (Some 7); ex_app 2 5 2 [100;100;100] None;
                        ex_app 3 9 3 [50;50;50] None; ex_app 4 0 4 [10;10;10] None; ex_app 5 1 5 [400;400;400] None ].
Definition ex_alloc : alloc :=
  Alloc [0;0;0] 100 0 0 None [4]
        [(6000, Alloc [150;150;150] 100 10 0 (Some (3 # 1)%Q) [1; 2; 5] []); (6001, Alloc [64;64;64] 50 0 0 None [3] [])].
Example C06_nonvacuous :
  apps_ok 3 ex_apps /\ alloc_ok ex_alloc /\
  map (fun e => (e_app e, e_rank e)) (util_queue 3 [1000;1000;1000] 0 ex_apps ex_alloc)
  = [(3, 50); (1, 90); (2, 90); (4, 100); (5, UNPLACED_RANK)].
Proof.
  split; [|split].
  - unfold apps_ok, ex_apps. repeat constructor; cbn; try discriminate.
  - cbn. repeat split; try discriminate; repeat constructor; try discriminate.
  - vm_compute. reflexivity.
Qed.

(** the functions of treadmill/scheduler/__init__.py these theorems were proved about still have the statement
    skeleton the model was written from (re-extracted from the Python AST on every run, harness/tables_shape.py;
    kept last so that a difference does not stop the theorems above from being checked) *)
Theorem C06_source_shape : shapes_ok_C06 = true.
Proof. vm_compute. reflexivity. Qed.
Print Assumptions C06_source_shape.
