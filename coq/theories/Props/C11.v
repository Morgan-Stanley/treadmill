(** C11  A restarted master reloads exactly the placement that was published.

    Models.  Master/Restore.v: the per-node decision of Loader.restore_placement, with the answer of Server.restore /
    Server.put as the input [re_fits] (tied to the real load_model() by the correspondence: every restore_placement
    call of every generated history).  Master/RestoreSched.v (+ RestoreSchedP.v): the same function on top of the scheduler model, where
    Server.restore / Server.put ARE Sched/Tree.v [srv_restore] / [srv_put] (tied by E-cell) evaluated on the cell as it
    is when the node's turn comes - and, as in Python, without looking at app.server ([clear_server]: an instance already
    restored under an earlier server is restored under this one as well).  Master/RestoreAll.v (+ RestoreAllP.v,
    RestoreDupP.v): Loader.restore_placements - the loop of restore_placement over Loader.servers with what [integrity]
    collects, and the duplicate pass, in memory ([dedup_cell]: Server.remove) and in the store (Master/Publish.v
    [dedup_writes]).

    The theorems hold for all cells, all server lists, all node contents and all creation times, without a bound.
    ORACLE + CORRESPONDENCE ONLY:
      - load_model's earlier steps (load_servers, load_apps, load_identity_groups, ...) are exercised on the real Master
        by harness/props/c11.py, not modelled: the theorems start from the cell those steps built;
      - "healthy" in the theorems is evaluated at the node's turn; the oracle uses the order-independent reading
        (all recorded instances of the server fit together) and skips over-committed servers. *)
From Coq Require Import ZArith List Bool.
From Coq Require Import QArith.
From TM Require Import Sched.Vec Sched.Types Sched.Queue Sched.Tree Sched.Cycle Sched.Events.
From TM Require Import Sched.MapsP Sched.InvAcct Sched.InvAff.
From TM Require Import Master.Publish Master.PublishP Master.Restore Master.RestoreSched Master.RestoreSchedP.
From TM Require Import Master.RestoreAll Master.RestoreAllP Master.RestoreDupP Master.RestoreBridge.
From TM Require Import Sched.InvIdent Sched.TurnP Sched.KeepP Sched.Reach.
From TM Require Import Base.ShapeCanon.
Import ListNotations.
Open Scope Z_scope.

(** the decision table of Loader.restore_placement (Master/Restore.v) *)
Theorem C11_healthy_restored_verbatim : forall s presence entries e,
  In e entries -> healthy presence e = true ->
  restore_action presence true e = RRestore (re_expires e) (re_identity e) /\
  In (re_app e) (fst (restore_server s presence true entries)) /\
  restore_writes s e (restore_action presence true e) = [].
Proof.
  intros s presence entries e He H.
  assert (A : restore_action presence true e = RRestore (re_expires e) (re_identity e)).
  { unfold healthy in H. unfold restore_action.
    apply andb_true_iff in H as [H H4]. apply andb_true_iff in H as [H H3]. apply andb_true_iff in H as [H1 H2].
    rewrite H1, H2, H3, H4. reflexivity. }
  rewrite A. split; [reflexivity|]. split; [|reflexivity].
  unfold restore_server. cbn [fst]. apply in_flat_map. exists e. split; [exact He|]. rewrite A. left. reflexivity.
Qed.
Print Assumptions C11_healthy_restored_verbatim.

Theorem C11_restore_never_invents : forall presence ri e x id,
  restore_action presence ri e = RRestore x id -> x = re_expires e /\ (id = re_identity e \/ id = None).
Proof.
  intros presence ri e x id. unfold restore_action.
  destruct (re_known e), (re_node e), (verbatim presence e), (re_fits e), (re_once e), ri;
    cbn; intros H; inversion H; auto.
Qed.
Print Assumptions C11_restore_never_invents.

Theorem C11_nothing_unrecorded : forall s presence ri entries a,
  In a (fst (restore_server s presence ri entries)) -> In a (map re_app entries).
Proof.
  intros s presence ri entries a H. unfold restore_server in H. cbn [fst] in H. apply in_flat_map in H as [e [He H]].
  destruct (restored _); [|contradiction]. destruct H as [<-|[]]. apply in_map. exact He.
Qed.
Print Assumptions C11_nothing_unrecorded.

Theorem C11_rebooted_server_not_verbatim : forall pt e x id ri,
  re_ctime e < pt -> restore_action (Some pt) ri e <> RRestore x id.
Proof.
  intros pt e x id ri H. unfold restore_action, verbatim.
  replace (Z.leb pt (re_ctime e)) with false by (symmetry; apply Z.leb_gt; exact H).
  rewrite andb_false_r.
  destruct (re_known e), (re_node e), (re_once e), (re_fits e); cbn; discriminate.
Qed.
Print Assumptions C11_rebooted_server_not_verbatim.

Theorem C11_duplicates_dropped : forall restored st,
  (forall s a, has st s a = true -> exists l, In (s, l) restored /\ zmem a l = true) ->
  let final := apply_writes st (dedup_writes restored) in
  no_double final /\
  (forall s a, restored_on restored a = [s] -> lookup final s a = lookup st s a).
Proof. intros restored st H. exact (dedup_no_double restored st H). Qed.
Print Assumptions C11_duplicates_dropped.

(** on the scheduler model: after ALL nodes of a server have been processed, every node that was healthy when its turn
    came (instance scheduled, presence node not younger than the placement node, Server.restore accepts it on the cell
    as it then is: capacity left, partition label, traits, affinity limit) is placed on THAT server with the RECORDED
    expiry and the RECORDED identity *)
Theorem C11_reload_one_server : forall s presence pre n post c x0 c1,
  NoDup (map sn_app (pre ++ n :: post)) ->
  let cpre := restore_nodes s presence true c pre in
  get_app (sn_app n) (c_apps cpre) = Some x0 ->
  sched_verbatim presence n = true ->
  srv_restore cpre s (sn_app n) (Some (sn_expires n)) = (c1, true) ->
  exists x, get_app (sn_app n) (c_apps (restore_nodes s presence true c (pre ++ n :: post))) = Some x /\
            a_server x = Some s /\ a_expiry x = Some (sn_expires n) /\
            a_identity x = match sn_identity n with Some i => Some i | None => a_identity x0 end.
Proof.
  intros s presence pre n post c x0 c1 ND cpre G V R. apply (restore_nodes_restore s presence pre n post c x0 c1 ND G V).
  fold cpre. rewrite (clear_server_unplaced cpre (sn_app n) x0 G (srv_restore_ok_unplaced _ _ _ _ _ _ R G)). exact R.
Qed.
Print Assumptions C11_reload_one_server.

(** an instance without a node under the server is exactly as before: in particular nothing unrecorded gets placed *)
Theorem C11_reload_touches_nothing_else : forall s presence ri ns c b,
  ~ In b (map sn_app ns) -> get_app b (c_apps (restore_nodes s presence ri c ns)) = get_app b (c_apps c).
Proof. intros s presence ri ns c b H. exact (frame_restore_nodes s presence ri ns c b H). Qed.
Print Assumptions C11_reload_touches_nothing_else.

(** non-vacuity on the scheduler model: one server (capacity 150), identity group of 3, two instances of demand 100.
    Node of instance 1 (identity 2, expires 777) is restored verbatim; instance 2 then no longer fits and is dropped;
    with a presence younger than the node, instance 1 is put afresh (expiry = now + lease) *)
Definition sx_app (n : Z) (g : option Z) :=
  mkApp n 50 [100; 100; 100] 3000 [] 0 0 None g false n None None None None false false false false (-1).
Definition sx_cell := run (init_cell 3 2000 1)
  [OAddServer 1000 2000 [150; 150; 150] 4000 0 100000; OConfigGroup 5000 3; OAddApp 4000 [] (sx_app 1 (Some 5000));
   OAddApp 4000 [] (sx_app 2 None); OTick 50].
Definition sx_view (c : cell) (n : Z) := option_map (fun a => (a_server a, a_expiry a, a_identity a)) (get_app n (c_apps c)).
Example C11_nonvacuous_sched :
  let c2 := restore_nodes 1000 (Some 5) true sx_cell [mkSN 1 (Some 2) 777 9; mkSN 2 None 888 9] in
  snd (srv_restore sx_cell 1000 1 (Some 777)) = true /\
  sx_view c2 1 = Some (Some 1000, Some 777, Some 2) /\
  sx_view c2 2 = Some (None, Some 888, None) /\
  snd (restore_node 1000 (Some 15) true sx_cell (mkSN 1 (Some 2) 777 9)) = RPutFresh (Some 2) /\
  sx_view (fst (restore_node 1000 (Some 15) true sx_cell (mkSN 1 (Some 2) 777 9))) 1 = Some (Some 1000, Some 50, Some 2).
Proof. vm_compute. repeat split. Qed.

(** non-vacuity: a healthy node, a node of a rebooted server, a stale node, a schedule-once node of a server that is
    down *)
Definition ex_h := mkRE 1 true true (Some 2) 500 120 false true.
Definition ex_reb := mkRE 2 true true None 500 90 false true.
Definition ex_stale := mkRE 3 false true None 0 120 false true.
Definition ex_once := mkRE 4 true true None 500 120 true true.
Example C11_nonvacuous :
  healthy (Some 100) ex_h = true /\
  restore_server 9 (Some 100) true [ex_h; ex_reb; ex_stale] = ([1; 2], [WDel 9 3]) /\
  restore_action (Some 100) true ex_reb = RPutFresh None /\
  restore_server 9 None true [ex_once] = ([], [WDel 9 4; WFinished 4; WUnsched 4]).
Proof. vm_compute. repeat split. Qed.

(** the same when the instance may already name a server - it was restored under an earlier server of the same load:
    Python's Server.restore does not look at app.server ([clear_server]: the identity when it names none, so
    C11_reload_one_server is the special case) *)
Theorem C11_reload_one_server_again s presence pre n post c x0 c1 :
  NoDup (map sn_app (pre ++ n :: post)) ->
  let cpre := restore_nodes s presence true c pre in
  get_app (sn_app n) (c_apps cpre) = Some x0 ->
  sched_verbatim presence n = true ->
  srv_restore (clear_server cpre (sn_app n)) s (sn_app n) (Some (sn_expires n)) = (c1, true) ->
  exists x, get_app (sn_app n) (c_apps (restore_nodes s presence true c (pre ++ n :: post))) = Some x /\
            a_server x = Some s /\ a_expiry x = Some (sn_expires n) /\
            a_identity x = match sn_identity n with Some i => Some i | None => a_identity x0 end.
Proof. exact (restore_nodes_restore s presence pre n post c x0 c1). Qed.
Print Assumptions C11_reload_one_server_again.

(** * the composition over Loader.servers (Master/RestoreAll.v [restore_all] = the first loop of restore_placements,
    [restore_placements] = both loops)
    (a) a node healthy at its turn whose instance has no node under another server: on its server with the recorded
    expiry and identity after ALL servers, and the only server [integrity] lists for it; (b) an instance without a node
    is as before and listed nowhere; (c) [integrity] has one entry per server and lists exactly the restored nodes *)
Theorem C11_reload_all_servers : forall c servers,
  let r := restore_all true c servers in
  (forall spre sr spost pre n post x0 c1,
     servers = spre ++ sr :: spost ->
     sr_nodes sr = pre ++ n :: post ->
     NoDup (map sn_app (sr_nodes sr)) ->
     (forall sr', In sr' (spre ++ spost) -> ~ In (sn_app n) (map sn_app (sr_nodes sr'))) ->
     let cpre := restore_nodes (sr_name sr) (sr_presence sr) true (fst (restore_all true c spre)) pre in
     get_app (sn_app n) (c_apps cpre) = Some x0 ->
     sched_verbatim (sr_presence sr) n = true ->
     srv_restore (clear_server cpre (sn_app n)) (sr_name sr) (sn_app n) (Some (sn_expires n)) = (c1, true) ->
     (exists x, get_app (sn_app n) (c_apps (fst r)) = Some x /\
                a_server x = Some (sr_name sr) /\ a_expiry x = Some (sn_expires n) /\
                a_identity x = match sn_identity n with Some i => Some i | None => a_identity x0 end) /\
     restored_on (snd r) (sn_app n) = [sr_name sr] /\
     get_app (sn_app n) (c_apps c) = Some x0) /\
  (forall b, (forall sr, In sr servers -> ~ In b (map sn_app (sr_nodes sr))) ->
     get_app b (c_apps (fst r)) = get_app b (c_apps c) /\ restored_on (snd r) b = []) /\
  (map fst (snd r) = map sr_name servers /\
   forall a s, In s (restored_on (snd r) a) <->
     exists spre sr spost pre n post,
       servers = spre ++ sr :: spost /\ sr_nodes sr = pre ++ n :: post /\ s = sr_name sr /\ a = sn_app n /\
       restored (snd (restore_node s (sr_presence sr) true
                        (restore_nodes s (sr_presence sr) true (fst (restore_all true c spre)) pre) n)) = true).
Proof.
  intros c servers r. split; [|split].
  - intros spre sr spost pre n post x0 c1 Es En ND Hoth cpre G V R.
    destruct (restore_all_healthy c spre sr spost pre n post x0 c1 En ND) as [Hx [_ H3]]; try assumption.
    { intros sr' H. apply Hoth. apply in_or_app. right. exact H. }
    destruct H3 as [Hone Hx0]. { intros sr' H. apply Hoth. apply in_or_app. left. exact H. }
    unfold r. rewrite Es. auto.
  - intros b H. split; [apply restore_all_frame; exact H|apply restored_on_unrecorded; exact H].
  - split; [apply restored_servers|]. intros a s. apply integrity_exact.
Qed.
Print Assumptions C11_reload_all_servers.

(** (a) needs only that no LATER server records the instance *)
Theorem C11_reload_all_servers_later : forall c spre sr spost pre n post x0 c1,
  sr_nodes sr = pre ++ n :: post ->
  NoDup (map sn_app (sr_nodes sr)) ->
  (forall sr', In sr' spost -> ~ In (sn_app n) (map sn_app (sr_nodes sr'))) ->
  let cpre := restore_nodes (sr_name sr) (sr_presence sr) true (fst (restore_all true c spre)) pre in
  get_app (sn_app n) (c_apps cpre) = Some x0 ->
  sched_verbatim (sr_presence sr) n = true ->
  srv_restore (clear_server cpre (sn_app n)) (sr_name sr) (sn_app n) (Some (sn_expires n)) = (c1, true) ->
  let r := restore_all true c (spre ++ sr :: spost) in
  (exists x, get_app (sn_app n) (c_apps (fst r)) = Some x /\
             a_server x = Some (sr_name sr) /\ a_expiry x = Some (sn_expires n) /\
             a_identity x = match sn_identity n with Some i => Some i | None => a_identity x0 end) /\
  In (sr_name sr) (restored_on (snd r) (sn_app n)).
Proof.
  intros c spre sr spost pre n post x0 c1 En ND Hpost cpre G V R r.
  destruct (restore_all_healthy c spre sr spost pre n post x0 c1 En ND Hpost G V R) as [Hx [Hin _]]. auto.
Qed.
Print Assumptions C11_reload_all_servers_later.

(** restore_all is the fold of restore_nodes; the collected names are a companion of restore_nodes *)
Theorem C11_restore_all_is_fold ri servers : forall c,
  fst (restore_all ri c servers) =
  fold_left (fun acc sr => restore_nodes (sr_name sr) (sr_presence sr) ri acc (sr_nodes sr)) servers c.
Proof. exact (restore_all_is_fold ri servers). Qed.
Print Assumptions C11_restore_all_is_fold.

Theorem C11_restored_names_companion : forall s p ri ns c,
  fst (restore_nodes_names s p ri c ns) = restore_nodes s p ri c ns /\
  forall a, In a (snd (restore_nodes_names s p ri c ns)) <->
            exists pre n post, ns = pre ++ n :: post /\ a = sn_app n /\
                               restored (snd (restore_node s p ri (restore_nodes s p ri c pre) n)) = true.
Proof. intros s p ri ns c. split; [apply rnn_fst|]. intros a. apply restored_names_spec. Qed.
Print Assumptions C11_restored_names_companion.

(** through the duplicate pass as well (in-memory Server.remove and the deletions) *)
Theorem C11_restore_placements_healthy c spre sr spost pre n post x0 c1 :
  sr_nodes sr = pre ++ n :: post ->
  NoDup (map sn_app (sr_nodes sr)) ->
  (forall sr', In sr' (spre ++ spost) -> ~ In (sn_app n) (map sn_app (sr_nodes sr'))) ->
  let s := sr_name sr in
  let p := sr_presence sr in
  let cpre := restore_nodes s p true (fst (restore_all true c spre)) pre in
  get_app (sn_app n) (c_apps cpre) = Some x0 ->
  sched_verbatim p n = true ->
  srv_restore (clear_server cpre (sn_app n)) s (sn_app n) (Some (sn_expires n)) = (c1, true) ->
  forall cf rs ws, restore_placements true c (spre ++ sr :: spost) = (cf, rs, ws) ->
  (exists x, get_app (sn_app n) (c_apps cf) = Some x /\
             a_server x = Some s /\ a_expiry x = Some (sn_expires n) /\
             a_identity x = match sn_identity n with Some i => Some i | None => a_identity x0 end) /\
  restored_on rs (sn_app n) = [s] /\
  (forall s', ~ In (WDel s' (sn_app n)) ws).
Proof.
  intros En ND Hoth s p cpre G V R cf rs ws EQ.
  destruct (restore_all_healthy c spre sr spost pre n post x0 c1 En ND) as [Hx [_ H3]]; try assumption.
  { intros sr' H. apply Hoth. apply in_or_app. right. exact H. }
  destruct H3 as [Hone _]. { intros sr' H. apply Hoth. apply in_or_app. left. exact H. }
  destruct (restore_placements_dedup _ _ _ _ _ _ (sn_app n) EQ) as [-> D].
  destruct D as [D1 D2]; [rewrite Hone; repeat constructor|]. rewrite D1. auto.
Qed.
Print Assumptions C11_restore_placements_healthy.

Theorem C11_restore_placements_nothing_unrecorded ri c servers b :
  (forall sr, In sr servers -> ~ In b (map sn_app (sr_nodes sr))) ->
  forall cf rs ws, restore_placements ri c servers = (cf, rs, ws) ->
  get_app b (c_apps cf) = get_app b (c_apps c) /\ restored_on rs b = [] /\ (forall s, ~ In (WDel s b) ws).
Proof.
  intros H cf rs ws EQ. pose proof (restored_on_unrecorded ri c servers b H) as U.
  destruct (restore_placements_dedup _ _ _ _ _ _ b EQ) as [-> D].
  destruct D as [D1 D2]; [rewrite U; repeat constructor|]. rewrite D1, restore_all_frame by exact H. auto.
Qed.
Print Assumptions C11_restore_placements_nothing_unrecorded.

(** C11_duplicates_dropped applied to what the loop collected *)
Theorem C11_reload_all_then_dedup : forall ri c servers st,
  let restored := snd (restore_all ri c servers) in
  (forall s a, has st s a = true -> exists l, In (s, l) restored /\ zmem a l = true) ->
  let final := apply_writes st (dedup_writes restored) in
  no_double final /\
  (forall s a, restored_on restored a = [s] -> lookup final s a = lookup st s a).
Proof. intros ri c servers st restored H. exact (dedup_no_double restored st H). Qed.
Print Assumptions C11_reload_all_then_dedup.

(** the remove_all() that opens every restore_placement changes nothing during load_model (server names are dict keys;
    load_servers has just created the servers empty) *)
Theorem C11_remove_all_idle ri servers : forall c,
  NoDup (map sr_name servers) -> (forall sr, In sr servers -> srv_empty c (sr_name sr)) ->
  restore_all_ra ri c servers = restore_all ri c servers.
Proof. exact (restore_all_ra_eq ri servers). Qed.
Print Assumptions C11_remove_all_idle.

(** * an instance recorded under TWO servers, restored under both at its turns (RRestore or RPutFresh):
    [integrity] lists both; after restore_placements it names no server (expiry cleared, marked evicted), neither server
    lists it - no server does that did not list it before -, and both of its nodes are deleted.
    Side conditions: node names under one server distinct (children of one ZooKeeper node), the two server names differ
    (dict keys), no server lists an instance twice at the start (Server.apps is a dict; Sched/InvAcct.v ac_nodup) *)
Theorem C11_duplicate_removed_from_both ri c s1 srA s2 srB s3 preA nA postA preB nB postB :
  let A := sr_name srA in
  let B := sr_name srB in
  let a := sn_app nA in
  sr_nodes srA = preA ++ nA :: postA -> sr_nodes srB = preB ++ nB :: postB -> sn_app nB = a ->
  NoDup (map sn_app (sr_nodes srA)) -> NoDup (map sn_app (sr_nodes srB)) ->
  A <> B ->
  (forall sr, In sr (s1 ++ s2 ++ s3) -> ~ In a (map sn_app (sr_nodes sr))) ->
  apps_nodup c ->
  let cA := restore_nodes A (sr_presence srA) ri (fst (restore_all ri c s1)) preA in
  let cB := restore_nodes B (sr_presence srB) ri (fst (restore_all ri c (s1 ++ srA :: s2))) preB in
  restored (snd (restore_node A (sr_presence srA) ri cA nA)) = true ->
  restored (snd (restore_node B (sr_presence srB) ri cB nB)) = true ->
  forall cf rs ws, restore_placements ri c (s1 ++ srA :: s2 ++ srB :: s3) = (cf, rs, ws) ->
  restored_on rs a = [A; B] /\
  (exists x, get_app a (c_apps cf) = Some x /\ a_server x = None /\ a_expiry x = None /\ a_evicted x = true) /\
  ~ listed cf A a /\ ~ listed cf B a /\
  (forall s, listed cf s a -> listed c s a) /\
  In (WDel A a) ws /\ In (WDel B a) ws.
Proof. exact (restore_placements_duplicate ri c s1 srA s2 srB s3 preA nA postA preB nB postB). Qed.
Print Assumptions C11_duplicate_removed_from_both.

(** the same for two healthy nodes (the hypothesis of C11_reload_one_server_again at both turns) *)
Theorem C11_duplicate_healthy_removed_from_both c s1 srA s2 srB s3 preA nA postA preB nB postB xA cA1 xB cB1 :
  let A := sr_name srA in
  let B := sr_name srB in
  let a := sn_app nA in
  sr_nodes srA = preA ++ nA :: postA -> sr_nodes srB = preB ++ nB :: postB -> sn_app nB = a ->
  NoDup (map sn_app (sr_nodes srA)) -> NoDup (map sn_app (sr_nodes srB)) ->
  A <> B ->
  (forall sr, In sr (s1 ++ s2 ++ s3) -> ~ In a (map sn_app (sr_nodes sr))) ->
  apps_nodup c ->
  let cA := restore_nodes A (sr_presence srA) true (fst (restore_all true c s1)) preA in
  let cB := restore_nodes B (sr_presence srB) true (fst (restore_all true c (s1 ++ srA :: s2))) preB in
  get_app a (c_apps cA) = Some xA -> sched_verbatim (sr_presence srA) nA = true ->
  srv_restore (clear_server cA a) A a (Some (sn_expires nA)) = (cA1, true) ->
  get_app a (c_apps cB) = Some xB -> sched_verbatim (sr_presence srB) nB = true ->
  srv_restore (clear_server cB a) B a (Some (sn_expires nB)) = (cB1, true) ->
  forall cf rs ws, restore_placements true c (s1 ++ srA :: s2 ++ srB :: s3) = (cf, rs, ws) ->
  restored_on rs a = [A; B] /\
  (exists x, get_app a (c_apps cf) = Some x /\ a_server x = None /\ a_expiry x = None /\ a_evicted x = true) /\
  ~ listed cf A a /\ ~ listed cf B a /\
  (forall s, listed cf s a -> listed c s a) /\
  In (WDel A a) ws /\ In (WDel B a) ws.
Proof.
  intros A B a EA EB EnB NDA NDB AB UNREC ND0 cA cB GA VA RA GB VB RB.
  apply (restore_placements_duplicate true c s1 srA s2 srB s3 preA nA postA preB nB postB EA EB EnB NDA NDB AB UNREC ND0).
  - exact (healthy_restored A (sr_presence srA) cA nA xA cA1 GA VA RA).
  - fold B. fold cB. rewrite <- EnB in GB, RB. exact (healthy_restored B (sr_presence srB) cB nB xB cB1 GB VB RB).
Qed.
Print Assumptions C11_duplicate_healthy_removed_from_both.

(** accounting after restore_placements, however many instances were recorded under several servers: every server's
    free capacity is its capacity minus the demands of the instances it still lists (so nothing stays deducted for an
    instance removed by the duplicate pass), it is non-negative, and the server-level affinity counters are the counts
    over the instances it still lists.  Hypotheses: the invariants of every reachable cell (C01_accounting, C04) and no
    recorded instance is schedule_once (see Master/RestoreDupP.v: with a schedule-once instance recorded under three
    servers and refused by the third, Python itself leaves the first server's books wrong and then fails an assertion) *)
Theorem C11_reload_accounting ri c servers :
  Acct c -> Aff c -> once_free_on (recorded servers) c ->
  forall cf rs ws, restore_placements ri c servers = (cf, rs, ws) ->
  forall s sv, get_srv s (c_servers cf) = Some sv ->
    vadd (s_free sv) (total (c_apps cf) (c_dim cf) (s_apps sv)) = s_cap sv /\
    nonneg (s_free sv) /\
    forall aff, cget aff (s_counters sv) = count_aff (c_apps cf) aff (s_apps sv).
Proof. exact (restore_placements_accounting ri c servers). Qed.
Print Assumptions C11_reload_accounting.

(** the two-server data of Master/RestoreAllP.v (servers 1000, 1001; instance 2 recorded under both): after the first
    loop both servers list instance 2 and have its demand deducted; the duplicate pass deletes both nodes and leaves
    servers and buckets exactly as the same load without the two nodes does *)
Example C11_duplicate_on_data :
  let c0 := fst (restore_all true ax_cell [ax_s0]) in
  let r := restore_all true ax_cell [ax_s0; ax_s1] in
  let '(cf, rs, ws) := restore_placements true ax_cell [ax_s0; ax_s1] in
  let '(cf', _, ws') := restore_placements true ax_cell [mkSR 1000 (Some 5) [mkSN 1 (Some 2) 777 9];
                                                         mkSR 1001 (Some 5) [mkSN 3 None 555 9]] in
  snd (restore_node 1000 (Some 5) true (restore_nodes 1000 (Some 5) true ax_cell [mkSN 1 (Some 2) 777 9])
                    (mkSN 2 None 888 9)) = RRestore 888 None /\
  ax_view c0 2 = Some (Some 1000, Some 888, None, false) /\
  snd (restore_node 1001 (Some 5) true c0 (mkSN 2 None 999 9)) = RRestore 999 None /\
  ax_view (fst r) 2 = Some (Some 1001, Some 999, None, false) /\
  ax_on (fst r) 1000 = Some ([1; 2], [100; 100; 100], [(3000, 2)]) /\
  ax_on (fst r) 1001 = Some ([2; 3], [100; 100; 100], [(3000, 2)]) /\
  map (fun b => (b_name b, b_free b, b_counters b)) (c_buckets (fst r)) = [(2000, [100; 100; 100], [(3000, 4)])] /\
  rs = snd r /\ restored_on rs 2 = [1000; 1001] /\
  ws = [WDel 1000 2; WDel 1001 2] /\
  ax_view cf 2 = Some (None, None, None, true) /\
  ax_on cf 1000 = Some ([1], [200; 200; 200], [(3000, 1)]) /\
  ax_on cf 1001 = Some ([3], [200; 200; 200], [(3000, 1)]) /\
  map (fun b => (b_name b, b_free b, b_counters b)) (c_buckets cf) = [(2000, [200; 200; 200], [(3000, 2)])] /\
  c_servers cf = c_servers cf' /\ c_buckets cf = c_buckets cf' /\ ws' = [] /\
  ax_view cf 1 = ax_view cf' 1 /\ ax_view cf 3 = ax_view cf' 3.
Proof. exact ax_duplicate_on_data. Qed.

(** ** the restore in terms of the scheduler's operation alphabet (Master/RestoreBridge.v)
    For a store that records no instance under two servers, the first loop of restore_placements is a run of
    [ORestore] operations (one per placement node, in listing order); the rebuilt cell is therefore a reachable state
    of the scheduler model when the cell before the restore is, and everything proved of a cycle run from a reachable
    state holds of the first cycle after a fail-over.  The side conditions [wf_ops_all] are the loader's call-site
    facts: the server is attached, the instance is on no server when its node's turn comes, a recorded identity is
    held by no other instance of the group, and a group instance has or is given an identity. *)
Theorem C11_restore_is_a_run : forall ri servers c,
  Good c -> wf_ops_all c (ops_of_store ri servers) ->
  fst (restore_all ri c servers) = run c (ops_of_store ri servers).
Proof. exact restore_all_is_run. Qed.
Print Assumptions C11_restore_is_a_run.

Theorem C11_rebuilt_cell_reachable : forall ri servers c,
  reachable c -> wf_ops_all c (ops_of_store ri servers) -> reachable (fst (restore_all ri c servers)).
Proof. exact restore_all_reachable. Qed.
Print Assumptions C11_rebuilt_cell_reachable.

Theorem C11_first_cycle_after_failover : forall ri servers c ch,
  reachable c -> wf_ops_all c (ops_of_store ri servers) ->
  let c1 := fst (restore_all ri c servers) in
  forall x a', app_of (step c1 (OSchedule ch)) x = Some a' ->
    (a_server a' = None -> no_id a') /\ (a_server a' <> None -> has_id a') /\
    (forall g i k, holds a' g i -> gcount (step c1 (OSchedule ch)) g = Some k -> 0 <= i < k).
Proof.
  intros ri servers c ch HR Hwf c1. apply end_of_cycle_identities. apply reachable_Good.
  apply restore_all_reachable; assumption.
Qed.
Print Assumptions C11_first_cycle_after_failover.

Example C11_bridge_nonvacuous :
  let store := [mkSR 1000 (Some 5) [mkSN 1 (Some 2) 777 9; mkSN 2 None 888 9]] in
  wf_ops_allb (init_cell 3 2000 1)
    ([OAddServer 1000 2000 [150; 150; 150] 4000 0 100000; OConfigGroup 5000 3; OAddApp 4000 [] (sx_app 1 (Some 5000));
      OAddApp 4000 [] (sx_app 2 None); OTick 50] ++ ops_of_store true store) = true /\
  sx_view (fst (restore_all true sx_cell store)) 1 = Some (Some 1000, Some 777, Some 2) /\
  sx_view (run sx_cell (ops_of_store true store)) 1 = Some (Some 1000, Some 777, Some 2).
Proof. vm_compute. repeat split. Qed.

(** the functions named by this property's anchors still have the statement skeleton the model was written from
    (re-extracted from the Python AST on every run, harness/tables_shape.py + harness/shape_pins.json; kept last so that
    a difference does not stop the theorems above from being checked) *)
Theorem C11_source_shape : shapes_ok_C11 = true.
Proof. vm_compute. reflexivity. Qed.
Print Assumptions C11_source_shape.
