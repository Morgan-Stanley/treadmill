(** C05  Identities are unique, in range, and held only by placed instances.

    Proved on the model, for all histories of events and cycles and all identity choices (the set.pop()
    nondeterminism).  The invariant is that of Sched/InvIdent.v; the end-of-cycle statement rests on Sched/TurnP.v
    (per-turn specification), Sched/CycleP.v (loop and partition composition), Sched/IdRange.v, Sched/InvAlloc.v
    (allocation-tree invariant), Sched/InvIdRec.v and Sched/Reach.v.
    A renewal whose restore is refused kept the identity of a pending instance: defect of the code repaired by
    fix: 7bb39c9; earlier defects of the same property: 05b28ff, 892e28c, d5e1071 (known_findings.json). *)
From Coq Require Import ZArith QArith List Bool.
From TM Require Import Sched.Vec Sched.Types Sched.Tree Sched.Cycle Sched.Events Sched.MapsP Sched.Steps Sched.InvAcct Sched.InvIdent
                       Sched.TurnP Sched.CycleP Sched.KeepP Sched.Reach.
From TM Require Import Base.ShapeCanon.
Import ListNotations.
Open Scope Z_scope.

(** the identity invariant holds in every reachable state, and is kept by a cycle *)
Theorem C05_invariant : forall dim root level ops,
  wf_ops_id (init_cell dim root level) ops -> IdentG (run (init_cell dim root level) ops).
Proof. intros dim root level ops H. exact (IdentG_run ops _ H (IdentG_init dim root level)). Qed.
Print Assumptions C05_invariant.

Theorem C05_cycle : forall c choices, Ident c -> Ident (fst (fst (schedule c choices))).
Proof. exact Ident_schedule. Qed.
Print Assumptions C05_cycle.

(** within a group no two instances hold the same identity *)
Theorem C05_unique : forall c a1 a2 g i, Ident c ->
  In a1 (c_apps c) -> In a2 (c_apps c) -> holds a1 g i -> holds a2 g i -> a1 = a2.
Proof.
  intros c a1 a2 g i HI H1 H2 Hh1 Hh2.
  pose proof (In_get_app _ _ (id_names _ HI) H1) as G1. pose proof (In_get_app _ _ (id_names _ HI) H2) as G2.
  pose proof (id_unique _ HI _ _ _ _ _ _ G1 G2 Hh1 Hh2) as E. rewrite E in G1. rewrite G1 in G2. inversion G2. reflexivity.
Qed.
Print Assumptions C05_unique.

(** every identity on offer is in [0, count) and is held by nobody (so whatever the first instance in the queue
    acquires is really free) *)
Theorem C05_offer_sound : forall c g grp i, Ident c -> aget g (c_groups c) = Some grp -> In i (g_avail grp) ->
  0 <= i < g_count grp /\ forall a, In a (c_apps c) -> ~ holds a g i.
Proof.
  intros c g grp i HI Hg Hi. split; [exact (id_avail_range _ HI _ _ _ Hg Hi)|].
  intros a Ha Hh. exact (id_disjoint _ HI _ _ _ _ _ (In_get_app _ _ (id_names _ HI) Ha) Hh Hg Hi).
Qed.
Print Assumptions C05_offer_sound.

Theorem C05_held_nonneg : forall c a g i, Ident c -> In a (c_apps c) -> holds a g i -> 0 <= i.
Proof. intros c a g i HI Ha Hh. exact (id_held_nonneg _ HI _ _ _ _ (In_get_app _ _ (id_names _ HI) Ha) Hh). Qed.
Print Assumptions C05_held_nonneg.

(** after EVERY cycle of EVERY history: an instance that is not placed holds no identity, a placed instance of a
    group holds one, and every held identity is in [0, count) of its group's current size *)
Theorem C05_end_of_cycle : forall dim root level ops ch,
  wf_ops_all (init_cell dim root level) ops ->
  let c' := step (run (init_cell dim root level) ops) (OSchedule ch) in
  forall x a', get_app x (c_apps c') = Some a' ->
    (a_server a' = None -> a_group a' = None \/ a_identity a' = None) /\
    (a_server a' <> None -> a_group a' = None \/ a_identity a' <> None) /\
    (forall g i grp, a_group a' = Some g -> a_identity a' = Some i -> aget g (c_groups c') = Some grp ->
                     0 <= i < g_count grp).
Proof.
  intros dim root level ops ch Hwf c' x a' Ha'.
  destruct (end_of_cycle_identities _ ch (Good_run ops _ Hwf (Good_init dim root level)) x a' Ha') as (H1 & H2 & H3).
  split; [exact H1|]. split; [exact H2|]. intros g i grp Hg Hi Hgrp.
  apply (H3 g i (g_count grp) (conj Hg Hi)). unfold gcount. fold c'. rewrite Hgrp. reflexivity.
Qed.
Print Assumptions C05_end_of_cycle.

(** the same for one cycle from any state satisfying the invariants *)
Theorem C05_cycle_spec : forall c ch, Acct c -> Ident c -> parts_wf c ->
  forall x a, In x (part_apps (c_parts c)) -> get_app x (c_apps c) = Some a -> (a_server a <> None -> has_id a) ->
  exists a', get_app x (c_apps (fst (fst (schedule c ch)))) = Some a' /\
             (a_server a' = None -> no_id a') /\ (a_server a' <> None -> has_id a').
Proof.
  intros c ch HA HI Hwf x a Hin Ha Hid.
  destruct (schedule_final c ch HA HI Hwf x a Hin Ha Hid) as (a' & Ha' & (_ & H1 & H2 & _)).
  exists a'. split; [exact Ha'|]. split; assumption.
Qed.
Print Assumptions C05_cycle_spec.

(** non-vacuity: a group of 2, three instances, shrink/grow between cycles, release and re-acquire *)
Definition ex_a (n o : Z) (d : vec) : app :=
  mkApp n 1 d 3000 [] 0 0 None (Some 5000) false o None None None None false false false false (-1).
Definition ex_ops : list op :=
  [ OAddBucket 2001 3 2000; OAddServer 1000 2001 [100;100;100] 4000 0 0; OConfigGroup 5000 2;
    OAddApp 4000 [] (ex_a 1 1 [10;10;10]); OAddApp 4000 [] (ex_a 2 2 [10;10;10]); OAddApp 4000 [] (ex_a 3 3 [10;10;10]);
    OSchedule [(1, 1); (2, 0)]; OConfigGroup 5000 1; OConfigGroup 5000 3; OSchedule [(3, 2)]; ORemoveApp 1; OSchedule [] ].
Example C05_nonvacuous :
  map (fun a => (a_name a, a_server a, a_identity a)) (c_apps (run (init_cell 3 2000 1) ex_ops))
  = [(2, Some 1000, Some 0); (3, Some 1000, Some 2)].
Proof. vm_compute. reflexivity. Qed.
Example C05_nonvacuous_wf : wf_ops_id (init_cell 3 2000 1) ex_ops.
Proof. cbn [wf_ops_id ex_ops wf_op_id]. repeat split; try (intros; reflexivity); try discriminate. Qed.
Example C05_nonvacuous_wf_all : wf_ops_all (init_cell 3 2000 1) ex_ops.
Proof. apply wf_ops_allb_sound. vm_compute. reflexivity. Qed.

(** Loader.restore_placement for one recorded instance between cycles (operation ORestore: Server.restore or
    Server.put, then Application.force_set_identity; a schedule-once instance that cannot be put back is removed)
    keeps all of the above, provided the recorded identity is one no other instance of the group holds and a group
    instance ends up with one.  The operation belongs to the alphabet of [reachable], so C05_end_of_cycle and the
    C03/C07/C08 theorems cover states reached through the loader's restore. *)
Theorem C05_loader_restore : forall c sn an vb ex ident,
  Good c -> wf_op_all c (ORestore sn an vb ex ident) -> Good (step c (ORestore sn an vb ex ident)).
Proof. intros c sn an vb ex ident H W. exact (Good_step c _ W H). Qed.
Print Assumptions C05_loader_restore.

Definition ex_ops_restore : list op :=
  [ OAddBucket 2001 3 2000; OAddServer 1000 2001 [100;100;100] 4000 0 0; OConfigGroup 5000 3;
    OAddApp 4000 [] (ex_a 1 1 [10;10;10]); OAddApp 4000 [] (ex_a 2 2 [10;10;10]);
    ORestore 1000 1 true 50 (Some 2); ORestore 1000 2 false 0 (Some 0); OSchedule [] ].
Example C05_loader_restore_nonvacuous :
  map (fun a => (a_name a, a_server a, a_identity a, a_expiry a)) (c_apps (run (init_cell 3 2000 1) ex_ops_restore))
  = [(1, Some 1000, Some 2, Some 50); (2, Some 1000, Some 0, Some 0)]
  /\ wf_ops_allb (init_cell 3 2000 1) ex_ops_restore = true.
Proof. vm_compute. split; reflexivity. Qed.

(** the proviso is needed: forcing an identity somebody else holds yields a duplicate *)
Definition ex_ops_forced_dup : list op :=
  [ OAddBucket 2001 3 2000; OAddServer 1000 2001 [100;100;100] 4000 0 0; OConfigGroup 5000 3;
    OAddApp 4000 [] (ex_a 1 1 [10;10;10]); OAddApp 4000 [] (ex_a 2 2 [10;10;10]);
    ORestore 1000 1 true 50 (Some 2); ORestore 1000 2 true 50 (Some 2) ].
Theorem C05_forced_duplicate_refuted :
  wf_ops_allb (init_cell 3 2000 1) ex_ops_forced_dup = false /\
  map (fun a => (a_name a, a_identity a)) (c_apps (run (init_cell 3 2000 1) ex_ops_forced_dup)) = [(1, Some 2); (2, Some 2)].
Proof. vm_compute. split; reflexivity. Qed.
Print Assumptions C05_forced_duplicate_refuted.

(** the functions of treadmill/scheduler/__init__.py these theorems were proved about still have the statement
    skeleton the model was written from (re-extracted from the Python AST on every run, harness/tables_shape.py;
    kept last so that a difference does not stop the theorems above from being checked) *)
Theorem C05_source_shape : shapes_ok_C05 = true.
Proof. vm_compute. reflexivity. Qed.
Print Assumptions C05_source_shape.
