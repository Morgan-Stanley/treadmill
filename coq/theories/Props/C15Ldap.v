(** C15, "applications, cell allocations and partitions as LDAP entries": the per-class wrappers of
    admin/_ldap.py and the option-indexed list codec.

    Model: Codec/LdapCls.v (on Codec/Ldap.v).  For every LdapObject class (Server, DNS, AppGroup, Tenant, Allocation,
    Cell, CellAllocation, Partition, Application):
        from_entry (_remove_empty (to_entry x)) = normal form of x          for every typed x,
    with the normal form [*_nf] written out in the model: None values dropped, absent lists read as [], ints in str
    fields as text, JSON dicts with sorted keys, defaults filled in ('0%', '0G', '_default', restart limit/interval),
    item lists sorted by sorted(item.items()), an empty vring dropped.  The normal forms are typed again and
    normalising twice changes nothing (for dicts with defaults: up to the order of the keys, [obj_eqv]), except
    Application, whose ephemeral_ports defaults appear only on the second store: [C15L_application_nf_not_idempotent_refuted].
    Where the round trip loses something outside the typed domain there is a [_refuted] witness.

    Schemas, object keys, sort keys, option prefixes, defaults and the attribute-option format are [lcls_tables],
    assembled (Codec/LdapClsRun.v) from definitions that harness/tables_ldapcls.py regenerates from the source on
    every run; every theorem about a class carries the premise [ltables_ok T = true], discharged for the generated tables by
    [C15L_tables_ok]. *)
From Coq Require Import ZArith List Bool Permutation.
From TM Require Import Codec.BaseN Codec.Dec Codec.Json Codec.Ldap Codec.LdapP Codec.LdapCls Codec.LdapClsP Codec.LdapClsRun
  Gen.Tables.
Import ListNotations.
Open Scope Z_scope.

(** the generated tables satisfy every side condition of the theorems below *)
Theorem C15L_tables_ok : ltables_ok lcls_tables && lcls_conv_ok = true.
Proof. vm_compute. reflexivity. Qed.
Print Assumptions C15L_tables_ok.

(** * The option-indexed list codec *)
(** '{:x}' is injective on all integers, so distinct indices give distinct options *)
Theorem C15L_hex_injective : forall a b, hex_of_Z a = hex_of_Z b -> a = b.
Proof. intros a b H. exact (hex_of_Z_inj a b H). Qed.
Print Assumptions C15L_hex_injective.

(** '<attribute>;<option>' determines both parts when the attribute has no ';' *)
Theorem C15L_option_attr_injective : forall a o a' o', ~ In 59 a -> ~ In 59 a' ->
  opt_attr a o = opt_attr a' o' -> a = a' /\ o = o'.
Proof. intros a o a' o' H1 H2 H. exact (opt_attr_inj a o a' o' H1 H2 H). Qed.
Print Assumptions C15L_option_attr_injective.

(** reading: whatever the option names are (any indices, with gaps, in any order), if the entry holds exactly the
    option groups [hx] under the prefix (each group the stored encoding of a typed item) then
    _grouped_to_list_of_dict returns the normal forms of the items, sorted; options under other prefixes are ignored *)
Theorem C15L_option_list_read : forall (E : entry) (lp : str) (isch : schema) (hx : list (str * obj)),
  isch_ok isch -> NoDup (map fst hx) ->
  (forall o x, In (o, x) hx -> is_prefix lp o = true /\ obj_typed2 isch x = true /\
      (forall a f t, In (a, (f, t)) (active isch) -> alookup E (opt_attr a o) = stored (row_assigned2 x f t)) /\
      (exists k, In k (map fst E) /\ has_opt k = true /\ opt_of k = o)) ->
  (forall k, In k (map fst E) -> has_opt k = true -> is_prefix lp (opt_of k) = true -> In (opt_of k) (map fst hx)) ->
  (forall k, In k (map fst E) -> has_opt k = true -> zlen (key_parts k) = 2) ->
  grouped_list E lp isch = Ok (sort_by item_lt (map (fun ox => nf_base isch (snd ox)) hx)).
Proof. intros E lp isch hx H1 H2 H3 H4 H5. exact (grouped_list_spec E lp isch hx H1 H2 H3 H4 H5). Qed.
Print Assumptions C15L_option_list_read.

(** writing then reading one typed list: _to_obj_list, _remove_empty, _grouped_to_list_of_dict *)
Theorem C15L_option_list_roundtrip : forall ls items, list_spec_ok [] TStr ls = true -> items_typed ls (Some items) = true ->
  exists E, to_obj_list items (ls_key ls) (ls_prefix ls) (ls_schema ls) = oret E /\
    grouped_list (remove_empty E) (ls_lprefix ls) (ls_schema ls) = Ok (nf_items (ls_schema ls) items).
Proof. intros ls items H1 H2. exact (obj_list_rt ls items H1 H2). Qed.
Print Assumptions C15L_option_list_roundtrip.

(** the order of the result does not depend on the order of the input, and sorting twice changes nothing *)
Theorem C15L_items_nf_canonical : forall isch l1 l2, isch_ok isch -> forallb (obj_typed2 isch) l1 = true ->
  Permutation l1 l2 -> nf_items isch l1 = nf_items isch l2.
Proof.
  intros isch l1 l2 H1 H2 H3.
  exact (items_sort_canon isch _ _ (items_P isch l1 H1 H2) (Permutation_map (nf_base isch) H3)).
Qed.
Print Assumptions C15L_items_nf_canonical.

Theorem C15L_items_nf_idempotent : forall isch items, isch_ok isch -> forallb (obj_typed2 isch) items = true ->
  nf_items isch (nf_items isch items) = nf_items isch items.
Proof. intros isch items H1 H2. exact (nf_items_idem isch items H1 H2). Qed.
Print Assumptions C15L_items_nf_idempotent.

(** * Classes that use LdapObject.from_entry / to_entry: DNS, AppGroup, Tenant, Allocation (and Server's schema) *)
Theorem C15L_plain_roundtrip : forall T sch o, ltables_ok T = true ->
  In sch [lt_server T; lt_dns T; lt_appgroup T; lt_tenant T; lt_allocation T] ->
  obj_typed2 sch o = true -> plain_store_load T sch o = Some (Ok (nf_base sch o)).
Proof.
  intros T sch o H1 H2 H3. destruct (plain_tables_spec T (ltables_plain T H1)) as [Hc [Hm [Hwfs _]]].
  exact (plain_rt T sch o (Hwfs sch H2) Hc Hm H3).
Qed.
Print Assumptions C15L_plain_roundtrip.

Theorem C15L_plain_nf_normal : forall T sch o, ltables_ok T = true ->
  In sch [lt_server T; lt_dns T; lt_appgroup T; lt_tenant T; lt_allocation T] ->
  obj_typed2 sch o = true -> obj_typed2 sch (nf_base sch o) = true /\ nf_base sch (nf_base sch o) = nf_base sch o.
Proof.
  intros T sch o H1 H2 H3. destruct (plain_tables_spec T (ltables_plain T H1)) as [_ [_ [Hwfs _]]].
  destruct (wf_schema_spec sch (Hwfs sch H2)) as [_ [Hnf _]]. exact (conj (nf_base_typed sch o Hnf H3) (nf_base_idem sch o Hnf H3)).
Qed.
Print Assumptions C15L_plain_nf_normal.

(** * Server: the partition defaults to DEFAULT_PARTITION *)
Theorem C15L_server_roundtrip : forall T o, ltables_ok T = true -> obj_typed2 (lt_server T) o = true ->
  server_store_load T o = Some (Ok (server_nf T o)).
Proof.
  intros T o H1 H2. destruct (plain_tables_spec T (ltables_plain T H1)) as [Hc [Hm [Hwfs _]]].
  exact (server_rt T o (Hwfs _ (or_introl eq_refl)) Hc Hm H2).
Qed.
Print Assumptions C15L_server_roundtrip.

Theorem C15L_server_nf_normal : forall T o, ltables_ok T = true -> obj_typed2 (lt_server T) o = true ->
  obj_typed2 (lt_server T) (server_nf T o) = true /\ obj_eqv (server_nf T (server_nf T o)) (server_nf T o).
Proof. intros T o H. exact (server_nf_normal T o (ltables_plain T H)). Qed.
Print Assumptions C15L_server_nf_normal.

(** * Cell: masters under their own idx *)
Theorem C15L_cell_roundtrip : forall T o, ltables_ok T = true -> cell_typed T o = true ->
  cell_store_load T o = Some (Ok (cell_nf T o)).
Proof. intros T o H. exact (cell_rt T o (ltables_cell T H)). Qed.
Print Assumptions C15L_cell_roundtrip.

Theorem C15L_cell_nf_normal : forall T o, ltables_ok T = true -> cell_typed T o = true ->
  cell_typed T (cell_nf T o) = true /\ cell_nf T (cell_nf T o) = cell_nf T o.
Proof. intros T o H. exact (cell_nf_normal T o (ltables_cell T H)). Qed.
Print Assumptions C15L_cell_nf_normal.

(** * CellAllocation: assignments; cpu / memory / disk / partition defaults *)
Theorem C15L_cellalloc_roundtrip : forall T o, ltables_ok T = true -> ca_typed T o = true ->
  ca_store_load T o = Some (Ok (ca_nf T o)).
Proof. intros T o H. exact (ca_rt T o (ltables_ca T H)). Qed.
Print Assumptions C15L_cellalloc_roundtrip.

Theorem C15L_cellalloc_nf_normal : forall T o, ltables_ok T = true -> ca_typed T o = true ->
  ca_typed T (ca_nf T o) = true /\
  obj_eqv (lo_base (ca_nf T (ca_nf T o))) (lo_base (ca_nf T o)) /\ lo_items (ca_nf T (ca_nf T o)) = lo_items (ca_nf T o).
Proof. intros T o H. exact (ca_nf_normal T o (ltables_ca T H)). Qed.
Print Assumptions C15L_cellalloc_nf_normal.

(** * Partition: limits; cpu / memory / disk defaults *)
Theorem C15L_partition_roundtrip : forall T o, ltables_ok T = true -> pt_typed T o = true ->
  pt_store_load T o = Some (Ok (pt_nf T o)).
Proof. intros T o H. exact (pt_rt T o (ltables_pt T H)). Qed.
Print Assumptions C15L_partition_roundtrip.

Theorem C15L_partition_nf_normal : forall T o, ltables_ok T = true -> pt_typed T o = true ->
  pt_typed T (pt_nf T o) = true /\
  obj_eqv (lo_base (pt_nf T (pt_nf T o))) (lo_base (pt_nf T o)) /\ lo_items (pt_nf T (pt_nf T o)) = lo_items (pt_nf T o).
Proof. intros T o H. exact (pt_nf_normal T o (ltables_pt T H)). Qed.
Print Assumptions C15L_partition_nf_normal.

(** * Application: services (+ restart), endpoints, environ, affinity limits, ephemeral ports, vring *)
Theorem C15L_application_roundtrip : forall T a, ltables_ok T = true -> app_typed T a = true ->
  app_store_load T a = Some (Ok (app_nf T a)).
Proof. intros T a H. exact (app_rt T a (ltables_app T H)). Qed.
Print Assumptions C15L_application_roundtrip.

(** * Examples (the generated tables; closed by vm_compute) *)
Definition ex_server : obj :=
  [([95%Z; 105%Z; 100%Z], (FStr [115%Z; 114%Z; 118%Z; 49%Z])); ([99%Z; 101%Z; 108%Z; 108%Z], (FStr [99%Z; 49%Z])); ([116%Z; 114%Z; 97%Z; 105%Z; 116%Z; 115%Z], (FStrs [[115%Z; 115%Z; 100%Z]])); ([100%Z; 97%Z; 116%Z; 97%Z], (FDict [([98%Z], (VInt 1%Z)); ([97%Z], VNull)]))].

Definition ex_dns : obj :=
  [([95%Z; 105%Z; 100%Z], (FStr [100%Z])); ([115%Z; 101%Z; 114%Z; 118%Z; 101%Z; 114%Z], (FStrs [[97%Z]; [98%Z]])); ([116%Z; 116%Z; 108%Z], (FInt 10%Z)); ([122%Z; 107%Z; 117%Z; 114%Z; 108%Z], FNone)].

Definition ex_cell : lobj :=
  {| lo_base := [([95%Z; 105%Z; 100%Z], (FStr [99%Z; 49%Z])); ([118%Z; 101%Z; 114%Z; 115%Z; 105%Z; 111%Z; 110%Z], (FStr [118%Z]))]; lo_items := (Some [[([105%Z; 100%Z; 120%Z], (FInt 10%Z)); ([104%Z; 111%Z; 115%Z; 116%Z; 110%Z; 97%Z; 109%Z; 101%Z], (FStr [104%Z; 50%Z])); ([122%Z; 107%Z; 45%Z; 99%Z; 108%Z; 105%Z; 101%Z; 110%Z; 116%Z; 45%Z; 112%Z; 111%Z; 114%Z; 116%Z], (FInt 2181%Z))]; [([105%Z; 100%Z; 120%Z], (FInt 1%Z)); ([104%Z; 111%Z; 115%Z; 116%Z; 110%Z; 97%Z; 109%Z; 101%Z], (FStr [104%Z; 49%Z]))]]) |}.

Definition ex_ca : lobj :=
  {| lo_base := [([99%Z; 101%Z; 108%Z; 108%Z], (FStr [99%Z; 49%Z])); ([114%Z; 97%Z; 110%Z; 107%Z], (FInt 5%Z)); ([116%Z; 114%Z; 97%Z; 105%Z; 116%Z; 115%Z], (FStrs []))]; lo_items := (Some [[([112%Z; 97%Z; 116%Z; 116%Z; 101%Z; 114%Z; 110%Z], (FStr [112%Z; 46%Z; 98%Z; 42%Z])); ([112%Z; 114%Z; 105%Z; 111%Z; 114%Z; 105%Z; 116%Z; 121%Z], (FInt 2%Z))]; [([112%Z; 97%Z; 116%Z; 116%Z; 101%Z; 114%Z; 110%Z], (FStr [112%Z; 46%Z; 97%Z; 42%Z])); ([112%Z; 114%Z; 105%Z; 111%Z; 114%Z; 105%Z; 116%Z; 121%Z], (FInt 1%Z))]]) |}.

Definition ex_pt : lobj :=
  {| lo_base := [([95%Z; 105%Z; 100%Z], (FStr [112%Z])); ([115%Z; 121%Z; 115%Z; 116%Z; 101%Z; 109%Z; 115%Z], (FInts [1%Z; 2%Z])); ([100%Z; 111%Z; 119%Z; 110%Z; 45%Z; 116%Z; 104%Z; 114%Z; 101%Z; 115%Z; 104%Z; 111%Z; 108%Z; 100%Z], (FInt 3%Z))]; lo_items := (Some [[([116%Z; 114%Z; 97%Z; 105%Z; 116%Z], (FStr [103%Z; 112%Z; 117%Z])); ([99%Z; 112%Z; 117%Z], (FStr [49%Z; 48%Z; 37%Z]))]]) |}.

Definition ex_app : appo :=
  {| ap_base := [([95%Z; 105%Z; 100%Z], (FStr [112%Z; 46%Z; 97%Z; 112%Z; 112%Z])); ([99%Z; 112%Z; 117%Z], (FStr [49%Z; 48%Z; 37%Z])); ([109%Z; 101%Z; 109%Z; 111%Z; 114%Z; 121%Z], (FStr [49%Z; 71%Z])); ([115%Z; 104%Z; 97%Z; 114%Z; 101%Z; 100%Z; 95%Z; 105%Z; 112%Z], (FBool true)); ([116%Z; 105%Z; 99%Z; 107%Z; 101%Z; 116%Z; 115%Z], (FStrs [[117%Z; 64%Z; 82%Z]]))]; ap_eph := (Some [([116%Z; 99%Z; 112%Z], (FInt 2%Z))]); ap_services := (Some [{| sv_fields := [([110%Z; 97%Z; 109%Z; 101%Z], (FStr [119%Z; 101%Z; 98%Z])); ([99%Z; 111%Z; 109%Z; 109%Z; 97%Z; 110%Z; 100%Z], (FStr [99%Z]))]; sv_restart := (Some [([108%Z; 105%Z; 109%Z; 105%Z; 116%Z], (FInt 3%Z))]) |}; {| sv_fields := [([110%Z; 97%Z; 109%Z; 101%Z], (FStr [97%Z])); ([117%Z; 115%Z; 101%Z; 115%Z; 104%Z; 101%Z; 108%Z; 108%Z], (FBool false))]; sv_restart := None |}]); ap_endpoints := (Some [[([110%Z; 97%Z; 109%Z; 101%Z], (FStr [104%Z; 116%Z; 116%Z; 112%Z])); ([112%Z; 111%Z; 114%Z; 116%Z], (FInt 80%Z)); ([112%Z; 114%Z; 111%Z; 116%Z; 111%Z], (FStr [116%Z; 99%Z; 112%Z]))]; [([110%Z; 97%Z; 109%Z; 101%Z], (FStr [115%Z; 115%Z; 104%Z])); ([112%Z; 111%Z; 114%Z; 116%Z], (FInt 22%Z))]]); ap_environ := (Some [[([110%Z; 97%Z; 109%Z; 101%Z], (FStr [65%Z])); ([118%Z; 97%Z; 108%Z; 117%Z; 101%Z], (FStr [49%Z]))]]); ap_affinity := (Some [([114%Z; 97%Z; 99%Z; 107%Z], (FInt 1%Z)); ([112%Z; 111%Z; 100%Z], (FInt 2%Z))]); ap_vring := (Some {| vr_cells := (Some (FStrs [[99%Z; 49%Z]])); vr_rules := (Some [[([112%Z; 97%Z; 116%Z; 116%Z; 101%Z; 114%Z; 110%Z], (FStr [112%Z; 46%Z; 42%Z])); ([101%Z; 110%Z; 100%Z; 112%Z; 111%Z; 105%Z; 110%Z; 116%Z; 115%Z], (FStrs [[104%Z; 116%Z; 116%Z; 112%Z]]))]]) |}) |}.

Definition ex_app_blank : appo :=
  {| ap_base := []; ap_eph := None; ap_services := None; ap_endpoints := None; ap_environ := None; ap_affinity := None; ap_vring := None |}.

Definition ex_dupsvc_a : appo :=
  {| ap_base := []; ap_eph := None; ap_services := (Some [{| sv_fields := [([110%Z; 97%Z; 109%Z; 101%Z], (FStr [119%Z; 101%Z; 98%Z])); ([99%Z; 111%Z; 109%Z; 109%Z; 97%Z; 110%Z; 100%Z], (FStr [120%Z]))]; sv_restart := (Some [([108%Z; 105%Z; 109%Z; 105%Z; 116%Z], (FInt 1%Z))]) |}; {| sv_fields := [([110%Z; 97%Z; 109%Z; 101%Z], (FStr [119%Z; 101%Z; 98%Z])); ([99%Z; 111%Z; 109%Z; 109%Z; 97%Z; 110%Z; 100%Z], (FStr [121%Z]))]; sv_restart := (Some [([108%Z; 105%Z; 109%Z; 105%Z; 116%Z], (FInt 2%Z))]) |}]); ap_endpoints := None; ap_environ := None; ap_affinity := None; ap_vring := None |}.

Definition ex_dupsvc_b : appo :=
  {| ap_base := []; ap_eph := None; ap_services := (Some [{| sv_fields := [([110%Z; 97%Z; 109%Z; 101%Z], (FStr [119%Z; 101%Z; 98%Z])); ([99%Z; 111%Z; 109%Z; 109%Z; 97%Z; 110%Z; 100%Z], (FStr [120%Z]))]; sv_restart := (Some [([108%Z; 105%Z; 109%Z; 105%Z; 116%Z], (FInt 2%Z))]) |}; {| sv_fields := [([110%Z; 97%Z; 109%Z; 101%Z], (FStr [119%Z; 101%Z; 98%Z])); ([99%Z; 111%Z; 109%Z; 109%Z; 97%Z; 110%Z; 100%Z], (FStr [121%Z]))]; sv_restart := (Some [([108%Z; 105%Z; 109%Z; 105%Z; 116%Z], (FInt 2%Z))]) |}]); ap_endpoints := None; ap_environ := None; ap_affinity := None; ap_vring := None |}.

Definition ex_rst_none : appo :=
  {| ap_base := []; ap_eph := None; ap_services := (Some [{| sv_fields := [([110%Z; 97%Z; 109%Z; 101%Z], (FStr [119%Z; 101%Z; 98%Z]))]; sv_restart := (Some [([108%Z; 105%Z; 109%Z; 105%Z; 116%Z], FNone)]) |}]); ap_endpoints := None; ap_environ := None; ap_affinity := None; ap_vring := None |}.

Definition ex_aff_none : appo :=
  {| ap_base := []; ap_eph := None; ap_services := None; ap_endpoints := None; ap_environ := None; ap_affinity := (Some [([114%Z; 97%Z; 99%Z; 107%Z], FNone); ([112%Z; 111%Z; 100%Z], (FInt 1%Z))]); ap_vring := None |}.

Definition ex_rst_name_a : appo :=
  {| ap_base := []; ap_eph := None; ap_services := (Some [{| sv_fields := [([110%Z; 97%Z; 109%Z; 101%Z], (FStr [119%Z; 101%Z; 98%Z]))]; sv_restart := (Some [([110%Z; 97%Z; 109%Z; 101%Z], (FStr [111%Z; 116%Z; 104%Z; 101%Z; 114%Z])); ([108%Z; 105%Z; 109%Z; 105%Z; 116%Z], (FInt 2%Z))]) |}]); ap_endpoints := None; ap_environ := None; ap_affinity := None; ap_vring := None |}.

Definition ex_rst_name_b : appo :=
  {| ap_base := []; ap_eph := None; ap_services := (Some [{| sv_fields := [([110%Z; 97%Z; 109%Z; 101%Z], (FStr [111%Z; 116%Z; 104%Z; 101%Z; 114%Z]))]; sv_restart := (Some [([108%Z; 105%Z; 109%Z; 105%Z; 116%Z], (FInt 2%Z))]) |}]); ap_endpoints := None; ap_environ := None; ap_affinity := None; ap_vring := None |}.

Definition ex_vring_empty : appo :=
  {| ap_base := []; ap_eph := None; ap_services := None; ap_endpoints := None; ap_environ := None; ap_affinity := None; ap_vring := (Some {| vr_cells := (Some (FStrs [])); vr_rules := (Some []) |}) |}.

Definition ex_dupidx_a : lobj :=
  {| lo_base := []; lo_items := (Some [[([105%Z; 100%Z; 120%Z], (FInt 1%Z)); ([104%Z; 111%Z; 115%Z; 116%Z; 110%Z; 97%Z; 109%Z; 101%Z], (FStr [104%Z; 49%Z])); ([122%Z; 107%Z; 45%Z; 99%Z; 108%Z; 105%Z; 101%Z; 110%Z; 116%Z; 45%Z; 112%Z; 111%Z; 114%Z; 116%Z], (FInt 2181%Z))]; [([105%Z; 100%Z; 120%Z], (FInt 1%Z)); ([104%Z; 111%Z; 115%Z; 116%Z; 110%Z; 97%Z; 109%Z; 101%Z], (FStr [104%Z; 50%Z]))]]) |}.

Definition ex_dupidx_b : lobj :=
  {| lo_base := []; lo_items := (Some [[([105%Z; 100%Z; 120%Z], (FInt 1%Z)); ([104%Z; 111%Z; 115%Z; 116%Z; 110%Z; 97%Z; 109%Z; 101%Z], (FStr [104%Z; 50%Z])); ([122%Z; 107%Z; 45%Z; 99%Z; 108%Z; 105%Z; 101%Z; 110%Z; 116%Z; 45%Z; 112%Z; 111%Z; 114%Z; 116%Z], (FInt 2181%Z))]]) |}.

Definition ex_entry_dense : entry :=
  [([99%Z; 101%Z; 108%Z; 108%Z], [(EStr [99%Z; 49%Z])]); ([112%Z; 97%Z; 116%Z; 116%Z; 101%Z; 114%Z; 110%Z; 59%Z; 116%Z; 109%Z; 45%Z; 97%Z; 108%Z; 108%Z; 111%Z; 99%Z; 45%Z; 97%Z; 115%Z; 115%Z; 105%Z; 103%Z; 110%Z; 109%Z; 101%Z; 110%Z; 116%Z; 45%Z; 48%Z], [(EStr [112%Z; 46%Z; 97%Z; 42%Z])]); ([112%Z; 114%Z; 105%Z; 111%Z; 114%Z; 105%Z; 116%Z; 121%Z; 59%Z; 116%Z; 109%Z; 45%Z; 97%Z; 108%Z; 108%Z; 111%Z; 99%Z; 45%Z; 97%Z; 115%Z; 115%Z; 105%Z; 103%Z; 110%Z; 109%Z; 101%Z; 110%Z; 116%Z; 45%Z; 48%Z], [(EStr [49%Z])]); ([112%Z; 97%Z; 116%Z; 116%Z; 101%Z; 114%Z; 110%Z; 59%Z; 116%Z; 109%Z; 45%Z; 97%Z; 108%Z; 108%Z; 111%Z; 99%Z; 45%Z; 97%Z; 115%Z; 115%Z; 105%Z; 103%Z; 110%Z; 109%Z; 101%Z; 110%Z; 116%Z; 45%Z; 49%Z], [(EStr [112%Z; 46%Z; 98%Z; 42%Z])]); ([112%Z; 114%Z; 105%Z; 111%Z; 114%Z; 105%Z; 116%Z; 121%Z; 59%Z; 116%Z; 109%Z; 45%Z; 97%Z; 108%Z; 108%Z; 111%Z; 99%Z; 45%Z; 97%Z; 115%Z; 115%Z; 105%Z; 103%Z; 110%Z; 109%Z; 101%Z; 110%Z; 116%Z; 45%Z; 49%Z], [(EStr [50%Z])])].

Definition ex_entry_gaps : entry :=
  [([112%Z; 114%Z; 105%Z; 111%Z; 114%Z; 105%Z; 116%Z; 121%Z; 59%Z; 116%Z; 109%Z; 45%Z; 97%Z; 108%Z; 108%Z; 111%Z; 99%Z; 45%Z; 97%Z; 115%Z; 115%Z; 105%Z; 103%Z; 110%Z; 109%Z; 101%Z; 110%Z; 116%Z; 45%Z; 102%Z; 102%Z], [(EStr [50%Z])]); ([99%Z; 101%Z; 108%Z; 108%Z], [(EStr [99%Z; 49%Z])]); ([112%Z; 97%Z; 116%Z; 116%Z; 101%Z; 114%Z; 110%Z; 59%Z; 116%Z; 109%Z; 45%Z; 97%Z; 108%Z; 108%Z; 111%Z; 99%Z; 45%Z; 97%Z; 115%Z; 115%Z; 105%Z; 103%Z; 110%Z; 109%Z; 101%Z; 110%Z; 116%Z; 45%Z; 102%Z; 102%Z], [(EStr [112%Z; 46%Z; 98%Z; 42%Z])]); ([112%Z; 97%Z; 116%Z; 116%Z; 101%Z; 114%Z; 110%Z; 59%Z; 116%Z; 109%Z; 45%Z; 97%Z; 108%Z; 108%Z; 111%Z; 99%Z; 45%Z; 97%Z; 115%Z; 115%Z; 105%Z; 103%Z; 110%Z; 109%Z; 101%Z; 110%Z; 116%Z; 45%Z; 48%Z; 48%Z; 55%Z], [(EStr [112%Z; 46%Z; 97%Z; 42%Z])]); ([112%Z; 114%Z; 105%Z; 111%Z; 114%Z; 105%Z; 116%Z; 121%Z; 59%Z; 116%Z; 109%Z; 45%Z; 97%Z; 108%Z; 108%Z; 111%Z; 99%Z; 45%Z; 97%Z; 115%Z; 115%Z; 105%Z; 103%Z; 110%Z; 109%Z; 101%Z; 110%Z; 116%Z; 45%Z; 48%Z; 48%Z; 55%Z], [(EStr [49%Z])]); ([112%Z; 97%Z; 116%Z; 116%Z; 101%Z; 114%Z; 110%Z; 59%Z; 116%Z; 109%Z; 45%Z; 102%Z; 111%Z; 111%Z; 45%Z; 48%Z], [(EStr [122%Z; 122%Z])])].


Definition T0 : ltables := lcls_tables.

(** non-vacuity: typed objects of every class, with options / lists / nested items, round-trip to their normal forms *)
Example C15L_server_nonvacuous :
  obj_typed2 (lt_server T0) ex_server = true /\ server_store_load T0 ex_server = Some (Ok (server_nf T0 ex_server)) /\
  alookup (server_nf T0 ex_server) (lt_srv_partition T0) = Some (FStr (lt_default_partition T0)).
Proof. vm_compute. repeat split. Qed.

Example C15L_dns_nonvacuous :
  obj_typed2 (lt_dns T0) ex_dns = true /\ plain_store_load T0 (lt_dns T0) ex_dns = Some (Ok (nf_base (lt_dns T0) ex_dns)) /\
  nf_base (lt_dns T0) ex_dns <> ex_dns.
Proof. split; [vm_compute; reflexivity|]. split; [vm_compute; reflexivity|]. vm_compute. intros H. discriminate H. Qed.

Example C15L_cell_nonvacuous :
  cell_typed T0 ex_cell = true /\ cell_store_load T0 ex_cell = Some (Ok (cell_nf T0 ex_cell)) /\
  lo_items (cell_nf T0 ex_cell) <> lo_items ex_cell.
Proof. split; [vm_compute; reflexivity|]. split; [vm_compute; reflexivity|]. vm_compute. intros H. discriminate H. Qed.

Example C15L_cellalloc_nonvacuous :
  ca_typed T0 ex_ca = true /\ ca_store_load T0 ex_ca = Some (Ok (ca_nf T0 ex_ca)) /\
  lo_items (ca_nf T0 ex_ca) <> lo_items ex_ca.
Proof. split; [vm_compute; reflexivity|]. split; [vm_compute; reflexivity|]. vm_compute. intros H. discriminate H. Qed.

Example C15L_partition_nonvacuous :
  pt_typed T0 ex_pt = true /\ pt_store_load T0 ex_pt = Some (Ok (pt_nf T0 ex_pt)).
Proof. split; vm_compute; reflexivity. Qed.

Example C15L_application_nonvacuous :
  app_typed T0 ex_app = true /\ app_store_load T0 ex_app = Some (Ok (app_nf T0 ex_app)) /\
  ap_services (app_nf T0 ex_app) <> ap_services ex_app.
Proof. split; [vm_compute; reflexivity|]. split; [vm_compute; reflexivity|]. vm_compute. intros H. discriminate H. Qed.

(** option indices with gaps, leading zeros, in any order, plus an option of an unknown prefix: same object *)
Example C15L_option_indices_irrelevant :
  ca_from_entry T0 ex_entry_gaps = ca_from_entry T0 ex_entry_dense /\
  exists o, ca_from_entry T0 ex_entry_dense = Some (Ok o) /\ length (items_or_nil (lo_items o)) = 2%nat.
Proof. split; [vm_compute; reflexivity|]. eexists. split; [vm_compute; reflexivity|reflexivity]. Qed.

(** * Where the round trip is not the identity on meaning *)
(** Application: the normal form is reached after TWO store + load cycles: an object without ephemeral_ports loads
    with ephemeral_ports = {}, and storing that writes tcp = udp = 0 *)
Theorem C15L_application_nf_not_idempotent_refuted :
  exists a, app_typed T0 a = true /\ app_typed T0 (app_nf T0 a) = true /\
    ap_eph (app_nf T0 (app_nf T0 a)) <> ap_eph (app_nf T0 a) /\
    app_nf T0 (app_nf T0 (app_nf T0 a)) = app_nf T0 (app_nf T0 a).
Proof.
  exists ex_app_blank. split; [vm_compute; reflexivity|]. split; [vm_compute; reflexivity|].
  split; [vm_compute; intros H; discriminate H|vm_compute; reflexivity].
Qed.
Print Assumptions C15L_application_nf_not_idempotent_refuted.

(** two services of one name: both read back with the restart settings of the last one (matched by name, not index) *)
Theorem C15L_application_duplicate_service_name_refuted :
  exists a b r, ap_services a <> ap_services b /\ app_store_load T0 a = Some (Ok r) /\ app_store_load T0 b = Some (Ok r).
Proof.
  exists ex_dupsvc_a, ex_dupsvc_b. eexists. split; [vm_compute; intros H; discriminate H|]. split; vm_compute; reflexivity.
Qed.
Print Assumptions C15L_application_duplicate_service_name_refuted.

(** a restart dict that carries a name overwrites the service's name *)
Theorem C15L_application_restart_name_refuted :
  exists a b r, ap_services a <> ap_services b /\ app_store_load T0 a = Some (Ok r) /\ app_store_load T0 b = Some (Ok r).
Proof.
  exists ex_rst_name_a, ex_rst_name_b. eexists. split; [vm_compute; intros H; discriminate H|]. split; vm_compute; reflexivity.
Qed.
Print Assumptions C15L_application_restart_name_refuted.

(** a restart limit / an affinity limit of None is stored as nothing and cannot be read back (KeyError) *)
Theorem C15L_application_none_limit_refuted :
  app_store_load T0 ex_rst_none = Some (Err E_KEY) /\ app_store_load T0 ex_aff_none = Some (Err E_KEY).
Proof. split; vm_compute; reflexivity. Qed.
Print Assumptions C15L_application_none_limit_refuted.

(** an empty vring and no vring are one entry (both typed: the normal form drops the empty vring) *)
Theorem C15L_application_empty_vring_refuted :
  app_typed T0 ex_vring_empty = true /\ app_typed T0 ex_app_blank = true /\ ap_vring ex_vring_empty <> ap_vring ex_app_blank /\
  app_store_load T0 ex_vring_empty = app_store_load T0 ex_app_blank /\
  obind (app_to_entry T0 ex_vring_empty) (fun e => oret (remove_empty e)) = obind (app_to_entry T0 ex_app_blank) (fun e => oret (remove_empty e)).
Proof.
  split; [vm_compute; reflexivity|]. split; [vm_compute; reflexivity|]. split; [vm_compute; intros H; discriminate H|].
  split; vm_compute; reflexivity.
Qed.
Print Assumptions C15L_application_empty_vring_refuted.

(** two masters with one idx share one option group: they are merged into one master *)
Theorem C15L_cell_duplicate_idx_refuted :
  exists r, lo_items ex_dupidx_a <> lo_items ex_dupidx_b /\
    cell_store_load T0 ex_dupidx_a = Some (Ok r) /\ cell_store_load T0 ex_dupidx_b = Some (Ok r) /\
    length (items_or_nil (lo_items r)) = 1%nat.
Proof.
  eexists. split; [vm_compute; intros H; discriminate H|]. split; [vm_compute; reflexivity|]. split; [vm_compute; reflexivity|reflexivity].
Qed.
Print Assumptions C15L_cell_duplicate_idx_refuted.
