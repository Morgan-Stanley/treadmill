(** C02  An instance that fits an eligible up server is not left pending.
    Proved on the model (Sched/PutComplete.v, Sched/InvAgg.v, Sched/PutTurn.v) for every state that a history of the
    operation alphabet meeting the side conditions [wf_ops] and [wf_ops_agg] reaches from the empty cell, and for one
    turn of the placement loop. Refuted on the code as it is for the feasibility tracker (known finding), which is why
    [C02_turn_places] carries the tracker premise.
    Left to the correspondence and the quiescent-probe oracle: that in a quiescent cell the turns ahead of the probe
    leave the fitting server as it is (the statement's "a cycle changes nothing"). *)
From Coq Require Import ZArith QArith List Bool.
From TM Require Import Sched.Vec Sched.Types Sched.Queue Sched.Tree Sched.Cycle Sched.Events Sched.Steps Sched.FrameP
                       Sched.InvAcct Sched.TurnP Sched.PutComplete Sched.InvAgg Sched.PutTurn.
From TM Require Import Base.ShapeCanon.
Import ListNotations.
Open Scope Z_scope.

(** the PlacementFeasibilityTracker keys its record of failed placements on a shape that omits the instance's own
    traits: a pending instance that needs an unavailable trait makes a later trait-less instance of the same affinity,
    which fits an empty up server, be skipped as "not feasible" *)
Definition ex_a (n p o traits : Z) : app :=
  mkApp n p [10;10;10] 3000 [] traits 0 None None false o None None None None false false false false (-1).
Definition ex_ops : list op :=
  [ OAddBucket 2001 3 2000; OAddServer 1000 2001 [100;100;100] 4000 0 0;
    OAddApp 4000 [] (ex_a 1 5 1 1); OSchedule []; OSchedule [];       (* quiescent: 1 needs trait 1, stays pending *)
    OAddApp 4000 [] (ex_a 2 1 2 0); OSchedule [] ].                    (* the probe needs nothing and fits server 1000 *)
Theorem C02_tracker_refuted :
  let c := run (init_cell 3 2000 1) ex_ops in
  exists probe s, get_app 2 (c_apps c) = Some probe /\ a_server probe = None /\ a_traits probe = 0 /\
                  get_srv 1000 (c_servers c) = Some s /\ s_state s = Up /\ s_label s = 4000 /\
                  any_gt (a_demand probe) (s_free s) = false /\ s_apps s = [].
Proof. vm_compute. eexists. eexists. repeat split; reflexivity. Qed.
Print Assumptions C02_tracker_refuted.

Theorem C02_attempt_is_local : forall fuel c b an,
  (forall m, m <> an -> get_app m (c_apps (fst (bucket_put fuel c b an))) = get_app m (c_apps c)) /\
  (forall n s, get_srv n (c_servers c) = Some s -> s_state s <> Up ->
               get_srv n (c_servers (fst (bucket_put fuel c b an))) = Some s).
Proof. intros fuel c b an. exact (conj (bucket_put_others fuel c b an) (bucket_put_nonup fuel c b an)). Qed.
Print Assumptions C02_attempt_is_local.

Theorem C02_attempt_steps : forall c an, psteps c (fst (cell_put c an)).
Proof. exact cell_put_ps. Qed.
Print Assumptions C02_attempt_steps.

(** after any history (servers and buckets added, moved, removed, going down / frozen / up, every path of a cycle)
    the tree is well formed and no stored aggregate hides an up server: every bucket above an up server stores a free
    vector >= the server's, contains its partition label and its traits *)
Theorem C02_aggregates_never_hide : forall dim root level ops,
  wf_ops (init_cell dim root level) ops -> wf_ops_agg (init_cell dim root level) ops ->
  let c := run (init_cell dim root level) ops in
  TreeWf c /\
  forall n s b, get_srv n (c_servers c) = Some s -> s_state s = Up -> anc c (s_parent s) b ->
    Forall2 Z.le (s_free s) (b_free b) /\ In (s_label s) (b_labels b) /\ has_traits (bkt_traits b) (s_traits s) = true.
Proof. intros dim root level ops H1 H2. exact (reachable_TreeWf_AggSound dim root level ops H1 H2). Qed.
Print Assumptions C02_aggregates_never_hide.

(** in such a state, if some up server passes Server.put's guard for a pending instance and the affinity counters
    leave head-room at every bucket on the way down, the placement walk from the cell root places the instance (the
    spread cursor visits every live child whatever its value; a failed attempt in a sibling subtree only moves cursors) *)
Theorem C02_walk_complete : forall dim root level ops x a s rest,
  let c := run (init_cell dim root level) ops in
  wf_ops (init_cell dim root level) ops -> wf_ops_agg (init_cell dim root level) ops ->
  get_app x (c_apps c) = Some a ->
  get_srv (s_name s) (c_servers c) = Some s -> s_state s = Up ->
  put_guard c s a (a_lease a) = true ->
  down_path c (c_root c) rest (s_name s) ->
  (forall m b, In m (c_root c :: rest) -> get_bkt m (c_buckets c) = Some b ->
               under_limit (cget (a_aff a) (b_counters b)) (aff_limit a (b_level b)) = true) ->
  snd (cell_put c x) = true.
Proof. exact reachable_put_complete. Qed.
Print Assumptions C02_walk_complete.

(** a pending instance whose turn it is in the placement loop - not blacklisted, not over the cap, an identity
    available if it needs one, not held back by the feasibility tracker - ends its turn placed whenever such a server
    exists at that moment *)
Theorem C02_turn_places : forall rq st x a s rest,
  TreeWf (l_cell st) -> AggSound (l_cell st) ->
  get_app x (c_apps (l_cell st)) = Some a -> a_server a = None -> a_blacklisted a = false -> a_rank a <> UNPLACED_RANK ->
  snd (acquire_identity (c_upd_app x (fun z => RecordSet.set a_renew (fun _ => false) z) (l_cell st)) x (aget x (l_choices st))) = true ->
  aget x (l_evicted st) = None -> a_once a && a_evicted a = false ->
  (forall a', stat_eq a a' -> tr_feasible (l_tracker st) a' = true) ->
  get_srv (s_name s) (c_servers (l_cell st)) = Some s -> s_state s = Up ->
  put_guard (l_cell st) s a (a_lease a) = true ->
  down_path (l_cell st) (c_root (l_cell st)) rest (s_name s) ->
  (forall m b, In m (c_root (l_cell st) :: rest) -> get_bkt m (c_buckets (l_cell st)) = Some b ->
               under_limit (cget (a_aff a) (b_counters b)) (aff_limit a (b_level b)) = true) ->
  exists a', get_app x (c_apps (l_cell (place_one rq st x))) = Some a' /\ a_server a' <> None.
Proof. exact place_one_places. Qed.
Print Assumptions C02_turn_places.

(** non-vacuity: the three-level example of Sched/PutComplete.v (cell > two racks > three servers; a server goes down and comes up
    again; a probe that only server 1002 under rack 2002 fits) satisfies the premises and the walk places the probe *)
Example C02_walk_complete_nonvacuous :
  wf_ops_aggb (init_cell 2 2000 3) nv_ops = true /\ fits_serverb nv_cell 3 1002 [2002] = true /\ snd (cell_put nv_cell 3) = true.
Proof. vm_compute. repeat split; reflexivity. Qed.

(** the functions of treadmill/scheduler/__init__.py these theorems were proved about still have the statement
    skeleton the model was written from (re-extracted from the Python AST on every run, harness/tables_shape.py;
    kept last so that a difference does not stop the theorems above from being checked) *)
Theorem C02_source_shape : shapes_ok_C02 = true.
Proof. vm_compute. reflexivity. Qed.
Print Assumptions C02_source_shape.
