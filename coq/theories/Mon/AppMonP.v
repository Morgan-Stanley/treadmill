(** Proofs about Mon/AppMon.v: what one evaluation of the app monitor does to each
    monitor, the token-bucket invariant, and the budget over event sequences. *)
From Coq Require Import ZArith List Bool Lia Sorting.Sorted.
From TM Require Import Mon.AppMon.
Import ListNotations.
Open Scope Z_scope.

(** * Association lists *)
Lemma memz_In k l : memz k l = true <-> In k l.
Proof.
  induction l as [|x l IH]; cbn; [split; [discriminate | tauto]|].
  rewrite orb_true_iff, IH, Z.eqb_eq. tauto.
Qed.

Lemma lookup_In {A} (l : list (Z * A)) k v : lookup l k = Some v -> In (k, v) l.
Proof.
  induction l as [|[k' w] l IH]; cbn; [discriminate|].
  destruct (Z.eqb_spec k' k) as [->|Hne]; intros H; [left; congruence|right; apply IH, H].
Qed.

Lemma lookup_In_keys {A} (l : list (Z * A)) k v : lookup l k = Some v -> In k (keys l).
Proof. intros H. exact (in_map fst _ _ (lookup_In l k v H)). Qed.

Lemma lookup_None {A} (l : list (Z * A)) k : ~ In k (keys l) -> lookup l k = None.
Proof. intros H. destruct (lookup l k) eqn:E; [apply lookup_In_keys in E; contradiction | reflexivity]. Qed.

Lemma lookup_None_notin {A} (l : list (Z * A)) k : lookup l k = None -> forall v, ~ In (k, v) l.
Proof.
  induction l as [|[k' w] l IH]; cbn; [tauto|]. destruct (Z.eqb_spec k' k) as [->|Hne]; [discriminate|].
  intros H v [[= ? _]|Hin]; [contradiction | exact (IH H v Hin)].
Qed.

Lemma In_lookup {A} (l : list (Z * A)) k v : NoDup (keys l) -> In (k, v) l -> lookup l k = Some v.
Proof.
  induction l as [|[k' w] l IH]; cbn; [tauto|]. intros Hnd H. apply NoDup_cons_iff in Hnd as [Hnin Hnd'].
  destruct H as [[= -> ->]|H]; [rewrite Z.eqb_refl; reflexivity|].
  destruct (Z.eqb_spec k' k) as [->|Hne]; [|apply IH; assumption].
  destruct Hnin. exact (in_map fst _ _ H).
Qed.

Lemma lookup_set_kv {A} (l : list (Z * A)) k v k2 :
  lookup (set_kv l k v) k2 = if k =? k2 then Some v else lookup l k2.
Proof.
  induction l as [|[k' w] l IH]; cbn; [reflexivity|].
  destruct (Z.eqb_spec k' k) as [->|Hne]; cbn; [destruct (k =? k2); reflexivity|]. rewrite IH.
  destruct (Z.eqb_spec k' k2) as [->|]; [rewrite (proj2 (Z.eqb_neq k k2)) by congruence|]; reflexivity.
Qed.

Lemma keys_set_kv_In {A} (l : list (Z * A)) k v k2 : In k2 (keys (set_kv l k v)) -> k = k2 \/ In k2 (keys l).
Proof.
  induction l as [|[k' w] l IH]; cbn; [auto|].
  destruct (Z.eqb_spec k' k) as [->|Hne]; cbn; [auto|]. intros [H|H]; [auto | destruct (IH H); auto].
Qed.

Lemma keys_set_kv_NoDup {A} (l : list (Z * A)) k v : NoDup (keys l) -> NoDup (keys (set_kv l k v)).
Proof.
  induction l as [|[k' w] l IH]; cbn; intros Hnd.
  - constructor; [intros []|constructor].
  - apply NoDup_cons_iff in Hnd as [Hnin Hnd'].
    destruct (Z.eqb_spec k' k) as [->|Hne]; cbn; [constructor; assumption|].
    constructor; [|apply IH, Hnd'].
    intros Hin. apply keys_set_kv_In in Hin. destruct Hin as [Hin|Hin]; [congruence|apply Hnin, Hin].
Qed.

Lemma lookup_filter_key {A} (f : Z -> bool) (l : list (Z * A)) k :
  lookup (filter (fun p => f (fst p)) l) k = if f k then lookup l k else None.
Proof.
  induction l as [|[k' w] l IH]; cbn; [destruct (f k); reflexivity|].
  destruct (f k') eqn:Hf; cbn; destruct (Z.eqb_spec k' k) as [->|Hne]; rewrite ?IH, ?Hf; reflexivity.
Qed.

Lemma lookup_remove_k {A} (l : list (Z * A)) k k2 :
  lookup (remove_k l k) k2 = if Z.eqb k2 k then None else lookup l k2.
Proof.
  unfold remove_k. rewrite (lookup_filter_key (fun x => negb (Z.eqb x k))).
  destruct (Z.eqb k2 k); reflexivity.
Qed.

Lemma keys_filter_key {A} (g : Z -> bool) (l : list (Z * A)) :
  keys (filter (fun p => g (fst p)) l) = filter g (keys l).
Proof. unfold keys. induction l as [|[k w] l IH]; cbn; [reflexivity|]. destruct (g k); cbn; rewrite IH; reflexivity. Qed.

(** the two loops of an evaluation rebuild the monitor dict value by value, [map_vals], and collect at most one
    action per monitor, [pick] *)
Definition map_vals {A B} (f : Z -> A -> B) (l : list (Z * A)) : list (Z * B) :=
  map (fun p => (fst p, f (fst p) (snd p))) l.
Definition pick {A B} (g : Z -> A -> option B) (l : list (Z * A)) : list (Z * B) :=
  flat_map (fun p => match g (fst p) (snd p) with Some b => [(fst p, b)] | None => [] end) l.

Lemma keys_map_vals {A B} (f : Z -> A -> B) l : keys (map_vals f l) = keys l.
Proof. unfold keys, map_vals. rewrite map_map. reflexivity. Qed.

Lemma lookup_map_vals {A B} (f : Z -> A -> B) l k : lookup (map_vals f l) k = option_map (f k) (lookup l k).
Proof.
  induction l as [|[k' w] l IH]; cbn; [reflexivity|]. destruct (Z.eqb_spec k' k) as [->|]; [reflexivity | exact IH].
Qed.

Lemma keys_pick_incl {A B} (g : Z -> A -> option B) l k : In k (keys (pick g l)) -> In k (keys l).
Proof.
  induction l as [|[k' w] l IH]; cbn; [tauto|]. destruct (g k' w); cbn; tauto.
Qed.

Lemma keys_pick_NoDup {A B} (g : Z -> A -> option B) l : NoDup (keys l) -> NoDup (keys (pick g l)).
Proof.
  induction l as [|[k' w] l IH]; cbn; intros Hnd; [constructor|]. apply NoDup_cons_iff in Hnd as [Hnin Hnd'].
  destruct (g k' w); cbn; [constructor|]; auto. intros Hin. apply Hnin, (keys_pick_incl g l k'), Hin.
Qed.

Lemma lookup_pick {A B} (g : Z -> A -> option B) l k : NoDup (keys l) ->
  lookup (pick g l) k = match lookup l k with Some a => g k a | None => None end.
Proof.
  induction l as [|[k' w] l IH]; cbn; intros Hnd; [reflexivity|]. apply NoDup_cons_iff in Hnd as [Hnin Hnd'].
  destruct (Z.eqb_spec k' k) as [->|Hne].
  - destruct (g k w); cbn; [rewrite Z.eqb_refl; reflexivity|].
    apply lookup_None. intros Hin. apply Hnin, (keys_pick_incl g l k), Hin.
  - destruct (g k' w); cbn; [rewrite (proj2 (Z.eqb_neq k' k) Hne)|]; apply IH, Hnd'.
Qed.

Lemma map_vals_map_vals {A B C} (f : Z -> A -> B) (g : Z -> B -> C) l :
  map_vals g (map_vals f l) = map_vals (fun k a => g k (f k a)) l.
Proof. unfold map_vals. rewrite map_map. reflexivity. Qed.

Lemma pick_map_vals {A B C} (f : Z -> A -> B) (g : Z -> B -> option C) l :
  pick g (map_vals f l) = pick (fun k a => g k (f k a)) l.
Proof. unfold pick, map_vals. induction l as [|[k a] l IH]; cbn; [|rewrite IH]; reflexivity. Qed.

(** * Parameters *)
Definition params_ok (P : params) : Prop :=
  0 < k_interval (p_k P) /\ 0 < p_tps P /\ 0 <= k_init (p_k P) <= k_cap (p_k P) /\
  0 <= k_rate (p_k P) /\ 0 <= k_delay (p_k P).

Lemma params_okb_ok P : params_okb P = true -> params_ok P.
Proof. unfold params_okb, params_ok. intros H. repeat (apply andb_true_iff in H as [H ?]). lia. Qed.

Lemma scale_pos P : params_ok P -> 0 < scale P.
Proof. unfold params_ok, scale. intros H. apply Z.mul_pos_pos; lia. Qed.

(** * One monitor *)
Definition conf_ok (P : params) (c : conf) : Prop := 0 <= m_count c /\ 0 <= m_tok c <= cap P c.

Lemma fresh_conf_ok P now count pol : params_ok P -> 0 <= count -> conf_ok P (fresh_conf P now count pol).
Proof.
  intros HP Hc. pose proof (scale_pos P HP) as HS. destruct HP as (_ & _ & Hi & _).
  unfold conf_ok, fresh_conf, cap; cbn. split; [exact Hc|]. split.
  - apply Z.mul_nonneg_nonneg; [apply Z.mul_nonneg_nonneg|]; lia.
  - apply Z.mul_le_mono_nonneg_r; [lia|]. apply Z.mul_le_mono_nonneg_r; lia.
Qed.

Lemma refill_count P now c : m_count (refill P now c) = m_count c. Proof. reflexivity. Qed.
Lemma refill_last P now c : m_last (refill P now c) = now. Proof. reflexivity. Qed.
Lemma refill_policy P now c : m_policy (refill P now c) = m_policy c. Proof. reflexivity. Qed.
Lemma refill_cap P now c : cap P (refill P now c) = cap P c. Proof. reflexivity. Qed.

Lemma refill_tok P now c : params_ok P -> conf_ok P c -> m_last c <= now ->
  m_tok c <= m_tok (refill P now c) <= cap P c /\
  m_tok (refill P now c) <= m_tok c + k_rate (p_k P) * m_count c * (now - m_last c).
Proof.
  intros HP [Hc [Ht0 Ht1]] Hl. destruct HP as (_ & _ & _ & Hr & _).
  assert (Hd : 0 <= k_rate (p_k P) * m_count c * (now - m_last c)).
  { apply Z.mul_nonneg_nonneg; [apply Z.mul_nonneg_nonneg|]; lia. }
  unfold refill; cbn [m_tok]. destruct (m_tok c <? cap P c) eqn:E.
  - apply Z.ltb_lt in E. lia.
  - apply Z.ltb_ge in E. lia.
Qed.

Lemma refill_ok P now c : params_ok P -> conf_ok P c -> m_last c <= now -> conf_ok P (refill P now c).
Proof.
  intros HP Hc Hl. pose proof (refill_tok P now c HP Hc Hl) as [[H1 H2] _].
  destruct Hc as [Hc [Ht0 _]]. unfold conf_ok. rewrite refill_count, refill_cap. lia.
Qed.

(** ** what the second loop does for one monitor: the property, locally *)
Definition is_success (r : api_result) : bool := match r with RSuccess => true | _ => false end.

Definition created_by (a : option act) : Z :=
  match a with Some (ACreate k RSuccess) => k | _ => 0 end.

(** which REST call a step issues, and what it does to the monitor: only a successful create takes tokens *)
Lemma step_act P w n c insts r : so_act (step P w n c insts r) =
  if m_count c =? zlen insts then None
  else if zlen insts <? m_count c then
    if Z.min (m_count c - zlen insts) (m_tok c / scale P) <=? 0 then None
    else Some (ACreate (Z.min (m_count c - zlen insts) (m_tok c / scale P)) r)
  else option_map (fun ids => ADelete ids (is_success r)) (surplus (m_policy c) insts (m_count c)).
Proof.
  unfold step. destruct (_ =? _); [reflexivity|]. destruct (_ <? _).
  - destruct (_ <=? 0); [reflexivity | destruct r; reflexivity].
  - destruct (surplus _ _ _); reflexivity.
Qed.

Lemma step_conf P w n c insts r : so_conf (step P w n c insts r) =
  match so_act (step P w n c insts r) with Some (ACreate k RSuccess) => spend P c k | _ => c end.
Proof.
  unfold step. destruct (_ =? _); [reflexivity|]. destruct (_ <? _).
  - destruct (_ <=? 0); [reflexivity | destruct r; reflexivity].
  - destruct (surplus _ _ _); reflexivity.
Qed.

Lemma step_count P w n c insts r : m_count (so_conf (step P w n c insts r)) = m_count c.
Proof. rewrite step_conf. destruct (so_act _) as [[k []|]|]; reflexivity. Qed.
Lemma step_last P w n c insts r : m_last (so_conf (step P w n c insts r)) = m_last c.
Proof. rewrite step_conf. destruct (so_act _) as [[k []|]|]; reflexivity. Qed.
Lemma step_policy P w n c insts r : m_policy (so_conf (step P w n c insts r)) = m_policy c.
Proof. rewrite step_conf. destruct (so_act _) as [[k []|]|]; reflexivity. Qed.

Lemma step_spent P w n c insts r :
  m_tok (so_conf (step P w n c insts r)) = m_tok c - scale P * created_by (so_act (step P w n c insts r)).
Proof. rewrite step_conf. destruct (so_act _) as [[k []|]|]; cbn; lia. Qed.

Lemma step_create_inv P w n c insts r k r' : params_ok P -> so_act (step P w n c insts r) = Some (ACreate k r') ->
  r' = r /\ 1 <= k /\ k = Z.min (m_count c - zlen insts) (m_tok c / scale P) /\
  k <= m_count c - zlen insts /\ k * scale P <= m_tok c.
Proof.
  intros HP. pose proof (scale_pos P HP) as HS. rewrite step_act.
  destruct (_ =? _); [discriminate|]. destruct (_ <? _); [|destruct (surplus _ _ _); discriminate].
  destruct (Z.leb_spec (Z.min (m_count c - zlen insts) (m_tok c / scale P)) 0); intros [= <- <-].
  pose proof (Z.mul_div_le (m_tok c) (scale P) HS).
  assert (Z.min (m_count c - zlen insts) (m_tok c / scale P) * scale P <= m_tok c / scale P * scale P)
    by (apply Z.mul_le_mono_nonneg_r; lia).
  repeat split; lia.
Qed.

Lemma step_delete_inv P w n c insts r ids ok : so_act (step P w n c insts r) = Some (ADelete ids ok) ->
  m_count c < zlen insts /\ surplus (m_policy c) insts (m_count c) = Some ids /\ ok = is_success r.
Proof.
  rewrite step_act. destruct (Z.eqb_spec (m_count c) (zlen insts)); [discriminate|].
  destruct (Z.ltb_spec (zlen insts) (m_count c)); [destruct (_ <=? 0); discriminate|].
  destruct (surplus _ _ _); intros [= <- <-]. repeat split. lia.
Qed.

(** completeness: a reachable, affordable shortfall is asked for; a surplus with a valid policy is deleted *)
Lemma step_creates P w n c insts r :
  zlen insts < m_count c -> 1 <= m_tok c / scale P ->
  so_act (step P w n c insts r) = Some (ACreate (Z.min (m_count c - zlen insts) (m_tok c / scale P)) r).
Proof.
  intros H1 H2.
  rewrite step_act, (proj2 (Z.eqb_neq _ _)), (proj2 (Z.ltb_lt _ _) H1), (proj2 (Z.leb_gt _ _)) by lia. reflexivity.
Qed.

Lemma step_waits P w n c insts r :
  zlen insts < m_count c -> m_tok c / scale P <= 0 ->
  so_act (step P w n c insts r) = None /\ so_wait (step P w n c insts r) = true /\ so_conf (step P w n c insts r) = c.
Proof.
  intros H1 H2. unfold step.
  rewrite (proj2 (Z.eqb_neq _ _)), (proj2 (Z.ltb_lt _ _) H1), (proj2 (Z.leb_le _ _)) by lia. repeat split.
Qed.

Lemma step_deletes P w n c insts r ids :
  m_count c < zlen insts -> surplus (m_policy c) insts (m_count c) = Some ids ->
  so_act (step P w n c insts r) = Some (ADelete ids (is_success r)).
Proof.
  intros H1 H2. rewrite step_act, H2, (proj2 (Z.eqb_neq _ _)), (proj2 (Z.ltb_ge _ _)) by lia. reflexivity.
Qed.

Lemma step_quiet_at_target P w n c insts r :
  m_count c = zlen insts -> step P w n c insts r = quiet c.
Proof. intros H. unfold step. rewrite H, Z.eqb_refl. reflexivity. Qed.

Lemma step_ok P w n c insts r : params_ok P -> conf_ok P c -> conf_ok P (so_conf (step P w n c insts r)).
Proof.
  intros HP [Hc [Ht0 Ht1]]. pose proof (scale_pos P HP) as HS.
  unfold conf_ok, cap in *. rewrite step_count, step_spent.
  destruct (so_act (step P w n c insts r)) as [[k []|]|] eqn:Ea; cbn [created_by]; try lia.
  destruct (step_create_inv P w n c insts r k _ HP Ea) as (_ & Hk1 & _ & _ & Hk3).
  assert (0 <= k * scale P) by (apply Z.mul_nonneg_nonneg; lia). lia.
Qed.

(** ** the surplus: exactly the extra instances, from the front (fifo / none) or from the back (lifo) *)
Lemma surplus_spec pol insts count ids : 0 <= count < zlen insts -> surplus pol insts count = Some ids ->
  zlen ids = zlen insts - count /\
  (((pol = PNone \/ pol = PFifo) /\ exists kept, insts = ids ++ kept /\ zlen kept = count) \/
   (pol = PLifo /\ exists kept, insts = kept ++ ids /\ zlen kept = count)).
Proof.
  unfold surplus, zlen. intros Hc H. destruct pol; try discriminate; injection H as <-.
  1,2: split; [rewrite firstn_length; lia|]; left; split; [auto|]; eexists; split; [symmetry; apply firstn_skipn|];
       rewrite skipn_length; lia.
  split; [rewrite skipn_length; lia|]. right. split; [reflexivity|]. eexists. split; [symmetry; apply firstn_skipn|].
  rewrite firstn_length. lia.
Qed.

Lemma surplus_other insts count : surplus POther insts count = None.
Proof. reflexivity. Qed.

Lemma sorted_app_lt (a b : list Z) : StronglySorted Z.lt (a ++ b) -> forall x y, In x a -> In y b -> x < y.
Proof.
  induction a as [|h a IH]; cbn; intros Hs x y Hx Hy; [tauto|].
  apply StronglySorted_inv in Hs as [Hs' Hall]. destruct Hx as [->|Hx].
  - rewrite Forall_forall in Hall. apply Hall, in_or_app. right. exact Hy.
  - apply IH; assumption.
Qed.

(** * The two loops *)
Lemma is_susp_remove_past sus k now : 0 <= now -> is_susp sus k now = false ->
  forall n, is_susp (remove_k sus k) n now = is_susp sus n now.
Proof.
  intros Hn Hk n. unfold is_susp, sus_until in *. rewrite lookup_remove_k.
  destruct (Z.eqb_spec n k) as [->|Hne]; [|reflexivity].
  rewrite Hk. apply Z.ltb_ge. exact Hn.
Qed.

Lemma is_susp_set_other sus k u n now : n <> k -> is_susp (set_kv sus k u) n now = is_susp sus n now.
Proof.
  intros Hne. unfold is_susp, sus_until. rewrite lookup_set_kv, (proj2 (Z.eqb_neq k n)) by congruence. reflexivity.
Qed.

(** the first loop refills the monitors that are not suspended and changes no name's being suspended;
    [sus0] is any dict that suspends the same monitors as [sus] *)
Lemma phase1_char P now sus0 : 0 <= now -> forall ms sus ms1 sus1 al,
  (forall n, In n (keys ms) -> is_susp sus n now = is_susp sus0 n now) ->
  phase1 P now ms sus = (ms1, sus1, al) ->
  ms1 = map_vals (fun n c => if is_susp sus0 n now then c else refill P now c) ms /\
  (forall n, is_susp sus1 n now = is_susp sus n now).
Proof.
  intros Hnow. induction ms as [|[n0 c0] t IH]; intros sus ms1 sus1 al Hs H; cbn [phase1] in H.
  - injection H as <- <- _. auto.
  - cbn [map_vals map fst snd]. rewrite <- (Hs n0 (or_introl eq_refl)). destruct (is_susp sus n0 now) eqn:E0.
    + destruct (phase1 P now t sus) as [[t' sus'] al'] eqn:Et. injection H as <- <- _.
      destruct (IH _ _ _ _ (fun n Hn => Hs n (or_intror Hn)) Et) as [-> Hs']. auto.
    + cbv zeta in H.
      assert (Hx : forall n, is_susp (if match lookup sus n0 with Some _ => true | None => false end
                                      then remove_k sus n0 else sus) n now = is_susp sus n now).
      { intros n. destruct (lookup sus n0); [apply is_susp_remove_past; assumption | reflexivity]. }
      destruct (phase1 P now t _) as [[t' sus'] al'] eqn:Et. injection H as <- <- _.
      destruct (IH _ _ _ _ (fun n Hn => eq_trans (Hx n) (Hs n (or_intror Hn))) Et) as [-> Hs'].
      split; [reflexivity|]. intros n. rewrite Hs'. apply Hx.
Qed.

(** what the second loop does with monitor [n] whose conf is [c], seen on its own *)
Definition p2_mon (P : params) (now : Z) (wprev : list Z) (sched : list (Z * list Z)) (res : list (Z * api_result))
  (sus : list (Z * Z)) (n : Z) (c : conf) : step_out :=
  if is_susp sus n now then quiet c else step P wprev n c (insts_of sched n) (res_of res n).

(** a step suspends only its own monitor, which (the names being distinct) the loop does not meet again *)
Lemma phase2_char P now wprev sched res sus0 : forall ms sus, NoDup (keys ms) ->
  (forall n, In n (keys ms) -> is_susp sus n now = is_susp sus0 n now) ->
  let o := phase2 P now wprev sched res ms sus in
  p2_monitors o = map_vals (fun n c => so_conf (p2_mon P now wprev sched res sus0 n c)) ms /\
  p2_acts o = pick (fun n c => so_act (p2_mon P now wprev sched res sus0 n c)) ms.
Proof.
  induction ms as [|[n0 c0] t IH]; intros sus Hnd Hs; [split; reflexivity|].
  apply NoDup_cons_iff in Hnd as [Hnin Hnd'].
  cbn [phase2 map_vals pick map flat_map fst snd]. unfold p2_mon at 1 3. rewrite <- (Hs n0 (or_introl eq_refl)).
  destruct (is_susp sus n0 now) eqn:E0; cbv zeta; cbn [p2_monitors p2_acts so_conf so_act quiet app].
  - destruct (IH sus Hnd' (fun n Hn => Hs n (or_intror Hn))) as [-> ->]. split; reflexivity.
  - set (s := step P wprev n0 c0 (insts_of sched n0) (res_of res n0)).
    destruct (IH (if so_suspend s then set_kv sus n0 (now + delay_ticks P) else sus) Hnd') as [-> ->].
    { intros n Hn. rewrite <- (Hs n (or_intror Hn)). destruct (so_suspend s); [|reflexivity].
      apply is_susp_set_other. intros ->. contradiction. }
    split; [reflexivity|]. destruct (so_act s); reflexivity.
Qed.

(** * One evaluation *)
(** what an evaluation does with monitor [n] (conf [c]), seen on its own *)
Definition mon_eval (P : params) (s : state) (res : list (Z * api_result)) (n : Z) (c : conf) : step_out :=
  if is_susp (st_suspended s) n (st_clock s) then quiet c
  else step P (st_waited s) n (refill P (st_clock s) c) (insts_of (st_scheduled s) n) (res_of res n).

Lemma is_susp_prune ms sus n now : In n (keys ms) -> is_susp (prune ms sus) n now = is_susp sus n now.
Proof.
  intros Hin. unfold is_susp, sus_until, prune.
  rewrite (lookup_filter_key (fun k => memz k (keys ms))).
  apply memz_In in Hin. rewrite Hin. reflexivity.
Qed.

Theorem eval_char P s res : NoDup (keys (st_monitors s)) -> 0 <= st_clock s ->
  let s' := fst (eval P s res) in let o := snd (eval P s res) in
  st_clock s' = st_clock s /\ st_scheduled s' = st_scheduled s /\ eo_monitors o = st_monitors s' /\
  st_monitors s' = map_vals (fun n c => so_conf (mon_eval P s res n c)) (st_monitors s) /\
  eo_actions o = pick (fun n c => so_act (mon_eval P s res n c)) (st_monitors s).
Proof.
  intros Hnd Hnow. unfold eval.
  destruct (phase1 P (st_clock s) (st_monitors s) (prune (st_monitors s) (st_suspended s))) as [[ms1 sus1] al1] eqn:E1.
  cbn zeta. cbn [fst snd st_clock st_scheduled st_monitors eo_monitors eo_actions].
  destruct (phase1_char P (st_clock s) (st_suspended s) Hnow _ _ _ _ _ (fun n => is_susp_prune _ _ n _) E1) as [-> Hs1].
  set (F := fun n c => if is_susp _ n _ then c else refill P (st_clock s) c).
  destruct (phase2_char P (st_clock s) (st_waited s) (st_scheduled s) res (st_suspended s) (map_vals F (st_monitors s)) sus1)
    as [-> ->]; rewrite ?keys_map_vals; [exact Hnd | intros n Hn; rewrite Hs1; apply is_susp_prune, Hn |].
  (* the two loops together are [mon_eval] *)
  assert (Hme : forall n c,
            p2_mon P (st_clock s) (st_waited s) (st_scheduled s) res (st_suspended s) n (F n c) = mon_eval P s res n c).
  { intros n c. unfold p2_mon, mon_eval, F. destruct (is_susp (st_suspended s) n (st_clock s)); reflexivity. }
  rewrite map_vals_map_vals, pick_map_vals. repeat split.
  - apply map_ext. intros [n c]. cbn [fst snd]. rewrite Hme. reflexivity.
  - apply flat_map_ext. intros [n c]. cbn [fst snd]. rewrite Hme. reflexivity.
Qed.

(** ** consequences for one evaluation, in the property's words *)
Definition actions_of (P : params) (s : state) (res : list (Z * api_result)) := eo_actions (snd (eval P s res)).
Definition after (P : params) (s : state) (res : list (Z * api_result)) := fst (eval P s res).

Lemma apply_eval P s res : apply P s (EEval res) = (after P s res, Some (snd (eval P s res))).
Proof. unfold apply, after. destruct (eval P s res); reflexivity. Qed.

Section EvalFacts.
  Context (P : params) (s : state) (res : list (Z * api_result)).
  Hypothesis (Hnd : NoDup (keys (st_monitors s))) (Hnow : 0 <= st_clock s).

  Lemma eval_clock : st_clock (after P s res) = st_clock s.
  Proof. apply (eval_char P s res Hnd Hnow). Qed.

  Lemma eval_monitors :
    st_monitors (after P s res) = map_vals (fun n c => so_conf (mon_eval P s res n c)) (st_monitors s).
  Proof. apply (eval_char P s res Hnd Hnow). Qed.

  Lemma eval_actions : actions_of P s res = pick (fun n c => so_act (mon_eval P s res n c)) (st_monitors s).
  Proof. apply (eval_char P s res Hnd Hnow). Qed.

  Lemma eval_keys : keys (st_monitors (after P s res)) = keys (st_monitors s).
  Proof. rewrite eval_monitors. apply keys_map_vals. Qed.

  Lemma eval_monitor n : lookup (st_monitors (after P s res)) n
                         = option_map (fun c => so_conf (mon_eval P s res n c)) (lookup (st_monitors s) n).
  Proof. rewrite eval_monitors. apply lookup_map_vals. Qed.

  Lemma eval_actions_NoDup : NoDup (keys (actions_of P s res)).
  Proof. rewrite eval_actions. apply keys_pick_NoDup, Hnd. Qed.

  Lemma eval_action n : lookup (actions_of P s res) n =
    match lookup (st_monitors s) n with Some c => so_act (mon_eval P s res n c) | None => None end.
  Proof. rewrite eval_actions. apply lookup_pick, Hnd. Qed.

  Lemma action_origin n a : In (n, a) (actions_of P s res) ->
    exists c, lookup (st_monitors s) n = Some c /\ is_susp (st_suspended s) n (st_clock s) = false /\
              so_act (step P (st_waited s) n (refill P (st_clock s) c) (insts_of (st_scheduled s) n) (res_of res n)) = Some a.
  Proof.
    intros Hin. apply (In_lookup _ _ _ eval_actions_NoDup) in Hin. rewrite eval_action in Hin.
    destruct (lookup (st_monitors s) n) as [c|]; [|discriminate]. exists c. split; [reflexivity|].
    unfold mon_eval in Hin. destruct (is_susp (st_suspended s) n (st_clock s)); [discriminate|]. auto.
  Qed.
End EvalFacts.

(** * State invariant over event sequences *)
Definition state_inv (P : params) (s : state) : Prop :=
  NoDup (keys (st_monitors s)) /\ 0 <= st_clock s /\
  forall n c, lookup (st_monitors s) n = Some c -> conf_ok P c /\ m_last c <= st_clock s.

Definition event_ok (e : event) : Prop :=
  match e with EAdvance d => 0 <= d | EConfigure _ count _ => 0 <= count | _ => True end.

Lemma mon_eval_ok P s res n c : params_ok P -> conf_ok P c -> m_last c <= st_clock s ->
  conf_ok P (so_conf (mon_eval P s res n c)) /\ m_last (so_conf (mon_eval P s res n c)) <= st_clock s.
Proof.
  intros HP Hc Hl. unfold mon_eval. destruct (is_susp (st_suspended s) n (st_clock s)); [cbn; auto|].
  split; [apply step_ok; [exact HP|apply refill_ok; assumption]|].
  rewrite step_last, refill_last. lia.
Qed.

Lemma eval_inv P s res : params_ok P -> state_inv P s -> state_inv P (fst (eval P s res)).
Proof.
  intros HP (Hnd & Hnow & Hall). change (state_inv P (after P s res)).
  unfold state_inv. rewrite eval_clock, eval_keys by assumption. split; [exact Hnd|]. split; [exact Hnow|]. intros n c' Hc'.
  rewrite eval_monitor in Hc' by assumption. destruct (lookup (st_monitors s) n) as [c|] eqn:Hcn; [|discriminate].
  injection Hc' as <-. destruct (Hall n c Hcn). apply mon_eval_ok; assumption.
Qed.

Lemma apply_inv P s e : params_ok P -> state_inv P s -> event_ok e -> state_inv P (fst (apply P s e)).
Proof.
  intros HP Hinv He. destruct e as [d|n count pol|n|apps|res]; rewrite ?apply_eval; cbn [apply]; [| | | exact Hinv |].
  1-3: destruct Hinv as (Hnd & Hnow & Hall); cbn in He; unfold state_inv; cbn [fst st_monitors st_clock].
  - split; [exact Hnd|]. split; [lia|]. intros n c Hc. destruct (Hall n c Hc). split; [assumption|lia].
  - split; [apply keys_set_kv_NoDup, Hnd|]. split; [exact Hnow|]. intros n2 c. rewrite lookup_set_kv.
    destruct (n =? n2); [|apply Hall]. intros [= <-]. split; [apply fresh_conf_ok; assumption|cbn; lia].
  - split; [unfold remove_k; rewrite (keys_filter_key (fun x => negb (x =? n))); apply NoDup_filter, Hnd|].
    split; [exact Hnow|]. intros n2 c. rewrite lookup_remove_k.
    destruct (n2 =? n); [discriminate|apply Hall].
  - apply eval_inv; assumption.
Qed.

Lemma run_cons P s e t : run P s (e :: t) =
  let a := apply P s e in let r := run P (fst a) t in
  (fst r, match snd a with Some x => x :: snd r | None => snd r end).
Proof. cbn [run]. destruct (apply P s e) as [s1 o]. cbn. destruct (run P s1 t). reflexivity. Qed.

Lemma run_inv P evs : params_ok P -> forall s, state_inv P s -> Forall event_ok evs -> state_inv P (fst (run P s evs)).
Proof.
  intros HP. induction evs as [|e t IH]; intros s Hinv Hev; [exact Hinv|].
  apply Forall_cons_iff in Hev as [He Ht]. rewrite run_cons. apply IH; [apply apply_inv|]; assumption.
Qed.

Lemma init_state_inv P clock0 w0 : 0 <= clock0 -> state_inv P (init_state clock0 w0).
Proof. intros H. unfold state_inv, init_state; cbn. split; [constructor|]. split; [exact H|]. intros n c Hc. discriminate. Qed.

(** * The budget over sequences *)
Lemma created_in_absent name acts : ~ In name (keys acts) -> created_in name acts = 0.
Proof.
  induction acts as [|[n a] t IH]; cbn; intros H; [reflexivity|].
  rewrite IH by (intros Hin; apply H; right; exact Hin).
  destruct (Z.eqb_spec n name) as [->|Hne]; [exfalso; apply H; left; reflexivity|].
  destruct a as [k []|]; reflexivity.
Qed.

Lemma created_in_lookup name acts : NoDup (keys acts) -> created_in name acts = created_by (lookup acts name).
Proof.
  induction acts as [|[n a] t IH]; cbn; intros Hnd; [reflexivity|].
  apply NoDup_cons_iff in Hnd as [Hnin Hnd']. destruct (Z.eqb_spec n name) as [->|Hne].
  - rewrite (created_in_absent name t Hnin). destruct a as [k []|]; cbn; lia.
  - rewrite (IH Hnd'). destruct a as [k []|]; reflexivity.
Qed.

Definition no_reconf (name : Z) (e : event) : bool :=
  match e with EConfigure n _ _ | ERemove n => negb (Z.eqb n name) | _ => true end.

Definition created_opt (name : Z) (o : option eval_out) : Z :=
  match o with Some x => created_in name (eo_actions x) | None => 0 end.

Lemma created_opt_cons name o outs :
  created name (match o with Some x => x :: outs | None => outs end) = created_opt name o + created name outs.
Proof. destruct o; reflexivity. Qed.

(** from conf [c] to conf [c'] of the same monitor, [made] instances created meanwhile:
    tokens spent + tokens left <= tokens before + accrual.  The budget telescopes along this relation. *)
Definition within_budget (P : params) (c c' : conf) (made : Z) : Prop :=
  m_count c' = m_count c /\ m_last c <= m_last c' /\
  scale P * made + m_tok c' <= m_tok c + k_rate (p_k P) * m_count c * (m_last c' - m_last c).

Lemma within_budget_refl P c : within_budget P c c 0.
Proof. unfold within_budget. rewrite Z.sub_diag. lia. Qed.

Lemma within_budget_trans P c1 c2 c3 a b :
  within_budget P c1 c2 a -> within_budget P c2 c3 b -> within_budget P c1 c3 (a + b).
Proof. unfold within_budget. intros (E1 & L1 & B1) (E2 & L2 & B2). rewrite E1 in *. lia. Qed.

Lemma mon_eval_budget P s res n c : params_ok P -> conf_ok P c -> m_last c <= st_clock s ->
  within_budget P c (so_conf (mon_eval P s res n c)) (created_by (so_act (mon_eval P s res n c))).
Proof.
  intros HP Hc Hl. unfold mon_eval. destruct (is_susp (st_suspended s) n (st_clock s)); [apply within_budget_refl|].
  pose proof (refill_tok P (st_clock s) c HP Hc Hl) as [_ Hr].
  unfold within_budget. rewrite step_spent, step_count, step_last, refill_count, refill_last. lia.
Qed.

Lemma apply_budget P s e name c : params_ok P -> state_inv P s -> no_reconf name e = true ->
  lookup (st_monitors s) name = Some c ->
  exists c', lookup (st_monitors (fst (apply P s e))) name = Some c' /\
             within_budget P c c' (created_opt name (snd (apply P s e))).
Proof.
  intros HP (Hnd & Hnow & Hall) Hnr Hc.
  destruct e as [d|n count pol|n|apps|res]; rewrite ?apply_eval; cbn [apply fst snd created_opt st_monitors];
    [exists c | exists c | exists c | exists c |]; try (split; [|apply within_budget_refl]); try exact Hc.
  - cbn in Hnr. rewrite lookup_set_kv. destruct (n =? name); [discriminate | exact Hc].
  - cbn in Hnr. rewrite lookup_remove_k, Z.eqb_sym. destruct (n =? name); [discriminate | exact Hc].
  - exists (so_conf (mon_eval P s res name c)). split; [rewrite eval_monitor, Hc by assumption; reflexivity|].
    fold (actions_of P s res).
    rewrite created_in_lookup, eval_action, Hc by (try apply eval_actions_NoDup; assumption).
    destruct (Hall name c Hc) as [Hok Hlast]. apply mon_eval_budget; assumption.
Qed.

Theorem run_budget P name evs : params_ok P -> forall s c, state_inv P s -> Forall event_ok evs ->
  forallb (no_reconf name) evs = true -> lookup (st_monitors s) name = Some c ->
  exists c', lookup (st_monitors (fst (run P s evs))) name = Some c' /\
             within_budget P c c' (created name (snd (run P s evs))).
Proof.
  intros HP. induction evs as [|e t IH]; intros s c Hinv Hev Hnr Hc.
  - exists c. split; [exact Hc | apply within_budget_refl].
  - apply Forall_cons_iff in Hev as [He Ht]. cbn in Hnr. apply andb_true_iff in Hnr as [Hnr1 Hnr2].
    destruct (apply_budget P s e name c HP Hinv Hnr1 Hc) as (c1 & Hc1 & Hb1).
    destruct (IH _ c1 (apply_inv P s e HP Hinv He) Ht Hnr2 Hc1) as (c2 & Hc2 & Hb2).
    rewrite run_cons. cbn [fst snd]. rewrite created_opt_cons. exists c2. split; [exact Hc2|].
    exact (within_budget_trans P c c1 c2 _ _ Hb1 Hb2).
Qed.

(** the headline form: instances created over a run <= tokens at the start + rate * elapsed time *)
Theorem run_budget_clock P name evs s c : params_ok P -> state_inv P s -> Forall event_ok evs ->
  forallb (no_reconf name) evs = true -> lookup (st_monitors s) name = Some c ->
  scale P * created name (snd (run P s evs))
    <= m_tok c + k_rate (p_k P) * m_count c * (st_clock (fst (run P s evs)) - m_last c).
Proof.
  intros HP Hinv Hev Hnr Hc.
  destruct (run_budget P name evs HP s c Hinv Hev Hnr Hc) as (c' & Hc' & Hcount & Hlast & Hb).
  destruct (run_inv P evs HP s Hinv Hev) as (_ & _ & Hall). destruct (Hall name c' Hc') as [[_ [Ht0 _]] Hl'].
  destruct Hinv as (_ & _ & Hall0). destruct (Hall0 name c Hc) as [[Hcnt _] _]. destruct HP as (_ & _ & _ & Hr & _).
  assert (0 <= k_rate (p_k P) * m_count c) by (apply Z.mul_nonneg_nonneg; lia).
  assert (k_rate (p_k P) * m_count c * (m_last c' - m_last c)
          <= k_rate (p_k P) * m_count c * (st_clock (fst (run P s evs)) - m_last c)).
  { apply Z.mul_le_mono_nonneg_l; lia. }
  lia.
Qed.

(** * The property, per evaluation *)
Definition missing (s : state) (n : Z) (c : conf) : Z := m_count c - zlen (insts_of (st_scheduled s) n).
Definition active (s : state) (n : Z) (c : conf) : Prop :=
  lookup (st_monitors s) n = Some c /\ is_susp (st_suspended s) n (st_clock s) = false.
(** floor(available) once this evaluation's refill is done *)
Definition whole_tokens (P : params) (s : state) (c : conf) : Z := m_tok (refill P (st_clock s) c) / scale P.

Lemma active_action P s res n c : NoDup (keys (st_monitors s)) -> 0 <= st_clock s -> active s n c ->
  lookup (actions_of P s res) n =
  so_act (step P (st_waited s) n (refill P (st_clock s) c) (insts_of (st_scheduled s) n) (res_of res n)).
Proof.
  intros Hnd Hnow [Hc Hs]. rewrite eval_action, Hc by assumption. unfold mon_eval. rewrite Hs. reflexivity.
Qed.

Theorem create_bounded P s res n k r : params_ok P -> state_inv P s ->
  In (n, ACreate k r) (actions_of P s res) ->
  exists c, active s n c /\ r = res_of res n /\
            1 <= k /\ k <= missing s n c /\ k <= whole_tokens P s c /\
            k = Z.min (missing s n c) (whole_tokens P s c) /\
            k * scale P <= m_tok (refill P (st_clock s) c) /\
            0 <= m_tok (refill P (st_clock s) c) <= cap P c.
Proof.
  intros HP (Hnd & Hnow & Hall) Hin. destruct (action_origin P s res Hnd Hnow n _ Hin) as (c & Hc & Hs & Ha).
  exists c. split; [split; assumption|]. destruct (Hall n c Hc) as [Hok Hl].
  destruct (step_create_inv _ _ _ _ _ _ _ _ HP Ha) as (Hr & Hk1 & Hk & Hk2 & Hk3).
  pose proof (refill_ok P (st_clock s) c HP Hok Hl) as [_ Hb]. rewrite refill_cap in Hb.
  unfold missing, whole_tokens. rewrite refill_count in Hk, Hk2. repeat split; auto; lia.
Qed.

Theorem create_complete P s res n c : state_inv P s -> active s n c ->
  (0 < missing s n c -> 1 <= whole_tokens P s c ->
   In (n, ACreate (Z.min (missing s n c) (whole_tokens P s c)) (res_of res n)) (actions_of P s res)) /\
  (0 < missing s n c -> whole_tokens P s c <= 0 -> forall a, ~ In (n, a) (actions_of P s res)) /\
  (missing s n c = 0 -> forall a, ~ In (n, a) (actions_of P s res)).
Proof.
  intros (Hnd & Hnow & Hall) Hact. pose proof (active_action P s res n c Hnd Hnow Hact) as Ha.
  unfold missing, whole_tokens. repeat split.
  - intros Hm Hw. apply lookup_In. rewrite Ha.
    rewrite step_creates; rewrite ?refill_count; [reflexivity|lia|exact Hw].
  - intros Hm Hw. apply lookup_None_notin. rewrite Ha. apply step_waits; rewrite ?refill_count; [lia | exact Hw].
  - intros Hm. apply lookup_None_notin. rewrite Ha, step_quiet_at_target by (rewrite refill_count; lia). reflexivity.
Qed.

Definition valid_policy (p : policy) : Prop := p = PNone \/ p = PFifo \/ p = PLifo.

Theorem delete_exact P s res n ids ok : state_inv P s ->
  In (n, ADelete ids ok) (actions_of P s res) ->
  exists c, active s n c /\ ok = is_success (res_of res n) /\ missing s n c < 0 /\
            zlen ids = - missing s n c /\
            (((m_policy c = PNone \/ m_policy c = PFifo) /\
              exists kept, insts_of (st_scheduled s) n = ids ++ kept /\ zlen kept = m_count c) \/
             (m_policy c = PLifo /\
              exists kept, insts_of (st_scheduled s) n = kept ++ ids /\ zlen kept = m_count c)).
Proof.
  intros (Hnd & Hnow & Hall) Hin. destruct (action_origin P s res Hnd Hnow n _ Hin) as (c & Hc & Hs & Ha).
  exists c. split; [split; assumption|]. destruct (Hall n c Hc) as [[Hcnt _] _].
  destruct (step_delete_inv _ _ _ _ _ _ _ _ Ha) as (Hlt & Hsur & Hok). rewrite refill_count, ?refill_policy in Hlt, Hsur.
  unfold missing. split; [exact Hok|]. split; [lia|].
  destruct (surplus_spec _ _ _ _ (conj Hcnt Hlt) Hsur) as [Hlen Hcase]. split; [lia | exact Hcase].
Qed.

Theorem delete_complete P s res n c : state_inv P s -> active s n c -> missing s n c < 0 ->
  (valid_policy (m_policy c) -> exists ids, In (n, ADelete ids (is_success (res_of res n))) (actions_of P s res)) /\
  (m_policy c = POther -> forall a, ~ In (n, a) (actions_of P s res)).
Proof.
  intros (Hnd & Hnow & Hall) Hact Hm. pose proof (active_action P s res n c Hnd Hnow Hact) as Ha.
  unfold missing in Hm. split.
  - intros Hv.
    assert (exists ids, surplus (m_policy c) (insts_of (st_scheduled s) n) (m_count c) = Some ids) as [ids Hi].
    { destruct Hv as [-> | [-> | ->]]; eexists; reflexivity. }
    exists ids. apply lookup_In. rewrite Ha. apply step_deletes; rewrite refill_count, ?refill_policy; [lia | exact Hi].
  - intros Hp. apply lookup_None_notin. rewrite Ha, step_act, refill_count, refill_policy, Hp, (proj2 (Z.ltb_ge _ _)) by lia.
    destruct (_ =? _); reflexivity.
Qed.

(** with the instance list sorted by age (as _scheduled_watch leaves it): fifo deletes are older than every
    instance kept, lifo deletes are newer *)
Theorem delete_order P s res n ids ok : state_inv P s ->
  StronglySorted Z.lt (insts_of (st_scheduled s) n) ->
  In (n, ADelete ids ok) (actions_of P s res) ->
  exists c kept, lookup (st_monitors s) n = Some c /\ zlen kept = m_count c /\
    (forall x, In x (insts_of (st_scheduled s) n) <-> In x ids \/ In x kept) /\
    ((m_policy c = PNone \/ m_policy c = PFifo) -> forall x y, In x ids -> In y kept -> x < y) /\
    (m_policy c = PLifo -> forall x y, In x ids -> In y kept -> y < x).
Proof.
  intros Hinv Hsort Hin.
  destruct (delete_exact P s res n ids ok Hinv Hin) as (c & [Hc _] & _ & _ & _ & Hcase).
  exists c. destruct Hcase as [[Hp (kept & Hk & Hl)] | [Hp (kept & Hk & Hl)]]; exists kept; rewrite Hk in *;
    (split; [exact Hc|]); (split; [exact Hl|]).
  - split; [intros x; apply in_app_iff|]. split.
    + intros _ x y Hx Hy. eapply sorted_app_lt; eassumption.
    + intros Hp2. destruct Hp as [Hp|Hp]; congruence.
  - split; [intros x; rewrite in_app_iff; apply or_comm|]. split.
    + intros [Hp2|Hp2]; congruence.
    + intros _ x y Hx Hy. eapply sorted_app_lt; eassumption.
Qed.

(** at most one REST call per application and evaluation: never a create and a delete for the same application *)
Theorem one_action_per_app P s res : state_inv P s -> NoDup (keys (actions_of P s res)).
Proof. intros (Hnd & Hnow & _). apply eval_actions_NoDup; assumption. Qed.

Theorem never_create_and_delete P s res n k r ids ok : state_inv P s ->
  In (n, ACreate k r) (actions_of P s res) -> In (n, ADelete ids ok) (actions_of P s res) -> False.
Proof.
  intros Hinv H1 H2. pose proof (one_action_per_app P s res Hinv) as Hnd.
  apply (In_lookup _ _ _ Hnd) in H1. apply (In_lookup _ _ _ Hnd) in H2. congruence.
Qed.

(** suspended or not configured: no REST call, and the monitor's configuration and tokens are untouched *)
Theorem inactive_no_action P s res n : state_inv P s ->
  (lookup (st_monitors s) n = None \/ is_susp (st_suspended s) n (st_clock s) = true) ->
  (forall a, ~ In (n, a) (actions_of P s res)) /\
  lookup (st_monitors (after P s res)) n = lookup (st_monitors s) n.
Proof.
  intros (Hnd & Hnow & _) Hcase.
  assert (Hq : forall c, lookup (st_monitors s) n = Some c -> mon_eval P s res n c = quiet c).
  { intros c Hc. destruct Hcase as [Hcase|Hcase]; [congruence|]. unfold mon_eval. rewrite Hcase. reflexivity. }
  split.
  - apply lookup_None_notin. rewrite eval_action by assumption.
    destruct (lookup (st_monitors s) n) as [c|]; [rewrite (Hq c eq_refl)|]; reflexivity.
  - rewrite eval_monitor by assumption.
    destruct (lookup (st_monitors s) n) as [c|]; [cbn [option_map]; rewrite (Hq c eq_refl)|]; reflexivity.
Qed.

(** tokens after an evaluation = tokens after the refill - what was successfully created; still within [0, cap] *)
Theorem tokens_after P s res n c : params_ok P -> state_inv P s -> active s n c ->
  exists c', lookup (st_monitors (after P s res)) n = Some c' /\
             m_count c' = m_count c /\ m_policy c' = m_policy c /\ m_last c' = st_clock s /\
             m_tok c' = m_tok (refill P (st_clock s) c) - scale P * created_in n (actions_of P s res) /\
             0 <= m_tok c' <= cap P c.
Proof.
  intros HP (Hnd & Hnow & Hall) [Hc Hs]. destruct (Hall n c Hc) as [Hok Hl].
  exists (so_conf (mon_eval P s res n c)). split; [rewrite eval_monitor, Hc by assumption; reflexivity|].
  rewrite created_in_lookup, eval_action, Hc by (try apply eval_actions_NoDup; assumption).
  pose proof (mon_eval_ok P s res n c HP Hok Hl) as [[_ Hb] _].
  unfold mon_eval in Hb |- *. rewrite Hs in Hb |- *.
  rewrite step_count, step_last, step_policy, refill_count, refill_last, refill_policy. repeat split; auto using step_spent; [lia|].
  unfold cap in *. rewrite step_count, refill_count in Hb. lia.
Qed.

(** * Removed monitors *)
Definition no_configure (name : Z) (e : event) : bool :=
  match e with EConfigure n _ _ => negb (Z.eqb n name) | _ => true end.

Definition no_action_for (name : Z) (o : eval_out) : Prop := forall a, ~ In (name, a) (eo_actions o).

Lemma apply_absent P s e name : state_inv P s -> no_configure name e = true -> lookup (st_monitors s) name = None ->
  lookup (st_monitors (fst (apply P s e))) name = None /\
  match snd (apply P s e) with Some o => no_action_for name o | None => True end.
Proof.
  intros Hinv Hnc Hc. destruct e as [d|n count pol|n|apps|res]; rewrite ?apply_eval; cbn [apply fst snd st_monitors]; auto.
  - cbn in Hnc. rewrite lookup_set_kv. destruct (n =? name); [discriminate | auto].
  - rewrite lookup_remove_k. destruct (name =? n); auto.
  - destruct (inactive_no_action P s res name Hinv (or_introl Hc)) as [Hno Hl]. split; [congruence | exact Hno].
Qed.

Theorem run_absent P name evs : params_ok P -> forall s, state_inv P s -> Forall event_ok evs ->
  forallb (no_configure name) evs = true -> lookup (st_monitors s) name = None ->
  lookup (st_monitors (fst (run P s evs))) name = None /\ Forall (no_action_for name) (snd (run P s evs)).
Proof.
  intros HP. induction evs as [|e t IH]; intros s Hinv Hev Hnc Hc; [cbn; auto|].
  apply Forall_cons_iff in Hev as [He Ht]. cbn in Hnc. apply andb_true_iff in Hnc as [Hnc1 Hnc2].
  destruct (apply_absent P s e name Hinv Hnc1 Hc) as [Hm1 Ho1].
  destruct (IH _ (apply_inv P s e HP Hinv He) Ht Hnc2 Hm1) as [Hm2 Hall2].
  rewrite run_cons. split; [exact Hm2|]. cbn [snd]. destruct (snd (apply P s e)); [constructor; assumption | exact Hall2].
Qed.

(** * Constants *)
Definition consts_okb (k : consts) : bool := params_okb {| p_k := k; p_tps := 1 |}.

Lemma consts_ok_params k tps : consts_okb k = true -> 0 < tps -> params_ok {| p_k := k; p_tps := tps |}.
Proof.
  intros H Ht. apply params_okb_ok in H. unfold params_ok in *. cbn in *. lia.
Qed.

Lemma canonical_values k : consts_canonical k = true ->
  k_interval k = 3600 /\ k_cap k = 2 /\ k_init k = 2 /\ k_rate k = 2 /\ 0 <= k_delay k.
Proof. unfold consts_canonical. intros H. repeat (apply andb_true_iff in H as [H ?]). lia. Qed.

(** the budget in the property's units: twice the target per hour *)
Theorem run_budget_hourly k tps name evs s c : consts_canonical k = true -> 0 < tps ->
  let P := {| p_k := k; p_tps := tps |} in
  state_inv P s -> Forall event_ok evs -> forallb (no_reconf name) evs = true ->
  lookup (st_monitors s) name = Some c ->
  3600 * tps * created name (snd (run P s evs))
    <= m_tok c + 2 * m_count c * (st_clock (fst (run P s evs)) - m_last c).
Proof.
  intros Hk Ht P Hinv Hev Hnr Hc. destruct (canonical_values k Hk) as (Hi & Hcap & Hinit & Hrate & Hd).
  assert (HP : params_ok P). { unfold params_ok, P; cbn. lia. }
  pose proof (run_budget_clock P name evs s c HP Hinv Hev Hnr Hc) as H.
  unfold scale, P in H. cbn [p_k p_tps] in H. rewrite Hi, Hrate in H. exact H.
Qed.
