(** Proofs about Codec/Event.v: from_data (to_data e) = e for every event class on [body_domain],
    injectivity, event-node names. *)
From Coq Require Import ZArith List Bool.
From TM Require Import Codec.BaseN Codec.BaseNP Codec.Dec Codec.DecP Codec.Event.
Import ListNotations.
Open Scope Z_scope.

(** * Enum tables *)
Lemma nodup_strs_NoDup l : nodup_strs l = true -> NoDup l.
Proof. exact (proj1 (nodup_by_NoDup str_eqb str_eqb_eq l)). Qed.

Lemma lookup_by_class_spec t c :
  existsb (fun e => str_eqb (fst (snd e)) c) t = true ->
  exists n sl, lookup_by_class t c = Some n /\ In (n, (c, sl)) t.
Proof.
  induction t as [|[n0 [c0 s0]] r IH]; cbn [existsb lookup_by_class fst snd]; [discriminate|].
  destruct (str_eqb c0 c) eqn:E.
  - apply str_eqb_eq in E. subst c0. exists n0, s0. split; [reflexivity|left; reflexivity].
  - intros (n & sl & Hn & Hin)%IH. exists n, sl. split; [exact Hn|right; exact Hin].
Qed.

Lemma lookup_by_name_In t n v : NoDup (map fst t) -> In (n, v) t -> lookup_by_name t n = Some v.
Proof.
  induction t as [|[n0 v0] r IH]; cbn [lookup_by_name map fst]; [intros _ []|].
  intros [Hn0 Hr]%NoDup_cons_iff [[= -> ->]|Hin]; [rewrite str_eqb_refl; reflexivity|].
  rewrite str_eqb_neq; [exact (IH Hr Hin)|]. intros ->. exact (Hn0 (in_map fst _ _ Hin)).
Qed.

Lemma cls_of_name_class_name k : cls_of_name (class_name k) = Some k.
Proof. destruct k; vm_compute; reflexivity. Qed.

Lemma table_ok_lookup t server k :
  table_ok t server = true -> is_server k = server ->
  exists ty sl, lookup_by_class t (class_name k) = Some ty
             /\ lookup_by_name t ty = Some (class_name k, sl) /\ ~ In comma ty.
Proof.
  unfold table_ok.
  intros [[[[Hnd%nodup_strs_NoDup _]%andb_true_iff _]%andb_true_iff Hall]%andb_true_iff Hc]%andb_true_iff Hk.
  rewrite forallb_forall in Hall, Hc.
  assert (Hin : In k all_cls) by (destruct k; cbn [all_cls In]; repeat first [left; reflexivity|right]).
  apply Hall in Hin. rewrite Hk, eqb_reflx in Hin.
  destruct (lookup_by_class_spec t (class_name k) Hin) as (ty & sl & Hty & Hin').
  exists ty, sl. split; [exact Hty|]. split; [exact (lookup_by_name_In t ty _ Hnd Hin')|].
  apply memb_false_notin, negb_true_iff, (Hc _ Hin').
Qed.

(** * Class decoders invert event_data on the domain *)
Lemma last2_app m a b : last2 (m ++ [a; b]) = Some (m, a, b).
Proof.
  induction m as [|x m IH]; [reflexivity|].
  cbn [app]. destruct (m ++ [a; b]) as [|y [|z l']] eqn:El; try discriminate.
  change (last2 (x :: y :: z :: l')) with
    (match last2 (y :: z :: l') with Some (mm, a0, b0) => Some (x :: mm, a0, b0) | None => None end).
  rewrite IH. reflexivity.
Qed.

Definition data_of (b : body) : str := match event_data b with Some d => d | None => [] end.

Lemma class_roundtrip b : body_domain b = true -> class_from_data (cls_of b) (data_of b) = Some b.
Proof.
  unfold data_of.
  destruct b as [[w|] y|[y|]|[y|]|[u|]| |rc sg|[y|]|o|[u|] s|[u|] s rc sg|[s|]| |];
    cbn [body_domain some_without is_some andb]; intros Hd; try discriminate;
    cbn [event_data cls_of class_from_data pystr]; try reflexivity.
  - (* Scheduled: the first ':' ends `where` *)
    apply negb_true_iff, memb_false_notin in Hd. destruct y as [y|]; cbn [pystr].
    + rewrite (split1_first colon w y Hd). reflexivity.
    + rewrite (split1_none colon w Hd). reflexivity.
  - rewrite split_app, !split_notin by apply str_of_Z_no_dot. cbn [app]. rewrite !py_int_str_of_Z. reflexivity.
  - destruct o; reflexivity.
  - (* ServiceRunning: the first '.' ends the unique id, the service name keeps its dots *)
    apply andb_true_iff in Hd as [Hu%negb_true_iff%memb_false_notin Hs]. destruct s as [s|]; [|discriminate].
    cbn [pystr]. rewrite split_app, (split_notin dot u Hu). cbn [app]. rewrite join_split. reflexivity.
  - (* ServiceExited: likewise; the last two parts are rc and signal *)
    apply andb_true_iff in Hd as [Hu%negb_true_iff%memb_false_notin Hs]. destruct s as [s|]; [|discriminate].
    cbn [pystr]. rewrite split_app, (split_notin dot u Hu), !split_app, !(split_notin dot (str_of_Z _)) by apply str_of_Z_no_dot.
    cbn [app]. change ([str_of_Z rc] ++ [str_of_Z sg]) with [str_of_Z rc; str_of_Z sg].
    rewrite last2_app, !py_int_str_of_Z, join_split. reflexivity.
Qed.

(** * from_data (to_data e) = e *)
Theorem event_roundtrip T :
  event_tables_ok T = true -> forall H (h : H) b, body_domain b = true ->
  exists ty, to_data T (h, b) = Some (h, ty, data_of b)
             /\ from_data T (is_server (cls_of b)) h ty (data_of b) = Some (h, b)
             /\ ~ In comma ty.
Proof.
  intros HT H h b Hd. unfold event_tables_ok in HT. apply andb_true_iff in HT as [Ha Hs].
  assert (Hside : table_ok (table_for T (cls_of b)) (is_server (cls_of b)) = true).
  { unfold table_for. destruct (is_server (cls_of b)); assumption. }
  destruct (table_ok_lookup _ _ (cls_of b) Hside eq_refl) as [ty [sl [Hty [Hname Hc]]]].
  exists ty. unfold to_data. rewrite Hty. split; [reflexivity|]. split; [|exact Hc].
  unfold from_data. unfold table_for in Hname. rewrite Hname.
  rewrite cls_of_name_class_name. rewrite (class_roundtrip b Hd). reflexivity.
Qed.

Theorem event_injective T :
  event_tables_ok T = true -> forall H (h1 h2 : H) b1 b2, body_domain b1 = true -> body_domain b2 = true ->
  is_server (cls_of b1) = is_server (cls_of b2) ->
  to_data T (h1, b1) = to_data T (h2, b2) -> (h1, b1) = (h2, b2).
Proof.
  intros HT H h1 h2 b1 b2 D1 D2 Hside Heq.
  destruct (event_roundtrip T HT H h1 b1 D1) as (ty1 & E1 & F1 & _).
  destruct (event_roundtrip T HT H h2 b2 D2) as (ty2 & E2 & F2 & _).
  rewrite E1, E2 in Heq. injection Heq as -> -> Hdata. rewrite Hside, Hdata in F1. congruence.
Qed.

(** * Event-node names *)
Lemma strs_eqb_eq a b : strs_eqb a b = true -> a = b.
Proof.
  revert b; induction a as [|x a IH]; intros [|y b]; cbn [strs_eqb]; try discriminate; [reflexivity|].
  intros [->%str_eqb_eq ->%IH]%andb_true_iff. reflexivity.
Qed.

Lemma node_tables_fields N : node_tables_ok N = true ->
  (forall id when host ty d,
     node_name N id when host ty d = Some (join comma [id; when; host; ty; d]))
  /\ nt_sep N = comma /\ length (nt_fields N) = 5%nat.
Proof.
  unfold node_tables_ok.
  intros [[[[[Ht%str_eqb_eq _]%andb_true_iff Hp%str_eqb_eq]%andb_true_iff _]%andb_true_iff
            Hs%Z.eqb_eq]%andb_true_iff Hf%strs_eqb_eq]%andb_true_iff.
  split; [|split; [exact Hs|rewrite Hf; reflexivity]].
  intros id when host ty d. unfold node_name. rewrite Ht, Hp. cbn. rewrite !app_nil_r. reflexivity.
Qed.

Theorem node_roundtrip N :
  node_tables_ok N = true -> forall id when host ty d,
  Forall (fun s => ~ In comma s) [id; when; host; ty; d] ->
  exists name, node_name N id when host ty d = Some name
               /\ node_fields N name = Some [id; when; host; ty; d].
Proof.
  intros HN id when host ty d Hall. destruct (node_tables_fields N HN) as [Hname [Hsep Hlen]].
  exists (join comma [id; when; host; ty; d]). split; [apply Hname|].
  unfold node_fields. cbv zeta. rewrite Hsep, split_join; [|discriminate|exact Hall].
  rewrite Hlen. reflexivity.
Qed.

Theorem node_injective N :
  node_tables_ok N = true -> forall id when host ty d id' when' host' ty' d',
  Forall (fun s => ~ In comma s) [id; when; host; ty; d] ->
  Forall (fun s => ~ In comma s) [id'; when'; host'; ty'; d'] ->
  node_name N id when host ty d = node_name N id' when' host' ty' d' ->
  [id; when; host; ty; d] = [id'; when'; host'; ty'; d'].
Proof.
  intros HN id when host ty d id' when' host' ty' d' A1 A2 Heq.
  destruct (node_roundtrip N HN _ _ _ _ _ A1) as (n1 & E1 & R1).
  destruct (node_roundtrip N HN _ _ _ _ _ A2) as (n2 & E2 & R2).
  congruence.
Qed.

Definition data_no_comma (b : body) : bool := negb (memb comma (data_of b)).

Theorem event_node_roundtrip T N :
  event_tables_ok T = true -> node_tables_ok N = true -> forall id when host b,
  body_domain b = true -> data_no_comma b = true ->
  ~ In comma id -> ~ In comma when -> ~ In comma host ->
  exists ty name, to_data T (tt, b) = Some (tt, ty, data_of b)
    /\ node_name N id when host ty (data_of b) = Some name
    /\ node_fields N name = Some [id; when; host; ty; data_of b]
    /\ from_data T (is_server (cls_of b)) tt ty (data_of b) = Some (tt, b).
Proof.
  intros HT HN id when host b Hd Hc H1 H2 H3.
  destruct (event_roundtrip T HT unit tt b Hd) as (ty & E & F & Hty).
  apply negb_true_iff, memb_false_notin in Hc.
  destruct (node_roundtrip N HN id when host ty (data_of b)) as [name [En Rn]];
    [repeat constructor; assumption|].
  exists ty, name. repeat split; assumption.
Qed.
