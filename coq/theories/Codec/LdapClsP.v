(** Proofs about Codec/LdapCls.v: the option-indexed list codec and the per-class wrappers of admin/_ldap.py:
    from_entry (_remove_empty (to_entry x)) = normal form of x, for every class, on typed objects.

    to_entry is a sequence of dict.update steps, each on keys of its own: the class schema writes plain attributes, a
    list writes '<attribute>;<prefix>-<index>' keys (or the item attributes := [] when it is empty).  One step is
    [writes csch hx E E']; an entry built by such steps is a [layout_ok E secs]; from_entry reads a layout back section
    by section ([base_read], [multi_read]).  Every class is an instance. *)
From Coq Require Import ZArith List Bool Lia ZifyBool Permutation Sorted.
From TM Require Import Codec.BaseN Codec.BaseNP Codec.Dec Codec.DecP Codec.Json Codec.JsonP Codec.Ldap Codec.LdapP
  Codec.LdapCls.
Import ListNotations.
Open Scope Z_scope.

(** * 1. Comparisons that are total orders *)
Definition TO {A} (c : A -> A -> comparison) : Prop :=
  (forall a b, c a b = Eq -> a = b) /\ (forall a b, c b a = CompOpp (c a b)) /\
  (forall a b d, c a b = Lt -> c b d = Lt -> c a d = Lt).

Lemma TO_refl {A} (c : A -> A -> comparison) a : TO c -> c a a = Eq.
Proof. intros [_ [Ho _]]. specialize (Ho a a). destruct (c a a); cbn in Ho; congruence. Qed.

Lemma TO_Z : TO Z.compare.
Proof.
  split; [|split].
  - intros a b H. apply Z.compare_eq. exact H.
  - intros a b. apply Z.compare_antisym.
  - intros a b d H1 H2. rewrite Z.compare_lt_iff in *. lia.
Qed.

Lemma TO_bool : TO bool_cmp.
Proof.
  split; [|split].
  - intros [] []; cbn; intros H; try reflexivity; discriminate.
  - intros [] []; reflexivity.
  - intros [] [] []; cbn; intros H1 H2; try reflexivity; discriminate.
Qed.

Lemma TO_list {A} (c : A -> A -> comparison) : TO c -> TO (list_cmp c).
Proof.
  intros Hc. pose proof (TO_refl c) as Hr. destruct Hc as [He [Ho Ht]]. split; [|split].
  - induction a as [|x a IH]; destruct b as [|y b]; cbn [list_cmp]; intros H; try discriminate; [reflexivity|].
    destruct (c x y) eqn:E; try discriminate. apply He in E. subst y. f_equal. apply IH. exact H.
  - induction a as [|x a IH]; destruct b as [|y b]; cbn [list_cmp CompOpp]; try reflexivity.
    rewrite (Ho x y). destruct (c x y); cbn [CompOpp]; [apply IH|reflexivity|reflexivity].
  - induction a as [|x a IH]; destruct b as [|y b]; destruct d as [|z d]; cbn [list_cmp]; intros H1 H2;
      try discriminate; try reflexivity.
    destruct (c x y) eqn:E1; try discriminate; destruct (c y z) eqn:E2; try discriminate.
    + apply He in E1. subst y. rewrite E2. eapply IH; eassumption.
    + apply He in E1. subst y. rewrite E2. reflexivity.
    + apply He in E2. subst z. rewrite E1. reflexivity.
    + rewrite (Ht x y z E1 E2). reflexivity.
Qed.

Definition lex_cmp {A B} (c1 : A -> A -> comparison) (c2 : B -> B -> comparison) (a b : A * B) : comparison :=
  match c1 (fst a) (fst b) with Eq => c2 (snd a) (snd b) | r => r end.

Lemma TO_lex {A B} (c1 : A -> A -> comparison) (c2 : B -> B -> comparison) : TO c1 -> TO c2 -> TO (lex_cmp c1 c2).
Proof.
  intros [He1 [Ho1 Ht1]] [He2 [Ho2 Ht2]]. unfold lex_cmp. split; [|split].
  - intros [a1 a2] [b1 b2]; cbn [fst snd]. destruct (c1 a1 b1) eqn:E; try discriminate.
    intros H. apply He1 in E. apply He2 in H. congruence.
  - intros [a1 a2] [b1 b2]; cbn [fst snd]. rewrite (Ho1 a1 b1). destruct (c1 a1 b1); cbn [CompOpp]; [apply Ho2|reflexivity|reflexivity].
  - intros [a1 a2] [b1 b2] [d1 d2]; cbn [fst snd].
    destruct (c1 a1 b1) eqn:E1; try discriminate; destruct (c1 b1 d1) eqn:E2; try discriminate; intros H1 H2.
    + apply He1 in E1. subst b1. rewrite E2. eapply Ht2; eassumption.
    + apply He1 in E1. subst b1. rewrite E2. reflexivity.
    + apply He1 in E2. subst d1. rewrite E1. reflexivity.
    + rewrite (Ht1 _ _ _ E1 E2). reflexivity.
Qed.

Lemma TO_str : TO str_cmp.
Proof. apply TO_list. exact TO_Z. Qed.

Definition lt_of {K} (c : K -> K -> comparison) (a b : K) : bool := match c a b with Lt => true | _ => false end.

(** a strict order that is total on the elements that satisfy P *)
Definition strict_on {A} (lt : A -> A -> bool) (P : A -> Prop) : Prop :=
  (forall a b, lt a b = true -> lt b a = false) /\
  (forall a b d, lt a b = true -> lt b d = true -> lt a d = true) /\
  (forall a b, P a -> P b -> lt a b = false -> lt b a = false -> a = b).

Lemma lt_key_order {A K} (c : K -> K -> comparison) (k : A -> K) (lt : A -> A -> bool) (P : A -> Prop) :
  TO c -> (forall a b, lt a b = lt_of c (k a) (k b)) -> (forall a b, P a -> P b -> k a = k b -> a = b) -> strict_on lt P.
Proof.
  intros [He [Ho Ht]] Hlt Hinj. unfold lt_of in Hlt. split; [|split].
  - intros a b. rewrite !Hlt, (Ho (k a) (k b)). destruct (c (k a) (k b)); cbn [CompOpp]; congruence.
  - intros a b d. rewrite !Hlt. destruct (c (k a) (k b)) eqn:E1; try discriminate.
    destruct (c (k b) (k d)) eqn:E2; try discriminate. rewrite (Ht _ _ _ E1 E2). reflexivity.
  - intros a b Pa Pb. rewrite !Hlt, (Ho (k a) (k b)). destruct (c (k a) (k b)) eqn:E; cbn [CompOpp]; try discriminate.
    intros _ _. exact (Hinj a b Pa Pb (He _ _ E)).
Qed.

(** str_ltb (Codec/Json.v) is the strict part of str_cmp *)
Lemma str_ltb_cmp a b : str_ltb a b = lt_of str_cmp a b.
Proof.
  unfold lt_of, str_cmp. revert b. induction a as [|x a IH]; destruct b as [|y b]; cbn [str_ltb list_cmp]; try reflexivity.
  destruct (Z.compare_spec x y) as [E|E|E].
  - subst y. rewrite Z.ltb_irrefl, Z.eqb_refl. apply IH.
  - assert (x <? y = true) by lia. rewrite H. reflexivity.
  - assert (x <? y = false) by lia. assert (x =? y = false) by lia. rewrite H, H0. reflexivity.
Qed.

Lemma str_ltb_order : strict_on str_ltb (fun _ => True).
Proof. exact (lt_key_order str_cmp (fun x => x) str_ltb _ TO_str str_ltb_cmp (fun a b _ _ H => H)). Qed.

Lemma str_ltb_irrefl a : str_ltb a a = false.
Proof. destruct (str_ltb a a) eqn:E; [|reflexivity]. rewrite (proj1 str_ltb_order a a E) in E. discriminate. Qed.

Lemma str_ltb_trans a b c : str_ltb a b = true -> str_ltb b c = true -> str_ltb a c = true.
Proof. apply str_ltb_order. Qed.

Lemma str_ltb_tri a b : str_ltb a b = false -> a <> b -> str_ltb b a = true.
Proof. intros H Hne. destruct (str_ltb b a) eqn:E; [reflexivity|]. destruct (Hne (proj2 (proj2 str_ltb_order) a b I I H E)). Qed.

(** * 2. Insertion sort: a permutation; canonical when the order is total on the elements *)
Lemma ins_by_perm {A} (lt : A -> A -> bool) x l : Permutation (ins_by lt x l) (x :: l).
Proof.
  induction l as [|y r IH]; cbn [ins_by]; [apply Permutation_refl|].
  destruct (lt y x); [|apply Permutation_refl].
  eapply Permutation_trans; [apply perm_skip; exact IH|apply perm_swap].
Qed.

Lemma sort_by_perm {A} (lt : A -> A -> bool) l : Permutation (sort_by lt l) l.
Proof.
  induction l as [|x r IH]; cbn [sort_by]; [apply Permutation_refl|].
  eapply Permutation_trans; [apply ins_by_perm|apply perm_skip; exact IH].
Qed.

Section SortCanon.
  Context {A : Type} (lt : A -> A -> bool) (P : A -> Prop).
  Hypothesis Hord : strict_on lt P.
  Let Hasym := proj1 Hord.
  Let Htrans := proj1 (proj2 Hord).
  Let Htri := proj2 (proj2 Hord).

  Let le (a b : A) : Prop := lt b a = false.

  Lemma le_refl_ a : le a a.
  Proof. unfold le. destruct (lt a a) eqn:E; [|reflexivity]. rewrite (Hasym a a E) in E. discriminate. Qed.

  Lemma le_trans_ a b c : P a -> P b -> P c -> le a b -> le b c -> le a c.
  Proof.
    unfold le. intros Pa Pb Pc H1 H2. destruct (lt c a) eqn:E; [|reflexivity]. exfalso.
    destruct (lt a b) eqn:E2.
    - rewrite (Htrans c a b E E2) in H2. discriminate.
    - assert (a = b) by (apply Htri; assumption). subst b. congruence.
  Qed.

  Lemma ins_sorted x l : P x -> Forall P l -> StronglySorted le l -> StronglySorted le (ins_by lt x l).
  Proof.
    intros Px. induction l as [|y r IH]; intros HP Hs; cbn [ins_by].
    - constructor; [constructor|constructor].
    - inversion Hs as [|y' r' Hr Hy]; subst. inversion HP as [|y' r' Py Pr]; subst.
      destruct (lt y x) eqn:E.
      + constructor; [apply IH; assumption|].
        rewrite Forall_forall. intros z Hz.
        apply (Permutation_in _ (ins_by_perm lt x r)) in Hz. destruct Hz as [<-|Hz].
        * unfold le. apply Hasym. exact E.
        * rewrite Forall_forall in Hy. apply Hy. exact Hz.
      + constructor; [exact Hs|]. constructor; [exact E|].
        rewrite Forall_forall in *. intros z Hz.
        apply (le_trans_ x y z); [exact Px|exact Py|apply Pr; exact Hz|exact E|apply Hy; exact Hz].
  Qed.

  Lemma sort_sorted l : Forall P l -> StronglySorted le (sort_by lt l).
  Proof.
    induction l as [|x r IH]; intros HP; cbn [sort_by]; [constructor|].
    inversion HP as [|x' r' Px Pr]; subst.
    apply ins_sorted; [exact Px|exact (Permutation_Forall (Permutation_sym (sort_by_perm lt r)) Pr)|apply IH; exact Pr].
  Qed.

  Lemma sorted_perm_eq l1 : forall l2, Forall P l1 -> StronglySorted le l1 -> StronglySorted le l2 ->
    Permutation l1 l2 -> l1 = l2.
  Proof.
    induction l1 as [|x t1 IH]; intros l2 HP H1 H2 Hp.
    - apply Permutation_nil in Hp. subst. reflexivity.
    - destruct l2 as [|y t2]; [apply Permutation_sym, Permutation_nil in Hp; discriminate|].
      inversion H1 as [|x' t1' Hs1 Hx]; subst. inversion H2 as [|y' t2' Hs2 Hy]; subst.
      inversion HP as [|x' t1' Px Pt]; subst.
      pose proof (Permutation_Forall Hp HP) as HP2. inversion HP2 as [|y' t2' Py Pt2]; subst.
      assert (Hxy : le x y).
      { assert (Hin : In y (x :: t1)) by (eapply Permutation_in; [apply Permutation_sym; exact Hp|left; reflexivity]).
        destruct Hin as [<-|Hin]; [apply le_refl_|]. rewrite Forall_forall in Hx. apply Hx. exact Hin. }
      assert (Hyx : le y x).
      { assert (Hin : In x (y :: t2)) by (eapply Permutation_in; [exact Hp|left; reflexivity]).
        destruct Hin as [<-|Hin]; [apply le_refl_|]. rewrite Forall_forall in Hy. apply Hy. exact Hin. }
      assert (x = y) by (apply Htri; assumption). subst y.
      f_equal. apply IH; [exact Pt|exact Hs1|exact Hs2|]. eapply Permutation_cons_inv. exact Hp.
  Qed.

  Theorem sort_by_canon l1 l2 : Forall P l1 -> Permutation l1 l2 -> sort_by lt l1 = sort_by lt l2.
  Proof.
    intros HP Hp. apply sorted_perm_eq.
    - exact (Permutation_Forall (Permutation_sym (sort_by_perm lt l1)) HP).
    - apply sort_sorted. exact HP.
    - apply sort_sorted. exact (Permutation_Forall Hp HP).
    - eapply Permutation_trans; [apply sort_by_perm|].
      eapply Permutation_trans; [exact Hp|apply Permutation_sym, sort_by_perm].
  Qed.

  Theorem sort_by_idem l : Forall P l -> sort_by lt (sort_by lt l) = sort_by lt l.
  Proof. intros HP. symmetry. exact (sort_by_canon l _ HP (Permutation_sym (sort_by_perm lt l))). Qed.
End SortCanon.

(** * 3. Dicts: lookups through aset / dict.update / _remove_empty *)
Lemma alookup_perm {A} (d d' : list (str * A)) k : NoDup (map fst d) -> Permutation d d' -> alookup d k = alookup d' k.
Proof.
  intros Hnd Hp.
  assert (Hnd' : NoDup (map fst d')) by (eapply Permutation_NoDup; [apply Permutation_map; exact Hp|exact Hnd]).
  destruct (alookup d k) as [v|] eqn:E.
  - symmetry. apply alookup_In; [exact Hnd'|]. eapply Permutation_in; [exact Hp|]. apply alookup_some_in. exact E.
  - symmetry. apply alookup_none_iff. apply alookup_none_iff in E. intros Hin. apply E.
    eapply Permutation_in; [apply Permutation_map, Permutation_sym; exact Hp|exact Hin].
Qed.

Lemma eupdate_cons {A} (e : list (str * A)) kv d : eupdate e (kv :: d) = eupdate (aset e (fst kv) (snd kv)) d.
Proof. reflexivity. Qed.

Lemma eupdate_nodup {A} (d e : list (str * A)) : NoDup (map fst e) -> NoDup (map fst (eupdate e d)).
Proof. exact (set_all_nodup d e). Qed.

Lemma alookup_eupdate {A} (d e : list (str * A)) k : NoDup (map fst d) ->
  alookup (eupdate e d) k = match alookup d k with Some v => Some v | None => alookup e k end.
Proof. exact (alookup_set_all d e k). Qed.

Lemma alookup_eupdate_skip {A} (d e : list (str * A)) k : ~ In k (map fst d) -> alookup (eupdate e d) k = alookup e k.
Proof.
  revert e. induction d as [|[k0 v0] d IH]; intros e Hn; [reflexivity|]. rewrite eupdate_cons. cbn [fst snd].
  rewrite IH by (intros Hin; apply Hn; right; exact Hin). rewrite alookup_aset.
  rewrite str_eqb_neq; [reflexivity|]. intros ->. apply Hn. left. reflexivity.
Qed.

Lemma eupdate_keys {A} (d e : list (str * A)) k :
  In k (map fst (eupdate e d)) -> In k (map fst e) \/ In k (map fst d).
Proof.
  revert e. induction d as [|[k0 v0] d IH]; intros e H; [left; exact H|].
  rewrite eupdate_cons in H. apply IH in H as [H|H]; [|right; right; exact H].
  cbn [fst snd] in H. rewrite aset_keys in H. destruct (existsb (str_eqb k0) (map fst e)); [left; exact H|].
  apply in_app_or in H as [H|[H|[]]]; [left; exact H|right; left; exact H].
Qed.

Lemma remove_empty_keys (e : entry) k : In k (map fst (remove_empty e)) -> In k (map fst e).
Proof.
  unfold remove_empty. intros H. apply in_map_iff in H as [kv [<- Hin]]. apply filter_In in Hin as [Hin _].
  apply in_map. exact Hin.
Qed.

Lemma remove_empty_nodup (e : entry) : NoDup (map fst e) -> NoDup (map fst (remove_empty e)).
Proof.
  unfold remove_empty. induction e as [|[k v] e IH]; cbn [filter map fst snd]; intros H; [constructor|].
  inversion H as [|x l Hx He]; subst. destruct v; [apply IH; exact He|].
  cbn [map fst]. constructor; [|apply IH; exact He]. intros Hin. apply Hx. apply (remove_empty_keys e k). exact Hin.
Qed.

(** * 4. _dict_2_entry (d2e): what it assigns *)
Definition row_assigned2 (o : obj) (f : str) (t : ftype) : option (list eval) :=
  match alookup o f with
  | Some v => match enc_field2 t v with Some (Some vs) => Some vs | _ => None end
  | None => None
  end.

Definition attrs (sch : schema) : list str := map fst (active sch).

Lemma in_active sch a f t : In (a, (f, t)) (active sch) <-> In (a, (Some f, t)) sch.
Proof.
  induction sch as [|[a0 [[f0|] t0]] r IH]; [reflexivity| |].
  - rewrite active_some. cbn [In]. rewrite IH. split; (intros [H|H]; [left; inversion H; reflexivity|right; exact H]).
  - rewrite active_none. cbn [In]. rewrite IH. split; [intros H; right; exact H|intros [H|H]; [discriminate|exact H]].
Qed.

(** the loop is a dict.update with the rows that have a value to assign *)
Definition assigned (o : obj) (L : list (str * (str * ftype))) : entry :=
  opt_rows fst (fun r => row_assigned2 o (fst (snd r)) (snd (snd r))) L.

Lemma d2e_loop_eq sch o : forall acc D, d2e_loop sch o acc = Some D -> D = eupdate acc (assigned o (active sch)).
Proof.
  induction sch as [|[a0 [[f0|] t0]] r IH]; intros acc D HD; cbn [d2e_loop] in HD.
  - inversion HD. reflexivity.
  - rewrite active_some. unfold assigned. cbn [opt_rows flat_map fst snd]. unfold row_assigned2 at 1.
    destruct (alookup o f0) as [v|]; [|exact (IH acc D HD)].
    destruct (enc_field2 t0 v) as [[vs|]|]; [|exact (IH acc D HD)|discriminate].
    cbn [app]. rewrite eupdate_cons. exact (IH _ D HD).
  - rewrite active_none. exact (IH acc D HD).
Qed.

Lemma d2e_keys sch o D k : d2e sch o = Some D -> In k (map fst D) -> In k (attrs sch).
Proof.
  intros HD Hin. rewrite (d2e_loop_eq sch o [] D HD) in Hin. apply eupdate_keys in Hin as [[]|Hin].
  exact (opt_rows_keys _ _ _ _ Hin).
Qed.

Lemma d2e_spec sch o D : NoDup (attrs sch) -> d2e sch o = Some D ->
  NoDup (map fst D) /\
  (forall a f t, In (a, (f, t)) (active sch) -> alookup D a = row_assigned2 o f t) /\
  (forall a, ~ In a (attrs sch) -> alookup D a = None).
Proof.
  intros Hna HD. split; [|split].
  - rewrite (d2e_loop_eq sch o [] D HD). apply eupdate_nodup. constructor.
  - intros a f t Hin. rewrite (d2e_loop_eq sch o [] D HD). unfold assigned.
    rewrite alookup_eupdate by (apply opt_rows_nodup; exact Hna).
    pose proof (alookup_opt_rows fst (fun r => row_assigned2 o (fst (snd r)) (snd (snd r))) _ _ Hna Hin) as H.
    cbn [fst snd] in H. rewrite H. destruct (row_assigned2 o f t); reflexivity.
  - intros a Hn. apply alookup_none_iff. intros Hin. exact (Hn (d2e_keys sch o D a HD Hin)).
Qed.

(** one field through encode, _remove_empty, decode *)
Lemma field_roundtrip2 t v : ftyped2 t v = true ->
  exists r, enc_field2 t v = Some r /\
  match stored r with
  | None => expected_field t (Some v) = (if is_list_type t then Some (FStrs []) else None)
  | Some vs => exists w, dec_field t vs = Ok w /\ expected_field t (Some v) = Some w /\ w <> FNone
  end.
Proof.
  intros H.
  assert (Hc : (t = TListInt /\ v = FStrs []) \/ (enc_field2 t v = enc_field t v /\ field_typed t v = true)).
  { destruct t; try (right; split; [reflexivity|exact H]).
    destruct v as [| | | |[|x l]| |]; try (right; split; [reflexivity|exact H]). left. split; reflexivity. }
  destruct Hc as [[-> ->]|[He Hf]].
  - exists None. split; reflexivity.
  - rewrite He. apply field_roundtrip. exact Hf.
Qed.

Lemma obj_typed2_spec sch o : obj_typed2 sch o = true <->
  forall a f t, In (a, (f, t)) (active sch) -> match alookup o f with Some v => ftyped2 t v = true | None => True end.
Proof.
  unfold obj_typed2. rewrite forallb_forall. split.
  - intros H a f t Hin. apply in_active in Hin. specialize (H _ Hin). cbn beta iota in H. destruct (alookup o f); [exact H|exact I].
  - intros H [a [[f|] t]] Hin; [|reflexivity]. specialize (H a f t (proj2 (in_active sch a f t) Hin)).
    destruct (alookup o f); [exact H|reflexivity].
Qed.

Lemma row_typed sch o a f t : obj_typed2 sch o = true -> In (a, (f, t)) (active sch) ->
  match alookup o f with Some x => ftyped2 t x = true | None => True end.
Proof. intros Hty. exact (proj1 (obj_typed2_spec sch o) Hty a f t). Qed.

Lemma obj_typed2_intro sch o : (forall a f t, In (a, (f, t)) (active sch) ->
    match alookup o f with Some v => ftyped2 t v = true | None => True end) -> obj_typed2 sch o = true.
Proof. apply obj_typed2_spec. Qed.

Lemma d2e_total sch o : obj_typed2 sch o = true -> exists D, d2e sch o = Some D.
Proof.
  unfold d2e. generalize (@nil (str * list eval)).
  induction sch as [|[a0 [[f0|] t]] r IH]; intros acc Ht; cbn [d2e_loop].
  - exists acc. reflexivity.
  - cbn [obj_typed2 forallb] in Ht. apply andb_true_iff in Ht as [Hrow Hr]. fold (obj_typed2 r o) in Hr.
    destruct (alookup o f0) as [v|] eqn:Ev; [|apply IH; exact Hr].
    destruct (field_roundtrip2 t v Hrow) as [rr [Hen _]]. rewrite Hen.
    destruct rr as [vs|]; apply IH; exact Hr.
  - cbn [obj_typed2 forallb] in Ht. fold (obj_typed2 r o) in Ht. apply IH. exact Ht.
Qed.

(** * 5. One row through encode, _remove_empty, decode *)
Lemma stored_some_keep (r : option (list eval)) : stored (match r with Some vs => Some vs | None => None end) = stored r.
Proof. destruct r; reflexivity. Qed.

(** one row through encode, _remove_empty, decode: the expected value, or None (dropped at the end) *)
Lemma row_rt e o a f t : alookup e a = stored (row_assigned2 o f t) ->
  match alookup o f with Some v => ftyped2 t v = true | None => True end ->
  row_decoded e a t = Some (match expected_field t (alookup o f) with Some w => w | None => FNone end) /\
  expected_field t (alookup o f) <> Some FNone.
Proof.
  intros Hlk Hty. unfold row_decoded. rewrite Hlk. unfold row_assigned2. destruct (alookup o f) as [v|].
  - destruct (field_roundtrip2 t v Hty) as [rr [Hen Hrr]]. rewrite Hen, stored_some_keep. destruct (stored rr) as [vs|].
    + destruct Hrr as [w [Hw [Hexp Hnn]]]. rewrite Hw, Hexp. split; [reflexivity|congruence].
    + rewrite Hrr. destruct (is_list_type t); split; (reflexivity || discriminate).
  - cbn [stored expected_field]. destruct (is_list_type t); split; (reflexivity || discriminate).
Qed.

(** the round trip of one schema, given what the (stored) entry holds at the schema's attributes *)
Theorem base_rt sch (e : entry) (o : obj) : NoDup (fields sch) -> obj_typed2 sch o = true ->
  (forall a f t, In (a, (f, t)) (active sch) -> alookup e a = stored (row_assigned2 o f t)) ->
  entry_2_dict sch e = Ok (nf_base sch o).
Proof.
  intros Hnd Hty Hlk.
  apply (entry_2_dict_rows sch e (fun r => expected_field (snd (snd r)) (alookup o (fst (snd r)))) Hnd).
  intros a f t Hin. exact (row_rt e o a f t (Hlk a f t Hin) (row_typed sch o a f t Hty Hin)).
Qed.

Lemma alookup_nf_base sch o a f t : NoDup (fields sch) -> In (a, (f, t)) (active sch) ->
  alookup (nf_base sch o) f = expected_field t (alookup o f).
Proof.
  intros Hnd Hin. exact (alookup_opt_rows (fun r => fst (snd r)) (fun r => expected_field (snd (snd r)) (alookup o (fst (snd r))))
                           (active sch) (a, (f, t)) Hnd Hin).
Qed.

Lemma nf_base_in sch o k v : In (k, v) (nf_base sch o) ->
  exists a t, In (a, (k, t)) (active sch) /\ expected_field t (alookup o k) = Some v.
Proof.
  intros Hin. apply (opt_rows_in (fun r => fst (snd r))) in Hin as [[a [f t]] [Hr [Hk Hv]]]. cbn [fst snd] in Hk, Hv. subst f.
  exists a, t. split; [exact Hr|exact Hv].
Qed.

Lemma nf_base_keys sch o k : In k (map fst (nf_base sch o)) -> In k (fields sch).
Proof. apply opt_rows_keys. Qed.

Lemma nf_base_nodup sch o : NoDup (fields sch) -> NoDup (map fst (nf_base sch o)).
Proof. apply opt_rows_nodup. Qed.

Lemma nf_base_ext_in sch (g : str * (str * ftype) -> obj) o :
  (forall a f t, In (a, (f, t)) (active sch) -> g (a, (f, t)) = match expected_field t (alookup o f) with Some v => [(f, v)] | None => [] end) ->
  flat_map g (active sch) = nf_base sch o.
Proof.
  unfold nf_base. induction (active sch) as [|[a [f t]] L IH]; intros H; [reflexivity|]. cbn [flat_map fst snd].
  rewrite (H a f t (or_introl eq_refl)), IH by (intros a' f' t' Hin; apply H; right; exact Hin). reflexivity.
Qed.

(** * 6. Schemas *)
Definition plain_key (k : str) : Prop := ~ In 59 k /\ lower k = k.

Lemma wf_schema_spec sch : wf_schema sch = true ->
  NoDup (attrs sch) /\ NoDup (fields sch) /\ (forall a, In a (attrs sch) -> plain_key a).
Proof.
  unfold wf_schema, attrs, fields. intros H. apply andb_true_iff in H as [H H3]. apply andb_true_iff in H as [H1 H2].
  apply keys_nodup_NoDup in H1, H2. split; [exact H1|]. split; [exact H2|].
  intros a Hin. apply in_map_iff in Hin as [r [<- Hin]]. rewrite forallb_forall in H3. specialize (H3 r Hin).
  apply andb_true_iff in H3 as [Hs Hl]. split.
  - unfold no_semicolon in Hs. intros Hin'. apply memb_In in Hin'. rewrite Hin' in Hs. discriminate.
  - apply str_eqb_eq. exact Hl.
Qed.

Lemma ts_ok_spec a : ts_ok a = true -> ~ In 59 a /\ lower a <> a.
Proof.
  unfold ts_ok, no_semicolon. intros H. apply andb_true_iff in H as [H1 H2]. split.
  - intros Hin. apply memb_In in Hin. rewrite Hin in H1. discriminate.
  - intros Heq. rewrite Heq, str_eqb_refl in H2. discriminate.
Qed.

Lemma nonempty_attr_absent (e : entry) a : ~ In a (map fst e) -> nonempty_attr e a = false.
Proof. intros H. unfold nonempty_attr. rewrite (alookup_none_notin e a H). reflexivity. Qed.

Definition ts_absent (T : ltables) (e : entry) : Prop :=
  ~ In (lt_ts_create T) (map fst e) /\ ~ In (lt_ts_modify T) (map fst e).

Lemma base_from_entry_ok T sch e o : ts_absent T e -> entry_2_dict sch e = Ok o -> base_from_entry T sch e = Ok o.
Proof.
  intros [H1 H2] He. unfold base_from_entry. rewrite He, (nonempty_attr_absent e _ H1), (nonempty_attr_absent e _ H2).
  reflexivity.
Qed.

(** * 7. Normal forms are typed, and normalising twice changes nothing *)
Lemma sort_keys_sort_by {A} (d : list (str * A)) : sort_keys d = sort_by key_lt d.
Proof.
  induction d as [|[k v] d IH]; cbn [sort_keys sort_by]; [reflexivity|]. rewrite IH.
  generalize (sort_by key_lt d). intros l. induction l as [|[k' v'] l IHl]; cbn [insert_key ins_by]; [reflexivity|].
  unfold key_lt at 1. cbn [fst]. destruct (str_ltb k' k); [rewrite IHl|]; reflexivity.
Qed.

Lemma sort_keys_idem {A} (d : list (str * A)) : NoDup (map fst d) -> sort_keys (sort_keys d) = sort_keys d.
Proof.
  intros Hnd. rewrite !sort_keys_sort_by. apply (sort_by_idem key_lt (fun x => In x d)); [|apply Forall_forall; intros x Hx; exact Hx].
  apply (lt_key_order str_cmp fst _ _ TO_str (fun a b => str_ltb_cmp (fst a) (fst b))).
  intros [k1 v1] [k2 v2] H1 H2 Hk. cbn [fst] in Hk. subst k2.
  apply (alookup_In d k1 v1 Hnd) in H1. apply (alookup_In d k1 v2 Hnd) in H2. congruence.
Qed.

Lemma expected_typed t v : match v with Some x => ftyped2 t x = true | None => True end ->
  match expected_field t v with Some w => ftyped2 t w = true /\ w <> FNone | None => True end.
Proof.
  destruct v as [x|].
  - destruct x as [|s|z|b|l|l|d]; destruct t; cbn [ftyped2 field_typed]; intros H; try discriminate;
      cbn [expected_field is_list_type]; try exact I; try (split; [reflexivity|discriminate]).
    all: try (destruct l; cbn [ftyped2 field_typed]; first [exact I | split; [reflexivity|discriminate] | discriminate]).
    split; [|discriminate]. cbn [field_typed]. apply (sort_keys_wf d H).
  - intros _. destruct t; cbn [expected_field is_list_type]; try exact I; split; (reflexivity || discriminate).
Qed.

Lemma expected_idem t v : match v with Some x => ftyped2 t x = true | None => True end ->
  expected_field t (expected_field t v) = expected_field t v.
Proof.
  destruct v as [x|]; [|intros _; cbn; destruct t; reflexivity].
  destruct x as [|s|z|b|l|l|d]; destruct t; cbn [ftyped2 field_typed]; intros H; try discriminate;
    cbn [expected_field is_list_type]; try reflexivity; try (destruct l; reflexivity).
  cbn [wf_value] in H. apply andb_true_iff in H as [H _]. apply keys_nodup_NoDup in H.
  rewrite (sort_keys_idem d H). reflexivity.
Qed.

Theorem nf_base_typed sch o : NoDup (fields sch) -> obj_typed2 sch o = true -> obj_typed2 sch (nf_base sch o) = true.
Proof.
  intros Hnf Hty. apply obj_typed2_intro. intros a f t Hin. rewrite (alookup_nf_base sch o a f t Hnf Hin).
  pose proof (expected_typed t (alookup o f) (row_typed sch o a f t Hty Hin)) as H.
  destruct (expected_field t (alookup o f)); [apply H|exact I].
Qed.

Theorem nf_base_idem sch o : NoDup (fields sch) -> obj_typed2 sch o = true -> nf_base sch (nf_base sch o) = nf_base sch o.
Proof.
  intros Hnf Hty. apply nf_base_ext_in. intros a f t Hin. cbn [fst snd].
  rewrite (alookup_nf_base sch o a f t Hnf Hin), (expected_idem t _ (row_typed sch o a f t Hty Hin)). reflexivity.
Qed.

Lemma alookup_set_default o f v k :
  alookup (set_default o f v) k = match alookup o k with Some x => Some x | None => if str_eqb f k then Some v else None end.
Proof.
  unfold set_default. destruct (alookup o f) eqn:E.
  - destruct (alookup o k) eqn:Ek; [reflexivity|]. destruct (str_eqb f k) eqn:Ef; [|reflexivity].
    apply str_eqb_eq in Ef. subst k. congruence.
  - rewrite alookup_app. cbn [alookup]. destruct (alookup o k); reflexivity.
Qed.

Lemma alookup_set_defaults o ds k :
  alookup (set_defaults o ds) k
  = match alookup o k with Some x => Some x | None => match alookup ds k with Some d => Some (FStr d) | None => None end end.
Proof.
  unfold set_defaults. revert o. induction ds as [|[f d] ds IH]; intros o; cbn [fold_left alookup fst snd]; [destruct (alookup o k); reflexivity|].
  rewrite IH, alookup_set_default. destruct (alookup o k); [reflexivity|]. destruct (str_eqb f k); reflexivity.
Qed.

Lemma set_defaults_snoc o ds p d : set_default (set_defaults o ds) p (FStr d) = set_defaults o (ds ++ [(p, d)]).
Proof. unfold set_defaults. rewrite fold_left_app. reflexivity. Qed.

(** * 8. Attribute options: '<attribute>;<prefix>-<hex index>' *)
Lemma digits16_nodup : NoDup digits16.
Proof. apply nodupb_NoDup. reflexivity. Qed.

Lemma hex_nonneg_spec n : 0 <= n ->
  to_base_n digits16 16 n = Ok (hex_of_nonneg n) /\ Forall (fun c => In c digits16) (hex_of_nonneg n).
Proof.
  intros Hn. destruct (to_base_n_spec digits16 16 n digits16_nodup) as [s [Hs [_ [_ [_ Hall]]]]];
    [change (zlen digits16) with 16; lia|exact Hn|].
  unfold hex_of_nonneg. rewrite Hs. split; [reflexivity|exact Hall].
Qed.

Lemma hex_nonneg_inj a b : 0 <= a -> 0 <= b -> hex_of_nonneg a = hex_of_nonneg b -> a = b.
Proof.
  intros Ha Hb H. destruct (hex_nonneg_spec a Ha) as [Ea _]. destruct (hex_nonneg_spec b Hb) as [Eb _].
  rewrite <- H in Eb. apply (base_n_injective digits16 16 a b (hex_of_nonneg a)); try assumption; try reflexivity.
  change (zlen digits16) with 16. lia.
Qed.

Lemma digit16_not c : In c digits16 -> c <> 45 /\ c <> 59.
Proof. intros H. apply (proj1 (forallb_forall (fun c => negb ((c =? 45) || (c =? 59))) digits16) eq_refl) in H. lia. Qed.

Theorem hex_of_Z_inj a b : hex_of_Z a = hex_of_Z b -> a = b.
Proof.
  (* a digit string does not start with '-' *)
  assert (Hminus : forall n r, 0 <= n -> hex_of_nonneg n <> 45 :: r).
  { intros n r Hn H. destruct (hex_nonneg_spec n Hn) as [_ Hall]. rewrite H in Hall. inversion Hall as [|c l Hc _]; subst.
    destruct (digit16_not 45 Hc) as [Hx _]. congruence. }
  unfold hex_of_Z. destruct (a <? 0) eqn:Ea; destruct (b <? 0) eqn:Eb; intros H.
  - inversion H as [H']. apply hex_nonneg_inj in H'; lia.
  - destruct (Hminus b _ ltac:(lia) (eq_sym H)).
  - destruct (Hminus a _ ltac:(lia) H).
  - apply hex_nonneg_inj; [lia|lia|exact H].
Qed.

Lemma hex_of_Z_no_semicolon z : ~ In 59 (hex_of_Z z).
Proof.
  assert (Hnn : forall n, 0 <= n -> ~ In 59 (hex_of_nonneg n)).
  { intros n Hn Hin. destruct (hex_nonneg_spec n Hn) as [_ Hall]. rewrite Forall_forall in Hall.
    destruct (digit16_not 59 (Hall 59 Hin)) as [_ Hx]. congruence. }
  unfold hex_of_Z. destruct (z <? 0) eqn:E.
  - intros [Hin|Hin]; [discriminate|]. apply (Hnn (- z)); [lia|exact Hin].
  - apply Hnn. lia.
Qed.

Lemma opt_name_no_semicolon p z : ~ In 59 p -> ~ In 59 (opt_name p z).
Proof.
  intros Hp Hin. unfold opt_name in Hin. apply in_app_or in Hin as [Hin|[Hin|Hin]]; [exact (Hp Hin)|discriminate|].
  exact (hex_of_Z_no_semicolon z Hin).
Qed.

Lemma opt_name_inj p a b : opt_name p a = opt_name p b -> a = b.
Proof. unfold opt_name. intros H. apply app_inv_head in H. inversion H as [H']. apply hex_of_Z_inj. exact H'. Qed.

Lemma opt_attr_semi a o : In 59 (opt_attr a o).
Proof. unfold opt_attr. apply in_or_app. right. left. reflexivity. Qed.

Lemma key_parts_opt a o : ~ In 59 a -> ~ In 59 o -> key_parts (opt_attr a o) = [a; o].
Proof.
  intros Ha Ho. unfold key_parts, opt_attr. rewrite split_app, (split_notin 59 a Ha), (split_notin 59 o Ho). reflexivity.
Qed.

Lemma has_opt_opt a o : has_opt (opt_attr a o) = true.
Proof. apply memb_In, opt_attr_semi. Qed.

Lemma has_opt_plain a : ~ In 59 a -> has_opt a = false.
Proof. intros H. unfold has_opt. destruct (memb 59 a) eqn:E; [apply memb_In in E; contradiction|reflexivity]. Qed.

Lemma opt_of_opt a o : ~ In 59 a -> ~ In 59 o -> opt_of (opt_attr a o) = o.
Proof. intros Ha Ho. unfold opt_of. rewrite (key_parts_opt a o Ha Ho). reflexivity. Qed.

Lemma opt_attr_inj a o a' o' : ~ In 59 a -> ~ In 59 a' -> opt_attr a o = opt_attr a' o' -> a = a' /\ o = o'.
Proof.
  intros Ha Ha' H. unfold opt_attr in H.
  pose proof (split1_first 59 a o Ha) as H1. pose proof (split1_first 59 a' o' Ha') as H2.
  rewrite H in H1. rewrite H1 in H2. inversion H2. split; reflexivity.
Qed.

Lemma opt_attr_not_plain a o k : ~ In 59 k -> opt_attr a o <> k.
Proof. intros Hk <-. exact (Hk (opt_attr_semi a o)). Qed.

Lemma active_rename sch o : active (rename_opt sch o) = map (fun r => (opt_attr (fst r) o, snd r)) (active sch).
Proof.
  unfold rename_opt. induction sch as [|[a [[f|] t]] r IH]; cbn [map fst snd]; [reflexivity| |].
  - rewrite !active_some, IH. reflexivity.
  - rewrite !active_none, IH. reflexivity.
Qed.

Lemma fields_rename sch o : fields (rename_opt sch o) = fields sch.
Proof. unfold fields. rewrite active_rename, map_map. reflexivity. Qed.

Lemma attrs_rename sch o : attrs (rename_opt sch o) = map (fun a => opt_attr a o) (attrs sch).
Proof. unfold attrs. rewrite active_rename, !map_map. reflexivity. Qed.

Lemma nf_base_rename sch o x : nf_base (rename_opt sch o) x = nf_base sch x.
Proof.
  unfold nf_base. rewrite active_rename. induction (active sch) as [|r L IH]; cbn [map flat_map fst snd]; [reflexivity|].
  rewrite IH. reflexivity.
Qed.

Lemma obj_typed2_rename sch o x : obj_typed2 (rename_opt sch o) x = obj_typed2 sch x.
Proof.
  unfold rename_opt, obj_typed2. induction sch as [|[a [[f|] t]] r IH]; cbn [map forallb fst snd]; [reflexivity| |];
    rewrite IH; reflexivity.
Qed.

Lemma attrs_rename_nodup sch o : NoDup (attrs sch) -> NoDup (attrs (rename_opt sch o)).
Proof.
  intros H. rewrite attrs_rename. apply FinFun.Injective_map_NoDup; [|exact H].
  intros a b Hab. unfold opt_attr in Hab. apply app_inv_tail in Hab. exact Hab.
Qed.

(** * 9. _group_entry_by_opt: the options of an entry *)
Lemma ins_opt_in o l x : In x (ins_opt o l) <-> In x (o :: l).
Proof.
  induction l as [|y r IH]; cbn [ins_opt]; [reflexivity|].
  destruct (str_eqb y o) eqn:E.
  - apply str_eqb_eq in E. subst y. cbn [In]. tauto.
  - destruct (str_ltb y o); [|reflexivity]. cbn [In] in *. tauto.
Qed.

Definition sorted_opts (l : list str) : Prop := StronglySorted (fun a b => str_ltb a b = true) l.

Lemma ins_opt_sorted o l : sorted_opts l -> sorted_opts (ins_opt o l).
Proof.
  unfold sorted_opts. induction l as [|y r IH]; intros Hs; cbn [ins_opt].
  - constructor; constructor.
  - inversion Hs as [|y' r' Hr Hy]; subst. destruct (str_eqb y o) eqn:E; [exact Hs|].
    assert (Hne : y <> o) by (intros ->; rewrite str_eqb_refl in E; discriminate).
    destruct (str_ltb y o) eqn:El.
    + constructor; [apply IH; exact Hr|]. rewrite Forall_forall in *. intros z Hz. apply ins_opt_in in Hz as [<-|Hz]; [exact El|apply Hy; exact Hz].
    + constructor; [exact Hs|]. pose proof (str_ltb_tri y o El Hne) as Hoy.
      constructor; [exact Hoy|]. rewrite Forall_forall in *. intros z Hz. apply (str_ltb_trans o y z Hoy). apply Hy. exact Hz.
Qed.

Lemma sorted_opts_nodup l : sorted_opts l -> NoDup l.
Proof.
  unfold sorted_opts. induction 1 as [|x l Hs IH Hx]; constructor; [|exact IH].
  intros Hin. rewrite Forall_forall in Hx. specialize (Hx x Hin). rewrite str_ltb_irrefl in Hx. discriminate.
Qed.

Lemma opts_of_sorted e : sorted_opts (opts_of e).
Proof.
  unfold opts_of. induction e as [|[k v] e IH]; cbn [fold_right fst]; [constructor|].
  destruct (has_opt k); [apply ins_opt_sorted|]; exact IH.
Qed.

Lemma opts_of_in e o : In o (opts_of e) <-> exists k, In k (map fst e) /\ has_opt k = true /\ opt_of k = o.
Proof.
  unfold opts_of. induction e as [|[k v] e IH]; cbn [fold_right fst map].
  - split; [intros []|intros [k [[] _]]].
  - destruct (has_opt k) eqn:E.
    + rewrite ins_opt_in. cbn [In]. rewrite IH. split.
      * intros [<-|[k' [H1 [H2 H3]]]]; [exists k; split; [left; reflexivity|split; [exact E|reflexivity]]|].
        exists k'. split; [right; exact H1|split; assumption].
      * intros [k' [[<-|H1] [H2 H3]]]; [left; exact H3|right; exists k'; split; [exact H1|split; assumption]].
    + rewrite IH. split.
      * intros [k' [H1 [H2 H3]]]. exists k'. split; [right; exact H1|split; assumption].
      * intros [k' [[<-|H1] [H2 H3]]]; [congruence|exists k'; split; [exact H1|split; assumption]].
Qed.

Lemma filter_nodup {A} (f : A -> bool) l : NoDup l -> NoDup (filter f l).
Proof. apply NoDup_filter. Qed.

Lemma is_prefix_app p s : is_prefix p (p ++ s) = true.
Proof.
  unfold is_prefix, starts_with. induction p as [|c p IH]; cbn [app]; [reflexivity|]. rewrite Z.eqb_refl. exact IH.
Qed.

Lemma is_prefix_split p s : is_prefix p s = true -> exists r, s = p ++ r.
Proof.
  unfold is_prefix, starts_with. revert s. induction p as [|c p IH]; intros s H; [exists s; reflexivity|].
  destruct s as [|d s]; [discriminate|]. destruct (c =? d) eqn:E; [|discriminate].
  apply Z.eqb_eq in E. subst d. destruct (IH s H) as [r ->]. exists r. reflexivity.
Qed.

Lemma is_prefix_both p q s : is_prefix p s = true -> is_prefix q s = true -> is_prefix p q = true \/ is_prefix q p = true.
Proof.
  revert q s. induction p as [|c p IH]; intros q s Hp Hq; [left; reflexivity|].
  destruct q as [|d q]; [right; reflexivity|].
  destruct s as [|x s]; [discriminate|].
  unfold is_prefix, starts_with in Hp, Hq |- *.
  destruct (c =? x) eqn:E1; [|discriminate]. destruct (d =? x) eqn:E2; [|discriminate].
  apply Z.eqb_eq in E1, E2. subst c d. rewrite Z.eqb_refl.
  apply (IH q s); assumption.
Qed.

(** * 10. The order on decoded items *)
Definition fkey (v : fval) : Z * list (list Z) :=
  match v with
  | FNone => (0, []) | FStr s => (1, [s]) | FInt z => (2, [[z]]) | FBool b => (3, [[if b then 1 else 0]])
  | FStrs l => (4, l) | FInts l => (5, [l]) | FDict _ => (6, [])
  end.
Definition kcmp : Z * list (list Z) -> Z * list (list Z) -> comparison := lex_cmp Z.compare (list_cmp (list_cmp Z.compare)).
Definition pkey (kv : str * fval) : str * (Z * list (list Z)) := (fst kv, fkey (snd kv)).
Definition pcmp : str * (Z * list (list Z)) -> str * (Z * list (list Z)) -> comparison := lex_cmp str_cmp kcmp.

Lemma TO_kcmp : TO kcmp.
Proof. apply TO_lex; [exact TO_Z|apply TO_list, TO_list, TO_Z]. Qed.
Lemma TO_pcmp : TO pcmp.
Proof. apply TO_lex; [exact TO_str|exact TO_kcmp]. Qed.

Lemma fval_cmp_key a b : fval_cmp a b = kcmp (fkey a) (fkey b).
Proof.
  destruct a as [|x|x|x|x|x|x]; destruct b as [|y|y|y|y|y|y]; try reflexivity; unfold kcmp, lex_cmp; cbn [fkey fst snd fval_cmp].
  - change (1 ?= 1) with Eq. cbn [list_cmp]. unfold str_cmp. destruct (list_cmp Z.compare x y); reflexivity.
  - change (2 ?= 2) with Eq. cbn [list_cmp]. destruct (x ?= y); reflexivity.
  - destruct x, y; reflexivity.
  - change (5 ?= 5) with Eq. cbn [list_cmp]. destruct (list_cmp Z.compare x y); reflexivity.
Qed.

Lemma pair_cmp_key a b : pair_cmp a b = pcmp (pkey a) (pkey b).
Proof. unfold pair_cmp, pcmp, lex_cmp, pkey. cbn [fst snd]. rewrite fval_cmp_key. reflexivity. Qed.

Lemma list_cmp_map {A B} (c : B -> B -> comparison) (c' : A -> A -> comparison) (g : A -> B) :
  (forall a b, c' a b = c (g a) (g b)) -> forall l1 l2, list_cmp c' l1 l2 = list_cmp c (map g l1) (map g l2).
Proof.
  intros H. induction l1 as [|x l1 IH]; destruct l2 as [|y l2]; cbn [list_cmp map]; try reflexivity.
  rewrite H, IH. reflexivity.
Qed.

Lemma item_cmp_key a b : item_cmp a b = list_cmp pcmp (map pkey (sort_keys a)) (map pkey (sort_keys b)).
Proof. unfold item_cmp. apply list_cmp_map. exact pair_cmp_key. Qed.

Definition simple_val (v : fval) : bool := match v with FDict _ => false | _ => true end.

Lemma fkey_inj a b : simple_val a = true -> simple_val b = true -> fkey a = fkey b -> a = b.
Proof.
  destruct a as [|x|x|x|x|x|x]; destruct b as [|y|y|y|y|y|y]; cbn [simple_val fkey]; intros Ha Hb H;
    try discriminate; try reflexivity; try (injection H as ->; reflexivity).
  destruct x, y; try reflexivity; discriminate.
Qed.

(** an item in the order of its schema *)
Definition reorder (sch : schema) (a : obj) : obj :=
  flat_map (fun r => match alookup a (fst (snd r)) with Some v => [(fst (snd r), v)] | None => [] end) (active sch).
Definition itemP (sch : schema) (a : obj) : Prop :=
  reorder sch a = a /\ NoDup (map fst a) /\ forallb (fun kv => simple_val (snd kv)) a = true.

Lemma reorder_ext sch a b : (forall k, alookup a k = alookup b k) -> reorder sch a = reorder sch b.
Proof.
  intros H. unfold reorder. induction (active sch) as [|r L IH]; cbn [flat_map]; [reflexivity|]. rewrite H, IH. reflexivity.
Qed.

Lemma map_pkey_inj l1 : forall l2, forallb (fun kv => simple_val (snd kv)) l1 = true ->
  forallb (fun kv => simple_val (snd kv)) l2 = true -> map pkey l1 = map pkey l2 -> l1 = l2.
Proof.
  induction l1 as [|[k v] l1 IH]; destruct l2 as [|[k' v'] l2]; cbn [map forallb snd]; intros H1 H2 H; try discriminate;
    [reflexivity|].
  apply andb_true_iff in H1 as [Hv H1]. apply andb_true_iff in H2 as [Hv' H2].
  inversion H as [[Hk Hf Hr]]. subst k'. rewrite (fkey_inj v v' Hv Hv' Hf). f_equal. apply IH; assumption.
Qed.

(** on items in the order of a schema, with distinct keys and no dict values, item_lt is a strict total order *)
Lemma item_lt_order sch : strict_on item_lt (itemP sch).
Proof.
  apply (lt_key_order (list_cmp pcmp) (fun a => map pkey (sort_keys a)) item_lt (itemP sch) (TO_list pcmp TO_pcmp)).
  - intros a b. unfold item_lt. rewrite item_cmp_key. reflexivity.
  - intros a b [Ra [Na Sa]] [Rb [Nb Sb]] Heq. apply map_pkey_inj in Heq.
    + rewrite <- Ra, <- Rb. apply reorder_ext. intros k.
      rewrite (alookup_perm a (sort_keys a) k Na (Permutation_sym (sort_keys_perm a))).
      rewrite (alookup_perm b (sort_keys b) k Nb (Permutation_sym (sort_keys_perm b))). rewrite Heq. reflexivity.
    + eapply forallb_perm; [apply Permutation_sym, sort_keys_perm|exact Sa].
    + eapply forallb_perm; [apply Permutation_sym, sort_keys_perm|exact Sb].
Qed.

Theorem items_sort_canon sch l1 l2 : Forall (itemP sch) l1 -> Permutation l1 l2 -> sort_by item_lt l1 = sort_by item_lt l2.
Proof. exact (sort_by_canon item_lt (itemP sch) (item_lt_order sch) l1 l2). Qed.

Theorem items_sort_idem sch l : Forall (itemP sch) l -> sort_by item_lt (sort_by item_lt l) = sort_by item_lt l.
Proof. exact (sort_by_idem item_lt (itemP sch) (item_lt_order sch) l). Qed.

(** the kind of a value is decided by the type of its row *)
Definition has_kind (t : ftype) (v : fval) : bool :=
  match t, v with
  | TStr, FStr _ | TInt, FInt _ | TBool, FBool _ | TListStr, FStrs _ => true
  | _, _ => false
  end.
Definition kinded (sch : schema) (a : obj) : Prop :=
  forall k v, In (k, v) a -> exists a0 t, In (a0, (k, t)) (active sch) /\ has_kind t v = true.

Lemma has_kind_same t v w : has_kind t v = true -> has_kind t w = true -> same_kind v w = true.
Proof. destruct t, v; try discriminate; destruct w; cbn; congruence. Qed.

Lemma nodup_map_inj {A B} (f : A -> B) l a b : NoDup (map f l) -> In a l -> In b l -> f a = f b -> a = b.
Proof.
  induction l as [|x l IH]; intros Hnd Ha Hb Hf; [contradiction|]. cbn [map] in Hnd. inversion Hnd as [|y l' Hx Hl]; subst.
  destruct Ha as [->|Ha]; destruct Hb as [->|Hb]; [reflexivity| | |apply IH; assumption].
  - exfalso. apply Hx. rewrite Hf. apply in_map. exact Hb.
  - exfalso. apply Hx. rewrite <- Hf. apply in_map. exact Ha.
Qed.

Lemma field_type_unique sch a f t a' t' : NoDup (fields sch) -> In (a, (f, t)) (active sch) -> In (a', (f, t')) (active sch) -> t = t'.
Proof.
  intros Hnd H1 H2. pose proof (nodup_map_inj (fun r => fst (snd r)) (active sch) _ _ Hnd H1 H2 eq_refl) as H. congruence.
Qed.

Lemma comparable_kinded sch l1 : forall l2, NoDup (fields sch) ->
  (forall k v, In (k, v) l1 -> exists a0 t, In (a0, (k, t)) (active sch) /\ has_kind t v = true) ->
  (forall k v, In (k, v) l2 -> exists a0 t, In (a0, (k, t)) (active sch) /\ has_kind t v = true) ->
  comparable_s l1 l2 = true.
Proof.
  induction l1 as [|[k v] l1 IH]; intros l2 Hnd H1 H2; [reflexivity|]. destruct l2 as [|[k' v'] l2]; [reflexivity|].
  cbn [comparable_s fst snd]. destruct (str_eqb k k') eqn:E; [|reflexivity]. apply str_eqb_eq in E. subst k'.
  destruct (H1 k v (or_introl eq_refl)) as [a0 [t [Hin Hk]]]. destruct (H2 k v' (or_introl eq_refl)) as [a0' [t' [Hin' Hk']]].
  assert (t = t') by (eapply field_type_unique; eassumption). subst t'.
  rewrite (has_kind_same t v v' Hk Hk'). destruct (fval_cmp v v'); try reflexivity.
  apply IH; [exact Hnd| |]; intros k1 v1 Hin1; [apply H1|apply H2]; right; exact Hin1.
Qed.

Lemma kinded_comparable sch a b : NoDup (fields sch) -> kinded sch a -> kinded sch b -> comparable a b = true.
Proof.
  intros Hnd Ha Hb. unfold comparable. apply (comparable_kinded sch); [exact Hnd| |]; intros k v Hin.
  - apply Ha. eapply Permutation_in; [apply sort_keys_perm|exact Hin].
  - apply Hb. eapply Permutation_in; [apply sort_keys_perm|exact Hin].
Qed.

Lemma all_comparable_intro l : (forall a b, In a l -> In b l -> comparable a b = true) -> all_comparable l = true.
Proof.
  induction l as [|x l IH]; intros H; [reflexivity|]. cbn [all_comparable]. apply andb_true_iff. split.
  - apply forallb_forall. intros y Hy. apply H; [left; reflexivity|right; exact Hy].
  - apply IH. intros a b Ha Hb. apply H; right; assumption.
Qed.

(** normal forms of typed items of an item schema (types str / int / bool / [str]) *)
Definition isch_ok (sch : schema) : Prop :=
  NoDup (fields sch) /\ forall a f t, In (a, (f, t)) (active sch) -> item_type_ok t = true.

Lemma nf_item_kind t v w : item_type_ok t = true -> match v with Some x => ftyped2 t x = true | None => True end ->
  expected_field t v = Some w -> has_kind t w = true.
Proof.
  destruct v as [x|].
  - destruct x as [|s|z|b|l|l|d]; destruct t; cbn [item_type_ok ftyped2 field_typed]; intros Ht H; try discriminate;
      cbn [expected_field is_list_type]; intros E; try discriminate; try (inversion E; subst; reflexivity).
    all: destruct l; inversion E; subst; reflexivity.
  - destruct t; cbn [item_type_ok expected_field is_list_type]; intros Ht _ E; try discriminate; inversion E; subst; reflexivity.
Qed.

Lemma nf_item_kinded sch x : isch_ok sch -> obj_typed2 sch x = true -> kinded sch (nf_base sch x).
Proof.
  intros [Hnd Hty] Hx k v Hin. destruct (nf_base_in sch x k v Hin) as [a [t [Hr He]]].
  exists a, t. split; [exact Hr|]. eapply nf_item_kind; [eapply Hty; exact Hr|eapply row_typed; eassumption|exact He].
Qed.

Lemma has_kind_simple t v : has_kind t v = true -> simple_val v = true.
Proof. destruct t, v; cbn; congruence. Qed.

Lemma reorder_nf sch x : NoDup (fields sch) -> reorder sch (nf_base sch x) = nf_base sch x.
Proof.
  intros Hnd. apply nf_base_ext_in. intros a f t Hin. cbn [fst snd]. rewrite (alookup_nf_base sch x a f t Hnd Hin). reflexivity.
Qed.

Lemma nf_item_P sch x : isch_ok sch -> obj_typed2 sch x = true -> itemP sch (nf_base sch x).
Proof.
  intros Hok Hx. pose proof (nf_item_kinded sch x Hok Hx) as Hk. destruct Hok as [Hnd Hty].
  split; [apply reorder_nf; exact Hnd|]. split; [apply nf_base_nodup; exact Hnd|].
  apply forallb_forall. intros [k v] Hin. cbn [snd]. destruct (Hk k v Hin) as [a0 [t [_ Hkind]]].
  eapply has_kind_simple. exact Hkind.
Qed.

(** * 11. _grouped_to_list_of_dict on an entry whose option groups are known *)
Lemma mapM_ok {A B} (f : A -> res B) (g : A -> B) l : (forall x, In x l -> f x = Ok (g x)) -> mapM f l = Ok (map g l).
Proof.
  induction l as [|x l IH]; intros H; [reflexivity|]. cbn [mapM map].
  rewrite (H x (or_introl eq_refl)), IH by (intros y Hy; apply H; right; exact Hy). reflexivity.
Qed.

(** one option group: {k: v for k, _, v in group} read through the item schema *)
Lemma group_dict_rt (E : entry) isch o x : isch_ok isch -> obj_typed2 isch x = true ->
  (forall a f t, In (a, (f, t)) (active isch) -> alookup E (opt_attr a o) = stored (row_assigned2 x f t)) ->
  (forall k, In k (map fst E) -> has_opt k = true -> zlen (key_parts k) = 2) ->
  group_dict E isch o = Ok (nf_base isch x).
Proof.
  intros [Hnf _] Htx Hlk H2. unfold group_dict.
  assert (Hbad : bad_group E o = false).
  { unfold bad_group. apply not_true_is_false. intros Hex. apply existsb_exists in Hex as [[k v] [Hkv Hb]]. cbn [fst] in Hb.
    apply andb_true_iff in Hb as [Hb _]. apply andb_true_iff in Hb as [Hopt Hlen].
    rewrite (H2 k (in_map fst _ _ Hkv) Hopt) in Hlen. discriminate. }
  rewrite Hbad, <- (nf_base_rename isch o x). apply base_rt.
  - rewrite fields_rename. exact Hnf.
  - rewrite obj_typed2_rename. exact Htx.
  - intros a f t Hr. rewrite active_rename in Hr. apply in_map_iff in Hr as [[a0 [f0 t0]] [Heq Hr]].
    cbn [fst snd] in Heq. inversion Heq; subst. apply (Hlk a0 f t Hr).
Qed.

Definition get_item (hx : list (str * obj)) (o : str) : obj := match alookup hx o with Some x => x | None => [] end.

Theorem grouped_list_spec (E : entry) (lp : str) (isch : schema) (hx : list (str * obj)) :
  isch_ok isch -> NoDup (map fst hx) ->
  (forall o x, In (o, x) hx -> is_prefix lp o = true /\ obj_typed2 isch x = true /\
      (forall a f t, In (a, (f, t)) (active isch) -> alookup E (opt_attr a o) = stored (row_assigned2 x f t)) /\
      (exists k, In k (map fst E) /\ has_opt k = true /\ opt_of k = o)) ->
  (forall k, In k (map fst E) -> has_opt k = true -> is_prefix lp (opt_of k) = true -> In (opt_of k) (map fst hx)) ->
  (forall k, In k (map fst E) -> has_opt k = true -> zlen (key_parts k) = 2) ->
  grouped_list E lp isch = Ok (sort_by item_lt (map (fun ox => nf_base isch (snd ox)) hx)).
Proof.
  intros Hok Hnd Hhx Hcov H2. set (nfs := map (fun ox => nf_base isch (snd ox)) hx).
  (* the options that start with the prefix are those of hx, in some order *)
  set (opts := filter (is_prefix lp) (opts_of E)).
  assert (Hperm : Permutation opts (map fst hx)).
  { apply NoDup_Permutation; [apply NoDup_filter, sorted_opts_nodup, opts_of_sorted|exact Hnd|].
    intros o. unfold opts. rewrite filter_In, opts_of_in. split.
    - intros [[k [Hk [Ho <-]]] Hp]. apply Hcov; assumption.
    - intros Hin. apply in_map_iff in Hin as [[o' x] [<- Hin]]. destruct (Hhx o' x Hin) as [Hp [_ [_ Hex]]]. split; [exact Hex|exact Hp]. }
  set (g := fun o => nf_base isch (get_item hx o)).
  assert (Hg : forall o x, In (o, x) hx -> g o = nf_base isch x).
  { intros o x Hin. unfold g, get_item. rewrite (alookup_In hx o x Hnd Hin). reflexivity. }
  assert (Hp : Permutation (map g opts) nfs).
  { eapply Permutation_trans; [apply Permutation_map; exact Hperm|]. rewrite map_map.
    unfold nfs. rewrite (map_ext_in _ (fun ox => nf_base isch (snd ox))); [apply Permutation_refl|]. intros [o x] Hin. exact (Hg o x Hin). }
  assert (Hnfs : forall a, In a (map g opts) -> itemP isch a /\ kinded isch a).
  { intros a Ha. apply (Permutation_in _ Hp) in Ha. apply in_map_iff in Ha as [[o x] [<- Hin]]. destruct (Hhx o x Hin) as [_ [Htx _]].
    split; [apply nf_item_P|apply nf_item_kinded]; assumption. }
  unfold grouped_list. fold opts. rewrite (mapM_ok (group_dict E isch) g opts).
  - rewrite all_comparable_intro by (intros a b Ha Hb; apply (kinded_comparable isch); [apply Hok|apply Hnfs; exact Ha|apply Hnfs; exact Hb]).
    f_equal. apply (items_sort_canon isch); [|exact Hp]. apply Forall_forall. intros a Ha. apply Hnfs. exact Ha.
  - intros o Ho. apply (Permutation_in _ Hperm) in Ho. apply in_map_iff in Ho as [[o' x] [Heq Hin]]. cbn [fst] in Heq. subst o'.
    destruct (Hhx o x Hin) as [_ [Htx [Hlk _]]]. rewrite (Hg o x Hin). exact (group_dict_rt E isch o x Hok Htx Hlk H2).
Qed.

(** * 12. One dict.update step: the keys it owns and what it leaves in the entry *)
Lemma in_active_attrs sch a f t : In (a, (f, t)) (active sch) -> In a (attrs sch).
Proof. intros H. exact (in_map fst _ _ H). Qed.

Lemma in_active_fields sch a f t : In (a, (f, t)) (active sch) -> In f (fields sch).
Proof. intros H. exact (in_map (fun r => fst (snd r)) _ _ H). Qed.

(** the keys of the section (csch, hx): the attributes of csch, plain (an empty list writes them := []) or under the
    option of an item of hx *)
Definition sec_key (csch : schema) (hx : list (str * obj)) (k : str) : Prop :=
  In k (attrs csch) \/ exists o x a, In (o, x) hx /\ In a (attrs csch) /\ k = opt_attr a o.

(** E' is E after the section has been written: nothing else has changed, and the option group o holds the item x *)
Definition writes (csch : schema) (hx : list (str * obj)) (E E' : entry) : Prop :=
  NoDup (map fst E') /\
  (forall k, In k (map fst E') -> In k (map fst E) \/ sec_key csch hx k) /\
  (forall k, ~ sec_key csch hx k -> alookup E' k = alookup E k) /\
  (forall o x, In (o, x) hx -> forall a f t, In (a, (f, t)) (active csch) ->
     alookup E' (opt_attr a o) = match row_assigned2 x f t with Some vs => Some vs | None => alookup E (opt_attr a o) end).

Lemma sec_key_mono csch hx hx' k : (forall ox, In ox hx -> In ox hx') -> sec_key csch hx k -> sec_key csch hx' k.
Proof. intros H [Hk|[o [x [a [Hin Hr]]]]]; [left; exact Hk|right; exists o, x, a; split; [apply H; exact Hin|exact Hr]]. Qed.

Lemma sec_key_opt csch hx a o : (forall a, In a (attrs csch) -> ~ In 59 a) -> In a (attrs csch) ->
  sec_key csch hx (opt_attr a o) -> In o (map fst hx).
Proof.
  intros Hs Ha [Hk|[o' [x [a' [Hin [Ha' Heq]]]]]]; [destruct (Hs _ Hk (opt_attr_semi a o))|].
  apply opt_attr_inj in Heq as [_ ->]; [exact (in_map fst _ _ Hin)|apply Hs; exact Ha|apply Hs; exact Ha'].
Qed.

Lemma writes_plain csch hx E E' k : writes csch hx E E' -> ~ In 59 k -> ~ In k (attrs csch) -> alookup E' k = alookup E k.
Proof.
  intros [_ [_ [H _]]] Hs Hk. apply H. intros [Ha|[o [x [a [_ [_ ->]]]]]]; [exact (Hk Ha)|exact (Hs (opt_attr_semi a o))].
Qed.

Lemma eupdate_writes csch hx E D : NoDup (map fst E) -> writes csch hx [] D -> writes csch hx E (eupdate E D).
Proof.
  intros HndE [HndD [HkD [HoD HrD]]]. split; [apply eupdate_nodup; exact HndE|]. split; [|split].
  - intros k Hk. apply eupdate_keys in Hk as [Hk|Hk]; [left; exact Hk|]. destruct (HkD k Hk) as [[]|Hs]. right. exact Hs.
  - intros k Hk. apply alookup_eupdate_skip. intros Hin. destruct (HkD k Hin) as [[]|Hs]. exact (Hk Hs).
  - intros o x Hin a f t Hr. rewrite (alookup_eupdate D E _ HndD), (HrD o x Hin a f t Hr).
    destruct (row_assigned2 x f t); reflexivity.
Qed.

(** ** blocks of option groups written straight into the entry: one block per item, under the item's option *)
Fixpoint oblocks {X} (blk : str -> X -> option entry) (hx : list (str * X)) (acc : entry) : option entry :=
  match hx with
  | [] => Some acc
  | (o, x) :: r => match blk o x with None => None | Some d => oblocks blk r (eupdate acc d) end
  end.

(** the block of x holds the rows of the item [view x] *)
Definition blk_ok {X} (csch : schema) (view : X -> obj) (blk : str -> X -> option entry) (P : X -> Prop) : Prop :=
  forall o x d, P x -> blk o x = Some d -> NoDup (map fst d) /\
    (forall a f t, In (a, (f, t)) (active csch) -> alookup d (opt_attr a o) = row_assigned2 (view x) f t) /\
    (forall k, In k (map fst d) -> exists a, In a (attrs csch) /\ k = opt_attr a o).

Definition vmap {X} (view : X -> obj) (hx : list (str * X)) : list (str * obj) := map (fun ox => (fst ox, view (snd ox))) hx.

Lemma vmap_fst {X} (view : X -> obj) hx : map fst (vmap view hx) = map fst hx.
Proof. unfold vmap. rewrite map_map. reflexivity. Qed.

Lemma vmap_id hx : vmap (fun x => x) hx = hx.
Proof. unfold vmap. rewrite <- (map_id hx) at 2. apply map_ext. intros [o x]. reflexivity. Qed.

Lemma oblocks_spec {X} csch (view : X -> obj) blk P : blk_ok csch view blk P -> (forall a, In a (attrs csch) -> ~ In 59 a) ->
  forall hx acc D, oblocks blk hx acc = Some D -> NoDup (map fst acc) -> NoDup (map fst hx) -> (forall o x, In (o, x) hx -> P x) ->
  writes csch (vmap view hx) acc D.
Proof.
  intros Hblk Hsemi. induction hx as [|[o x] r IH]; intros acc D HD Hacc Hnd HP; cbn [oblocks] in HD.
  - inversion HD; subst. split; [exact Hacc|]. split; [intros k Hk; left; exact Hk|]. split; [reflexivity|intros o x []].
  - destruct (blk o x) as [d|] eqn:Eb; [|discriminate].
    destruct (Hblk o x d (HP o x (or_introl eq_refl)) Eb) as [Hd [Hrow Hkeys]].
    cbn [map fst] in Hnd. inversion Hnd as [|y l Ho Hr]; subst. rewrite <- (vmap_fst view r) in Ho.
    destruct (IH (eupdate acc d) D HD (eupdate_nodup d acc Hacc) Hr (fun o' x' Hin => HP o' x' (or_intror Hin))) as [HndD [H2 [H3 H4]]].
    cbn [vmap map fst snd]. fold (vmap view r).
    assert (Hd_key : forall k, In k (map fst d) -> sec_key csch ((o, view x) :: vmap view r) k).
    { intros k Hk. destruct (Hkeys k Hk) as [a [Ha ->]]. right. exists o, (view x), a. split; [left; reflexivity|split; [exact Ha|reflexivity]]. }
    assert (Htail : forall k, sec_key csch (vmap view r) k -> sec_key csch ((o, view x) :: vmap view r) k)
      by (intros k; apply sec_key_mono; intros ox Hox; right; exact Hox).
    split; [exact HndD|]. split; [|split].
    + intros k Hk. destruct (H2 k Hk) as [Hk'|Hk']; [|right; apply Htail; exact Hk'].
      apply eupdate_keys in Hk' as [Hk'|Hk']; [left; exact Hk'|right; apply Hd_key; exact Hk'].
    + intros k Hk. rewrite H3 by (intros Hs; apply Hk, Htail; exact Hs).
      apply alookup_eupdate_skip. intros Hin. apply Hk, Hd_key. exact Hin.
    + intros o' y [Heq|Hin] a f t Hr'.
      * inversion Heq; subst o' y. rewrite H3 by (intros Hs; exact (Ho (sec_key_opt csch _ a o Hsemi (in_active_attrs _ _ _ _ Hr') Hs))).
        rewrite (alookup_eupdate d acc _ Hd), (Hrow a f t Hr'). reflexivity.
      * rewrite (H4 o' y Hin a f t Hr'), alookup_eupdate_skip; [reflexivity|].
        intros Hk. destruct (Hkeys _ Hk) as [a' [Ha' Heq]].
        apply opt_attr_inj in Heq as [_ ->]; [|apply Hsemi; eapply in_active_attrs; exact Hr'|apply Hsemi; exact Ha'].
        exact (Ho (in_map fst _ _ Hin)).
Qed.

Lemma oblocks_total {X} (blk : str -> X -> option entry) hx : (forall o x, In (o, x) hx -> exists d, blk o x = Some d) ->
  forall acc, exists D, oblocks blk hx acc = Some D.
Proof.
  induction hx as [|[o x] r IH]; intros H acc; cbn [oblocks]; [exists acc; reflexivity|].
  destruct (H o x (or_introl eq_refl)) as [d Hd]. rewrite Hd. apply IH. intros o' x' Hin. apply H. right. exact Hin.
Qed.

Lemma blk_ok_d2e isch : NoDup (attrs isch) -> blk_ok isch (fun x => x) (fun o x => d2e (rename_opt isch o) x) (fun _ => True).
Proof.
  intros Hna o x d _ Hd. pose proof (attrs_rename_nodup isch o Hna) as Hna'.
  destruct (d2e_spec (rename_opt isch o) x d Hna' Hd) as [H1 [H2 H3]]. split; [exact H1|]. split.
  - intros a f t Hin. apply H2. rewrite active_rename. exact (in_map (fun r => (opt_attr (fst r) o, snd r)) _ _ Hin).
  - intros k Hk. apply (d2e_keys _ _ _ _ Hd) in Hk. rewrite attrs_rename in Hk. apply in_map_iff in Hk as [a [<- Ha]].
    exists a. split; [exact Ha|reflexivity].
Qed.

(** the options _to_obj_list gives to the items: prefix-0, prefix-1, .. *)
Fixpoint number {X} (p : str) (idx : Z) (l : list X) : list (str * X) :=
  match l with [] => [] | x :: r => (opt_name p idx, x) :: number p (idx + 1) r end.

Lemma item_blocks_oblocks isch p items : forall idx acc,
  item_blocks isch p idx items acc = oblocks (fun o x => d2e (rename_opt isch o) x) (number p idx items) acc.
Proof.
  induction items as [|x r IH]; intros idx acc; cbn [item_blocks number oblocks]; [reflexivity|].
  destruct (d2e (rename_opt isch (opt_name p idx)) x); [apply IH|reflexivity].
Qed.

Lemma number_in {X} p (l : list X) : forall idx o x, In (o, x) (number p idx l) -> exists i, idx <= i /\ o = opt_name p i /\ In x l.
Proof.
  induction l as [|y r IH]; intros idx o x Hin; [contradiction|]. cbn [number] in Hin. destruct Hin as [Heq|Hin].
  - inversion Heq; subst. exists idx. split; [lia|split; [reflexivity|left; reflexivity]].
  - destruct (IH (idx + 1) o x Hin) as [i [Hi [Ho Hx]]]. exists i. split; [lia|split; [exact Ho|right; exact Hx]].
Qed.

Lemma number_nodup {X} p (l : list X) : forall idx, NoDup (map fst (number p idx l)).
Proof.
  induction l as [|y r IH]; intros idx; cbn [number map fst]; constructor; [|apply IH].
  intros Hin. apply in_map_iff in Hin as [[o x] [Ho Hin]]. cbn [fst] in Ho. subst o.
  destruct (number_in p r (idx + 1) _ x Hin) as [i [Hi [Heq _]]]. apply opt_name_inj in Heq. lia.
Qed.

Lemma number_snd {X} p (l : list X) : forall idx, map snd (number p idx l) = l.
Proof. induction l as [|y r IH]; intros idx; cbn [number map snd]; [reflexivity|]. rewrite IH. reflexivity. Qed.

(** * 13. Several dict.update in a row, each on its own set of keys *)
Definition section := ((str -> Prop) * entry)%type.
Definition sec_ok (s : section) : Prop := NoDup (map fst (snd s)) /\ forall k, In k (map fst (snd s)) -> fst s k.
Fixpoint eupdates (acc : entry) (secs : list section) : entry :=
  match secs with [] => acc | s :: r => eupdates (eupdate acc (snd s)) r end.

Lemma eupdates_app acc s1 s2 : eupdates acc (s1 ++ s2) = eupdates (eupdates acc s1) s2.
Proof. revert acc. induction s1 as [|s r IH]; intros acc; cbn [app eupdates]; [reflexivity|apply IH]. Qed.

Lemma eupdates_spec secs : Forall sec_ok secs -> ForallOrdPairs (fun s s' : section => forall k, fst s k -> ~ fst s' k) secs ->
  forall acc, NoDup (map fst acc) -> (forall k s, In k (map fst acc) -> In s secs -> ~ fst s k) ->
  NoDup (map fst (eupdates acc secs)) /\
  (forall k, (forall s, In s secs -> ~ fst s k) -> alookup (eupdates acc secs) k = alookup acc k) /\
  (forall s k, In s secs -> fst s k -> alookup (eupdates acc secs) k = alookup (snd s) k) /\
  (forall k, In k (map fst (eupdates acc secs)) -> In k (map fst acc) \/ exists s, In s secs /\ In k (map fst (snd s))).
Proof.
  induction secs as [|s r IH]; intros Hok Hdis acc Hacc Hadis; cbn [eupdates].
  - split; [exact Hacc|]. split; [reflexivity|]. split; [intros s k []|]. intros k Hk. left. exact Hk.
  - inversion Hok as [|s' r' [Hsnd Hsk] Hokr]; subst. inversion Hdis as [|s' r' Hs Hdr]; subst.
    rewrite Forall_forall in Hs.
    destruct (IH Hokr Hdr (eupdate acc (snd s)) (eupdate_nodup (snd s) acc Hacc)) as [H1 [H2 [H3 H4]]].
    { intros k s' Hk Hs'. apply eupdate_keys in Hk as [Hk|Hk].
      - apply (Hadis k s' Hk). right. exact Hs'.
      - intros Hf. exact (Hs s' Hs' k (Hsk k Hk) Hf). }
    split; [exact H1|]. split; [|split].
    + intros k Hk. rewrite H2 by (intros s' Hs'; apply Hk; right; exact Hs').
      apply alookup_eupdate_skip. intros Hin. exact (Hk s (or_introl eq_refl) (Hsk k Hin)).
    + intros s' k [<-|Hs'] Hf.
      * rewrite H2 by (intros s' Hs'; apply (Hs s' Hs' k Hf)).
        rewrite (alookup_eupdate (snd s) acc k Hsnd). destruct (alookup (snd s) k) eqn:E; [reflexivity|].
        apply alookup_none_iff. intros Hin. exact (Hadis k s Hin (or_introl eq_refl) Hf).
      * apply (H3 s' k Hs' Hf).
    + intros k Hk. destruct (H4 k Hk) as [Hk'|[s' [Hs' Hk']]].
      * apply eupdate_keys in Hk' as [Hk'|Hk']; [left; exact Hk'|right; exists s; split; [left; reflexivity|exact Hk']].
      * right. exists s'. split; [right; exact Hs'|exact Hk'].
Qed.

(** * 14. _to_obj_list *)
Lemma keys_of_ok key items : forallb (has_str_key key) items = true ->
  exists ks, keys_of key items = oret ks /\ length ks = length items.
Proof.
  induction items as [|x r IH]; intros H; [exists []; split; reflexivity|]. cbn [forallb] in H.
  apply andb_true_iff in H as [Hx Hr]. destruct (IH Hr) as [ks [Hks Hlen]].
  unfold has_str_key in Hx. cbn [keys_of]. unfold key_of. destruct (alookup x key) as [[|s| | | | |]|]; try discriminate.
  exists (s :: ks). cbn [oret obind]. rewrite Hks. cbn [oret obind]. split; [reflexivity|cbn [length]; rewrite Hlen; reflexivity].
Qed.

Lemma sort_by_key_perm {A} ks (items : list A) : length ks = length items -> Permutation (sort_by_key ks items) items.
Proof.
  intros Hlen. unfold sort_by_key.
  eapply Permutation_trans; [apply Permutation_map, sort_by_perm|].
  assert (H : map snd (combine ks items) = items).
  { revert items Hlen. induction ks as [|k ks IH]; intros [|x items] Hlen; cbn in *; try discriminate; [reflexivity|].
    f_equal. apply IH. lia. }
  rewrite H. apply Permutation_refl.
Qed.

(** _empty_list_entry is one dict.update that owns the attributes of its schema *)
Lemma empty_list_writes sch csch : (forall k, In k (map fst sch) -> In k (attrs csch)) -> writes csch [] [] (empty_list_entry sch).
Proof.
  intros Hsub.
  assert (He : empty_list_entry sch = eupdate [] (map (fun r => (fst r, [])) sch)).
  { unfold empty_list_entry, eupdate. generalize (@nil (str * list eval)).
    induction sch as [|r sch IH]; intros acc; cbn [map fold_left fst snd]; [reflexivity|apply IH; intros k Hk; apply Hsub; right; exact Hk]. }
  assert (Hk : forall k, In k (map fst (empty_list_entry sch)) -> sec_key csch [] k).
  { intros k Hk. rewrite He in Hk. apply eupdate_keys in Hk as [[]|Hk]. rewrite map_map in Hk. left. apply Hsub. exact Hk. }
  split; [rewrite He; apply eupdate_nodup; constructor|]. split; [intros k Hin; right; apply Hk; exact Hin|]. split; [|intros o x []].
  intros k Hn. apply alookup_none_iff. intros Hin. exact (Hn (Hk k Hin)).
Qed.

Lemma all_active_attrs sch : all_active sch = true -> attrs sch = map fst sch.
Proof.
  unfold attrs. induction sch as [|[a [[f|] t]] r IH]; cbn [all_active forallb fst snd map]; intros H; [reflexivity| |discriminate].
  rewrite active_some. cbn [map fst]. f_equal. apply IH. exact H.
Qed.

Definition isch_wf (isch : schema) : Prop :=
  NoDup (attrs isch) /\ (forall a, In a (attrs isch) -> plain_key a) /\ attrs isch = map fst isch.

Lemma to_obj_list_spec items key p isch : isch_wf isch -> ~ In 59 p ->
  forallb (fun x => obj_typed2 isch x && has_str_key key x) items = true ->
  exists D sorted, to_obj_list items key p isch = oret D /\ Permutation sorted items /\ writes isch (number p 0 sorted) [] D.
Proof.
  intros [Hna [Hattr Hall]] Hp Hty. rewrite forallb_forall in Hty.
  destruct (keys_of_ok key items) as [ks [Hks Hlen]].
  { apply forallb_forall. intros x Hx. apply (proj1 (andb_true_iff _ _) (Hty x Hx)). }
  unfold to_obj_list. rewrite Hks. cbn [oret obind].
  pose proof (sort_by_key_perm ks items Hlen) as Hperm.
  destruct (sort_by_key ks items) as [|x0 r0] eqn:Es.
  - exists (empty_list_entry isch), []. split; [reflexivity|]. split; [exact Hperm|].
    apply empty_list_writes. intros k Hk. rewrite Hall. exact Hk.
  - rewrite <- Es in *. clear Es. set (sorted := sort_by_key ks items) in *. rewrite item_blocks_oblocks.
    destruct (oblocks_total (fun o x => d2e (rename_opt isch o) x) (number p 0 sorted)) with (acc := @nil (str * list eval)) as [D HD].
    { intros o x Hin. destruct (number_in p sorted 0 o x Hin) as [i [_ [_ Hx]]].
      apply (d2e_total (rename_opt isch o) x). rewrite obj_typed2_rename.
      apply (proj1 (andb_true_iff _ _) (Hty x (Permutation_in _ Hperm Hx))). }
    exists D, sorted. rewrite HD. split; [reflexivity|]. split; [exact Hperm|].
    rewrite <- (vmap_id (number p 0 sorted)).
    exact (oblocks_spec isch (fun x => x) _ _ (blk_ok_d2e isch Hna) (fun a Ha => proj1 (Hattr a Ha))
             _ [] D HD (NoDup_nil _) (number_nodup p sorted 0) (fun _ _ _ => I)).
Qed.

(** * 15. Unpacking the table checks *)
Lemma row_is_spec sch f t : row_is sch f t = true -> exists a, In (a, (f, t)) (active sch).
Proof.
  unfold row_is. intros H. apply existsb_exists in H as [[a [[f'|] t']] [Hin H]]; [|discriminate].
  apply andb_true_iff in H as [Hf Ht]. apply str_eqb_eq in Hf. subst f'.
  assert (t' = t) by (destruct t, t'; try discriminate; reflexivity). subst t'. exists a. apply in_active. exact Hin.
Qed.

Lemma disjoint_attrs_spec a b : disjoint_attrs a b = true -> forall k, In k (attrs a) -> ~ In k (attrs b).
Proof.
  unfold disjoint_attrs. intros H k Hin Hin'. rewrite forallb_forall in H.
  apply in_map_iff in Hin as [[k' [f t]] [<- Hin]]. apply in_active in Hin. specialize (H _ Hin). apply negb_true_iff in H.
  apply in_map_iff in Hin' as [q [Hq Hq']]. assert (existsb (fun q => str_eqb (fst q) k') (active b) = true).
  { apply existsb_exists. exists q. split; [exact Hq'|]. rewrite Hq. apply str_eqb_refl. }
  cbn [fst] in H. congruence.
Qed.

Lemma no_semicolon_spec s : no_semicolon s = true -> ~ In 59 s.
Proof. unfold no_semicolon. intros H Hin. apply memb_In in Hin. rewrite Hin in H. discriminate. Qed.

Lemma list_spec_ok_spec base kt ls : list_spec_ok base kt ls = true ->
  isch_wf (ls_schema ls) /\ isch_ok (ls_schema ls) /\ (exists ak, In (ak, (ls_key ls, kt)) (active (ls_schema ls))) /\
  ls_lprefix ls = ls_prefix ls ++ [45] /\ ~ In 59 (ls_prefix ls) /\
  (forall k, In k (attrs (ls_schema ls)) -> ~ In k (attrs base)).
Proof.
  (* the conjuncts are split by andb_prop inside the pattern, here and below: rewriting with andb_true_iff costs far more *)
  unfold list_spec_ok. intros [[[[[[H1 H2]%andb_prop H3]%andb_prop H4]%andb_prop H5]%andb_prop H6]%andb_prop H7]%andb_prop.
  destruct (wf_schema_spec _ H1) as [Hna [Hnf Hattr]]. pose proof (all_active_attrs _ H2) as Hall.
  split; [split; [exact Hna|split; [exact Hattr|exact Hall]]|]. split.
  - split; [exact Hnf|]. intros a f t Hin. rewrite forallb_forall in H3. apply in_active in Hin. exact (H3 _ Hin).
  - split; [apply row_is_spec; exact H4|]. split; [apply str_eqb_eq; exact H5|]. split; [apply no_semicolon_spec; exact H6|].
    exact (disjoint_attrs_spec _ _ H7).
Qed.

Lemma list_spec_disjoint base kt ls : list_spec_ok base kt ls = true -> forall k, In k (attrs (ls_schema ls)) -> ~ In k (attrs base).
Proof. intros H. exact (proj2 (proj2 (proj2 (proj2 (proj2 (list_spec_ok_spec base kt ls H)))))). Qed.

Lemma key_present (E : entry) a o vs : alookup E (opt_attr a o) = Some vs -> ~ In 59 a -> ~ In 59 o ->
  exists k, In k (map fst E) /\ has_opt k = true /\ opt_of k = o.
Proof.
  intros H Ha Ho. exists (opt_attr a o). split; [eapply alookup_in_keys; exact H|]. split; [apply has_opt_opt|apply opt_of_opt; assumption].
Qed.

Lemma zlen_two {A} (x y : A) : zlen [x; y] = 2.
Proof. reflexivity. Qed.

Lemma is_prefix_opt_name p lp i : lp = p ++ [45] -> is_prefix lp (opt_name p i) = true.
Proof. intros ->. unfold opt_name. change (p ++ 45 :: hex_of_Z i) with (p ++ [45] ++ hex_of_Z i). rewrite app_assoc. apply is_prefix_app. Qed.

Lemma items_P isch l : isch_ok isch -> forallb (obj_typed2 isch) l = true -> Forall (itemP isch) (map (nf_base isch) l).
Proof.
  intros Hok H. apply Forall_forall. intros a Ha. apply in_map_iff in Ha as [x [<- Hx]].
  rewrite forallb_forall in H. apply nf_item_P; [exact Hok|apply H; exact Hx].
Qed.

Lemma ltables_app T : ltables_ok T = true -> app_tables_ok T = true.
Proof. intros H. apply andb_prop in H. apply H. Qed.
Lemma ltables_cell T : ltables_ok T = true -> cell_tables_ok T = true.
Proof. intros H. apply andb_prop in H as [H _]. apply andb_prop in H. apply H. Qed.
Lemma ltables_pt T : ltables_ok T = true -> pt_tables_ok T = true.
Proof. intros H. do 2 apply andb_prop in H as [H _]. apply andb_prop in H. apply H. Qed.
Lemma ltables_ca T : ltables_ok T = true -> ca_tables_ok T = true.
Proof. intros H. do 3 apply andb_prop in H as [H _]. apply andb_prop in H. apply H. Qed.
Lemma ltables_plain T : ltables_ok T = true -> plain_tables_ok T = true.
Proof. intros H. do 4 apply andb_prop in H as [H _]. apply andb_prop in H. apply H. Qed.

(** * 16. An entry as a class schema plus option-indexed lists *)
Record lsec := { l_lp : str; l_csch : schema; l_hx : list (str * obj) }.

Definition opt_key_of (secs : list lsec) (k : str) : Prop :=
  exists L o x a, In L secs /\ In (o, x) (l_hx L) /\ In a (attrs (l_csch L)) /\ k = opt_attr a o.

Definition layout_ok (E : entry) (secs : list lsec) : Prop :=
  NoDup (map fst E) /\
  (forall k, In k (map fst E) -> plain_key k \/ opt_key_of secs k) /\
  (forall L, In L secs -> (forall a, In a (attrs (l_csch L)) -> ~ In 59 a) /\ NoDup (map fst (l_hx L)) /\
     forall o x, In (o, x) (l_hx L) -> ~ In 59 o /\ is_prefix (l_lp L) o = true /\
       forall a f t, In (a, (f, t)) (active (l_csch L)) -> alookup E (opt_attr a o) = row_assigned2 x f t) /\
  (forall L L' o x, In L secs -> In L' secs -> In (o, x) (l_hx L) -> is_prefix (l_lp L') o = true -> L' = L).

Lemma layout_nil : layout_ok [] [].
Proof. split; [constructor|]. split; [intros k []|]. split; [intros L []|intros L L' o x []]. Qed.

Lemma layout_ts T E secs : layout_ok E secs -> ts_ok (lt_ts_create T) = true -> ts_ok (lt_ts_modify T) = true ->
  ts_absent T (remove_empty E).
Proof.
  intros [_ [Hk _]] Hc Hm.
  assert (H : forall a, ts_ok a = true -> ~ In a (map fst (remove_empty E))).
  { intros a Ha Hin. apply remove_empty_keys in Hin. destruct (ts_ok_spec a Ha) as [Hs Hl].
    destruct (Hk a Hin) as [[_ Hlow]|[L [o [x [a' [_ [_ [_ Heq]]]]]]]]; [exact (Hl Hlow)|].
    exact (opt_attr_not_plain a' o a Hs (eq_sym Heq)). }
  split; apply H; assumption.
Qed.

(** the class schema: its attributes hold what _dict_2_entry assigned *)
Definition base_rows (sch : schema) (o : obj) (E : entry) : Prop :=
  forall a f t, In (a, (f, t)) (active sch) -> alookup E a = row_assigned2 o f t.

Lemma rows_read sch o E : NoDup (map fst E) -> NoDup (fields sch) -> obj_typed2 sch o = true -> base_rows sch o E ->
  entry_2_dict sch (remove_empty E) = Ok (nf_base sch o).
Proof.
  intros HndE Hnf Hty Hrows. apply base_rt; [exact Hnf|exact Hty|].
  intros a f t Hin. rewrite (alookup_remove_empty E a HndE), (Hrows a f t Hin). reflexivity.
Qed.

Lemma base_read T sch o E secs : layout_ok E secs -> ts_ok (lt_ts_create T) = true -> ts_ok (lt_ts_modify T) = true ->
  NoDup (fields sch) -> obj_typed2 sch o = true -> base_rows sch o E ->
  base_from_entry T sch (remove_empty E) = Ok (nf_base sch o).
Proof.
  intros Hlay Hc Hm Hnf Hty Hrows. apply base_from_entry_ok; [exact (layout_ts T E secs Hlay Hc Hm)|].
  exact (rows_read sch o E (proj1 Hlay) Hnf Hty Hrows).
Qed.

(** a key with an option, left by _remove_empty, belongs to an item of a section *)
Lemma layout_opt_key E secs k : layout_ok E secs -> In k (map fst (remove_empty E)) -> has_opt k = true ->
  exists L o x a, In L secs /\ In (o, x) (l_hx L) /\ In a (attrs (l_csch L)) /\ k = opt_attr a o /\ ~ In 59 a /\ ~ In 59 o.
Proof.
  intros [_ [Hkeys [Hsecs _]]] Hk Hopt. apply remove_empty_keys in Hk. destruct (Hkeys k Hk) as [[Hp _]|[L [o [x [a [HL [Hin [Ha ->]]]]]]]].
  - rewrite (has_opt_plain k Hp) in Hopt. discriminate.
  - destruct (Hsecs L HL) as [Hsemi [_ Hhx]]. destruct (Hhx o x Hin) as [Ho _].
    exists L, o, x, a. repeat split; try assumption. apply Hsemi. exact Ha.
Qed.

Theorem multi_read E secs L isch : layout_ok E secs -> In L secs -> isch_ok isch ->
  (forall r, In r (active isch) -> In r (active (l_csch L))) ->
  (forall o x, In (o, x) (l_hx L) -> obj_typed2 isch x = true /\
     exists a f t v vs, In (a, (f, t)) (active (l_csch L)) /\ row_assigned2 x f t = Some (v :: vs)) ->
  grouped_list (remove_empty E) (l_lp L) isch = Ok (sort_by item_lt (map (fun ox => nf_base isch (snd ox)) (l_hx L))).
Proof.
  intros Hlay HL Hiok Hsub Hitems. pose proof Hlay as [HndE [_ [Hsecs Hclash]]]. destruct (Hsecs L HL) as [HsemiL [HndL HhxL]].
  apply grouped_list_spec; [exact Hiok|exact HndL| | |].
  - intros o x Hin. destruct (HhxL o x Hin) as [Ho [Hpre Hrows]]. destruct (Hitems o x Hin) as [Htx [a [f [t [v [vs [Hr Hv]]]]]]].
    split; [exact Hpre|]. split; [exact Htx|]. split.
    + intros a' f' t' Hr'. rewrite (alookup_remove_empty E _ HndE), (Hrows a' f' t' (Hsub _ Hr')). reflexivity.
    + apply (key_present (remove_empty E) a o (v :: vs)); [|apply HsemiL; eapply in_active_attrs; exact Hr|exact Ho].
      rewrite (alookup_remove_empty E _ HndE), (Hrows a f t Hr), Hv. reflexivity.
  - intros k Hk Hopt' Hpre. destruct (layout_opt_key E secs k Hlay Hk Hopt') as [L' [o [x [a [HL' [Hin [Ha [-> [Hsa Hso]]]]]]]]].
    rewrite (opt_of_opt a o Hsa Hso) in *. rewrite (Hclash L' L o x HL' HL Hin Hpre) in *.
    apply in_map_iff. exists (o, x). split; [reflexivity|exact Hin].
  - intros k Hk Hopt'. destruct (layout_opt_key E secs k Hlay Hk Hopt') as [L' [o [x [a [_ [_ [_ [-> [Hsa Hso]]]]]]]]].
    rewrite (key_parts_opt a o Hsa Hso). reflexivity.
Qed.

(** reading through a schema none of whose option groups is in the entry *)
Theorem multi_read_absent E secs lp isch : layout_ok E secs ->
  (forall L o x, In L secs -> In (o, x) (l_hx L) -> is_prefix lp o = false) ->
  grouped_list (remove_empty E) lp isch = Ok [].
Proof.
  intros Hlay Hno. unfold grouped_list.
  assert (Hnil : filter (is_prefix lp) (opts_of (remove_empty E)) = []).
  { destruct (filter (is_prefix lp) (opts_of (remove_empty E))) as [|o r] eqn:Ef; [reflexivity|]. exfalso.
    assert (Hin : In o (filter (is_prefix lp) (opts_of (remove_empty E)))) by (rewrite Ef; left; reflexivity).
    apply filter_In in Hin as [Hin Hpre]. apply opts_of_in in Hin as [k [Hk [Hopt <-]]].
    destruct (layout_opt_key E secs k Hlay Hk Hopt) as [L [o' [x [a [HL [Hin [_ [-> [Ha Ho']]]]]]]]].
    rewrite (opt_of_opt a o' Ha Ho'), (Hno L o' x HL Hin) in Hpre. discriminate. }
  rewrite Hnil. reflexivity.
Qed.

(** a list written by _to_obj_list (the options number the sorted items) *)
Definition lsec_of (ls : list_spec) (sorted : list obj) : lsec :=
  {| l_lp := ls_lprefix ls; l_csch := ls_schema ls; l_hx := number (ls_prefix ls) 0 sorted |}.

Lemma read_list E secs base ls sorted items : layout_ok E secs -> In (lsec_of ls sorted) secs ->
  list_spec_ok base TStr ls = true -> items_typed ls items = true -> Permutation sorted (items_or_nil items) ->
  grouped_list (remove_empty E) (ls_lprefix ls) (ls_schema ls) = Ok (nf_items (ls_schema ls) (items_or_nil items)).
Proof.
  intros Hlay HL Hls Hty Hperm.
  destruct (list_spec_ok_spec base TStr ls Hls) as [Hiw [Hiok [[ak Hak] _]]].
  unfold items_typed, item_typed in Hty.
  assert (Hst : forall x, In x sorted -> obj_typed2 (ls_schema ls) x = true /\ has_str_key (ls_key ls) x = true).
  { intros x Hx. rewrite forallb_forall in Hty. apply andb_true_iff. apply Hty. eapply Permutation_in; [exact Hperm|exact Hx]. }
  change (ls_lprefix ls) with (l_lp (lsec_of ls sorted)).
  rewrite (multi_read E secs (lsec_of ls sorted) (ls_schema ls) Hlay HL Hiok).
  - unfold nf_items. f_equal. cbn [lsec_of l_hx]. rewrite <- (map_map snd (nf_base (ls_schema ls))), number_snd.
    apply (items_sort_canon (ls_schema ls)); [|apply Permutation_map; exact Hperm].
    apply items_P; [exact Hiok|]. apply forallb_forall. intros x Hx. apply Hst. exact Hx.
  - intros r Hr. exact Hr.
  - intros o x Hin. cbn [lsec_of l_hx l_csch] in *. destruct (number_in _ _ _ _ _ Hin) as [i [_ [_ Hx]]].
    destruct (Hst x Hx) as [Htx Hkx]. split; [exact Htx|].
    unfold has_str_key in Hkx. destruct (alookup x (ls_key ls)) as [[|s| | | | |]|] eqn:Ek; try discriminate.
    exists ak, (ls_key ls), TStr, (EStr s), []. split; [exact Hak|]. unfold row_assigned2. rewrite Ek. reflexivity.
Qed.

Lemma base_layout sch o : wf_schema sch = true -> obj_typed2 sch o = true ->
  exists E0, d2e sch o = Some E0 /\ layout_ok E0 [] /\ base_rows sch o E0 /\ forall a, ~ In a (attrs sch) -> alookup E0 a = None.
Proof.
  intros Hwf Hty. destruct (wf_schema_spec sch Hwf) as [Hna [_ Hattr]].
  destruct (d2e_total sch o Hty) as [E0 HE0]. destruct (d2e_spec sch o E0 Hna HE0) as [Hnd [Hrow Hoth]].
  exists E0. split; [exact HE0|]. split; [|split; assumption].
  split; [exact Hnd|]. split; [|split; [intros L []|intros L L' o' x []]].
  intros k Hk. left. apply Hattr. eapply d2e_keys; eassumption.
Qed.

Lemma base_rows_writes sch o csch hx E E' : base_rows sch o E -> writes csch hx E E' ->
  (forall a, In a (attrs sch) -> ~ In 59 a) -> (forall a, In a (attrs csch) -> ~ In a (attrs sch)) -> base_rows sch o E'.
Proof.
  intros Hb Hw Hs Hd a f t Hin. pose proof (in_active_attrs _ _ _ _ Hin) as Ha.
  rewrite (writes_plain _ _ _ _ a Hw (Hs a Ha)); [apply Hb; exact Hin|]. intros Ha'. exact (Hd a Ha' Ha).
Qed.

Definition no_clash (lp : str) (lps : list str) : Prop :=
  forall lp', In lp' lps -> forall o, is_prefix lp o = true -> is_prefix lp' o = true -> False.

(** a layout extended by a section whose options start with a prefix of their own *)
Lemma layout_ext E E' secs lp csch hx :
  layout_ok E secs -> writes csch hx E E' -> (forall a, In a (attrs csch) -> plain_key a) ->
  NoDup (map fst hx) -> (forall o x, In (o, x) hx -> ~ In 59 o /\ is_prefix lp o = true) ->
  no_clash lp (map l_lp secs) ->
  layout_ok E' (secs ++ [{| l_lp := lp; l_csch := csch; l_hx := hx |}]).
Proof.
  intros [HndE [HkE [HsE HcE]]] [HndE' [HkE' [HoE' HrE']]] Hattr Hndhx Hhx Hclash.
  set (L0 := {| l_lp := lp; l_csch := csch; l_hx := hx |}).
  (* no option key of an earlier section is a key of the new one *)
  assert (Hsep : forall L o x a, In L secs -> In (o, x) (l_hx L) -> In a (attrs (l_csch L)) -> ~ sec_key csch hx (opt_attr a o)).
  { intros L o x a HL Hin Ha [Hk|[o' [x' [a' [Hin' [Ha' Heq]]]]]]; [exact (proj1 (Hattr _ Hk) (opt_attr_semi a o))|].
    destruct (HsE L HL) as [Hsemi [_ HhxL]]. apply opt_attr_inj in Heq as [_ ->]; [|apply Hsemi; exact Ha|apply Hattr; exact Ha'].
    destruct (HhxL o' x Hin) as [_ [Hp2 _]]. exact (Hclash _ (in_map l_lp _ _ HL) o' (proj2 (Hhx o' x' Hin')) Hp2). }
  split; [exact HndE'|]. split; [|split].
  - intros k Hk. destruct (HkE' k Hk) as [Hk'|[Ha|[o [x [a [Hin [Ha ->]]]]]]].
    + destruct (HkE k Hk') as [Hp|[L [o [x [a [HL Hr]]]]]]; [left; exact Hp|right].
      exists L, o, x, a. split; [apply in_or_app; left; exact HL|exact Hr].
    + left. apply Hattr. exact Ha.
    + right. exists L0, o, x, a. split; [apply in_or_app; right; left; reflexivity|]. split; [exact Hin|split; [exact Ha|reflexivity]].
  - intros L HL. apply in_app_or in HL as [HL|[<-|[]]].
    + destruct (HsE L HL) as [Hsemi [Hnd HhxL]]. split; [exact Hsemi|]. split; [exact Hnd|].
      intros o x Hin. destruct (HhxL o x Hin) as [Ho [Hp Hrows]]. split; [exact Ho|]. split; [exact Hp|].
      intros a f t Hr. rewrite HoE'; [apply Hrows; exact Hr|]. exact (Hsep L o x a HL Hin (in_active_attrs _ _ _ _ Hr)).
    + cbn [L0 l_csch l_hx l_lp]. split; [intros a Ha; apply Hattr; exact Ha|]. split; [exact Hndhx|].
      intros o x Hin. destruct (Hhx o x Hin) as [Ho Hp]. split; [exact Ho|]. split; [exact Hp|].
      intros a f t Hr. rewrite (HrE' o x Hin a f t Hr).
      destruct (row_assigned2 x f t) as [vs|]; [reflexivity|]. apply alookup_none_iff. intros Hk.
      destruct (HkE _ Hk) as [[Hs _]|[L [o' [x' [a' [HL [Hin' [Ha' Heq]]]]]]]]; [exact (Hs (opt_attr_semi a o))|].
      apply (Hsep L o' x' a' HL Hin' Ha'). rewrite <- Heq. right. exists o, x, a.
      split; [exact Hin|split; [eapply in_active_attrs; exact Hr|reflexivity]].
  - intros L L' o x HL HL' Hin Hp. apply in_app_or in HL as [HL|[<-|[]]]; apply in_app_or in HL' as [HL'|[<-|[]]].
    + apply (HcE L L' o x HL HL' Hin Hp).
    + exfalso. destruct (HsE L HL) as [_ [_ HhxL]]. destruct (HhxL o x Hin) as [_ [Hp' _]]. exact (Hclash _ (in_map l_lp _ _ HL) o Hp Hp').
    + exfalso. destruct (Hhx o x Hin) as [_ Hp']. exact (Hclash _ (in_map l_lp _ _ HL') o Hp' Hp).
    + reflexivity.
Qed.

Lemma writes_refl csch E : NoDup (map fst E) -> writes csch [] E E.
Proof. intros H. split; [exact H|]. split; [intros k Hk; left; exact Hk|]. split; [reflexivity|intros o x []]. Qed.

Lemma layout_plain E E' secs csch : layout_ok E secs -> writes csch [] E E' -> (forall a, In a (attrs csch) -> plain_key a) ->
  layout_ok E' secs.
Proof.
  intros [HndE [HkE [HsE HcE]]] [HndE' [HkE' [HoE' _]]] Hattr. split; [exact HndE'|]. split; [|split; [|exact HcE]].
  - intros k Hk. destruct (HkE' k Hk) as [Hk'|[Ha|[o [x [a [[] _]]]]]]; [apply HkE; exact Hk'|left; apply Hattr; exact Ha].
  - intros L HL. destruct (HsE L HL) as [Hsemi [Hnd HhxL]]. split; [exact Hsemi|]. split; [exact Hnd|].
    intros o x Hin. destruct (HhxL o x Hin) as [Ho [Hp Hrows]]. split; [exact Ho|]. split; [exact Hp|].
    intros a f t Hr. rewrite HoE'; [apply Hrows; exact Hr|].
    intros [Hk|[o' [x' [a' [[] _]]]]]. exact (proj1 (Hattr _ Hk) (opt_attr_semi a o)).
Qed.

(** a second schema written with dict.update where none of its attributes was set *)
Lemma d2e_rows_update sch o D E : NoDup (attrs sch) -> d2e sch o = Some D -> NoDup (map fst E) -> base_rows sch [] E ->
  writes sch [] E (eupdate E D) /\ base_rows sch o (eupdate E D).
Proof.
  intros Hna HD HndE HE. destruct (d2e_spec sch o D Hna HD) as [HndD [Hrow Hoth]]. split.
  - apply eupdate_writes; [exact HndE|]. split; [exact HndD|]. split; [intros k Hk; right; left; eapply d2e_keys; eassumption|].
    split; [|intros o' x []]. intros k Hk. apply Hoth. intros Hin. apply Hk. left. exact Hin.
  - intros a f t Hin. rewrite (alookup_eupdate D E a HndD), (Hrow a f t Hin).
    destruct (row_assigned2 o f t); [reflexivity|]. apply (HE a f t Hin).
Qed.

Lemma no_clash_spec a b o : no_prefix_clash a b = true ->
  is_prefix (ls_lprefix a) o = true -> is_prefix (ls_lprefix b) o = true -> False.
Proof.
  unfold no_prefix_clash. intros H H1 H2. apply andb_true_iff in H as [Ha Hb]. apply negb_true_iff in Ha, Hb.
  destruct (is_prefix_both _ _ _ H1 H2) as [H|H]; congruence.
Qed.

Lemma layout_add_list E secs base ls items :
  layout_ok E secs -> list_spec_ok base TStr ls = true -> items_typed ls items = true ->
  no_clash (ls_lprefix ls) (map l_lp secs) ->
  exists E' sorted, update_obj_list ls items E = oret E' /\ Permutation sorted (items_or_nil items) /\
    layout_ok E' (secs ++ [lsec_of ls sorted]) /\ writes (ls_schema ls) (number (ls_prefix ls) 0 sorted) E E'.
Proof.
  intros Hlay Hls Hty Hclash.
  destruct (list_spec_ok_spec base TStr ls Hls) as [Hiw [_ [_ [Hlp [Hp _]]]]].
  destruct (to_obj_list_spec (items_or_nil items) (ls_key ls) (ls_prefix ls) (ls_schema ls) Hiw Hp Hty) as [D [sorted [HD [Hperm HwD]]]].
  pose proof (eupdate_writes _ _ E D (proj1 Hlay) HwD) as Hw.
  exists (eupdate E D), sorted. unfold update_obj_list. rewrite HD. split; [reflexivity|]. split; [exact Hperm|]. split; [|exact Hw].
  apply (layout_ext E _ secs _ _ _ Hlay Hw); [apply Hiw|apply number_nodup| |exact Hclash].
  intros o x Hin. destruct (number_in _ _ _ _ _ Hin) as [i [_ [-> _]]].
  split; [apply opt_name_no_semicolon; exact Hp|apply is_prefix_opt_name; exact Hlp].
Qed.

(** the option-indexed list codec on its own: a typed list written by _to_obj_list into an empty entry, stored, read back *)
Theorem obj_list_rt ls items : list_spec_ok [] TStr ls = true -> items_typed ls (Some items) = true ->
  exists E, to_obj_list items (ls_key ls) (ls_prefix ls) (ls_schema ls) = oret E /\
    grouped_list (remove_empty E) (ls_lprefix ls) (ls_schema ls) = Ok (nf_items (ls_schema ls) items).
Proof.
  intros Hls Hty. destruct (list_spec_ok_spec [] TStr ls Hls) as [Hiw [_ [_ [Hlp [Hp _]]]]].
  destruct (to_obj_list_spec items (ls_key ls) (ls_prefix ls) (ls_schema ls) Hiw Hp Hty) as [E [sorted [HE [Hperm Hw]]]].
  exists E. split; [exact HE|].
  apply (read_list E [lsec_of ls sorted] [] ls sorted (Some items)); [|left; reflexivity|assumption..].
  apply (layout_ext [] E [] _ _ _ layout_nil Hw);
    [apply Hiw|apply number_nodup| |intros lp' []].
  intros o x Hin. destruct (number_in _ _ _ _ _ Hin) as [i [_ [-> _]]].
  split; [apply opt_name_no_semicolon; exact Hp|apply is_prefix_opt_name; exact Hlp].
Qed.

(** * 17. Classes without lists: DNS, AppGroup, Tenant, Allocation (LdapObject's from_entry / to_entry), Server *)
Lemma base_store_load T sch o : wf_schema sch = true -> ts_ok (lt_ts_create T) = true -> ts_ok (lt_ts_modify T) = true ->
  obj_typed2 sch o = true ->
  exists E, base_to_entry sch o = oret E /\ base_from_entry T sch (remove_empty E) = Ok (nf_base sch o).
Proof.
  intros Hwf Hc Hm Hty. destruct (base_layout sch o Hwf Hty) as [E0 [HE0 [Hlay [Hrows _]]]].
  exists E0. split; [unfold base_to_entry; rewrite HE0; reflexivity|].
  exact (base_read T sch o E0 [] Hlay Hc Hm (proj1 (proj2 (wf_schema_spec sch Hwf))) Hty Hrows).
Qed.

Theorem plain_rt T sch o : wf_schema sch = true -> ts_ok (lt_ts_create T) = true -> ts_ok (lt_ts_modify T) = true ->
  obj_typed2 sch o = true -> plain_store_load T sch o = Some (Ok (nf_base sch o)).
Proof.
  intros Hwf Hc Hm Hty. destruct (base_store_load T sch o Hwf Hc Hm Hty) as [E [HE Hr]].
  unfold plain_store_load. rewrite HE. cbn [oret obind]. rewrite Hr. reflexivity.
Qed.

Theorem server_rt T o : wf_schema (lt_server T) = true -> ts_ok (lt_ts_create T) = true -> ts_ok (lt_ts_modify T) = true ->
  obj_typed2 (lt_server T) o = true -> server_store_load T o = Some (Ok (server_nf T o)).
Proof.
  intros Hwf Hc Hm Hty. destruct (base_store_load T _ o Hwf Hc Hm Hty) as [E [HE Hr]].
  unfold server_store_load, server_from_entry. rewrite HE. cbn [oret obind]. rewrite Hr. reflexivity.
Qed.

(** * 18. A class schema plus one list written by _to_obj_list: CellAllocation, Partition *)
Theorem listobj_rt T sch ls o : wf_schema sch = true -> list_spec_ok sch TStr ls = true ->
  ts_ok (lt_ts_create T) = true -> ts_ok (lt_ts_modify T) = true ->
  obj_typed2 sch (lo_base o) = true -> items_typed ls (lo_items o) = true ->
  exists E, listobj_to_entry sch ls o = oret E /\
    base_from_entry T sch (remove_empty E) = Ok (nf_base sch (lo_base o)) /\
    grouped_list (remove_empty E) (ls_lprefix ls) (ls_schema ls) = Ok (nf_items (ls_schema ls) (items_or_nil (lo_items o))).
Proof.
  intros Hwf Hls Hc Hm Hty Hit. destruct (wf_schema_spec sch Hwf) as [_ [Hnf Hattr]].
  destruct (base_layout sch (lo_base o) Hwf Hty) as [E0 [HE0 [Hlay0 [Hrows0 _]]]].
  destruct (layout_add_list E0 [] sch ls (lo_items o) Hlay0 Hls Hit) as [E [sorted [HE [Hperm [Hlay Hw]]]]]; [intros lp' []|].
  exists E. split; [unfold listobj_to_entry, base_to_entry; rewrite HE0; exact HE|]. split.
  - apply (base_read T sch (lo_base o) E _ Hlay Hc Hm Hnf Hty). apply (base_rows_writes _ _ _ _ _ _ Hrows0 Hw).
    + intros a Ha. apply Hattr. exact Ha.
    + exact (list_spec_disjoint sch TStr ls Hls).
  - apply (read_list E _ sch ls sorted (lo_items o) Hlay); [left; reflexivity|assumption..].
Qed.

(** * 19. CellAllocation, Partition *)
Lemma ca_tables_spec T : ca_tables_ok T = true ->
  ts_ok (lt_ts_create T) = true /\ ts_ok (lt_ts_modify T) = true /\ wf_schema (lt_ca T) = true /\
  list_spec_ok (lt_ca T) TStr (lt_ca_list T) = true /\
  defaults_ok (lt_ca T) (lt_ca_defaults T ++ [(lt_ca_partition T, lt_default_partition T)]) = true /\
  forall b, absent_or_none b (lt_ca_maxutil T) = true ->
    alookup (set_defaults (nf_base (lt_ca T) b) (lt_ca_defaults T ++ [(lt_ca_partition T, lt_default_partition T)]))
            (lt_ca_maxutil T) = None.
Proof.
  unfold ca_tables_ok. intros [[[[[[[[Hc Hm]%andb_prop Hwf]%andb_prop Hls]%andb_prop Hdef]%andb_prop Hrp]%andb_prop Hrm]%andb_prop
                                 Hdm%negb_true_iff]%andb_prop Hpm%negb_true_iff]%andb_prop.
  split; [exact Hc|]. split; [exact Hm|]. split; [exact Hwf|]. split; [exact Hls|]. split.
  - unfold defaults_ok in *. rewrite forallb_app, Hdef. cbn. rewrite Hrp. reflexivity.
  - intros b Hmu. destruct (wf_schema_spec _ Hwf) as [_ [Hnf _]]. destruct (row_is_spec _ _ _ Hrm) as [am Ham].
    assert (Hd : alookup (lt_ca_defaults T) (lt_ca_maxutil T) = None).
    { apply alookup_none_notin. intros Hin. apply in_map_iff in Hin as [d [Hd Hin]]. apply not_true_iff_false in Hdm. apply Hdm.
      apply existsb_exists. exists d. split; [exact Hin|]. rewrite Hd. apply str_eqb_refl. }
    rewrite alookup_set_defaults, (alookup_nf_base _ _ am _ TStr Hnf Ham), alookup_app, Hd. cbn [alookup]. rewrite Hpm.
    unfold absent_or_none in Hmu. destruct (alookup b (lt_ca_maxutil T)) as [[| | | | | |]|]; try discriminate; reflexivity.
Qed.

Theorem ca_rt T o : ca_tables_ok T = true -> ca_typed T o = true -> ca_store_load T o = Some (Ok (ca_nf T o)).
Proof.
  intros HT Hty. destruct (ca_tables_spec T HT) as [Hc [Hm [Hwf [Hls [_ Hmax]]]]].
  unfold ca_typed in Hty. apply andb_prop in Hty as [[Hb Hit]%andb_prop Hmu].
  destruct (listobj_rt T (lt_ca T) (lt_ca_list T) o Hwf Hls Hc Hm Hb Hit) as [E [HE [Hbase Hlist]]].
  unfold ca_store_load, ca_to_entry. rewrite HE. cbn [oret obind]. unfold ca_from_entry.
  rewrite Hbase, Hlist. cbn [rlift obind]. rewrite set_defaults_snoc, (Hmax _ Hmu).
  unfold ca_nf. rewrite set_defaults_snoc. reflexivity.
Qed.

Theorem pt_rt T o : pt_tables_ok T = true -> pt_typed T o = true -> pt_store_load T o = Some (Ok (pt_nf T o)).
Proof.
  unfold pt_tables_ok, pt_typed. intros [[[[Hc Hm]%andb_prop Hwf]%andb_prop Hls]%andb_prop _]%andb_prop [Hb Hit]%andb_prop.
  destruct (listobj_rt T (lt_pt T) (lt_pt_list T) o Hwf Hls Hc Hm Hb Hit) as [E [HE [Hbase Hlist]]].
  unfold pt_store_load, pt_to_entry. rewrite HE. cbn [oret obind]. unfold pt_from_entry.
  rewrite Hbase, Hlist. reflexivity.
Qed.

(** * 20. Cell: the option index is the master's own idx *)
Definition zidx (key : str) (m : obj) : Z := match idx_of key m with Some z => z | None => 0 end.
Definition cell_hx (ls : list_spec) (ms : list obj) : list (str * obj) :=
  map (fun m => (opt_name (ls_prefix ls) (zidx (ls_key ls) m), m)) ms.

Lemma all_some_idx key ms zs : all_some (map (idx_of key) ms) = Some zs ->
  zs = map (zidx key) ms /\ forall m, In m ms -> alookup m key = Some (FInt (zidx key m)).
Proof.
  revert zs. induction ms as [|m r IH]; intros zs H; cbn [map all_some] in H.
  - inversion H. split; [reflexivity|intros m []].
  - destruct (idx_of key m) as [z|] eqn:Ez; [|discriminate].
    assert (Hz : zidx key m = z) by (unfold zidx; rewrite Ez; reflexivity).
    destruct (all_some (map (idx_of key) r)) as [zs'|]; [|discriminate]. inversion H; subst zs.
    destruct (IH zs' eq_refl) as [-> Hr]. split; [cbn [map]; rewrite Hz; reflexivity|]. intros m' [<-|Hm]; [|apply Hr; exact Hm].
    rewrite Hz. unfold idx_of in Ez. destruct (alookup m key) as [[| |z'| | | |]|]; congruence.
Qed.

Lemma cell_blocks_oblocks ls ms : (forall m, In m ms -> alookup m (ls_key ls) = Some (FInt (zidx (ls_key ls) m))) -> forall acc,
  cell_blocks ls ms acc = olift (oblocks (fun o x => d2e (rename_opt (ls_schema ls) o) x) (cell_hx ls ms) acc).
Proof.
  induction ms as [|m r IH]; intros H acc; cbn [cell_blocks cell_hx map oblocks]; [reflexivity|].
  rewrite (H m (or_introl eq_refl)). destruct (d2e (rename_opt (ls_schema ls) (opt_name (ls_prefix ls) (zidx (ls_key ls) m))) m); [|reflexivity].
  apply IH. intros m' Hm'. apply H. right. exact Hm'.
Qed.

Lemma z_nodup_spec l : z_nodup l = true <-> NoDup l.
Proof. exact (nodupb_NoDup l). Qed.

Theorem cell_rt T o : cell_tables_ok T = true -> cell_typed T o = true -> cell_store_load T o = Some (Ok (cell_nf T o)).
Proof.
  unfold cell_tables_ok, cell_typed. intros [[[Hc Hm]%andb_prop Hwf]%andb_prop Hls]%andb_prop [[Hb Hit]%andb_prop Hidx]%andb_prop.
  set (sch := lt_cell T) in *. set (ls := lt_cell_masters T) in *. set (ms := items_or_nil (lo_items o)) in *.
  destruct (all_some (map (idx_of (ls_key ls)) ms)) as [zs|] eqn:Ezs; [|discriminate].
  apply z_nodup_spec in Hidx. destruct (all_some_idx _ _ _ Ezs) as [-> Hkey]. rewrite forallb_forall in Hit.
  destruct (wf_schema_spec sch Hwf) as [_ [Hnf Hattr]].
  destruct (list_spec_ok_spec sch TInt ls Hls) as [[Hina [Hiattr _]] [Hiok [[ak Hak] [Hlp [Hp Hdisj]]]]].
  destruct (base_layout sch (lo_base o) Hwf Hb) as [E0 [HE0 [Hlay0 [Hrows0 _]]]].
  set (hx := cell_hx ls ms).
  assert (Hhx_nd : NoDup (map fst hx)).
  { unfold hx, cell_hx. rewrite map_map. cbn [fst]. rewrite <- (map_map (zidx (ls_key ls)) (opt_name (ls_prefix ls))).
    apply FinFun.Injective_map_NoDup; [|exact Hidx]. intros a b Hab. apply opt_name_inj in Hab. exact Hab. }
  assert (Hhx : forall o' x, In (o', x) hx -> o' = opt_name (ls_prefix ls) (zidx (ls_key ls) x) /\ In x ms).
  { intros o' x Hin. apply in_map_iff in Hin as [m [Heq Hin]]. inversion Heq; subst. split; [reflexivity|exact Hin]. }
  destruct (oblocks_total (fun o x => d2e (rename_opt (ls_schema ls) o) x) hx) with (acc := E0) as [E HE].
  { intros o' x Hin. apply (d2e_total (rename_opt (ls_schema ls) o') x). rewrite obj_typed2_rename. apply Hit, (Hhx o' x Hin). }
  pose proof (oblocks_spec (ls_schema ls) (fun x => x) _ _ (blk_ok_d2e _ Hina) (fun a Ha => proj1 (Hiattr a Ha)) hx E0 E HE
                (proj1 Hlay0) Hhx_nd (fun _ _ _ => I)) as Hw. rewrite vmap_id in Hw.
  assert (Hlay : layout_ok E [{| l_lp := ls_lprefix ls; l_csch := ls_schema ls; l_hx := hx |}]).
  { apply (layout_ext E0 E [] _ _ _ Hlay0 Hw Hiattr Hhx_nd); [|intros lp' []]. intros o' x Hin. destruct (Hhx o' x Hin) as [-> _].
    split; [apply opt_name_no_semicolon; exact Hp|apply is_prefix_opt_name; exact Hlp]. }
  unfold cell_store_load, cell_to_entry, base_to_entry. fold sch ls ms. rewrite HE0. cbn [olift oret obind].
  rewrite (cell_blocks_oblocks ls ms Hkey E0). fold hx. rewrite HE. cbn [olift oret obind].
  unfold cell_from_entry. fold sch ls.
  rewrite (base_read T sch (lo_base o) E _ Hlay Hc Hm Hnf Hb
             (base_rows_writes _ _ _ _ _ _ Hrows0 Hw (fun a Ha => proj1 (Hattr a Ha)) Hdisj)). cbn [rlift obind].
  pose proof (multi_read E _ _ (ls_schema ls) Hlay (or_introl eq_refl) Hiok (fun r Hr => Hr)) as Hread.
  cbn [l_lp l_hx l_csch] in Hread. rewrite Hread.
  - cbn [rlift obind]. unfold cell_nf, nf_items, hx, cell_hx. fold sch ls ms. rewrite map_map. reflexivity.
  - intros o' x Hin. destruct (Hhx o' x Hin) as [_ Hx]. split; [apply Hit; exact Hx|].
    exists ak, (ls_key ls), TInt, (EStr (str_of_Z (zidx (ls_key ls) x))), []. split; [exact Hak|].
    unfold row_assigned2. rewrite (Hkey x Hx). reflexivity.
Qed.

(** * 21. Application: restart settings, affinity limits, vring *)
(** affinity items: {level: str, limit: int} *)
Definition aff_shape (T : ltables) : Prop :=
  (exists r0 r1, ls_schema (lt_app_aff T) = [(r0, (Some (lt_app_aff_level T), TStr)); (r1, (Some (lt_app_aff_limit T), TInt))]) /\
  ls_key (lt_app_aff T) = lt_app_aff_level T /\ lt_app_aff_level T <> lt_app_aff_limit T.

Lemma pairwise_before {A} (p : A -> A -> bool) l1 y l2 : pairwise p (l1 ++ y :: l2) = true -> forall x, In x l1 -> p x y = true.
Proof.
  induction l1 as [|z l1 IH]; intros H x Hx; [contradiction|]. cbn [app pairwise] in H. apply andb_true_iff in H as [Hz Hl].
  destruct Hx as [<-|Hx]; [|exact (IH Hl x Hx)]. rewrite forallb_forall in Hz. apply Hz. apply in_or_app. right. left. reflexivity.
Qed.

Lemma clash_free lss ls : (forall x, In x lss -> no_prefix_clash x ls = true) -> no_clash (ls_lprefix ls) (map ls_lprefix lss).
Proof. intros H lp' Hin o H1 H2. apply in_map_iff in Hin as [x [<- Hx]]. exact (no_clash_spec x ls o (H x Hx) H2 H1). Qed.

Definition rst_of (T : ltables) (s : svc) : obj :=
  eupdate (default_restart T) (match sv_restart s with Some d => d | None => [] end).
Definition svc_view (T : ltables) (s : svc) : obj :=
  [(lt_app_rst_limit T, get_default (rst_of T s) (lt_app_rst_limit T) FNone);
   (lt_app_rst_interval T, get_default (rst_of T s) (lt_app_rst_interval T) FNone)] ++ sv_fields s.
Definition svc_blk (T : ltables) (o : str) (s : svc) : option entry :=
  match d2e (rename_opt (ls_schema (lt_app_svc T)) o) (sv_fields s) with
  | None => None
  | Some se => match d2e (rename_opt (lt_app_rst_schema T) o) (rst_of T s) with
               | None => None
               | Some re => Some (eupdate se re)
               end
  end.
Definition svc_hx (T : ltables) (sorted : list svc) : list (str * obj) :=
  vmap (svc_view T) (number (ls_prefix (lt_app_svc T)) 0 sorted).
Definition svc_sec (T : ltables) (sorted : list svc) : lsec :=
  {| l_lp := ls_lprefix (lt_app_svc T); l_csch := app_csch T; l_hx := svc_hx T sorted |}.

Lemma svc_blocks_oblocks T ss : forall idx acc,
  svc_blocks T idx ss acc = oblocks (svc_blk T) (number (ls_prefix (lt_app_svc T)) idx ss) acc.
Proof.
  induction ss as [|s r IH]; intros idx acc; cbn [svc_blocks number oblocks]; [reflexivity|]. unfold svc_blk at 1. fold (rst_of T s).
  destruct (d2e (rename_opt (ls_schema (lt_app_svc T)) (opt_name (ls_prefix (lt_app_svc T)) idx)) (sv_fields s)); [|reflexivity].
  destruct (d2e (rename_opt (lt_app_rst_schema T) (opt_name (ls_prefix (lt_app_svc T)) idx)) (rst_of T s)); [apply IH|reflexivity].
Qed.

(** the restart settings of a typed service: limit and interval, both ints *)
Lemma rst_of_spec T s l0 i0 : default_restart T = [(lt_app_rst_limit T, FInt l0); (lt_app_rst_interval T, FInt i0)] ->
  lt_app_rst_limit T <> lt_app_rst_interval T -> restart_typed T (sv_restart s) = true ->
  (exists l, alookup (rst_of T s) (lt_app_rst_limit T) = Some (FInt l)) /\
  (exists i, alookup (rst_of T s) (lt_app_rst_interval T) = Some (FInt i)) /\
  (forall k, k <> lt_app_rst_limit T -> k <> lt_app_rst_interval T -> alookup (rst_of T s) k = None).
Proof.
  intros Hd Hne Hty. unfold rst_of. rewrite Hd.
  set (d := match sv_restart s with Some d => d | None => [] end).
  assert (Hd' : NoDup (map fst d) /\ forall k v, alookup d k = Some v ->
                  (k = lt_app_rst_limit T \/ k = lt_app_rst_interval T) /\ exists z, v = FInt z).
  { unfold d, restart_typed in *. destruct (sv_restart s) as [d0|]; [|split; [constructor|intros k v Hv; discriminate]].
    apply andb_true_iff in Hty as [Hnd Hall]. split; [apply keys_nodup_NoDup; exact Hnd|].
    intros k v Hv. apply alookup_some_in in Hv. rewrite forallb_forall in Hall. specialize (Hall _ Hv). cbn [fst snd] in Hall.
    apply andb_true_iff in Hall as [Hk Hz]. split.
    - apply orb_true_iff in Hk as [Hk|Hk]; apply str_eqb_eq in Hk; [left|right]; exact Hk.
    - destruct v; try discriminate. eexists. reflexivity. }
  destruct Hd' as [Hnd Hvals].
  assert (Hlk : forall k, alookup (eupdate [(lt_app_rst_limit T, FInt l0); (lt_app_rst_interval T, FInt i0)] d) k
                = match alookup d k with Some v => Some v | None =>
                    alookup [(lt_app_rst_limit T, FInt l0); (lt_app_rst_interval T, FInt i0)] k end)
    by (intros k; apply alookup_eupdate; exact Hnd).
  split; [|split].
  - rewrite Hlk. destruct (alookup d (lt_app_rst_limit T)) as [v|] eqn:E.
    + destruct (Hvals _ _ E) as [_ [z ->]]. exists z. reflexivity.
    + cbn [alookup]. rewrite str_eqb_refl. exists l0. reflexivity.
  - rewrite Hlk. destruct (alookup d (lt_app_rst_interval T)) as [v|] eqn:E.
    + destruct (Hvals _ _ E) as [_ [z ->]]. exists z. reflexivity.
    + cbn [alookup]. rewrite (str_eqb_neq _ _ Hne), str_eqb_refl. exists i0. reflexivity.
  - intros k H1 H2. rewrite Hlk. destruct (alookup d k) as [v|] eqn:E.
    + destruct (Hvals _ _ E) as [[->| ->] _]; contradiction.
    + cbn [alookup]. rewrite (str_eqb_neq _ k (fun e => H1 (eq_sym e))), (str_eqb_neq _ k (fun e => H2 (eq_sym e))). reflexivity.
Qed.

Lemma active_app (s1 s2 : schema) : active (s1 ++ s2) = active s1 ++ active s2.
Proof. unfold active. apply flat_map_app. Qed.

Lemma row_assigned2_ext o o' f t : alookup o f = alookup o' f -> row_assigned2 o f t = row_assigned2 o' f t.
Proof. intros H. unfold row_assigned2. rewrite H. reflexivity. Qed.

Lemma nf_base_ext sch o o' : (forall f, In f (fields sch) -> alookup o f = alookup o' f) -> nf_base sch o = nf_base sch o'.
Proof.
  intros H. apply nf_base_ext_in. intros a f t Hin. cbn [fst snd]. rewrite (H f (in_active_fields _ _ _ _ Hin)). reflexivity.
Qed.

Lemma obj_typed2_ext sch o o' : (forall f, In f (fields sch) -> alookup o f = alookup o' f) -> obj_typed2 sch o' = true ->
  obj_typed2 sch o = true.
Proof.
  intros H Hty. apply obj_typed2_intro. intros a f t Hin. rewrite (H f (in_active_fields _ _ _ _ Hin)).
  exact (row_typed sch o' a f t Hty Hin).
Qed.

Lemma ins_by_map {A B} (h : A -> B) (lt : A -> A -> bool) (lt' : B -> B -> bool) :
  (forall a b, lt' (h a) (h b) = lt a b) -> forall x l, map h (ins_by lt x l) = ins_by lt' (h x) (map h l).
Proof.
  intros H x l. induction l as [|y r IH]; cbn [ins_by map]; [reflexivity|]. rewrite H. destruct (lt y x); cbn [map]; [rewrite IH|]; reflexivity.
Qed.

Lemma sort_by_map {A B} (h : A -> B) (lt : A -> A -> bool) (lt' : B -> B -> bool) :
  (forall a b, lt' (h a) (h b) = lt a b) -> forall l, map h (sort_by lt l) = sort_by lt' (map h l).
Proof.
  intros H l. induction l as [|x r IH]; cbn [sort_by map]; [reflexivity|]. rewrite (ins_by_map h lt lt' H), IH. reflexivity.
Qed.

Lemma fval_eqb_str a b : fval_eqb (FStr a) (FStr b) = true <-> a = b.
Proof.
  unfold fval_eqb. cbn [same_kind fval_cmp andb]. destruct TO_str as [He _]. split.
  - intros H. destruct (str_cmp a b) eqn:E; try discriminate. apply He. exact E.
  - intros ->. rewrite (TO_refl str_cmp b TO_str). reflexivity.
Qed.

Lemma nodup_app_inv {A} (l1 l2 : list A) : NoDup (l1 ++ l2) -> NoDup l1 /\ NoDup l2 /\ forall x, In x l1 -> In x l2 -> False.
Proof.
  induction l1 as [|y l1 IH]; cbn [app]; intros Hnd; [split; [constructor|split; [exact Hnd|intros x []]]|].
  inversion Hnd as [|z l Hz Hl]; subst. destruct (IH Hl) as [H1 [H2 H3]].
  split; [constructor; [intros Hin; apply Hz, in_or_app; left; exact Hin|exact H1]|]. split; [exact H2|].
  intros x [->|Hx] Hx2; [apply Hz, in_or_app; right; exact Hx2|exact (H3 x Hx Hx2)].
Qed.

(** a block made of two _dict_2_entry calls, on schemas with different attributes, is a block of the joint schema for any
    object that looks like the first on the fields of the first schema and like the second on those of the second *)
Lemma blk_ok_app {X} s1 s2 (v1 v2 view : X -> obj) (P : X -> Prop) :
  NoDup (attrs (s1 ++ s2)) ->
  (forall x f, P x -> In f (fields s1) -> alookup (view x) f = alookup (v1 x) f) ->
  (forall x f, P x -> In f (fields s2) -> alookup (view x) f = alookup (v2 x) f) ->
  blk_ok (s1 ++ s2) view
    (fun o x => match d2e (rename_opt s1 o) (v1 x) with
                | None => None
                | Some d1 => match d2e (rename_opt s2 o) (v2 x) with None => None | Some d2 => Some (eupdate d1 d2) end
                end) P.
Proof.
  intros Hna H1 H2 o x d Px Hd. unfold attrs in *. rewrite active_app, map_app in *.
  destruct (d2e (rename_opt s1 o) (v1 x)) as [d1|] eqn:E1; [|discriminate].
  destruct (d2e (rename_opt s2 o) (v2 x)) as [d2|] eqn:E2; [|discriminate]. inversion Hd; subst d. clear Hd.
  destruct (nodup_app_inv _ _ Hna) as [Hna1 [Hna2 Hdis]].
  destruct (blk_ok_d2e s1 Hna1 o (v1 x) d1 I E1) as [Hn1 [Hr1 Hk1]]. destruct (blk_ok_d2e s2 Hna2 o (v2 x) d2 I E2) as [Hn2 [Hr2 Hk2]].
  (* a key of one block is no key of the other *)
  assert (Hno : forall (dA : entry) sA a, (forall k, In k (map fst dA) -> exists a', In a' (map fst (active sA)) /\ k = opt_attr a' o) ->
            ~ In a (map fst (active sA)) -> alookup dA (opt_attr a o) = None).
  { intros dA sA a HkA Ha. apply alookup_none_notin. intros Hk. destruct (HkA _ Hk) as [a' [Ha' Heq]].
    unfold opt_attr in Heq. apply app_inv_tail in Heq. subst a'. exact (Ha Ha'). }
  split; [apply eupdate_nodup; exact Hn1|]. split.
  - intros a f t Hin. rewrite (alookup_eupdate d2 d1 _ Hn2). apply in_app_or in Hin as [Hin|Hin].
    + rewrite (Hno d2 s2 a Hk2), (Hr1 a f t Hin) by (intros Ha; exact (Hdis a (in_active_attrs _ _ _ _ Hin) Ha)).
      apply row_assigned2_ext. symmetry. exact (H1 x f Px (in_active_fields _ _ _ _ Hin)).
    + rewrite (Hr2 a f t Hin), (row_assigned2_ext _ _ f t (H2 x f Px (in_active_fields _ _ _ _ Hin))).
      destruct (row_assigned2 (v2 x) f t); [reflexivity|]. apply (Hno d1 s1 a Hk1).
      intros Ha. exact (Hdis a Ha (in_active_attrs _ _ _ _ Hin)).
  - intros k Hk. apply eupdate_keys in Hk as [Hk|Hk]; [destruct (Hk1 k Hk) as [a [Ha ->]]|destruct (Hk2 k Hk) as [a [Ha ->]]];
      exists a; (split; [apply in_or_app|reflexivity]); [left|right]; exact Ha.
Qed.

Lemma aff_items_typed T d : aff_shape T -> int_map d = true -> items_typed (lt_app_aff T) (Some (affinity_items T d)) = true.
Proof.
  intros [[r0 [r1 Hs]] [Hkey Hne]] Hd. unfold items_typed, items_or_nil, affinity_items. apply forallb_forall.
  intros x Hx. apply in_map_iff in Hx as [[k v] [<- Hin]]. unfold int_map in Hd. apply andb_true_iff in Hd as [_ Hall].
  rewrite forallb_forall in Hall. specialize (Hall _ Hin). cbn [snd fst] in *. destruct v as [| |z| | | |]; try discriminate.
  unfold item_typed. rewrite Hs, Hkey. cbn [obj_typed2 forallb alookup]. rewrite ?str_eqb_refl.
  rewrite (str_eqb_neq _ _ Hne). unfold has_str_key. cbn [alookup]. rewrite ?str_eqb_refl. reflexivity.
Qed.

(** the affinity limits: a dict from the sorted {level, limit} items *)
Lemma affinity_map_spec T l : lt_app_aff_level T <> lt_app_aff_limit T ->
  (forall x, In x l -> exists k z, x = [(lt_app_aff_level T, FStr k); (lt_app_aff_limit T, FInt z)]) ->
  forall acc, NoDup (map fst acc ++ map (fun x => match alookup x (lt_app_aff_level T) with Some (FStr k) => k | _ => [] end) l) ->
  affinity_map T l acc = oret (acc ++ map (fun x => (match alookup x (lt_app_aff_level T) with Some (FStr k) => k | _ => [] end,
                                                    get_default x (lt_app_aff_limit T) FNone)) l).
Proof.
  intros Hne. induction l as [|x l IH]; intros Hl acc Hnd; [cbn; rewrite app_nil_r; reflexivity|].
  destruct (Hl x (or_introl eq_refl)) as [k [z ->]]. cbn [affinity_map map alookup] in *.
  rewrite str_eqb_refl, (str_eqb_neq _ _ Hne) in *. cbn [alookup] in *. rewrite str_eqb_refl.
  unfold get_default. cbn [alookup]. rewrite (str_eqb_neq _ _ Hne). cbn [alookup]. rewrite str_eqb_refl.
  assert (Hk : ~ In k (map fst acc)).
  { intros Hin. apply NoDup_remove_2 in Hnd. apply Hnd. apply in_or_app. left. exact Hin. }
  rewrite (aset_fresh acc k (FInt z) Hk). rewrite IH.
  - rewrite <- app_assoc. reflexivity.
  - intros y Hy. apply Hl. right. exact Hy.
  - rewrite map_app. cbn [map fst]. rewrite <- app_assoc. cbn [app]. exact Hnd.
Qed.

Lemma affinity_rt T d : aff_shape T -> int_map d = true ->
  affinity_map T (nf_items (ls_schema (lt_app_aff T)) (affinity_items T d)) []
  = oret (map (fun x => (match alookup x (lt_app_aff_level T) with Some (FStr k) => k | _ => [] end,
                         get_default x (lt_app_aff_limit T) FNone))
              (nf_items (ls_schema (lt_app_aff T)) (affinity_items T d))).
Proof.
  intros [[r0 [r1 Haffs]] [_ Hne]] Haff. unfold int_map in Haff. apply andb_true_iff in Haff as [Hnd Hall].
  rewrite forallb_forall in Hall.
  (* the items are their own normal forms *)
  assert (Hnfid : forall x, In x (affinity_items T d) -> nf_base (ls_schema (lt_app_aff T)) x = x /\
                    exists k z, x = [(lt_app_aff_level T, FStr k); (lt_app_aff_limit T, FInt z)]).
  { intros x Hx. apply in_map_iff in Hx as [[k v] [<- Hin]]. specialize (Hall _ Hin). cbn [fst snd] in *.
    destruct v as [| |z| | | |]; try discriminate. split; [|exists k, z; reflexivity].
    unfold nf_base. rewrite Haffs. cbn [active flat_map fst snd alookup app]. rewrite str_eqb_refl, (str_eqb_neq _ _ Hne).
    cbn [alookup]. rewrite str_eqb_refl. reflexivity. }
  unfold nf_items. rewrite (map_ext_in _ (fun x => x)), map_id by (intros x Hx; apply (Hnfid x Hx)).
  rewrite (affinity_map_spec T _ Hne); [reflexivity| |].
  - intros x Hx. apply (Permutation_in _ (sort_by_perm item_lt _)) in Hx. apply (Hnfid x Hx).
  - cbn [map app]. eapply Permutation_NoDup; [apply Permutation_map, Permutation_sym, sort_by_perm|].
    unfold affinity_items. rewrite map_map. cbn [alookup fst]. rewrite str_eqb_refl. apply keys_nodup_NoDup. exact Hnd.
Qed.

Lemma obj_typed2_aset sch o f v : obj_typed2 sch o = true ->
  (forall a t, In (a, (f, t)) (active sch) -> ftyped2 t v = true) -> obj_typed2 sch (aset o f v) = true.
Proof.
  intros Hty Hv. apply obj_typed2_intro. intros a f' t Hin. rewrite alookup_aset.
  destruct (str_eqb f f') eqn:E; [apply str_eqb_eq in E; subst f'; apply (Hv a t Hin)|].
  apply (row_typed sch o a f' t Hty Hin).
Qed.

(** the vring as to_entry sees it: nothing is written for an absent or an empty one *)
Definition vr_obj (T : ltables) (a : appo) : obj :=
  match ap_vring a with Some v => if vring_truthy v then vring_obj T v else [] | None => [] end.
Definition vr_rules_of (a : appo) : list obj :=
  match ap_vring a with Some v => if vring_truthy v then items_or_nil (vr_rules v) else [] | None => [] end.

Lemma vring_final {A} (cells : list str) (rules : list obj) (X : A) :
  (if fval_truthy (FStrs cells) || negb (zlen rules =? 0) then Some X else None)
  = match cells, rules with [], [] => None | _, _ => Some X end.
Proof. destruct cells as [|c cs]; destruct rules as [|r rs]; reflexivity. Qed.

Lemma zlen_cons_nonzero {A} (x : A) l : (zlen (x :: l) =? 0) = false.
Proof. rewrite zlen_cons. pose proof (zlen_nonneg l). lia. Qed.

(** * 22. Application, for tables with the properties that [app_tables_ok] checks (the shapes of the restart, affinity
    and vring schemas written out) and a typed object *)
Section App.
  Variable T : ltables.
  Variables a0 a1 a2 av : str.
  Variable rest : schema.
  Variables l0 i0 : Z.
  Let key := ls_key (lt_app_svc T).
  Let lim := lt_app_rst_limit T.
  Let itv := lt_app_rst_interval T.
  Let svcsch := ls_schema (lt_app_svc T).
  Let R := lt_app_rst_schema T.
  Hypothesis Hc : ts_ok (lt_ts_create T) = true.
  Hypothesis Hm : ts_ok (lt_ts_modify T) = true.
  Hypothesis Hwf : wf_schema (lt_app T) = true.
  Hypothesis Hls : list_spec_ok (lt_app T) TStr (lt_app_svc T) = true.
  Hypothesis Hl_ep : list_spec_ok (lt_app T) TStr (lt_app_ep T) = true.
  Hypothesis Hl_env : list_spec_ok (lt_app T) TStr (lt_app_env T) = true.
  Hypothesis Hl_aff : list_spec_ok (lt_app T) TStr (lt_app_aff T) = true.
  Hypothesis Hl_vr : list_spec_ok (lt_app T) TStr (lt_app_vr T) = true.
  Hypothesis Hnoclash : pairwise no_prefix_clash (app_lists T) = true.
  Hypothesis Hpdis : pairwise disjoint_attrs [app_csch T; ls_schema (lt_app_ep T); ls_schema (lt_app_env T);
                                              ls_schema (lt_app_aff T); ls_schema (lt_app_vr T); lt_app_vr_schema T] = true.
  Hypothesis Hcwf : wf_schema (app_csch T) = true.
  Hypothesis Hcdis : disjoint_attrs (app_csch T) (lt_app T) = true.
  Hypothesis Hvdis : disjoint_attrs (lt_app_vr_schema T) (lt_app T) = true.
  Hypothesis Htcpf : row_is (lt_app T) (lt_app_eph_tcpf T) TInt = true.
  Hypothesis Hudpf : row_is (lt_app T) (lt_app_eph_udpf T) TInt = true.
  Hypothesis Hrs : R = [(a0, (Some key, TStr)); (a1, (Some lim, TInt)); (a2, (Some itv, TInt))].
  Hypothesis Hsv : svcsch = (a0, (Some key, TStr)) :: rest.
  Hypothesis Hdflt : default_restart T = [(lim, FInt l0); (itv, FInt i0)].
  Hypothesis Haffs : aff_shape T.
  Hypothesis Hvrs : lt_app_vr_schema T = [(av, (Some (lt_app_vr_cells T), TListStr))].
  Hypothesis Hav : plain_key av.

  Lemma csch_active : active (app_csch T) = active svcsch ++ [(a1, (lim, TInt)); (a2, (itv, TInt))].
  Proof. unfold app_csch. fold R svcsch. rewrite active_app, Hrs. reflexivity. Qed.

  Lemma csch_attrs : attrs (app_csch T) = attrs svcsch ++ [a1; a2].
  Proof. unfold attrs. rewrite csch_active, map_app. reflexivity. Qed.

  Lemma csch_facts :
    NoDup (fields svcsch) /\ ~ In lim (fields svcsch) /\ ~ In itv (fields svcsch) /\ lim <> itv /\
    In (a0, (key, TStr)) (active svcsch) /\ (forall a, In a (attrs (app_csch T)) -> plain_key a).
  Proof.
    destruct (wf_schema_spec _ Hcwf) as [_ [Hnf Hattr]]. unfold fields in Hnf. rewrite csch_active, map_app in Hnf. cbn [map fst snd] in Hnf.
    pose proof (NoDup_remove_1 _ _ _ Hnf) as Hnf1. pose proof (NoDup_remove_2 _ _ _ Hnf) as Hnf2.
    pose proof (NoDup_remove_1 _ _ _ Hnf1) as Hnf3. pose proof (NoDup_remove_2 _ _ _ Hnf1) as Hnf4. rewrite app_nil_r in *.
    split; [exact Hnf3|]. split; [intros Hin; apply Hnf2; apply in_or_app; left; exact Hin|]. split; [exact Hnf4|].
    split; [intros Heq; apply Hnf2; apply in_or_app; right; left; symmetry; exact Heq|].
    split; [rewrite Hsv, active_some; left; reflexivity|exact Hattr].
  Qed.

  Lemma svc_view_field s f : In f (fields svcsch) -> alookup (svc_view T s) f = alookup (sv_fields s) f.
  Proof.
    intros Hf. destruct csch_facts as [_ [Hl [Hi _]]]. unfold svc_view. cbn [app alookup]. fold lim itv.
    rewrite !str_eqb_neq; [reflexivity|intros <-; exact (Hi Hf)|intros <-; exact (Hl Hf)].
  Qed.

  Definition svc_ok (s : svc) : Prop := restart_typed T (sv_restart s) = true.

  Lemma svc_view_rst s : svc_ok s ->
    (exists l, alookup (rst_of T s) lim = Some (FInt l) /\ alookup (svc_view T s) lim = Some (FInt l)) /\
    (exists i, alookup (rst_of T s) itv = Some (FInt i) /\ alookup (svc_view T s) itv = Some (FInt i)) /\
    alookup (rst_of T s) key = None.
  Proof.
    intros Hok. destruct csch_facts as [_ [Hl [Hi [Hli [Hk _]]]]]. apply in_active_fields in Hk.
    destruct (rst_of_spec T s l0 i0 Hdflt Hli Hok) as [[l Hl'] [[i Hi'] Hoth]]. fold lim itv in Hl', Hi'.
    split; [exists l; split; [exact Hl'|]|split; [exists i; split; [exact Hi'|]|]].
    - unfold svc_view. cbn [app alookup]. fold lim. rewrite str_eqb_refl. unfold get_default. rewrite Hl'. reflexivity.
    - unfold svc_view. cbn [app alookup]. fold lim itv. rewrite (str_eqb_neq lim itv Hli), str_eqb_refl.
      unfold get_default. rewrite Hi'. reflexivity.
    - apply Hoth; intros ->; [apply Hl|apply Hi]; exact Hk.
  Qed.

  Lemma svc_blk_ok : blk_ok (app_csch T) (svc_view T) (svc_blk T) svc_ok.
  Proof.
    intros o s d Hok Hd. destruct (svc_view_rst s Hok) as [[l [Hrl Hvl]] [[i [Hri Hvi]] Hrk]].
    apply (blk_ok_app svcsch (tl R) sv_fields (rst_of T) (svc_view T) svc_ok (proj1 (wf_schema_spec _ Hcwf))
             (fun x f _ => svc_view_field x f)) with (o := o) (x := s); [|exact Hok|].
    - intros x f Hx Hf. destruct (svc_view_rst x Hx) as [[l' [Hrl' Hvl']] [[i' [Hri' Hvi']] _]].
      rewrite Hrs in Hf. destruct Hf as [<-|[<-|[]]]; cbn [fst snd]; congruence.
    - rewrite <- Hd. unfold svc_blk. fold svcsch R. destruct (d2e (rename_opt svcsch o) (sv_fields s)); [|reflexivity].
      (* the name row of the restart schema assigns nothing: the restart dict has no name *)
      unfold d2e. rewrite Hrs. cbn [rename_opt map tl d2e_loop fst snd]. rewrite Hrk. reflexivity.
  Qed.

  Lemma svc_typed_spec s : svc_typed T s = true ->
    obj_typed2 svcsch (sv_fields s) = true /\ (exists n, alookup (sv_fields s) key = Some (FStr n)) /\ svc_ok s.
  Proof.
    unfold svc_typed, item_typed, has_str_key. fold key svcsch. intros H. apply andb_true_iff in H as [H Hr].
    apply andb_true_iff in H as [Hf Hk]. split; [exact Hf|]. split; [|exact Hr].
    destruct (alookup (sv_fields s) key) as [[|n| | | | |]|]; try discriminate. exists n. reflexivity.
  Qed.

  Lemma svc_blk_total o s : svc_typed T s = true -> exists d, svc_blk T o s = Some d.
  Proof.
    intros Hs. destruct (svc_typed_spec s Hs) as [Hf [_ Hr]]. unfold svc_blk. fold svcsch R.
    destruct (d2e_total (rename_opt svcsch o) (sv_fields s)) as [se ->]; [rewrite obj_typed2_rename; exact Hf|].
    destruct (svc_view_rst s Hr) as [[l [Hrl _]] [[i [Hri _]] Hrk]].
    destruct (d2e_total (rename_opt R o) (rst_of T s)) as [re ->]; [|eexists; reflexivity].
    rewrite obj_typed2_rename, Hrs. cbn [obj_typed2 forallb]. rewrite Hrk, Hrl, Hri. reflexivity.
  Qed.

  Variable a : appo.
  Let ss := items_or_nil (ap_services a).
  Hypothesis Hbase : obj_typed2 (lt_app T) (ap_base a) = true.
  Hypothesis Heph : eph_typed T (ap_eph a) = true.
  Hypothesis Hty : forall s, In s ss -> svc_typed T s = true.
  Hypothesis Hnames : NoDup (map (svc_name T) ss).
  Hypothesis Hep : items_typed (lt_app_ep T) (ap_endpoints a) = true.
  Hypothesis Henv : items_typed (lt_app_env T) (ap_environ a) = true.
  Hypothesis Haff : int_map (items_or_nil (ap_affinity a)) = true.
  Hypothesis Hvr : vring_typed T (ap_vring a) = true.

  Lemma svc_write E0 secs : layout_ok E0 secs -> no_clash (ls_lprefix (lt_app_svc T)) (map l_lp secs) ->
    exists E1 sorted, app_services_entry T ss E0 = oret E1 /\ Permutation sorted ss /\
      layout_ok E1 (secs ++ [svc_sec T sorted]) /\ writes (app_csch T) (svc_hx T sorted) E0 E1.
  Proof.
    intros Hlay Hclash.
    destruct csch_facts as [_ [_ [_ [_ [Hk Hattr]]]]]. pose proof (in_active_attrs _ _ _ _ Hk) as Ha0.
    destruct (list_spec_ok_spec _ _ _ Hls) as [[_ [_ Hall]] [_ [_ [Hlp [Hp _]]]]]. fold svcsch in Hall.
    destruct (keys_of_ok key (map sv_fields ss)) as [ks [Hks Hlen]].
    { apply forallb_forall. intros x Hx. apply in_map_iff in Hx as [s [<- Hs]].
      destruct (svc_typed_spec s (Hty s Hs)) as [_ [[n Hn] _]]. unfold has_str_key. rewrite Hn. reflexivity. }
    rewrite map_length in Hlen. unfold app_services_entry. fold key svcsch R. rewrite Hks. cbn [oret obind].
    pose proof (sort_by_key_perm ks ss Hlen) as Hperm.
    destruct (sort_by_key ks ss) as [|s0 r0] eqn:Es.
    - (* no service: _empty_list_entry *)
      exists (eupdate E0 (empty_list_entry (svcsch ++ R))), []. split; [reflexivity|]. split; [exact Hperm|].
      assert (Hw : writes (app_csch T) [] E0 (eupdate E0 (empty_list_entry (svcsch ++ R)))).
      { apply eupdate_writes; [apply Hlay|]. apply empty_list_writes. intros k Hk'. rewrite csch_attrs, Hall.
        rewrite map_app in Hk'. apply in_app_or in Hk' as [Hk'|Hk']; apply in_or_app; [left; exact Hk'|].
        rewrite Hrs in Hk'. destruct Hk' as [<-|Hk']; [left; rewrite <- Hall; exact Ha0|right; exact Hk']. }
      split; [|exact Hw]. apply (layout_ext E0 _ secs _ _ [] Hlay Hw Hattr (NoDup_nil _)); [intros o x []|exact Hclash].
    - rewrite <- Es in *. clear Es s0 r0. set (sorted := sort_by_key ks ss) in *.
      rewrite svc_blocks_oblocks. set (hx := number (ls_prefix (lt_app_svc T)) 0 sorted).
      assert (Hhx : forall o s, In (o, s) hx -> svc_typed T s = true /\ ~ In 59 o /\ is_prefix (ls_lprefix (lt_app_svc T)) o = true).
      { intros o s Hin. destruct (number_in _ _ _ _ _ Hin) as [i [_ [-> Hs]]]. split; [exact (Hty s (Permutation_in _ Hperm Hs))|].
        split; [apply opt_name_no_semicolon; exact Hp|apply is_prefix_opt_name; exact Hlp]. }
      destruct (oblocks_total (svc_blk T) hx) with (acc := E0) as [E1 HE1].
      { intros o s Hin. apply svc_blk_total, (Hhx o s Hin). }
      exists E1, sorted. rewrite HE1. split; [reflexivity|]. split; [exact Hperm|].
      assert (Hw : writes (app_csch T) (svc_hx T sorted) E0 E1).
      { apply (oblocks_spec (app_csch T) (svc_view T) (svc_blk T) svc_ok svc_blk_ok (fun a Ha => proj1 (Hattr a Ha)) hx E0 E1 HE1
                 (proj1 Hlay) (number_nodup _ _ _)). intros o s Hin. apply (svc_typed_spec s), (Hhx o s Hin). }
      split; [|exact Hw]. apply (layout_ext E0 E1 secs _ _ _ Hlay Hw Hattr); [unfold svc_hx; rewrite vmap_fst; apply number_nodup| |exact Hclash].
      intros o x Hin. apply in_map_iff in Hin as [[o' s] [Heq Hin]]. inversion Heq; subst. apply (Hhx o s Hin).
  Qed.

  Let nfF (s : svc) : obj := nf_base svcsch (sv_fields s).
  Let nfR (s : svc) : obj := nf_base R (svc_view T s).

  Lemma nfR_eq s : In s ss -> exists n l i, alookup (svc_view T s) key = Some (FStr n) /\
    nfR s = [(key, FStr n); (lim, FInt l); (itv, FInt i)] /\ nf_restart T s = [(lim, FInt l); (itv, FInt i)] /\
    alookup (nfF s) key = Some (FStr n) /\ svc_name T s = n.
  Proof.
    intros Hs. destruct (svc_typed_spec s (Hty s Hs)) as [_ [[n Hn] Hok]].
    destruct (svc_view_rst s Hok) as [[l [Hrl Hvl]] [[i [Hri Hvi]] _]].
    destruct csch_facts as [Hnf [_ [_ [_ [Hk _]]]]].
    pose proof (svc_view_field s key (in_active_fields _ _ _ _ Hk)) as Hvk. rewrite Hn in Hvk.
    exists n, l, i. split; [exact Hvk|]. split; [|split; [|split]].
    - unfold nfR, nf_base. rewrite Hrs. cbn [active flat_map app fst snd]. rewrite Hvk, Hvl, Hvi. reflexivity.
    - unfold nf_restart. fold (rst_of T s). fold lim itv. unfold get_default. rewrite Hrl, Hri. reflexivity.
    - unfold nfF. rewrite (alookup_nf_base svcsch _ a0 key TStr Hnf Hk), Hn. reflexivity.
    - unfold svc_name. fold key. rewrite Hn. reflexivity.
  Qed.

  Lemma merge_one_spec s : In s ss -> forall rl cur, (forall r, In r rl -> exists s', In s' ss /\ r = nfR s') ->
    merge_one T (nfF s) rl cur = oret (if existsb (fun r => match alookup r key with Some (FStr n) => str_eqb n (svc_name T s) | _ => false end) rl
                                      then Some (nf_restart T s) else cur).
  Proof.
    intros Hs. destruct (nfR_eq s Hs) as [n [l [i [_ [HR' [Hrst [HF Hname]]]]]]].
    destruct csch_facts as [_ [Hl [Hi [Hli [Hk _]]]]]. apply in_active_fields in Hk.
    assert (Hkl : key <> lim) by (intros Heq; apply Hl; rewrite <- Heq; exact Hk).
    assert (Hki : key <> itv) by (intros Heq; apply Hi; rewrite <- Heq; exact Hk).
    induction rl as [|r rl IH]; intros cur Hrl; [reflexivity|]. cbn [merge_one existsb]. fold key lim itv.
    destruct (Hrl r (or_introl eq_refl)) as [s' [Hs' ->]].
    destruct (nfR_eq s' Hs') as [n' [l' [i' [_ [HR'' [Hrst' [_ Hname']]]]]]].
    rewrite HR''. cbn [alookup]. rewrite str_eqb_refl, HF.
    rewrite (str_eqb_neq key lim Hkl), (str_eqb_neq key itv Hki), (str_eqb_neq lim itv Hli), !str_eqb_refl. cbn [alookup].
    rewrite Hname in IH |- *. destruct (str_eqb n' n) eqn:E.
    - apply str_eqb_eq in E. rewrite (proj2 (fval_eqb_str n' n) E). cbn [orb].
      assert (s' = s) by (apply (nodup_map_inj (svc_name T) ss); [exact Hnames|exact Hs'|exact Hs|congruence]). subst s'.
      rewrite IH by (intros r Hr; apply Hrl; right; exact Hr).
      rewrite Hrst in Hrst'. inversion Hrst'; subst l' i'. rewrite Hrst.
      match goal with |- context [existsb ?f rl] => destruct (existsb f rl) end; reflexivity.
    - assert (Hneq : fval_eqb (FStr n') (FStr n) = false).
      { destruct (fval_eqb (FStr n') (FStr n)) eqn:E'; [|reflexivity]. apply fval_eqb_str in E'. rewrite E', str_eqb_refl in E. discriminate. }
      rewrite Hneq. cbn [orb]. apply IH. intros r Hr. apply Hrl. right. exact Hr.
  Qed.

  Lemma merge_restarts_spec rl : Permutation rl (map nfR ss) ->
    forall l, (forall s, In s l -> In s ss) -> merge_restarts T (map nfF l) rl = oret (map (nf_svc T) l).
  Proof.
    intros Hp. assert (Hrl : forall r, In r rl -> exists s', In s' ss /\ r = nfR s').
    { intros r Hr. apply (Permutation_in _ Hp) in Hr. apply in_map_iff in Hr as [s' [<- Hs']]. exists s'. split; [exact Hs'|reflexivity]. }
    induction l as [|s l IH]; intros Hl; [reflexivity|]. cbn [map merge_restarts].
    assert (Hs : In s ss) by (apply Hl; left; reflexivity).
    rewrite (merge_one_spec s Hs rl None Hrl).
    assert (Hex : existsb (fun r => match alookup r key with Some (FStr n) => str_eqb n (svc_name T s) | _ => false end) rl = true).
    { apply existsb_exists. exists (nfR s). split; [eapply Permutation_in; [apply Permutation_sym; exact Hp|apply in_map; exact Hs]|].
      destruct (nfR_eq s Hs) as [n [l' [i' [_ [HR' [_ [_ Hname]]]]]]]. rewrite HR'. cbn [alookup]. rewrite str_eqb_refl, Hname. apply str_eqb_refl. }
    rewrite Hex. cbn [oret obind]. rewrite IH by (intros s' Hs'; apply Hl; right; exact Hs'). reflexivity.
  Qed.

  Lemma svc_section_read E secs sorted isch : layout_ok E secs -> In (svc_sec T sorted) secs -> Permutation sorted ss ->
    isch_ok isch -> (forall r, In r (active isch) -> In r (active (app_csch T))) ->
    (forall s, In s ss -> obj_typed2 isch (svc_view T s) = true) ->
    grouped_list (remove_empty E) (ls_lprefix (lt_app_svc T)) isch
    = Ok (sort_by item_lt (map (fun s => nf_base isch (svc_view T s)) sorted)).
  Proof.
    intros Hlay HL Hperm Hiok Hsub Hvt. destruct csch_facts as [_ [_ [_ [_ [Hk _]]]]].
    pose proof (multi_read E secs (svc_sec T sorted) isch Hlay HL Hiok Hsub) as Hread. cbn [svc_sec l_lp l_hx l_csch] in Hread.
    rewrite Hread.
    - unfold svc_hx, vmap. rewrite map_map. cbn [snd]. rewrite <- (map_map snd (fun s => nf_base isch (svc_view T s))), number_snd. reflexivity.
    - intros o x Hin. apply in_map_iff in Hin as [[o' s] [Heq Hin]]. inversion Heq; subst o x. cbn [snd].
      destruct (number_in _ _ _ _ _ Hin) as [_ [_ [_ Hs]]]. apply (Permutation_in _ Hperm) in Hs. split; [exact (Hvt s Hs)|].
      destruct (nfR_eq s Hs) as [n [_ [_ [Hvk _]]]].
      exists a0, key, TStr, (EStr n), []. split; [rewrite csch_active; apply in_or_app; left; exact Hk|].
      unfold row_assigned2. rewrite Hvk. reflexivity.
  Qed.

  Theorem svc_read E secs sorted : layout_ok E secs -> In (svc_sec T sorted) secs -> Permutation sorted ss ->
    exists SV RL, grouped_list (remove_empty E) (ls_lprefix (lt_app_svc T)) svcsch = Ok SV /\
      grouped_list (remove_empty E) (ls_lprefix (lt_app_svc T)) R = Ok RL /\
      merge_restarts T SV RL = oret (sort_by svc_lt (map (nf_svc T) ss)).
  Proof.
    intros Hlay HL Hperm. destruct csch_facts as [Hnf [Hl [Hi [Hli [Hk _]]]]].
    destruct (list_spec_ok_spec _ _ _ Hls) as [_ [Hiok _]]. fold svcsch in Hiok.
    assert (HactR : active R = [(a0, (key, TStr)); (a1, (lim, TInt)); (a2, (itv, TInt))]) by (rewrite Hrs; reflexivity).
    assert (Hfty : forall s, In s ss -> obj_typed2 svcsch (sv_fields s) = true) by (intros s Hs; apply (svc_typed_spec s (Hty s Hs))).
    exists (sort_by item_lt (map nfF ss)), (sort_by item_lt (map nfR sorted)). split; [|split].
    - rewrite (svc_section_read E secs sorted svcsch Hlay HL Hperm Hiok).
      + f_equal. rewrite (map_ext _ nfF) by (intros s; apply nf_base_ext, svc_view_field).
        apply (items_sort_canon svcsch); [|apply Permutation_map; exact Hperm].
        apply Forall_forall. intros x Hx. apply in_map_iff in Hx as [s [<- Hs]].
        apply nf_item_P; [exact Hiok|exact (Hfty s (Permutation_in _ Hperm Hs))].
      + intros r Hr. rewrite csch_active. apply in_or_app. left. exact Hr.
      + intros s Hs. exact (obj_typed2_ext svcsch _ _ (svc_view_field s) (Hfty s Hs)).
    - apply (svc_section_read E secs sorted R Hlay HL Hperm).
      + split.
        * apply in_active_fields in Hk. unfold fields. rewrite HactR. cbn [map fst snd].
          constructor; [intros [<-|[<-|[]]]; [exact (Hl Hk)|exact (Hi Hk)]|].
          constructor; [intros [H|[]]; exact (Hli (eq_sym H))|]. constructor; [intros []|constructor].
        * intros a' f t Hin. rewrite HactR in Hin. destruct Hin as [H|[H|[H|[]]]]; inversion H; reflexivity.
      + intros r Hr. rewrite csch_active. rewrite HactR in Hr.
        destruct Hr as [<-|Hr]; apply in_or_app; [left; exact Hk|right; exact Hr].
      + intros s Hs. destruct (nfR_eq s Hs) as [n [_ [_ [Hvk _]]]]. destruct (svc_typed_spec s (Hty s Hs)) as [_ [_ Hok]].
        destruct (svc_view_rst s Hok) as [[l [_ Hvl]] [[i [_ Hvi]] _]].
        rewrite Hrs. cbn [obj_typed2 forallb]. rewrite Hvk, Hvl, Hvi. reflexivity.
    - rewrite <- (sort_by_map nfF (fun a b => item_lt (nfF a) (nfF b)) item_lt (fun a b => eq_refl)).
      rewrite (merge_restarts_spec _ (Permutation_trans (sort_by_perm item_lt _) (Permutation_map nfR Hperm)))
        by (intros s Hs; eapply Permutation_in; [apply sort_by_perm|exact Hs]).
      rewrite (sort_by_map (nf_svc T) (fun a b => item_lt (nfF a) (nfF b)) svc_lt); [reflexivity|]. intros x y. reflexivity.
  Qed.

  Lemma app_base_typed : obj_typed2 (lt_app T) (app_base T a) = true.
  Proof.
    destruct (wf_schema_spec _ Hwf) as [_ [Hnf _]].
    destruct (row_is_spec _ _ _ Htcpf) as [at_ Hat]. destruct (row_is_spec _ _ _ Hudpf) as [au Hau].
    pose proof Heph as He. revert He. unfold app_base, eph_typed. destruct (ap_eph a) as [m|]; [|intros _; exact Hbase].
    cbn [forallb]. intros He. apply andb_true_iff in He as [H1 H2]. apply andb_true_iff in H2 as [H2 _].
    assert (Hint : forall k, match alookup m k with None | Some FNone | Some (FInt _) => true | _ => false end = true ->
              ftyped2 TInt (get_default m k (FInt (lt_app_eph_default T))) = true).
    { intros k Hk. unfold get_default. destruct (alookup m k) as [[| | | | | |]|]; try discriminate; reflexivity. }
    apply obj_typed2_aset; [apply obj_typed2_aset; [exact Hbase|]|].
    - intros a' t Hin. rewrite (field_type_unique _ _ _ _ _ _ Hnf Hin Hat). apply Hint. exact H1.
    - intros a' t Hin. rewrite (field_type_unique _ _ _ _ _ _ Hnf Hin Hau). apply Hint. exact H2.
  Qed.

  Lemma vr_typed :
    obj_typed2 (lt_app_vr_schema T) (vr_obj T a) = true /\ items_typed (lt_app_vr T) (Some (vr_rules_of a)) = true /\
    exists cells, nf_base (lt_app_vr_schema T) (vr_obj T a) = [(lt_app_vr_cells T, FStrs cells)] /\
      cells = match ap_vring a with
              | Some v => if vring_truthy v then match vr_cells v with Some (FStrs l) => l | _ => [] end else []
              | None => []
              end.
  Proof.
    pose proof Hvr as H. revert H. unfold vr_obj, vr_rules_of, nf_base, vring_typed, vring_obj. rewrite Hvrs.
    cbn [obj_typed2 forallb active flat_map fst snd app].
    destruct (ap_vring a) as [v|]; [destruct (vring_truthy v)|]; intros H;
      try (split; [reflexivity|split; [reflexivity|exists []; split; reflexivity]]).
    apply andb_true_iff in H as [Hcells Hrules]. split; [|split; [exact Hrules|]].
    - destruct (vr_cells v) as [c|]; cbn [alookup]; [rewrite str_eqb_refl; destruct c; try discriminate; reflexivity|reflexivity].
    - destruct (vr_cells v) as [c|]; cbn [alookup]; [|exists []; split; reflexivity].
      rewrite str_eqb_refl. destruct c as [| | | |l| |]; try discriminate; [exists []; split; reflexivity|].
      destruct l; eexists; split; reflexivity.
  Qed.

  Lemma vr_attr k : In k (attrs (lt_app_vr_schema T)) -> plain_key k.
  Proof. unfold attrs. rewrite Hvrs. intros [<-|[]]. exact Hav. Qed.

  (** the last step: for a vring that is not empty, its attribute (a second plain schema), then its rules *)
  Lemma vring_write E4 secs :
    layout_ok E4 secs -> no_clash (ls_lprefix (lt_app_vr T)) (map l_lp secs) -> base_rows (lt_app_vr_schema T) [] E4 ->
    exists E5 E svr,
      match ap_vring a with
      | Some v => if vring_truthy v
                  then obind (olift (d2e (lt_app_vr_schema T) (vring_obj T v)))
                         (fun dv => update_obj_list (lt_app_vr T) (vr_rules v) (eupdate E4 dv))
                  else oret E4
      | None => oret E4
      end = oret E /\
      Permutation svr (vr_rules_of a) /\ layout_ok E (secs ++ [lsec_of (lt_app_vr T) svr]) /\
      writes (lt_app_vr_schema T) [] E4 E5 /\ writes (ls_schema (lt_app_vr T)) (number (ls_prefix (lt_app_vr T)) 0 svr) E5 E /\
      base_rows (lt_app_vr_schema T) (vr_obj T a) E5.
  Proof.
    intros Hlay Hclash HV4. destruct vr_typed as [Hvot [Hvrt _]].
    unfold vr_obj, vr_rules_of in *. destruct (ap_vring a) as [v|]; [destruct (vring_truthy v)|].
    1: { destruct (d2e_total _ _ Hvot) as [Dv HDv]. rewrite HDv. cbn [olift oret obind].
         assert (HnaV : NoDup (attrs (lt_app_vr_schema T))) by (unfold attrs; rewrite Hvrs; constructor; [intros []|constructor]).
         destruct (d2e_rows_update _ _ Dv E4 HnaV HDv (proj1 Hlay) HV4) as [Hw5 HV5].
         destruct (layout_add_list (eupdate E4 Dv) _ (lt_app T) (lt_app_vr T) (vr_rules v) (layout_plain _ _ _ _ Hlay Hw5 vr_attr) Hl_vr Hvrt Hclash)
           as [E6 [svr [HE6 [Hpvr [Hlay6 Hw6]]]]].
         exists (eupdate E4 Dv), E6, svr. repeat (split; [assumption|]). exact HV5. }
    all: exists E4, E4, []; split; [reflexivity|]; split; [apply Permutation_refl|]; pose proof (writes_refl (ls_schema (lt_app_vr T)) E4 (proj1 Hlay)) as Hw;
      split; [|split; [apply writes_refl, Hlay|split; [exact Hw|exact HV4]]];
      apply (layout_ext E4 E4 _ _ _ [] Hlay Hw); [apply (list_spec_ok_spec _ _ _ Hl_vr)|constructor|intros o x []|exact Hclash].
  Qed.

  Lemma app_write : exists E ssv sep senv saff svr,
    app_to_entry T a = oret E /\
    Permutation ssv ss /\ Permutation sep (items_or_nil (ap_endpoints a)) /\
    Permutation senv (items_or_nil (ap_environ a)) /\ Permutation saff (affinity_items T (items_or_nil (ap_affinity a))) /\
    Permutation svr (vr_rules_of a) /\
    layout_ok E [svc_sec T ssv; lsec_of (lt_app_ep T) sep; lsec_of (lt_app_env T) senv; lsec_of (lt_app_aff T) saff;
                 lsec_of (lt_app_vr T) svr] /\
    base_rows (lt_app T) (app_base T a) E /\ base_rows (lt_app_vr_schema T) (vr_obj T a) E.
  Proof.
    destruct (wf_schema_spec _ Hwf) as [_ [_ Hattr]].
    (* the two plain schemas keep their rows through every list: no attribute belongs to two of the tables *)
    assert (Hkeep : forall X hx E E' sch o, In X [app_csch T; ls_schema (lt_app_ep T); ls_schema (lt_app_env T); ls_schema (lt_app_aff T);
                                                   ls_schema (lt_app_vr T)] ->
              In sch [lt_app T; lt_app_vr_schema T] -> writes X hx E E' -> base_rows sch o E -> base_rows sch o E').
    { intros X hx E E' sch o HX Hs Hw Hb. apply (base_rows_writes _ _ _ _ _ _ Hb Hw); destruct Hs as [<-|[<-|[]]].
      - intros k Hk. apply Hattr. exact Hk.
      - intros k Hk. apply (vr_attr k Hk).
      - destruct HX as [<-|[<-|[<-|[<-|[<-|[]]]]]]; [exact (disjoint_attrs_spec _ _ Hcdis)|exact (list_spec_disjoint _ _ _ Hl_ep)
          |exact (list_spec_disjoint _ _ _ Hl_env)|exact (list_spec_disjoint _ _ _ Hl_aff)|exact (list_spec_disjoint _ _ _ Hl_vr)].
      - exact (disjoint_attrs_spec X _ (pairwise_before _ [_; _; _; _; _] _ _ Hpdis X HX)). }
    (* the class schema, then services, endpoints, environ, affinity limits, vring *)
    destruct (base_layout (lt_app T) (app_base T a) Hwf app_base_typed) as [E0 [HE0 [Hlay0 [HA0 Hoth0]]]].
    assert (HV0 : base_rows (lt_app_vr_schema T) [] E0).
    { intros a' f t Hin. apply Hoth0. intros Hin'. exact (disjoint_attrs_spec _ _ Hvdis a' (in_active_attrs _ _ _ _ Hin) Hin'). }
    destruct (svc_write E0 [] Hlay0 (fun lp' (H : In lp' []) => match H with end)) as [E1 [ssv [HE1 [Hpsv [Hlay1 Hw1]]]]].
    destruct (layout_add_list E1 _ (lt_app T) (lt_app_ep T) (ap_endpoints a) Hlay1 Hl_ep Hep
                (clash_free [_] _ (pairwise_before _ [_] _ _ Hnoclash))) as [E2 [sep [HE2 [Hpep [Hlay2 Hw2]]]]].
    destruct (layout_add_list E2 _ (lt_app T) (lt_app_env T) (ap_environ a) Hlay2 Hl_env Henv
                (clash_free [_; _] _ (pairwise_before _ [_; _] _ _ Hnoclash))) as [E3 [senv [HE3 [Hpenv [Hlay3 Hw3]]]]].
    destruct (layout_add_list E3 _ (lt_app T) (lt_app_aff T) _ Hlay3 Hl_aff (aff_items_typed T _ Haffs Haff)
                (clash_free [_; _; _] _ (pairwise_before _ [_; _; _] _ _ Hnoclash))) as [E4 [saff [HE4 [Hpaff [Hlay4 Hw4]]]]].
    cbn [items_or_nil] in Hpaff.
    assert (H04 : forall sch o, In sch [lt_app T; lt_app_vr_schema T] -> base_rows sch o E0 -> base_rows sch o E4).
    { intros sch o Hs Hb. apply (Hkeep _ _ _ _ _ _ (or_intror (or_intror (or_intror (or_introl eq_refl)))) Hs Hw4),
        (Hkeep _ _ _ _ _ _ (or_intror (or_intror (or_introl eq_refl))) Hs Hw3), (Hkeep _ _ _ _ _ _ (or_intror (or_introl eq_refl)) Hs Hw2),
        (Hkeep _ _ _ _ _ _ (or_introl eq_refl) Hs Hw1), Hb. }
    destruct (vring_write E4 _ Hlay4 (clash_free [_; _; _; _] _ (pairwise_before _ [_; _; _; _] _ _ Hnoclash))
                (H04 _ _ (or_intror (or_introl eq_refl)) HV0)) as [E5 [E [svr [HE [Hpvr [Hlay [Hw5 [Hw6 HV5]]]]]]]].
    unfold app_to_entry, base_to_entry. rewrite HE0. cbn [olift oret obind]. fold ss. rewrite HE1. cbn [oret obind].
    rewrite HE2. cbn [oret obind]. rewrite HE3. cbn [oret obind]. rewrite HE4. cbn [oret obind]. rewrite HE.
    exists E, ssv, sep, senv, saff, svr. repeat (split; [first [reflexivity|assumption]|]). split.
    - apply (Hkeep _ _ _ _ _ _ (or_intror (or_intror (or_intror (or_intror (or_introl eq_refl))))) (or_introl eq_refl) Hw6).
      apply (base_rows_writes _ _ _ _ _ _ (H04 _ _ (or_introl eq_refl) HA0) Hw5 (fun k Hk => proj1 (Hattr k Hk)) (disjoint_attrs_spec _ _ Hvdis)).
    - exact (Hkeep _ _ _ _ _ _ (or_intror (or_intror (or_intror (or_intror (or_introl eq_refl))))) (or_intror (or_introl eq_refl)) Hw6 HV5).
  Qed.

  Theorem app_store_load_nf : app_store_load T a = Some (Ok (app_nf T a)).
  Proof.
    destruct app_write as [E [ssv [sep [senv [saff [svr [HE [Hpsv [Hpep [Hpenv [Hpaff [Hpvr [Hlay [HA HV]]]]]]]]]]]]]].
    destruct (wf_schema_spec _ Hwf) as [_ [Hnf _]].
    destruct vr_typed as [Hvot [Hvrt [cells [Hvd Hcells]]]].
    set (d := items_or_nil (ap_affinity a)) in *.
    (* what from_entry reads: the class schema, the services with their restart settings, the lists, the vring attribute *)
    pose proof (base_read T _ _ E _ Hlay Hc Hm Hnf app_base_typed HA) as R1.
    destruct (svc_read E _ ssv Hlay (or_introl eq_refl) Hpsv) as [SV [RL [R2 [R3 HM]]]]. unfold svcsch in R2. unfold R in R3.
    pose proof (read_list E _ _ _ sep (ap_endpoints a) Hlay (or_intror (or_introl eq_refl)) Hl_ep Hep Hpep) as R4.
    pose proof (read_list E _ _ _ senv (ap_environ a) Hlay (or_intror (or_intror (or_introl eq_refl))) Hl_env Henv Hpenv) as R5.
    pose proof (read_list E _ _ _ saff (Some (affinity_items T d)) Hlay (or_intror (or_intror (or_intror (or_introl eq_refl)))) Hl_aff
                  (aff_items_typed T d Haffs Haff) Hpaff) as R6.
    pose proof (read_list E _ _ _ svr (Some (vr_rules_of a)) Hlay (or_intror (or_intror (or_intror (or_intror (or_introl eq_refl))))) Hl_vr
                  Hvrt Hpvr) as R7.
    assert (R8 : entry_2_dict (lt_app_vr_schema T) (remove_empty E) = Ok (nf_base (lt_app_vr_schema T) (vr_obj T a))).
    { apply (rows_read _ _ E (proj1 Hlay)); [unfold fields; rewrite Hvrs; cbn; constructor; [intros []|constructor]|exact Hvot|exact HV]. }
    cbn [items_or_nil] in R6, R7.
    unfold app_store_load. rewrite HE. cbn [oret obind]. unfold app_from_entry.
    rewrite R1, R2, R3, R4, R5, R6, R7, R8. cbn [rlift obind]. rewrite HM, (affinity_rt T d Haffs Haff). cbn [oret obind].
    rewrite Hvd. cbn [alookup]. rewrite str_eqb_refl.
    unfold oret. do 2 f_equal. unfold app_nf. fold ss d.
    rewrite (vring_final cells (nf_items (ls_schema (lt_app_vr T)) (vr_rules_of a))).
    assert (Hrules : nf_items (ls_schema (lt_app_vr T)) (vr_rules_of a)
                     = match ap_vring a with
                       | Some v => if vring_truthy v then nf_items (ls_schema (lt_app_vr T)) (items_or_nil (vr_rules v)) else []
                       | None => []
                       end).
    { unfold vr_rules_of. destruct (ap_vring a) as [v|]; [destruct (vring_truthy v)|]; reflexivity. }
    rewrite <- Hrules, <- Hcells. reflexivity.
  Qed.
End App.

(** * 23. Application: the check of the tables gives those properties *)
Theorem app_rt T a : app_tables_ok T = true -> app_typed T a = true -> app_store_load T a = Some (Ok (app_nf T a)).
Proof.
  unfold app_tables_ok, app_typed. intros HT Hty.
  (* conjunct by conjunct: a rewrite with andb_true_iff through the whole check is dear *)
  apply andb_prop in HT as [HT Hvdis]. apply andb_prop in HT as [HT Hvshape].
  apply andb_prop in HT as [HT _]. apply andb_prop in HT as [HT _].
  apply andb_prop in HT as [HT Hudpf]. apply andb_prop in HT as [HT Htcpf].
  apply andb_prop in HT as [HT Haffshape]. apply andb_prop in HT as [HT Hdflt].
  apply andb_prop in HT as [HT Hrshape]. apply andb_prop in HT as [HT _].
  apply andb_prop in HT as [HT Hcdis]. apply andb_prop in HT as [HT _].
  apply andb_prop in HT as [HT Hcwf]. apply andb_prop in HT as [HT Hpdis].
  apply andb_prop in HT as [HT Hnoclash]. apply andb_prop in HT as [HT Hlists].
  apply andb_prop in HT as [HT Hwf]. apply andb_prop in HT as [Hc Hm].
  cbn [app_lists forallb] in Hlists. apply andb_prop in Hlists as [Hl_svc [Hl_ep [Hl_env [Hl_aff [Hl_vr _]%andb_prop]%andb_prop]%andb_prop]%andb_prop].
  apply andb_prop in Hty as [[[[[[[Hbase Heph]%andb_prop Hsvcs]%andb_prop Hnames]%andb_prop Hep]%andb_prop Henv]%andb_prop Haff]%andb_prop Hvr].
  rewrite forallb_forall in Hsvcs. apply keys_nodup_NoDup in Hnames.
  assert (Hrs : exists a0 a1 a2 rest,
            lt_app_rst_schema T = [(a0, (Some (ls_key (lt_app_svc T)), TStr)); (a1, (Some (lt_app_rst_limit T), TInt));
                                   (a2, (Some (lt_app_rst_interval T), TInt))] /\
            ls_schema (lt_app_svc T) = (a0, (Some (ls_key (lt_app_svc T)), TStr)) :: rest).
  { clear - Hrshape. destruct (lt_app_rst_schema T) as [|[a0 [[f0|] t0]] r0]; try discriminate. destruct t0; try discriminate.
    destruct r0 as [|[a1 [[f1|] t1]] r1]; try discriminate. destruct t1; try discriminate.
    destruct r1 as [|[a2 [[f2|] t2]] r2]; try discriminate. destruct t2; try discriminate.
    destruct r2; try discriminate.
    destruct (ls_schema (lt_app_svc T)) as [|[b0 [[g0|] u0]] rest]; try discriminate. destruct u0; try discriminate.
    apply andb_prop in Hrshape as [[[[H1 H2]%andb_prop H3]%andb_prop H4]%andb_prop H5]. apply str_eqb_eq in H1, H2, H3, H4, H5. subst.
    exists b0, a1, a2, rest. split; reflexivity. }
  assert (Hd : exists l i, default_restart T = [(lt_app_rst_limit T, FInt l); (lt_app_rst_interval T, FInt i)]).
  { clear - Hdflt. unfold default_restart. destruct (lt_app_default_restart T) as [|[x l] [|[y i] [|]]]; try discriminate.
    apply andb_true_iff in Hdflt as [H1 H2]. apply str_eqb_eq in H1, H2. subst. exists l, i. reflexivity. }
  assert (Haffs : aff_shape T).
  { pose proof (proj1 (proj1 (proj2 (list_spec_ok_spec _ _ _ Hl_aff)))) as Hnfa. clear - Hnfa Haffshape. unfold aff_shape, fields in *.
    destruct (ls_schema (lt_app_aff T)) as [|[r0 [[f0|] t0]] r]; try discriminate. destruct t0; try discriminate.
    destruct r as [|[r1 [[f1|] t1]] r']; try discriminate. destruct t1; try discriminate. destruct r'; try discriminate.
    apply andb_prop in Haffshape as [[H1 H2]%andb_prop H3]. apply str_eqb_eq in H1, H2, H3. subst.
    split; [exists r0, r1; reflexivity|]. split; [symmetry; exact H3|].
    cbn in Hnfa. inversion Hnfa as [|x l Hx _]; subst. intros Heq. apply Hx. left. symmetry. exact Heq. }
  assert (Hvrs : exists av, lt_app_vr_schema T = [(av, (Some (lt_app_vr_cells T), TListStr))] /\ plain_key av).
  { clear - Hvshape. destruct (lt_app_vr_schema T) as [|[av [[f|] t]] r]; try discriminate. destruct t; try discriminate. destruct r; try discriminate.
    apply andb_prop in Hvshape as [[H1 H2]%andb_prop H3]. apply str_eqb_eq in H1, H3. subst.
    exists av. split; [reflexivity|]. split; [apply no_semicolon_spec; exact H2|exact H3]. }
  destruct Hrs as [a0 [a1 [a2 [rest [Hrs Hsv]]]]]. destruct Hd as [l0 [i0 Hd]]. destruct Hvrs as [av [Hvrs Hav]].
  eapply (app_store_load_nf T a0 a1 a2 av rest l0 i0); eassumption.
Qed.

(** * 24. Normal forms are normal: typed again, and unchanged by a second store + load *)
Lemma nf_items_in isch items y : In y (nf_items isch items) -> exists x, In x items /\ y = nf_base isch x.
Proof.
  intros Hy. apply (Permutation_in _ (sort_by_perm item_lt _)) in Hy. apply in_map_iff in Hy as [x [<- Hx]].
  exists x. split; [exact Hx|reflexivity].
Qed.

Theorem nf_items_idem isch items : isch_ok isch -> forallb (obj_typed2 isch) items = true ->
  nf_items isch (nf_items isch items) = nf_items isch items.
Proof.
  intros Hok Hty. unfold nf_items at 1. rewrite (map_ext_in _ (fun y => y)), map_id.
  - apply (items_sort_idem isch). apply items_P; assumption.
  - intros y Hy. destruct (nf_items_in isch items y Hy) as [x [Hx ->]]. rewrite forallb_forall in Hty.
    apply nf_base_idem; [apply Hok|apply Hty; exact Hx].
Qed.

Lemma nf_items_typed isch items : NoDup (fields isch) -> forallb (obj_typed2 isch) items = true ->
  forallb (obj_typed2 isch) (nf_items isch items) = true.
Proof.
  intros Hnf H. rewrite forallb_forall in *. intros y Hy. destruct (nf_items_in isch items y Hy) as [x [Hx ->]].
  apply nf_base_typed; [exact Hnf|apply H; exact Hx].
Qed.

Lemma nf_items_keyed ls items : isch_ok (ls_schema ls) -> (exists ak, In (ak, (ls_key ls, TStr)) (active (ls_schema ls))) ->
  items_typed ls (Some items) = true -> items_typed ls (Some (nf_items (ls_schema ls) items)) = true.
Proof.
  intros [Hnf _] [ak Hak] H. unfold items_typed, items_or_nil, item_typed in *. rewrite forallb_forall in *. intros y Hy.
  destruct (nf_items_in _ items y Hy) as [x [Hx ->]]. destruct (proj1 (andb_true_iff _ _) (H x Hx)) as [Htx Hkx].
  rewrite (nf_base_typed _ x Hnf Htx). unfold has_str_key in *. rewrite (alookup_nf_base _ _ ak _ TStr Hnf Hak).
  destruct (alookup x (ls_key ls)) as [[|s| | | | |]|]; try discriminate. reflexivity.
Qed.

Lemma items_typed_objs ls items : items_typed ls items = true -> forallb (obj_typed2 (ls_schema ls)) (items_or_nil items) = true.
Proof.
  unfold items_typed, item_typed. intros H. rewrite forallb_forall in *. intros x Hx. apply (proj1 (andb_true_iff _ _) (H x Hx)).
Qed.

(** dicts are compared key by key (Python dict equality ignores the order of the keys) *)
Definition obj_eqv (a b : obj) : Prop := forall k, alookup a k = alookup b k.

Definition fixed (sch : schema) (o : obj) : Prop :=
  (forall a f t, In (a, (f, t)) (active sch) -> expected_field t (alookup o f) = alookup o f) /\
  (forall k, ~ In k (fields sch) -> alookup o k = None).

Lemma nf_base_fixed_eqv sch o : NoDup (fields sch) -> fixed sch o -> obj_eqv (nf_base sch o) o.
Proof.
  intros Hnf [H1 H2] k. destruct (in_dec str_eq_dec k (fields sch)) as [Hin|Hn].
  - unfold fields in Hin. apply in_map_iff in Hin as [[a [f t]] [Hk Hin]]. cbn [fst snd] in Hk. subst f.
    rewrite (alookup_nf_base sch o a k t Hnf Hin). apply (H1 a k t Hin).
  - rewrite (H2 k Hn). apply alookup_none_iff. intros Hin. apply Hn. eapply nf_base_keys. exact Hin.
Qed.

Lemma nf_base_is_fixed sch o : NoDup (fields sch) -> obj_typed2 sch o = true -> fixed sch (nf_base sch o).
Proof.
  intros Hnf Hty. split.
  - intros a f t Hin. rewrite (alookup_nf_base sch o a f t Hnf Hin). apply expected_idem. apply (row_typed sch o a f t Hty Hin).
  - intros k Hn. apply alookup_none_iff. intros Hin. apply Hn. eapply nf_base_keys. exact Hin.
Qed.

(** ** defaults: str fields of the schema, filled in where the object has none *)
Lemma defaults_row sch ds f d : defaults_ok sch ds = true -> alookup ds f = Some d -> exists a, In (a, (f, TStr)) (active sch).
Proof.
  intros Hds Hd. apply alookup_some_in in Hd. unfold defaults_ok in Hds. rewrite forallb_forall in Hds.
  exact (row_is_spec sch f TStr (Hds _ Hd)).
Qed.

Lemma set_defaults_fixed sch o ds : NoDup (fields sch) -> defaults_ok sch ds = true -> fixed sch o -> fixed sch (set_defaults o ds).
Proof.
  intros Hnf Hds [H1 H2]. split.
  - intros a f t Hin. rewrite alookup_set_defaults. destruct (alookup o f) as [x|] eqn:E; [rewrite <- E; exact (H1 a f t Hin)|].
    destruct (alookup ds f) as [d|] eqn:Ed; [|rewrite <- E; exact (H1 a f t Hin)].
    destruct (defaults_row sch ds f d Hds Ed) as [a' Ha']. rewrite (field_type_unique sch a f t a' TStr Hnf Hin Ha'). reflexivity.
  - intros k Hn. rewrite alookup_set_defaults, (H2 k Hn). destruct (alookup ds k) as [d|] eqn:Ed; [|reflexivity].
    destruct (defaults_row sch ds k d Hds Ed) as [a' Ha']. destruct (Hn (in_active_fields _ _ _ _ Ha')).
Qed.

Theorem set_defaults_typed sch o ds : NoDup (fields sch) -> defaults_ok sch ds = true -> obj_typed2 sch o = true ->
  obj_typed2 sch (set_defaults o ds) = true.
Proof.
  intros Hnf Hds Hty. apply obj_typed2_intro. intros a f t Hin. rewrite alookup_set_defaults.
  pose proof (row_typed _ _ a f t Hty Hin) as H. destruct (alookup o f); [exact H|].
  destruct (alookup ds f) as [d|] eqn:Ed; [|exact I].
  destruct (defaults_row sch ds f d Hds Ed) as [a' Ha']. rewrite (field_type_unique sch a f t a' TStr Hnf Hin Ha'). reflexivity.
Qed.

(** normalise, fill in the defaults; do it again: the same dict *)
Theorem defaults_nf_idem sch o ds : NoDup (fields sch) -> defaults_ok sch ds = true -> obj_typed2 sch o = true ->
  obj_eqv (set_defaults (nf_base sch (set_defaults (nf_base sch o) ds)) ds) (set_defaults (nf_base sch o) ds).
Proof.
  intros Hnf Hds Hty k.
  rewrite alookup_set_defaults, (nf_base_fixed_eqv sch _ Hnf (set_defaults_fixed sch _ ds Hnf Hds (nf_base_is_fixed sch o Hnf Hty)) k).
  rewrite alookup_set_defaults. destruct (alookup (nf_base sch o) k); [reflexivity|]. destruct (alookup ds k); reflexivity.
Qed.

Lemma plain_tables_spec T : plain_tables_ok T = true ->
  ts_ok (lt_ts_create T) = true /\ ts_ok (lt_ts_modify T) = true /\
  (forall sch, In sch [lt_server T; lt_dns T; lt_appgroup T; lt_tenant T; lt_allocation T] -> wf_schema sch = true) /\
  row_is (lt_server T) (lt_srv_partition T) TStr = true.
Proof. unfold plain_tables_ok. intros [[[Hc Hm]%andb_prop Hwfs]%andb_prop Hrow]%andb_prop. rewrite forallb_forall in Hwfs. repeat split; assumption. Qed.

Theorem server_nf_normal T o : plain_tables_ok T = true -> obj_typed2 (lt_server T) o = true ->
  obj_typed2 (lt_server T) (server_nf T o) = true /\ obj_eqv (server_nf T (server_nf T o)) (server_nf T o).
Proof.
  intros HT Hty. destruct (plain_tables_spec T HT) as [_ [_ [Hwfs Hrow]]].
  destruct (wf_schema_spec _ (Hwfs _ (or_introl eq_refl))) as [_ [Hnf _]].
  assert (Hds : defaults_ok (lt_server T) [(lt_srv_partition T, lt_default_partition T)] = true) by (cbn; rewrite Hrow; reflexivity).
  split; [exact (set_defaults_typed _ _ _ Hnf Hds (nf_base_typed _ o Hnf Hty))|exact (defaults_nf_idem _ o _ Hnf Hds Hty)].
Qed.

(** a class schema with defaults plus one keyed list (CellAllocation, Partition) *)
Lemma listobj_nf_normal sch ls ds b items : wf_schema sch = true -> list_spec_ok sch TStr ls = true ->
  defaults_ok sch ds = true -> obj_typed2 sch b = true -> items_typed ls items = true ->
  obj_typed2 sch (set_defaults (nf_base sch b) ds) = true /\
  items_typed ls (Some (nf_items (ls_schema ls) (items_or_nil items))) = true /\
  obj_eqv (set_defaults (nf_base sch (set_defaults (nf_base sch b) ds)) ds) (set_defaults (nf_base sch b) ds) /\
  nf_items (ls_schema ls) (nf_items (ls_schema ls) (items_or_nil items)) = nf_items (ls_schema ls) (items_or_nil items).
Proof.
  intros Hwf Hls Hds Hb Hit.
  destruct (wf_schema_spec _ Hwf) as [_ [Hnf _]]. destruct (list_spec_ok_spec _ _ _ Hls) as [_ [Hiok [Hkey _]]].
  split; [exact (set_defaults_typed _ _ _ Hnf Hds (nf_base_typed _ _ Hnf Hb))|].
  split; [apply nf_items_keyed; assumption|].
  split; [exact (defaults_nf_idem _ _ _ Hnf Hds Hb) | apply nf_items_idem; [exact Hiok|exact (items_typed_objs _ _ Hit)]].
Qed.

Theorem ca_nf_normal T o : ca_tables_ok T = true -> ca_typed T o = true ->
  ca_typed T (ca_nf T o) = true /\
  obj_eqv (lo_base (ca_nf T (ca_nf T o))) (lo_base (ca_nf T o)) /\ lo_items (ca_nf T (ca_nf T o)) = lo_items (ca_nf T o).
Proof.
  intros HT Hty. destruct (ca_tables_spec T HT) as [_ [_ [Hwf [Hls [Hds Hmax]]]]].
  unfold ca_typed in Hty. apply andb_prop in Hty as [[Hb Hit]%andb_prop Hmu].
  destruct (listobj_nf_normal _ _ _ _ _ Hwf Hls Hds Hb Hit) as [Htb [Hti [Hidb Hidi]]].
  unfold ca_typed, ca_nf. cbn [lo_base lo_items items_or_nil]. rewrite !set_defaults_snoc. split; [|split].
  - rewrite Htb, Hti. unfold absent_or_none. rewrite (Hmax _ Hmu). reflexivity.
  - exact Hidb.
  - f_equal. exact Hidi.
Qed.

Theorem pt_nf_normal T o : pt_tables_ok T = true -> pt_typed T o = true ->
  pt_typed T (pt_nf T o) = true /\
  obj_eqv (lo_base (pt_nf T (pt_nf T o))) (lo_base (pt_nf T o)) /\ lo_items (pt_nf T (pt_nf T o)) = lo_items (pt_nf T o).
Proof.
  unfold pt_tables_ok, pt_typed at 1. intros [[[_ Hwf]%andb_prop Hls]%andb_prop Hds]%andb_prop [Hb Hit]%andb_prop.
  destruct (listobj_nf_normal _ _ _ _ _ Hwf Hls Hds Hb Hit) as [Htb [Hti [Hidb Hidi]]].
  unfold pt_typed, pt_nf. cbn [lo_base lo_items items_or_nil]. rewrite Htb, Hti, Hidi. auto.
Qed.

Lemma all_some_idx_intro key l : (forall m, In m l -> alookup m key = Some (FInt (zidx key m))) ->
  all_some (map (idx_of key) l) = Some (map (zidx key) l).
Proof.
  induction l as [|m l IH]; intros H; cbn [map all_some]; [reflexivity|]. unfold idx_of at 1.
  rewrite (H m (or_introl eq_refl)), IH by (intros m' Hm'; apply H; right; exact Hm'). reflexivity.
Qed.

Theorem cell_nf_normal T o : cell_tables_ok T = true -> cell_typed T o = true ->
  cell_typed T (cell_nf T o) = true /\ cell_nf T (cell_nf T o) = cell_nf T o.
Proof.
  unfold cell_tables_ok, cell_typed at 1. intros [[_ Hwf]%andb_prop Hls]%andb_prop [[Hb Hit]%andb_prop Hidx]%andb_prop.
  destruct (wf_schema_spec _ Hwf) as [_ [Hnf _]]. destruct (list_spec_ok_spec _ _ _ Hls) as [_ [Hiok [[ak Hak] _]]].
  pose proof Hiok as [Hinf _].
  set (ls := lt_cell_masters T) in *. set (ms := items_or_nil (lo_items o)) in *.
  destruct (all_some (map (idx_of (ls_key ls)) ms)) as [zs|] eqn:Ezs; [|discriminate].
  destruct (all_some_idx _ _ _ Ezs) as [-> Hkey]. split.
  - unfold cell_typed, cell_nf. cbn [lo_base lo_items items_or_nil]. fold ls ms.
    rewrite (nf_base_typed _ _ Hnf Hb), (nf_items_typed _ ms Hinf Hit).
    (* a normalised master keeps its idx *)
    assert (Hnfk : forall x, In x ms -> alookup (nf_base (ls_schema ls) x) (ls_key ls) = Some (FInt (zidx (ls_key ls) x))).
    { intros x Hx. rewrite (alookup_nf_base _ _ ak _ TInt Hinf Hak), (Hkey x Hx). reflexivity. }
    assert (Hzk : forall x, In x ms -> zidx (ls_key ls) (nf_base (ls_schema ls) x) = zidx (ls_key ls) x).
    { intros x Hx. unfold zidx at 1, idx_of. rewrite (Hnfk x Hx). reflexivity. }
    rewrite all_some_idx_intro.
    + apply z_nodup_spec. eapply Permutation_NoDup; [apply Permutation_map, Permutation_sym, sort_by_perm|].
      rewrite map_map, (map_ext_in _ _ _ Hzk). apply z_nodup_spec. exact Hidx.
    + intros y Hy. destruct (nf_items_in _ ms y Hy) as [x [Hx ->]]. rewrite (Hzk x Hx). exact (Hnfk x Hx).
  - unfold cell_nf. cbn [lo_base lo_items items_or_nil]. fold ls ms. rewrite (nf_base_idem _ _ Hnf Hb), (nf_items_idem _ ms Hiok Hit). reflexivity.
Qed.
