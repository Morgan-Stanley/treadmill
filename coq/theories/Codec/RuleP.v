(** Proofs about Codec/Rule.v: get_rule (filenameify chain r) = (chain, r) on the domain the
    regular expressions accept; injectivity. *)
From Coq Require Import ZArith List Bool Lia ZifyBool.
From TM Require Import Codec.BaseN Codec.BaseNP Codec.Dec Codec.DecP Codec.Rule.
Import ListNotations.
Open Scope Z_scope.

(** * Scanning *)
Lemma span_until_stop c tok rest : ~ In c tok -> span_until c (tok ++ c :: rest) = (tok, c :: rest).
Proof.
  induction tok as [|x t IH]; cbn [app span_until]; [rewrite Z.eqb_refl; reflexivity|].
  intros [Hx Ht]%notin_cons_eqb. rewrite Hx, (IH Ht). reflexivity.
Qed.

Lemma strip_prefix_app l s : strip_prefix l (l ++ s) = Some s.
Proof. induction l as [|c l IH]; cbn [app strip_prefix]; [reflexivity|]. rewrite Z.eqb_refl. exact IH. Qed.

Lemma chomp_id s : ~ In 10 s -> chomp s = s.
Proof.
  intros Hn. unfold chomp. destruct (rev s) as [|c r] eqn:E; [reflexivity|].
  destruct (c =? 10) eqn:Ec; [|reflexivity].
  apply Z.eqb_eq in Ec. subst c. exfalso. apply Hn. apply in_rev. rewrite E. left. reflexivity.
Qed.

(** * Field classes contain no separator *)
Definition plain (c : Z) : Prop := c <> 58 /\ c <> 45 /\ c <> 10.

Lemma forallb_plain f s : (forall c, f c = true -> plain c) -> forallb f s = true -> Forall plain s.
Proof. intros Hf H. apply Forall_forall. intros c Hc. exact (Hf c (proj1 (forallb_forall f s) H c Hc)). Qed.

Lemma is_word_plain c : is_word c = true -> plain c.
Proof. unfold is_word, is_digit, plain. lia. Qed.

Lemma digits_plain lo hi s : len_between lo hi s && all_digits s = true -> Forall plain s.
Proof. intros [_ H]%andb_true_iff. revert H. apply forallb_plain. unfold is_digit, plain. lia. Qed.

Lemma valid_ip_plain s : valid_ip s = true -> Forall plain s.
Proof.
  unfold valid_ip. intros H. rewrite <- (join_split 46 s).
  destruct (split 46 s) as [|a [|b [|c [|d [|e t]]]]]; try discriminate.
  rewrite !andb_true_iff in H. destruct H as [[[Ha Hb] Hc] Hd].
  apply digits_plain in Ha, Hb, Hc, Hd.
  cbn [join]. repeat (apply Forall_app; split; [assumption|]; constructor; [unfold plain; lia|]).
  assumption.
Qed.

Lemma star_plain : Forall plain star.
Proof. repeat constructor; discriminate. Qed.

Lemma valid_plain k s : valid k s = true -> Forall plain s.
Proof.
  destruct k; cbn [valid]; rewrite ?orb_true_iff, ?str_eqb_eq.
  - intros [_ H]%andb_true_iff. exact (forallb_plain is_word s is_word_plain H).
  - intros [-> | ->]; apply (forallb_plain is_word _ is_word_plain); reflexivity.
  - intros [H | ->]; [exact (valid_ip_plain s H)|exact star_plain].
  - intros [H | ->]; [exact (digits_plain 1 5 s H)|exact star_plain].
  - exact (valid_ip_plain s).
  - exact (digits_plain 1 5 s).
Qed.

Lemma valid_notin k s c : valid k s = true -> c = 58 \/ c = 45 \/ c = 10 -> ~ In c s.
Proof.
  intros Hv Hc Hin. pose proof (proj1 (Forall_forall _ _) (valid_plain k s Hv) c Hin) as Hp.
  unfold plain in Hp. lia.
Qed.

(** * parse_items inverts render on well-formed patterns *)
Fixpoint fields_env (items : list item) (e : env) : env :=
  match items with
  | [] => []
  | Lit _ :: r => fields_env r e
  | Fld n :: r => match env_get e n with Some v => (n, v) :: fields_env r e | None => fields_env r e end
  end.

Definition typed (K : kinds) (e : env) : Prop :=
  forall n k, kind_get K n = Some k -> exists v, env_get e n = Some v /\ valid k v = true.

Lemma typed_nil e : typed [] e.
Proof. intros n k [=]. Qed.

Lemma typed_cons n k v K e : valid k v = true -> typed K e -> typed ((n, k) :: K) ((n, v) :: e).
Proof.
  intros Hv HK m k'. cbn [kind_get env_get]. destruct (str_eqb n m); [|apply HK].
  intros [= <-]. exists v. split; [reflexivity|exact Hv].
Qed.

Lemma parse_render K items e :
  wf_items K items = true -> typed K e ->
  exists s, render items e = Some s /\ parse_items K items s = Some (fields_env items e).
Proof.
  intros Hwf He. induction items as [|[[|c l]|n] r IH]; cbn [wf_items] in Hwf; try discriminate.
  - exists []. split; reflexivity.
  - destruct (IH Hwf) as (s & Hs & Hp).
    exists ((c :: l) ++ s). cbn [render fields_env]. rewrite Hs. split; [reflexivity|].
    cbn [parse_items]. rewrite strip_prefix_app. exact Hp.
  - destruct (kind_get K n) as [k|] eqn:Hk; [|discriminate].
    destruct (He n k Hk) as (v & Hv & Hval).
    cbn [render fields_env parse_items]. rewrite Hv, Hk.
    destruct r as [|[[|c l]|m] r']; try discriminate.
    + exists v. cbn [render]. rewrite app_nil_r. split; [reflexivity|].
      rewrite chomp_id, Hval by (apply (valid_notin k v 10 Hval); lia). reflexivity.
    + apply andb_true_iff in Hwf as [Hc Hwf].
      destruct (IH Hwf) as (s & Hs & Hp). rewrite Hs. exists (v ++ s). split; [reflexivity|].
      (* the text after the field starts with the literal's first character, which no field class contains *)
      cbn [render] in Hs. destruct (render r' e) as [s'|]; [|discriminate]. injection Hs as <-.
      cbn [app] in Hp |- *. rewrite span_until_stop, Hval, Hp by (apply (valid_notin k v c Hval); lia).
      reflexivity.
Qed.

(** * The concrete patterns: each starts with the chain followed by a literal of its own *)
Definition items_of (p : str) : list item := match template_items p with Some i => i | None => [] end.

Definition l_dnat : str := [58; 100; 110; 97; 116; 58].
Definition l_snat : str := [58; 115; 110; 97; 116; 58].
Definition l_pt : str := [58; 112; 97; 115; 115; 116; 104; 114; 111; 117; 103; 104; 58].

Definition pattern_ok (K : kinds) (p lit : str) : Prop :=
  template_items p = Some (items_of p) /\ wf_items K (items_of p) = true
  /\ exists r, items_of p = Fld f_chain :: Lit lit :: r.

Lemma dnat_ok : pattern_ok nat_kinds p_dnat l_dnat.
Proof. split; [|split; [|eexists]]; reflexivity. Qed.

Lemma snat_ok : pattern_ok nat_kinds p_snat l_snat.
Proof. split; [|split; [|eexists]]; reflexivity. Qed.

Lemma pt_ok : pattern_ok pt_kinds p_pt l_pt.
Proof. split; [|split; [|eexists]]; reflexivity. Qed.

Lemma render_shape n lit r e s : render (Fld n :: Lit lit :: r) e = Some s ->
  exists v rest, env_get e n = Some v /\ s = v ++ lit ++ rest.
Proof.
  cbn [render]. destruct (env_get e n) as [v|]; [|discriminate].
  destruct (render r e) as [rest|]; [|discriminate]. intros [= <-]. exists v, rest. split; reflexivity.
Qed.

Lemma other_literal_rejected K n l r chain lit rest :
  kind_get K n = Some KChain -> valid KChain chain = true ->
  hd 0 l = 58 -> hd 0 lit = 58 -> strip_prefix l (lit ++ rest) = None ->
  parse_items K (Fld n :: Lit l :: r) (chain ++ lit ++ rest) = None.
Proof.
  intros Hk Hc Hl Hlit Hstrip.
  destruct l as [|c l]; [discriminate|]. destruct lit as [|c0 lit]; [discriminate|]. cbn [hd] in Hl, Hlit. subst c c0.
  cbn [parse_items app]. rewrite Hk, span_until_stop, Hc by (apply (valid_notin KChain chain 58 Hc); lia).
  cbn [option_map parse_items]. cbn [app] in Hstrip. rewrite Hstrip. reflexivity.
Qed.

Lemma tables_fields R : rule_tables_ok R = true ->
  rt_dnat R = p_dnat /\ rt_snat R = p_snat /\ rt_pt R = p_pt /\ rt_any R = star /\ rt_any_port R = 0.
Proof.
  unfold rule_tables_ok.
  intros [[[[[[[Hd%str_eqb_eq Hs%str_eqb_eq]%andb_true_iff Hp%str_eqb_eq]%andb_true_iff _]%andb_true_iff
              _]%andb_true_iff _]%andb_true_iff Ha%str_eqb_eq]%andb_true_iff H0%Z.eqb_eq]%andb_true_iff.
  repeat split; assumption.
Qed.

(** * Field texts of a rule in the domain are valid and decode back *)
Lemma valid_ip_not_star s : valid_ip s = true -> str_eqb s star = false.
Proof. intros H. apply str_eqb_neq. intros ->. discriminate H. Qed.

Lemma digits_all s : Forall (fun c => In c digits10) s -> all_digits s = true.
Proof. intros H. apply forallb_forall. intros c Hc. apply digit_props, (proj1 (Forall_forall _ _) H c Hc). Qed.

Lemma port_str_valid p : 0 <= p <= 99999 -> valid_port (str_of_Z p) = true /\ str_eqb (str_of_Z p) star = false.
Proof.
  intros Hp. unfold str_of_Z. replace (p <? 0) with false by lia.
  destruct (str_of_nonneg_spec p) as (_ & Hl1 & Hlen & Hall); [lia|].
  specialize (Hlen 5%nat). change (10 ^ Z.of_nat 5) with 100000 in Hlen. split.
  - unfold valid_port, len_between, zlen. rewrite (digits_all _ Hall). lia.
  - apply str_eqb_neq. intros E. rewrite E in Hall. inversion Hall as [|x l Hx _]. apply digit_cases in Hx. lia.
Qed.

Section WithTables.
  Variable R : rule_tables.
  Hypothesis Hany : rt_any R = star.
  Hypothesis Hport : rt_any_port R = 0.

  Lemma ip_text_spec o : valid_oip o = true ->
    valid KIpWild (ip_text R o) = true /\ dec_ip R (ip_text R o) = o.
  Proof.
    unfold ip_text, dec_ip. rewrite Hany. destruct o as [s|]; cbn [valid_oip valid]; intros H.
    - rewrite H. rewrite (valid_ip_not_star s H). split; reflexivity.
    - split; reflexivity.
  Qed.

  Lemma port_text_spec p : valid_port_num p = true ->
    valid KPortWild (port_text R p) = true /\ dec_port R (port_text R p) = Some p.
  Proof.
    unfold port_text, dec_port, valid_port_num. rewrite Hany, Hport. intros H.
    destruct (p =? 0) eqn:E.
    - split; [reflexivity|]. cbn. f_equal. lia.
    - destruct (port_str_valid p ltac:(lia)) as [Hv Hs]. cbn [valid]. rewrite Hv, Hs.
      split; [reflexivity|]. apply py_int_str_of_Z.
  Qed.

  Lemma new_port_valid p : valid_port_num p = true -> valid KPort (str_of_Z p) = true.
  Proof. unfold valid_port_num. intros H. apply port_str_valid. lia. Qed.

  Section Nat.
    Variables (chain pr : str) (si : option str) (sp : Z) (di : option str) (dp : Z) (ni : str) (np : Z).
    Hypothesis (Hc : valid KChain chain = true) (Hpr : valid KProto pr = true) (Hsi : valid_oip si = true)
      (Hsp : valid_port_num sp = true) (Hdi : valid_oip di = true) (Hdp : valid_port_num dp = true)
      (Hni : valid_ip ni = true) (Hnp : valid_port_num np = true).

    Lemma nat_env_typed : typed nat_kinds (nat_env R chain pr si sp di dp ni np).
    Proof.
      repeat apply typed_cons; try apply typed_nil; try assumption.
      - apply ip_text_spec, Hsi.
      - apply port_text_spec, Hsp.
      - apply ip_text_spec, Hdi.
      - apply port_text_spec, Hdp.
      - apply new_port_valid, Hnp.
    Qed.

    Lemma build_nat_env mk :
      build_nat R mk (nat_env R chain pr si sp di dp ni np) = Some (chain, mk pr si sp di dp ni np).
    Proof.
      unfold build_nat, nat_env.
      cbn [env_get str_eqb f_chain f_proto f_src_ip f_src_port f_dst_ip f_dst_port f_new_ip f_new_port
           Z.eqb Pos.eqb andb].
      rewrite (proj2 (ip_text_spec si Hsi)), (proj2 (ip_text_spec di Hdi)), (proj2 (port_text_spec sp Hsp)),
        (proj2 (port_text_spec dp Hdp)), py_int_str_of_Z.
      reflexivity.
    Qed.

    Lemma nat_roundtrip mk p lit : p = p_dnat \/ p = p_snat -> pattern_ok nat_kinds p lit ->
      exists s e, render (items_of p) (nat_env R chain pr si sp di dp ni np) = Some s
                  /\ parse_items nat_kinds (items_of p) s = Some e
                  /\ build_nat R mk e = Some (chain, mk pr si sp di dp ni np).
    Proof.
      intros Hp (_ & Hwf & _). destruct (parse_render nat_kinds (items_of p) _ Hwf nat_env_typed) as (s & Hs & He).
      exists s, (fields_env (items_of p) (nat_env R chain pr si sp di dp ni np)). split; [exact Hs|]. split; [exact He|].
      replace (fields_env (items_of p) (nat_env R chain pr si sp di dp ni np))
        with (nat_env R chain pr si sp di dp ni np) by (destruct Hp as [-> | ->]; reflexivity).
      apply build_nat_env.
    Qed.
  End Nat.
End WithTables.

(** * Round trip *)
Theorem rule_roundtrip R :
  rule_tables_ok R = true -> forall chain r, valid KChain chain = true -> rule_domain r = true ->
  exists name, filenameify R chain r = Some name /\ get_rule R name = Some (chain, r).
Proof.
  intros HR chain r Hc Hd. destruct (tables_fields R HR) as (Ed & Es & Ep & Hany & Hport).
  unfold filenameify, get_rule, render_pattern, match_pattern. rewrite Ed, Es, Ep.
  rewrite (proj1 dnat_ok), (proj1 snat_ok), (proj1 pt_ok).
  destruct dnat_ok as (_ & _ & rd & Sd), snat_ok as (_ & _ & rs & Ss).
  assert (Hchain : kind_get nat_kinds f_chain = Some KChain) by reflexivity.
  destruct r as [pr si sp di dp ni np|pr si sp di dp ni np|si di]; cbn [rule_domain] in Hd;
    repeat (apply andb_true_iff in Hd as [Hd ?]).
  - (* DNAT *)
    destruct (nat_roundtrip R Hany Hport chain pr si sp di dp ni np) with (mk := DNAT) (p := p_dnat) (lit := l_dnat)
      as (s & e & Hs & He & Hb); try assumption; [left; reflexivity|exact dnat_ok|].
    exists s. rewrite He. split; assumption.
  - (* SNAT: the DNAT pattern does not match *)
    destruct (nat_roundtrip R Hany Hport chain pr si sp di dp ni np) with (mk := SNAT) (p := p_snat) (lit := l_snat)
      as (s & e & Hs & He & Hb); try assumption; [right; reflexivity|exact snat_ok|].
    exists s. split; [exact Hs|]. rewrite Ss in Hs. destruct (render_shape _ _ _ _ _ Hs) as (c & rest & [= <-] & ->).
    rewrite Sd, other_literal_rejected, He by (assumption || reflexivity). exact Hb.
  - (* PassThrough: neither NAT pattern matches *)
    destruct pt_ok as (_ & Wp & rp & Sp).
    destruct (parse_render pt_kinds (items_of p_pt) [(f_chain, chain); (f_src_ip, si); (f_dst_ip, di)] Wp)
      as (s & Hs & Hp); [repeat apply typed_cons; try apply typed_nil; assumption|].
    exists s. split; [exact Hs|]. rewrite Hp. rewrite Sp in Hs.
    destruct (render_shape _ _ _ _ _ Hs) as (c & rest & [= <-] & ->).
    rewrite Sd, other_literal_rejected, Ss, other_literal_rejected by (assumption || reflexivity). reflexivity.
Qed.

Theorem rule_injective R :
  rule_tables_ok R = true -> forall chain r chain' r' name,
  valid KChain chain = true -> rule_domain r = true ->
  valid KChain chain' = true -> rule_domain r' = true ->
  filenameify R chain r = Some name -> filenameify R chain' r' = Some name ->
  (chain, r) = (chain', r').
Proof.
  intros HR chain r chain' r' name Hc Hd Hc' Hd' E1 E2.
  destruct (rule_roundtrip R HR chain r Hc Hd) as (n1 & F1 & G1).
  destruct (rule_roundtrip R HR chain' r' Hc' Hd') as (n2 & F2 & G2).
  congruence.
Qed.
