(** Proofs about Codec/Json.v: json.loads (print_value v) = v for well-formed v, and what sort_keys=True
    changes: [canon v] is well-formed and the same Python value as v. *)
From Coq Require Import ZArith List Bool Lia ZifyBool Permutation.
From TM Require Import Codec.BaseN Codec.BaseNP Codec.Dec Codec.DecP Codec.Json.
Import ListNotations.
Open Scope Z_scope.

(** * Hex escapes *)
Lemma unhexchar_hexchar d : 0 <= d < 16 -> unhexchar (hexchar d) = Some d.
Proof.
  intros H. unfold hexchar, unhexchar. destruct (d <? 10) eqn:E.
  - replace ((48 <=? 48 + d) && (48 + d <=? 57)) with true by lia. f_equal. lia.
  - replace ((48 <=? 87 + d) && (87 + d <=? 57)) with false by lia.
    replace ((97 <=? 87 + d) && (87 + d <=? 102)) with true by lia. f_equal. lia.
Qed.

Lemma unhex4_hex4 c : 0 <= c < 65536 ->
  unhex4 (hexchar (c / 4096)) (hexchar ((c / 256) mod 16)) (hexchar ((c / 16) mod 16)) (hexchar (c mod 16))
  = Some c.
Proof.
  intros H. unfold unhex4.
  assert (H1 : 0 <= c / 4096 < 16) by (split; [apply Z.div_pos; lia|apply Z.div_lt_upper_bound; lia]).
  assert (H2 : 0 <= (c / 256) mod 16 < 16) by (apply Z.mod_pos_bound; lia).
  assert (H3 : 0 <= (c / 16) mod 16 < 16) by (apply Z.mod_pos_bound; lia).
  assert (H4 : 0 <= c mod 16 < 16) by (apply Z.mod_pos_bound; lia).
  rewrite !unhexchar_hexchar by assumption. f_equal.
  pose proof (Z.div_mod c 16 ltac:(lia)) as E1.
  pose proof (Z.div_mod (c / 16) 16 ltac:(lia)) as E2.
  pose proof (Z.div_mod (c / 16 / 16) 16 ltac:(lia)) as E3.
  rewrite Z.div_div in E2, E3 by lia. rewrite Z.div_div in E3 by lia.
  change (16 * 16) with 256 in *. change (256 * 16) with 4096 in *.
  assert (E4 : (c / 4096) mod 16 = c / 4096) by (apply Z.mod_small; lia).
  lia.
Qed.

(** * Strings *)
Lemma parse_string_u a b c d t acc : parse_string_body (92 :: 117 :: a :: b :: c :: d :: t) acc =
  match unhex4 a b c d with
  | None => PFail
  | Some u => if (55296 <=? u) && (u <=? 57343) then PUnmodelled else parse_string_body t (u :: acc)
  end.
Proof. reflexivity. Qed.

Lemma parse_esc_char c t acc : char_ok c = true ->
  parse_string_body (esc_char c ++ t) acc = parse_string_body t (c :: acc).
Proof.
  intros Hc. unfold char_ok in Hc. unfold esc_char.
  destruct (Z.eqb_spec c 34) as [->|N34]; [reflexivity|]. destruct (Z.eqb_spec c 92) as [->|N92]; [reflexivity|].
  destruct (Z.eqb_spec c 10) as [->|_]; [reflexivity|]. destruct (Z.eqb_spec c 13) as [->|_]; [reflexivity|].
  destruct (Z.eqb_spec c 9) as [->|_]; [reflexivity|]. destruct (Z.eqb_spec c 8) as [->|_]; [reflexivity|].
  destruct (Z.eqb_spec c 12) as [->|_]; [reflexivity|].
  destruct ((32 <=? c) && (c <=? 126)) eqn:Ep.
  - cbn [app parse_string_body]. rewrite (proj2 (Z.eqb_neq c 34) N34), (proj2 (Z.eqb_neq c 92) N92).
    replace (c <? 32) with false by lia. reflexivity.
  - unfold hex4. cbn [app]. rewrite parse_string_u, unhex4_hex4 by lia.
    replace ((55296 <=? c) && (c <=? 57343)) with false by lia. reflexivity.
Qed.

Lemma parse_string_esc s : str_ok s = true -> forall acc rest,
  parse_string_body (flat_map esc_char s ++ 34 :: rest) acc = POk (rev acc ++ s) rest.
Proof.
  induction s as [|c s IH]; intros Hok acc rest.
  - cbn. rewrite app_nil_r. reflexivity.
  - cbn [str_ok forallb] in Hok. apply andb_true_iff in Hok as [Hc Hs].
    cbn [flat_map]. rewrite <- app_assoc, parse_esc_char, (IH Hs) by exact Hc.
    cbn [rev]. rewrite <- app_assoc. reflexivity.
Qed.

Lemma parse_print_string s rest : str_ok s = true ->
  exists t, print_string s ++ rest = 34 :: t /\ parse_string_body t [] = POk s rest.
Proof.
  intros Hok. exists (flat_map esc_char s ++ 34 :: rest). split.
  - unfold print_string. cbn [app]. rewrite <- app_assoc. reflexivity.
  - rewrite parse_string_esc by exact Hok. reflexivity.
Qed.

(** * Numbers *)
(** what may follow a printed value: nothing, ',', ']' or '}' *)
Definition after_ok (rest : str) : bool :=
  match rest with [] => true | c :: _ => (c =? 44) || (c =? 93) || (c =? 125) end.

Lemma after_ok_cons c r : (c =? 44) || (c =? 93) || (c =? 125) = true -> after_ok (c :: r) = true.
Proof. intros H. exact H. Qed.

Lemma after_ok_float rest : after_ok rest = true -> float_follows rest = false.
Proof.
  destruct rest as [|e r]; [reflexivity|]. cbn [after_ok float_follows]. intros H.
  destruct (e =? 46) eqn:E1; [lia|]. destruct ((e =? 101) || (e =? 69)) eqn:E2; [lia|reflexivity].
Qed.

Lemma take_digits_app ds rest :
  Forall (fun c => In c digits10) ds -> after_ok rest = true -> take_digits (ds ++ rest) = (ds, rest).
Proof.
  intros Hall Hr. induction Hall as [|c t Hc Ht IH]; cbn [app take_digits].
  - destruct rest as [|e r]; [reflexivity|]. cbn [take_digits after_ok] in *.
    replace (is_digit e) with false by (unfold is_digit; lia). reflexivity.
  - rewrite (proj1 (digit_props c Hc)), IH. reflexivity.
Qed.

Lemma digits_value_val ds : Forall (fun c => In c digits10) ds ->
  forall v acc, val digits10 10 ds = Some v -> digits_value ds acc = acc * 10 ^ zlen ds + v.
Proof.
  induction 1 as [|c t Hc Ht IH]; intros v acc Hv.
  - injection Hv as <-. cbn. lia.
  - rewrite (val10_cons c t Hc) in Hv. destruct (val digits10 10 t) as [v'|]; [|discriminate].
    injection Hv as <-. cbn [digits_value]. rewrite (IH v' _ eq_refl), pow_zlen_cons. ring.
Qed.

Lemma val_bound ds : Forall (fun c => In c digits10) ds ->
  forall v, val digits10 10 ds = Some v -> 0 <= v < 10 ^ zlen ds.
Proof.
  induction 1 as [|c t Hc Ht IH]; intros v Hv.
  - injection Hv as <-. cbn. lia.
  - rewrite (val10_cons c t Hc) in Hv. destruct (val digits10 10 t) as [v'|]; [|discriminate].
    injection Hv as <-. specialize (IH v' eq_refl). rewrite pow_zlen_cons. apply digit_cases in Hc. nia.
Qed.

Lemma str_of_nonneg_shape n : 0 <= n ->
  exists c t, str_of_nonneg n = c :: t /\ Forall (fun x => In x digits10) (c :: t)
              /\ val digits10 10 (c :: t) = Some n /\ (c = 48 -> n = 0 /\ t = []).
Proof.
  intros Hn. destruct (str_of_nonneg_spec n Hn) as (Hv & Hl & Hlen & Hall).
  destruct (str_of_nonneg n) as [|c t]; [cbn in Hl; lia|]. exists c, t.
  do 3 (split; [assumption || reflexivity|]).
  intros ->. inversion Hall as [|? ? Hc Ht]; subst. rewrite (val10_cons 48 t Hc) in Hv.
  destruct (val digits10 10 t) as [v|] eqn:Ev; [|discriminate]. injection Hv as <-.
  pose proof (val_bound t Ht v Ev) as Hb. destruct t as [|d t']; [injection Ev as <-; split; reflexivity|].
  (* a second digit after a leading zero would exceed the length bound *)
  specialize (Hlen (length (d :: t'))). unfold zlen in Hb. cbn [length] in Hlen, Hb. exfalso. lia.
Qed.

Lemma parse_nat_print n rest : 0 <= n -> after_ok rest = true ->
  parse_nat (str_of_nonneg n ++ rest) = POk n rest.
Proof.
  intros Hn Hr. destruct (str_of_nonneg_shape n Hn) as (c & t & -> & Hall & Hv & H0).
  inversion Hall as [|? ? Hc Ht]; subst. cbn [app parse_nat]. destruct (c =? 48) eqn:E.
  - apply Z.eqb_eq in E. destruct (H0 E) as [-> ->]. cbn [app]. rewrite (after_ok_float rest Hr). reflexivity.
  - rewrite (proj1 (digit_props c Hc)), (take_digits_app t rest Ht Hr), (after_ok_float rest Hr).
    rewrite (val10_cons c t Hc) in Hv. destruct (val digits10 10 t) as [v'|] eqn:Ev; [|discriminate].
    rewrite (digits_value_val t Ht v' _ Ev). injection Hv as <-. reflexivity.
Qed.

(** * Values: induction principle, fuel measure, first character *)
Section ValueInd.
  Variable P : value -> Prop.
  Hypothesis Hnull : P VNull.
  Hypothesis Hbool : forall b, P (VBool b).
  Hypothesis Hint : forall z, P (VInt z).
  Hypothesis Hstr : forall s, P (VStr s).
  Hypothesis Hlist : forall l, Forall P l -> P (VList l).
  Hypothesis Hdict : forall d, Forall (fun kv => P (snd kv)) d -> P (VDict d).

  Fixpoint value_ind' (v : value) : P v :=
    match v with
    | VNull => Hnull
    | VBool b => Hbool b
    | VInt z => Hint z
    | VStr s => Hstr s
    | VList l =>
        Hlist l ((fix go (l : list value) : Forall P l :=
                    match l with
                    | [] => Forall_nil P
                    | x :: t => Forall_cons x (value_ind' x) (go t)
                    end) l)
    | VDict d =>
        Hdict d ((fix go (d : list (str * value)) : Forall (fun kv => P (snd kv)) d :=
                    match d with
                    | [] => Forall_nil _
                    | (k, x) :: t => @Forall_cons _ (fun kv => P (snd kv)) (k, x) t (value_ind' x) (go t)
                    end) d)
    end.
End ValueInd.

(** fuel a sequence of elements needs: one unit per element on top of what the element needs *)
Fixpoint need_seq (ns : list nat) : nat :=
  match ns with [] => 0%nat | n :: r => S (Nat.max n (need_seq r)) end.

Fixpoint need (v : value) : nat :=
  match v with
  | VList l => S (need_seq (map need l))
  | VDict d => S (need_seq (map (fun kv => match kv with (_, x) => need x end) d))
  | _ => 1%nat
  end.

Definition print_member (kv : str * value) : str :=
  match kv with (k, x) => print_string k ++ sep_key ++ print_value x end.
Definition need_member (kv : str * value) : nat := match kv with (_, x) => need x end.

Lemma print_dict_eq d : print_value (VDict d) = 123 :: join_with sep_item (map print_member d) ++ [125].
Proof. reflexivity. Qed.

Lemma need_dict_eq d : need (VDict d) = S (need_seq (map need_member d)).
Proof. reflexivity. Qed.

Definition head_ok (s : str) : Prop :=
  exists c t, s = c :: t /\ is_jws c = false /\ c <> 93 /\ c <> 125.

Lemma head_ok_cons c t : is_jws c = false /\ c <> 93 /\ c <> 125 -> head_ok (c :: t).
Proof. intros H. exists c, t. split; [reflexivity|exact H]. Qed.

Lemma head_ok_app s r : head_ok s -> head_ok (s ++ r).
Proof. intros (c & t & -> & H). exact (head_ok_cons c (t ++ r) H). Qed.

Lemma print_string_head s : head_ok (print_string s).
Proof. apply head_ok_cons. repeat split; discriminate. Qed.

Lemma print_member_head kv : head_ok (print_member kv).
Proof. destruct kv. apply head_ok_app, print_string_head. Qed.

Lemma print_head v : head_ok (print_value v).
Proof.
  destruct v as [|[|]|z|s|l|d]; cbn [print_value]; try (apply head_ok_cons; repeat split; discriminate).
  - unfold str_of_Z. destruct (z <? 0) eqn:Ez; [apply head_ok_cons; repeat split; discriminate|].
    destruct (str_of_nonneg_shape z) as (c & t & -> & Hall & _); [lia|]. inversion Hall as [|? ? Hc _]; subst.
    apply head_ok_cons. apply digit_cases in Hc. unfold is_jws. lia.
Qed.

Lemma skip_ws_head s : head_ok s -> skip_ws s = s.
Proof. intros (c & t & -> & H & _). cbn [skip_ws]. rewrite H. reflexivity. Qed.

(** after an opening bracket: a printed element is not the closing bracket *)
Lemma parse_value_list f s : head_ok s -> parse_value (S f) (91 :: s) = parse_elems f s [].
Proof.
  intros (c & t & -> & Hws & H93 & _). cbn [parse_value Z.eqb Pos.eqb skip_ws]. rewrite Hws.
  replace (c =? 93) with false by lia. reflexivity.
Qed.

Lemma parse_value_dict f s : head_ok s -> parse_value (S f) (123 :: s) = parse_members f s [].
Proof.
  intros (c & t & -> & Hws & _ & H125). cbn [parse_value Z.eqb Pos.eqb skip_ws]. rewrite Hws.
  replace (c =? 125) with false by lia. reflexivity.
Qed.

(** a printed sequence after its first element: ', ' before each further element, then the closing bracket *)
Fixpoint seq_tail (close : Z) (ps : list str) (rest : str) : str :=
  match ps with
  | [] => close :: rest
  | p :: ps' => 44 :: 32 :: p ++ seq_tail close ps' rest
  end.

Lemma join_with_tail close p ps rest :
  join_with sep_item (p :: ps) ++ close :: rest = p ++ seq_tail close ps rest.
Proof.
  revert p; induction ps as [|q ps IH]; intros p; [reflexivity|].
  change (join_with sep_item (p :: q :: ps)) with (p ++ sep_item ++ join_with sep_item (q :: ps)).
  rewrite <- !app_assoc, IH. reflexivity.
Qed.

Lemma after_ok_seq_tail close ps rest : close = 93 \/ close = 125 -> after_ok (seq_tail close ps rest) = true.
Proof. intros [-> | ->]; destruct ps; reflexivity. Qed.

(** * parse_value inverts print_value *)
Definition parses (v : value) : Prop :=
  wf_value v = true -> forall fuel rest, (need v <= fuel)%nat -> after_ok rest = true ->
  parse_value fuel (print_value v ++ rest) = POk v rest.

Lemma digit_neqb c k : In c digits10 -> (k <? 48) || (57 <? k) = true -> (c =? k) = false.
Proof. intros Hc%digit_cases Hk. lia. Qed.

Lemma parses_int z : parses (VInt z).
Proof.
  intros _ [|f] rest Hf Hr; [cbn in Hf; lia|].
  cbn [print_value]. unfold str_of_Z. destruct (z <? 0) eqn:Ez.
  - pose proof (parse_nat_print (- z) rest ltac:(lia) Hr) as Hp.
    destruct (str_of_nonneg_shape (- z)) as (c & t & Es & Hall & _); [lia|]. rewrite Es in Hp |- *.
    inversion Hall as [|? ? Hc _]; subst. cbn [app parse_value Z.eqb Pos.eqb] in Hp |- *.
    rewrite (digit_neqb c 73 Hc), Hp, Z.opp_involutive by reflexivity. reflexivity.
  - pose proof (parse_nat_print z rest ltac:(lia) Hr) as Hp.
    destruct (str_of_nonneg_shape z) as (c & t & Es & Hall & _); [lia|]. rewrite Es in Hp |- *.
    inversion Hall as [|? ? Hc _]; subst. cbn [app parse_value] in Hp |- *.
    rewrite !(fun k => digit_neqb c k Hc), (proj1 (digit_props c Hc)), Hp by reflexivity. reflexivity.
Qed.

Lemma parses_str s : parses (VStr s).
Proof.
  intros Hwf [|f] rest Hf Hr; [cbn in Hf; lia|].
  cbn [wf_value] in Hwf. cbn [print_value].
  destruct (parse_print_string s rest Hwf) as (t & -> & Hp). cbn [parse_value Z.eqb Pos.eqb]. rewrite Hp. reflexivity.
Qed.

Lemma parse_elems_print t : Forall parses t -> forallb wf_value t = true ->
  forall x, parses x -> wf_value x = true ->
  forall acc fuel rest, (need_seq (map need (x :: t)) <= fuel)%nat -> after_ok rest = true ->
  parse_elems fuel (print_value x ++ seq_tail 93 (map print_value t) rest) acc
  = POk (VList (rev acc ++ x :: t)) rest.
Proof.
  induction 1 as [|y t Hy Ht IH]; intros Hwt x Hx Hwx acc fuel rest Hf Hr;
    (destruct fuel as [|f]; [inversion Hf|]); apply le_S_n, Nat.max_lub_iff in Hf as [Hfx Hft];
    cbn [parse_elems]; rewrite (Hx Hwx f _ Hfx) by (apply after_ok_seq_tail; left; reflexivity);
    cbn [map seq_tail skip_ws is_jws Z.eqb Pos.eqb orb].
  - reflexivity.
  - cbn [forallb] in Hwt. apply andb_true_iff in Hwt as [Hwy Hwt].
    rewrite skip_ws_head by apply head_ok_app, print_head.
    rewrite (IH Hwt y Hy Hwy (x :: acc) f rest Hft Hr). cbn [rev]. rewrite <- app_assoc. reflexivity.
Qed.

(** * Objects *)
Lemma keys_nodup_NoDup ks : keys_nodup ks = true <-> NoDup ks.
Proof. exact (nodup_by_NoDup str_eqb str_eqb_eq ks). Qed.

Lemma dict_set_fresh acc k x : ~ In k (map fst acc) -> dict_set acc k x = acc ++ [(k, x)].
Proof.
  induction acc as [|[k' v'] t IH]; cbn [dict_set app map fst]; [reflexivity|]. intros [Hk Ht]%not_in_cons.
  rewrite str_eqb_neq, (IH Ht) by congruence. reflexivity.
Qed.

Lemma parse_member_print f k x acc tl :
  str_ok k = true -> ~ In k (map fst acc) -> parse_value f (print_value x ++ tl) = POk x tl ->
  parse_members (S f) (print_member (k, x) ++ tl) acc
  = match skip_ws tl with
    | c :: r => if c =? 44 then parse_members f (skip_ws r) (acc ++ [(k, x)])
                else if c =? 125 then POk (VDict (acc ++ [(k, x)])) r else PFail
    | [] => PFail
    end.
Proof.
  intros Hk Hfresh Hx. cbn [print_member]. rewrite <- !app_assoc.
  destruct (parse_print_string k (sep_key ++ print_value x ++ tl) Hk) as (tk & -> & Hpk).
  cbn [parse_members Z.eqb Pos.eqb]. rewrite Hpk.
  cbn [sep_key app skip_ws is_jws Z.eqb Pos.eqb orb].
  rewrite skip_ws_head, Hx, (dict_set_fresh acc k x Hfresh) by apply head_ok_app, print_head. reflexivity.
Qed.

Lemma parse_members_print t : Forall (fun kv => parses (snd kv)) t ->
  forallb (fun kv => str_ok (fst kv) && wf_value (snd kv)) t = true ->
  forall k x, parses x -> str_ok k && wf_value x = true ->
  forall acc fuel rest, NoDup (map fst (acc ++ (k, x) :: t)) ->
  (need_seq (map need_member ((k, x) :: t)) <= fuel)%nat -> after_ok rest = true ->
  parse_members fuel (print_member (k, x) ++ seq_tail 125 (map print_member t) rest) acc
  = POk (VDict (acc ++ (k, x) :: t)) rest.
Proof.
  induction 1 as [|[k2 x2] t Hy Ht IH]; intros Hwt k x Hx [Hk Hwx]%andb_true_iff acc fuel rest Hnd Hf Hr;
    (destruct fuel as [|f]; [inversion Hf|]); apply le_S_n, Nat.max_lub_iff in Hf as [Hfx Hft].
  all: rewrite parse_member_print;
    [ | exact Hk | rewrite map_app in Hnd; apply NoDup_remove_2 in Hnd; intros Hin; apply Hnd, in_or_app; left; exact Hin
      | apply (Hx Hwx f _ Hfx), after_ok_seq_tail; right; reflexivity ].
  all: cbn [map seq_tail skip_ws is_jws Z.eqb Pos.eqb orb].
  - reflexivity.
  - cbn [forallb fst snd] in Hwt, Hy. apply andb_true_iff in Hwt as [Hw2 Hwt].
    rewrite skip_ws_head by apply head_ok_app, print_member_head.
    rewrite (IH Hwt k2 x2 Hy Hw2 (acc ++ [(k, x)]) f rest), <- app_assoc by (rewrite <- ?app_assoc; assumption).
    reflexivity.
Qed.

(** * Main lemma *)
Theorem parse_print v : parses v.
Proof.
  induction v as [|b|z|s|l IHl|d IHd] using value_ind'.
  - intros _ [|f] rest Hf Hr; [cbn in Hf; lia|]. reflexivity.
  - intros _ [|f] rest Hf Hr; [cbn in Hf; lia|]. destruct b; reflexivity.
  - apply parses_int.
  - apply parses_str.
  - intros Hwf [|f] rest Hf Hr; cbn [wf_value need] in Hwf, Hf; [inversion Hf|]. apply le_S_n in Hf.
    cbn [print_value app]. destruct l as [|x t]; [reflexivity|].
    inversion IHl as [|? ? Hx Ht]; subst. cbn [forallb] in Hwf. apply andb_true_iff in Hwf as [Hwx Hwt].
    rewrite <- app_assoc. cbn [map app]. rewrite join_with_tail, parse_value_list by apply head_ok_app, print_head.
    rewrite (parse_elems_print t Ht Hwt x Hx Hwx [] f rest Hf Hr). reflexivity.
  - intros Hwf [|f] rest Hf Hr; rewrite need_dict_eq in Hf; [inversion Hf|]. apply le_S_n in Hf.
    cbn [wf_value] in Hwf. apply andb_true_iff in Hwf as [Hnd Hwf]. apply keys_nodup_NoDup in Hnd.
    rewrite print_dict_eq. cbn [app]. destruct d as [|[k x] t]; [reflexivity|].
    inversion IHd as [|? ? Hx Ht]; subst. cbn [forallb fst snd] in Hwf, Hx. apply andb_true_iff in Hwf as [Hwx Hwt].
    rewrite <- app_assoc. cbn [map app]. rewrite join_with_tail, parse_value_dict by apply head_ok_app, print_member_head.
    rewrite (parse_members_print t Ht Hwt k x Hx Hwx [] f rest Hnd Hf Hr). reflexivity.
Qed.

(** * Fuel: 2 * length of the text is always enough *)
Lemma need_seq_bound ns ps :
  Forall2 (fun n p => (n <= 2 * length p)%nat) ns ps ->
  (need_seq ns <= 2 * length (join_with sep_item ps) + 1)%nat.
Proof.
  induction 1 as [|n p ns' ps' Hnp Hrest IH]; [cbn; lia|]. cbn [need_seq].
  destruct Hrest as [|m q ns'' ps'' _ _]; [cbn [need_seq join_with]; lia|].
  change (join_with sep_item (p :: q :: ps'')) with (p ++ sep_item ++ join_with sep_item (q :: ps'')).
  rewrite !app_length. cbn [length sep_item]. lia.
Qed.

Lemma need_le v : (need v <= 2 * length (print_value v))%nat.
Proof.
  induction v as [|b|z|s|l IHl|d IHd] using value_ind'.
  1-4: cbn [need]; match goal with |- (_ <= 2 * length (print_value ?v))%nat =>
         destruct (print_head v) as (c & t & -> & _) end; cbn [length]; lia.
  - cbn [need print_value].
    assert (H2 : Forall2 (fun n p => (n <= 2 * length p)%nat) (map need l) (map print_value l))
      by (induction IHl; cbn [map]; constructor; assumption).
    pose proof (need_seq_bound _ _ H2). cbn [length]. rewrite app_length. cbn [length]. lia.
  - rewrite need_dict_eq, print_dict_eq.
    assert (H2 : Forall2 (fun n p => (n <= 2 * length p)%nat) (map need_member d) (map print_member d)).
    { induction IHd as [|[k x] t Hx Ht IH]; cbn [map]; constructor; [|assumption].
      cbn [need_member print_member snd] in *. rewrite !app_length. lia. }
    pose proof (need_seq_bound _ _ H2). cbn [length]. rewrite app_length. cbn [length]. lia.
Qed.

Theorem json_loads_print v : wf_value v = true -> json_loads (print_value v) = POk v [].
Proof.
  intros Hwf. unfold json_loads. rewrite (skip_ws_head _ (print_head v)).
  pose proof (parse_print v Hwf (2 * length (print_value v) + 2)%nat []) as Hp.
  rewrite app_nil_r in Hp. rewrite Hp; [reflexivity| |reflexivity].
  pose proof (need_le v). lia.
Qed.

(** * sort_keys / canon *)
Lemma insert_key_perm {A} k (v : A) d : Permutation (insert_key k v d) ((k, v) :: d).
Proof.
  induction d as [|[k' v'] t IH]; cbn [insert_key]; [apply Permutation_refl|].
  destruct (str_ltb k' k); [|apply Permutation_refl].
  eapply Permutation_trans; [apply perm_skip; exact IH|apply perm_swap].
Qed.

Lemma sort_keys_perm {A} (d : list (str * A)) : Permutation (sort_keys d) d.
Proof.
  induction d as [|[k v] t IH]; cbn [sort_keys]; [apply Permutation_refl|].
  eapply Permutation_trans; [apply insert_key_perm|apply perm_skip; exact IH].
Qed.

Lemma forallb_perm {A} (f : A -> bool) l l' : Permutation l l' -> forallb f l = true -> forallb f l' = true.
Proof.
  rewrite !forallb_forall. intros Hp H x Hin. apply H. exact (Permutation_in x (Permutation_sym Hp) Hin).
Qed.

Lemma sort_keys_wf d : wf_value (VDict d) = true -> wf_value (VDict (sort_keys d)) = true.
Proof.
  cbn [wf_value]. rewrite !andb_true_iff, !keys_nodup_NoDup. intros [Hnd Hall].
  pose proof (Permutation_sym (sort_keys_perm d)) as Hp. split.
  - exact (Permutation_NoDup (Permutation_map fst Hp) Hnd).
  - exact (forallb_perm _ _ _ Hp Hall).
Qed.

Lemma forallb_map_impl {A B} (f : A -> B) (p : A -> bool) (q : B -> bool) l :
  Forall (fun x => p x = true -> q (f x) = true) l -> forallb p l = true -> forallb q (map f l) = true.
Proof.
  induction 1 as [|x t Hx _ IH]; cbn [forallb map]; [reflexivity|].
  intros [H1 H2]%andb_true_iff. rewrite (Hx H1), (IH H2). reflexivity.
Qed.

Lemma canon_wf v : wf_value v = true -> wf_value (canon v) = true.
Proof.
  induction v as [|b|z|s|l IHl|d IHd] using value_ind'; intros Hwf; try exact Hwf.
  - exact (forallb_map_impl canon wf_value wf_value l IHl Hwf).
  - cbn [canon]. apply sort_keys_wf. cbn [wf_value] in *. apply andb_true_iff in Hwf as [Hnd Hall].
    replace (map fst (map (fun kv => (fst kv, canon (snd kv))) d)) with (map fst d) by (rewrite map_map; reflexivity).
    rewrite Hnd. revert Hall. apply forallb_map_impl.
    revert IHd. apply Forall_impl. intros [k x] Hx. cbn [fst snd] in *.
    intros [Hk Hw]%andb_true_iff. rewrite Hk, (Hx Hw). reflexivity.
Qed.

(** equality of Python values: dict entries in any order *)
Inductive veq : value -> value -> Prop :=
| veq_null : veq VNull VNull
| veq_bool b : veq (VBool b) (VBool b)
| veq_int z : veq (VInt z) (VInt z)
| veq_str s : veq (VStr s) (VStr s)
| veq_list l l' : Forall2 veq l l' -> veq (VList l) (VList l')
| veq_dict d d1 d' :
    Forall2 (fun a b => fst a = fst b /\ veq (snd a) (snd b)) d d1 -> Permutation d1 d' ->
    veq (VDict d) (VDict d').

Theorem canon_veq v : veq v (canon v).
Proof.
  induction v as [|b|z|s|l IHl|d IHd] using value_ind'.
  - constructor.
  - constructor.
  - constructor.
  - constructor.
  - cbn [canon]. constructor. induction IHl; cbn [map]; constructor; assumption.
  - cbn [canon]. apply (veq_dict d (map (fun kv => (fst kv, canon (snd kv))) d)).
    + induction IHd as [|[k x] t Hx Ht IH]; cbn [map]; constructor; [|assumption].
      cbn [fst snd] in *. split; [reflexivity|exact Hx].
    + apply Permutation_sym. apply sort_keys_perm.
Qed.
