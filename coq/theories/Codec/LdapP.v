(** Proofs about Codec/Ldap.v: store + load of an object gives, field by field, [expected_field];
    _diff_entries old new applied to old yields new. *)
From Coq Require Import ZArith List Bool.
From TM Require Import Codec.BaseN Codec.BaseNP Codec.Dec Codec.DecP Codec.Json Codec.JsonP Codec.Ldap.
Import ListNotations.
Open Scope Z_scope.

(** * Association lists *)
Lemma alookup_aset {A} (d : list (str * A)) k v k' :
  alookup (aset d k v) k' = if str_eqb k k' then Some v else alookup d k'.
Proof.
  induction d as [|[k0 v0] t IH]; cbn [aset alookup].
  - destruct (str_eqb k k'); reflexivity.
  - destruct (str_eqb k0 k) eqn:E0; cbn [alookup].
    + apply str_eqb_eq in E0. subst k0. destruct (str_eqb k k'); reflexivity.
    + rewrite IH. destruct (str_eqb k0 k') eqn:E1; [|reflexivity].
      apply str_eqb_eq in E1. subst k0. rewrite str_eqb_neq; [reflexivity|].
      intros ->. rewrite str_eqb_refl in E0. discriminate.
Qed.

Lemma aset_keys {A} (d : list (str * A)) k v :
  map fst (aset d k v) = if existsb (str_eqb k) (map fst d) then map fst d else map fst d ++ [k].
Proof.
  induction d as [|[k0 v0] t IH]; cbn [aset map fst existsb]; [reflexivity|].
  destruct (str_eqb k0 k) eqn:E0.
  - apply str_eqb_eq in E0. subst k0. rewrite str_eqb_refl. reflexivity.
  - cbn [map fst]. rewrite IH. rewrite (str_eqb_neq k k0).
    + cbn [orb]. destruct (existsb (str_eqb k) (map fst t)); reflexivity.
    + intros ->. rewrite str_eqb_refl in E0. discriminate.
Qed.

Lemma nodup_app_intro {A} (l1 l2 : list A) :
  NoDup l1 -> NoDup l2 -> (forall x, In x l1 -> ~ In x l2) -> NoDup (l1 ++ l2).
Proof.
  induction 1 as [|x t Hx Ht IH]; intros H2 Hd; cbn [app]; [exact H2|]. constructor.
  - intros [Hin|Hin]%in_app_or; [contradiction|exact (Hd x (or_introl eq_refl) Hin)].
  - apply IH; [exact H2|]. intros z Hz. apply Hd. right. exact Hz.
Qed.

Lemma aset_nodup {A} (d : list (str * A)) k v : NoDup (map fst d) -> NoDup (map fst (aset d k v)).
Proof.
  intros H. rewrite aset_keys. destruct (existsb (str_eqb k) (map fst d)) eqn:E; [exact H|].
  apply nodup_app_intro; [exact H|repeat constructor; intros []|].
  intros x Hx [<-|[]]. apply existsb_str_eqb_In in Hx. congruence.
Qed.

Lemma alookup_some_in {A} (d : list (str * A)) k v : alookup d k = Some v -> In (k, v) d.
Proof.
  induction d as [|[k0 v0] t IH]; cbn [alookup]; [discriminate|].
  destruct (str_eqb k0 k) eqn:E; [apply str_eqb_eq in E; intros [= ->]; left; congruence|right; apply IH; assumption].
Qed.

Lemma alookup_in_keys {A} (d : list (str * A)) k v : alookup d k = Some v -> In k (map fst d).
Proof. intros H%alookup_some_in. exact (in_map fst _ _ H). Qed.

Lemma alookup_none_notin {A} (d : list (str * A)) k : ~ In k (map fst d) -> alookup d k = None.
Proof.
  intros Hn. destruct (alookup d k) as [v|] eqn:E; [|reflexivity].
  exfalso. apply Hn. eapply alookup_in_keys. exact E.
Qed.

Lemma alookup_none_iff {A} (d : list (str * A)) k : alookup d k = None <-> ~ In k (map fst d).
Proof.
  split; [|apply alookup_none_notin].
  induction d as [|[k0 v0] t IH]; cbn [alookup map fst]; intros H Hin; [exact Hin|].
  destruct (str_eqb k0 k) eqn:E; [discriminate|]. destruct Hin as [->|Hin]; [rewrite str_eqb_refl in E; discriminate|].
  exact (IH H Hin).
Qed.

Lemma alookup_In {A} (d : list (str * A)) k v : NoDup (map fst d) -> In (k, v) d -> alookup d k = Some v.
Proof.
  induction d as [|[k0 v0] t IH]; cbn [alookup map fst]; [intros _ []|].
  intros [Hk0 Ht]%NoDup_cons_iff [[= -> ->]|Hin].
  - rewrite str_eqb_refl. reflexivity.
  - rewrite str_eqb_neq; [exact (IH Ht Hin)|]. intros ->. exact (Hk0 (in_map fst _ _ Hin)).
Qed.

Lemma alookup_app {A} (l1 l2 : list (str * A)) a :
  alookup (l1 ++ l2) a = match alookup l1 a with Some v => Some v | None => alookup l2 a end.
Proof.
  induction l1 as [|[k v] t IH]; cbn [app alookup]; [reflexivity|]. destruct (str_eqb k a); [reflexivity|exact IH].
Qed.

Lemma aset_fresh {A} (d : list (str * A)) k v : ~ In k (map fst d) -> aset d k v = d ++ [(k, v)].
Proof.
  induction d as [|[k0 v0] t IH]; cbn [aset app map fst]; [reflexivity|]. intros [Hk Ht]%not_in_cons.
  rewrite str_eqb_neq, (IH Ht) by congruence. reflexivity.
Qed.

(** dict.update as a run of assignments *)
Definition set_all {A} (l acc : list (str * A)) : list (str * A) :=
  fold_left (fun acc kv => aset acc (fst kv) (snd kv)) l acc.

Lemma set_all_cons {A} kv (l acc : list (str * A)) : set_all (kv :: l) acc = set_all l (aset acc (fst kv) (snd kv)).
Proof. reflexivity. Qed.

Lemma set_all_nodup {A} (l acc : list (str * A)) : NoDup (map fst acc) -> NoDup (map fst (set_all l acc)).
Proof. revert acc; induction l as [|kv t IH]; intros acc H; [exact H|]. rewrite set_all_cons. apply IH, aset_nodup, H. Qed.

Lemma alookup_set_all {A} (l acc : list (str * A)) k : NoDup (map fst l) ->
  alookup (set_all l acc) k = match alookup l k with Some v => Some v | None => alookup acc k end.
Proof.
  revert acc; induction l as [|[k0 v0] t IH]; intros acc; [reflexivity|]. cbn [map fst].
  intros [Hk0 Ht]%NoDup_cons_iff. rewrite set_all_cons, (IH _ Ht), alookup_aset. cbn [fst snd alookup].
  destruct (str_eqb k0 k) eqn:E; [|reflexivity].
  apply str_eqb_eq in E. subst k0. rewrite (alookup_none_notin t k Hk0). reflexivity.
Qed.

Definition opt_rows {R V} (key : R -> str) (val : R -> option V) (L : list R) : list (str * V) :=
  flat_map (fun r => match val r with Some v => [(key r, v)] | None => [] end) L.

Section OptRows.
  Context {R V : Type} (key : R -> str) (val : R -> option V).

  Lemma opt_rows_in L k v : In (k, v) (opt_rows key val L) -> exists r, In r L /\ key r = k /\ val r = Some v.
  Proof.
    intros (r & Hr & Hin)%in_flat_map. destruct (val r) eqn:E; [|contradiction].
    destruct Hin as [[= <- <-]|[]]. exists r. split; [exact Hr|split; [reflexivity|exact E]].
  Qed.

  Lemma opt_rows_keys L k : In k (map fst (opt_rows key val L)) -> In k (map key L).
  Proof.
    intros ([k' v] & <- & Hin)%in_map_iff. destruct (opt_rows_in L k' v Hin) as (r & Hr & <- & _).
    exact (in_map key _ _ Hr).
  Qed.

  Lemma opt_rows_nodup L : NoDup (map key L) -> NoDup (map fst (opt_rows key val L)).
  Proof.
    induction L as [|r L IH]; cbn [opt_rows flat_map map]; [constructor|]. intros [Hx HL]%NoDup_cons_iff.
    rewrite map_app. destruct (val r); cbn [map fst app]; [|exact (IH HL)].
    constructor; [|exact (IH HL)]. intros Hin. exact (Hx (opt_rows_keys L _ Hin)).
  Qed.

  Lemma alookup_opt_rows L r : NoDup (map key L) -> In r L -> alookup (opt_rows key val L) (key r) = val r.
  Proof.
    induction L as [|r0 L IH]; cbn [opt_rows flat_map map]; [intros _ []|]. intros [Hx HL]%NoDup_cons_iff Hin.
    rewrite alookup_app. destruct Hin as [->|Hin].
    - destruct (val r) as [v|]; cbn [alookup]; [rewrite str_eqb_refl; reflexivity|].
      apply alookup_none_notin. intros Hin. exact (Hx (opt_rows_keys L _ Hin)).
    - assert (Hne : key r0 <> key r) by (intros Heq; apply Hx; rewrite Heq; exact (in_map key _ _ Hin)).
      destruct (val r0); cbn [alookup]; [rewrite (str_eqb_neq _ _ Hne)|]; exact (IH HL Hin).
  Qed.
End OptRows.

Lemma alookup_opt_rows_fst {A V} (g : str * A -> option V) d k : NoDup (map fst d) ->
  alookup (opt_rows fst g d) k = match alookup d k with Some v => g (k, v) | None => None end.
Proof.
  intros Hnd. destruct (alookup d k) as [v|] eqn:E.
  - exact (alookup_opt_rows fst g d (k, v) Hnd (alookup_some_in d k v E)).
  - apply alookup_none_notin. intros Hin%opt_rows_keys. exact (proj1 (alookup_none_iff d k) E Hin).
Qed.

Lemma alookup_filter {A} (q : A -> bool) (d : list (str * A)) k :
  NoDup (map fst d) ->
  alookup (filter (fun kv => q (snd kv)) d) k
  = match alookup d k with Some v => if q v then Some v else None | None => None end.
Proof.
  replace (filter (fun kv => q (snd kv)) d) with (opt_rows fst (fun kv => if q (snd kv) then Some (snd kv) else None) d).
  - apply alookup_opt_rows_fst.
  - induction d as [|[k0 v] t IH]; cbn [filter opt_rows flat_map snd fst]; [reflexivity|].
    fold (opt_rows fst (fun kv : str * A => if q (snd kv) then Some (snd kv) else None) t). rewrite IH.
    destruct (q v); reflexivity.
Qed.

(** * One field through encode, remove_empty, decode *)
Definition row_assigned (o : obj) (f : str) (t : ftype) : option (list eval) :=
  match alookup o f with
  | Some v => match enc_field t v with Some (Some vs) => Some vs | _ => None end
  | None => None
  end.

Definition row_decoded (e : entry) (a : str) (t : ftype) : option fval :=
  match alookup e a with
  | None => Some (if is_list_type t then FStrs [] else FNone)
  | Some vs => match dec_field t vs with Ok v => Some v | Err _ => None end
  end.

Definition fields (sch : schema) : list str := map (fun r => fst (snd r)) (active sch).

Definition stored (r : option (list eval)) : option (list eval) :=
  match r with Some (x :: l) => Some (x :: l) | _ => None end.

Lemma all_some_map_some {A B} (f : A -> option B) (g : A -> B) l :
  (forall x, f x = Some (g x)) -> all_some (map f l) = Some (map g l).
Proof. intros H. induction l as [|x t IH]; cbn [map all_some]; [reflexivity|]. rewrite H, IH. reflexivity. Qed.

Lemma stored_map {A} (g : A -> eval) x l : stored (Some (map g (x :: l))) = Some (map g (x :: l)).
Proof. reflexivity. Qed.

Lemma field_roundtrip t v : field_typed t v = true ->
  exists r, enc_field t v = Some r /\
  match stored r with
  | None => expected_field t (Some v) = (if is_list_type t then Some (FStrs []) else None)
  | Some vs => exists w, dec_field t vs = Ok w /\ expected_field t (Some v) = Some w /\ w <> FNone
  end.
Proof.
  destruct v as [|s|z|b|l|l|d]; destruct t; cbn [field_typed]; intros H; try discriminate;
    try (eexists; split; [reflexivity|]; cbn; reflexivity).
  - (* TStr, FStr *) eexists; split; [reflexivity|]. cbn. eexists. repeat split; discriminate.
  - (* TStr, FInt *) eexists; split; [reflexivity|]. cbn. eexists. repeat split; discriminate.
  - (* TInt, FInt *) eexists; split; [reflexivity|]. cbn [stored dec_field eval_int].
    rewrite py_int_str_of_Z. eexists. repeat split; discriminate.
  - (* TBool *) eexists; split; [reflexivity|]. cbn. eexists. repeat split; discriminate.
  - (* TListStr *) destruct l as [|x l'].
    + eexists; split; [reflexivity|]. reflexivity.
    + exists (Some (map EStr (x :: l'))). split; [reflexivity|]. rewrite stored_map. cbn [dec_field].
      rewrite map_map. rewrite (all_some_map_some _ (fun s => s)) by reflexivity. rewrite map_id.
      eexists. repeat split; discriminate.
  - (* TListInt *) destruct l as [|x l'].
    + eexists; split; [reflexivity|]. reflexivity.
    + exists (Some (map (fun z => EStr (str_of_Z z)) (x :: l'))). split; [reflexivity|].
      rewrite stored_map. cbn [dec_field]. rewrite map_map.
      rewrite (all_some_map_some _ (fun z => z)) by (intros z; cbn [eval_int]; apply py_int_str_of_Z).
      rewrite map_id. eexists. repeat split; discriminate.
  - (* TDict *) eexists; split; [reflexivity|]. cbn [stored dec_field].
    rewrite (json_loads_print (VDict (sort_keys d)) (sort_keys_wf d H)).
    eexists. repeat split; discriminate.
Qed.

(** a typed field, stored as [_remove_empty] leaves it, decodes to its expected value, or to None (dropped at the end) *)
Lemma row_roundtrip o f t e a :
  (forall v, alookup o f = Some v -> field_typed t v = true) -> alookup e a = stored (row_assigned o f t) ->
  row_decoded e a t = Some (match expected_field t (alookup o f) with Some w => w | None => FNone end) /\
  expected_field t (alookup o f) <> Some FNone.
Proof.
  intros Hty He. unfold row_decoded, row_assigned in *. rewrite He. destruct (alookup o f) as [v|].
  - destruct (field_roundtrip t v (Hty v eq_refl)) as (rr & -> & Hrr).
    replace (stored match rr with Some vs => Some vs | None => None end) with (stored rr) by (destruct rr; reflexivity).
    destruct (stored rr) as [vs|].
    + destruct Hrr as (w & -> & -> & Hnn). split; [reflexivity|congruence].
    + rewrite Hrr. destruct (is_list_type t); split; (reflexivity || discriminate).
  - cbn [stored expected_field]. destruct (is_list_type t); split; (reflexivity || discriminate).
Qed.

(** * Store + load *)
Lemma alookup_remove_empty e a : NoDup (map fst e) -> alookup (remove_empty e) a = stored (alookup e a).
Proof.
  intros Hnd. unfold remove_empty.
  rewrite (alookup_filter (fun vs : list eval => match vs with [] => false | _ :: _ => true end) e a Hnd).
  destruct (alookup e a) as [[|x l]|]; reflexivity.
Qed.

Lemma obj_typed_row sch o a f t v :
  obj_typed sch o = true -> In (a, (f, t)) (active sch) -> alookup o f = Some v -> field_typed t v = true.
Proof.
  intros Ht (row & Hrow & Hin)%in_flat_map Hv. apply (proj1 (forallb_forall _ _) Ht) in Hrow.
  destruct row as [a0 [[f0|] t0]]; [|destruct Hin]. destruct Hin as [[= -> -> ->]|[]]. rewrite Hv in Hrow. exact Hrow.
Qed.

Definition enc_rows (sch : schema) (o : obj) : entry :=
  opt_rows fst (fun r => row_assigned o (fst (snd r)) (snd (snd r))) (active sch).

Lemma dict_2_entry_rows sch o : obj_typed sch o = true ->
  forall acc, dict_2_entry sch o acc = Some (set_all (enc_rows sch o) acc).
Proof.
  unfold enc_rows.
  induction sch as [|[a [[f|] t]] r IH]; cbn [dict_2_entry obj_typed forallb active flat_map app opt_rows fst snd];
    try (intros [Hrow Hr]%andb_true_iff); intros acc; [reflexivity| |apply IH; assumption].
  unfold row_assigned. destruct (alookup o f) as [v|]; [|exact (IH Hr acc)].
  destruct (field_roundtrip t v Hrow) as (rr & -> & _). destruct rr; exact (IH Hr _).
Qed.

Lemma active_some a f t (r : schema) : active ((a, (Some f, t)) :: r) = (a, (f, t)) :: active r.
Proof. reflexivity. Qed.
Lemma active_none a t (r : schema) : active ((a, (None, t)) :: r) = active r.
Proof. reflexivity. Qed.

(** the loop of _entry_2_dict, syntactically: the rows in schema order *)
Lemma e2d_loop_syn sch e (w : str * (str * ftype) -> fval) : NoDup (fields sch) ->
  (forall a f t, In (a, (f, t)) (active sch) -> row_decoded e a t = Some (w (a, (f, t)))) ->
  forall acc, (forall f, In f (fields sch) -> ~ In f (map fst acc)) ->
  entry_2_dict_loop sch e acc = Ok (acc ++ map (fun r => (fst (snd r), w r)) (active sch)).
Proof.
  unfold fields. induction sch as [|[a0 [[f0|] t0]] r IH]; intros Hnd Hw acc Hdis; cbn [entry_2_dict_loop].
  - cbn. rewrite app_nil_r. reflexivity.
  - rewrite active_some in *. cbn [map fst snd] in *. inversion Hnd as [|x l0 Hx Hr]; subst.
    assert (Hstep : entry_2_dict_loop r e (aset acc f0 (w (a0, (f0, t0))))
                    = Ok (acc ++ (f0, w (a0, (f0, t0))) :: map (fun r => (fst (snd r), w r)) (active r))).
    { rewrite (aset_fresh acc f0 _ (Hdis f0 (or_introl eq_refl))), IH;
        [rewrite <- app_assoc; reflexivity|exact Hr|intros a f t Hin; apply Hw; right; exact Hin|].
      intros f Hin Hin'. rewrite map_app in Hin'.
      apply in_app_or in Hin' as [Hin'|[<-|[]]]; [exact (Hdis f (or_intror Hin) Hin')|exact (Hx Hin)]. }
    pose proof (Hw a0 f0 t0 (or_introl eq_refl)) as H0. unfold row_decoded in H0.
    destruct (alookup e a0) as [vs|]; [destruct (dec_field t0 vs) as [v|]; [|discriminate]|]; injection H0 as H1; rewrite H1; exact Hstep.
  - rewrite active_none in *. apply IH; assumption.
Qed.

Definition not_none (kv : str * fval) : bool := match snd kv with FNone => false | _ => true end.

Lemma filter_not_none {R} (fld : R -> str) (val : R -> option fval) L : (forall r, In r L -> val r <> Some FNone) ->
  filter not_none (map (fun r => (fld r, match val r with Some w => w | None => FNone end)) L) = opt_rows fld val L.
Proof.
  unfold opt_rows. induction L as [|r L IH]; intros H; [reflexivity|]. cbn [map filter flat_map].
  rewrite <- IH by (intros r' Hr'; apply H; right; exact Hr'). pose proof (H r (or_introl eq_refl)) as Hr.
  unfold not_none at 1. cbn [snd]. destruct (val r) as [[]|]; try reflexivity. congruence.
Qed.

Theorem entry_2_dict_rows sch e (x : str * (str * ftype) -> option fval) : NoDup (fields sch) ->
  (forall a f t, In (a, (f, t)) (active sch) ->
     row_decoded e a t = Some (match x (a, (f, t)) with Some w => w | None => FNone end) /\ x (a, (f, t)) <> Some FNone) ->
  entry_2_dict sch e = Ok (opt_rows (fun r => fst (snd r)) x (active sch)).
Proof.
  intros Hnd Hrow. unfold entry_2_dict.
  rewrite (e2d_loop_syn sch e (fun r => match x r with Some w => w | None => FNone end) Hnd)
    by (first [intros a f t Hin; apply (Hrow a f t Hin)|intros f _ []]).
  f_equal. apply (filter_not_none (fun r => fst (snd r)) x). intros [a [f t]] Hin. apply (Hrow a f t Hin).
Qed.

Theorem ldap_roundtrip sch o : wf_schema sch = true -> obj_typed sch o = true ->
  exists o', ldap_store_load sch o = Some (Ok o') /\
    (forall a f t, In (a, (f, t)) (active sch) -> alookup o' f = expected_field t (alookup o f)) /\
    (forall f, ~ In f (fields sch) -> alookup o' f = None).
Proof.
  intros Hwf Ht. unfold wf_schema in Hwf. apply andb_true_iff in Hwf as [[Hna Hnf]%andb_true_iff _].
  apply keys_nodup_NoDup in Hna, Hnf.
  exists (opt_rows (fun r => fst (snd r)) (fun r => expected_field (snd (snd r)) (alookup o (fst (snd r)))) (active sch)).
  split; [|split].
  - unfold ldap_store_load. rewrite (dict_2_entry_rows sch o Ht). f_equal. apply entry_2_dict_rows; [exact Hnf|].
    intros a f t Hin. apply (row_roundtrip o f t _ a); [intros v; exact (obj_typed_row sch o a f t v Ht Hin)|].
    (* what create() stores under the row's attribute *)
    unfold enc_rows. rewrite alookup_remove_empty by (apply set_all_nodup; constructor).
    rewrite alookup_set_all by (apply opt_rows_nodup, Hna).
    rewrite (alookup_opt_rows fst _ _ (a, (f, t)) Hna Hin). cbn [fst snd alookup].
    destruct (row_assigned o f t); reflexivity.
  - intros a f t Hin. exact (alookup_opt_rows (fun r => fst (snd r)) _ _ (a, (f, t)) Hnf Hin).
  - intros f Hnin. apply alookup_none_notin. intros Hin%opt_rows_keys. exact (Hnin Hin).
Qed.

(** * _diff_entries: applying the diff to the old entry yields the new entry *)
Definition idmap (ks : list str) : list (str * str) := map (fun k => (k, k)) ks.
Definition lowercase_keys {A} (e : list (str * A)) : Prop := forall kv, In kv e -> lower (fst kv) = fst kv.

Lemma idmap_keys ks : map fst (idmap ks) = ks.
Proof. unfold idmap. rewrite map_map. apply map_id. Qed.

Lemma lower_map_from (old : entry) : lowercase_keys old -> forall m : list (str * str), NoDup (map fst m ++ map fst old) ->
  fold_left (fun m kv => aset m (lower (fst kv)) (fst kv)) old m = m ++ idmap (map fst old).
Proof.
  induction old as [|[a v] r IH]; intros Hlow m Hnd; cbn [fold_left map idmap fst]; [symmetry; apply app_nil_r|].
  rewrite (Hlow (a, v) (or_introl eq_refl) : lower a = a).
  rewrite aset_fresh by (apply NoDup_remove_2 in Hnd; intros Hin; apply Hnd, in_or_app; left; exact Hin).
  rewrite IH; [rewrite <- app_assoc; reflexivity|intros kv Hin; apply Hlow; right; exact Hin|].
  rewrite map_app, <- app_assoc. exact Hnd.
Qed.

Lemma aremove_idmap ks a : NoDup ks ->
  exists ks', aremove (idmap ks) a = idmap ks' /\ NoDup ks' /\ forall b, In b ks' <-> In b ks /\ b <> a.
Proof.
  unfold idmap. induction ks as [|x t IH]; cbn [map aremove]; intros Hnd.
  - exists []. repeat split; try constructor; tauto.
  - apply NoDup_cons_iff in Hnd as [Hx Ht]. destruct (str_eqb x a) eqn:E.
    + apply str_eqb_eq in E. subst x. exists t. split; [reflexivity|]. split; [exact Ht|]. intros b. cbn [In].
      split; [intros Hb; split; [right; exact Hb|intros ->; contradiction]|].
      intros [[->|Hb] Hne]; [contradiction Hne; reflexivity|exact Hb].
    + destruct (IH Ht) as (t' & -> & Hnd' & Hin'). exists (x :: t'). split; [reflexivity|]. split.
      * constructor; [|exact Hnd']. intros Hx'%Hin'. tauto.
      * intros b. cbn [In]. rewrite Hin'. split; [|tauto].
        intros [<-|H]; [|tauto]. split; [left; reflexivity|]. intros ->. rewrite str_eqb_refl in E. discriminate.
Qed.

Lemma lower_map_step (old : entry) ks a : NoDup ks -> (In a (map fst old) -> In a ks) ->
  exists ks', match alookup (idmap ks) a with
              | Some orig => (eget old orig, aremove (idmap ks) a)
              | None => ([], idmap ks)
              end = (eget old a, idmap ks')
              /\ NoDup ks' /\ forall b, In b ks' <-> In b ks /\ b <> a.
Proof.
  intros Hnd Hold. destruct (in_dec str_eq_dec a ks) as [Hin|Hnin].
  - rewrite (alookup_In (idmap ks) a a); [|rewrite idmap_keys; exact Hnd|exact (in_map (fun k => (k, k)) _ _ Hin)].
    destruct (aremove_idmap ks a Hnd) as (ks' & -> & H). exists ks'. split; [reflexivity|exact H].
  - rewrite alookup_none_notin by (rewrite idmap_keys; exact Hnin). exists ks. split; [|split; [exact Hnd|]].
    + unfold eget. rewrite alookup_none_notin; [reflexivity|]. intros H. exact (Hnin (Hold H)).
    + intros b. split; [|tauto]. intros Hb. split; [exact Hb|]. intros ->. contradiction.
Qed.

(** the modification [_diff_entries] emits for one attribute of the new entry *)
Definition op_of (old : entry) (a : str) (nv : list eval) : option modop :=
  match eget old a, nv with
  | [], [] => None
  | [], _ :: _ => Some (MAdd nv)
  | _ :: _, [] => Some MDelete
  | ov, _ :: _ => if values_differ ov nv then Some (MReplace nv) else None
  end.

Lemma diff_new_spec old new : NoDup (map fst new) -> lowercase_keys new -> forall ks, NoDup ks ->
  (forall k, In k (map fst new) -> In k (map fst old) -> In k ks) ->
  exists L, diff_new old (idmap ks) new = (opt_rows fst (fun kv => op_of old (fst kv) (snd kv)) new, idmap L)
            /\ NoDup L /\ forall b, In b L <-> In b ks /\ ~ In b (map fst new).
Proof.
  induction new as [|[a nv] r IH]; intros Hnd Hlow ks Hks Hinv.
  - exists ks. repeat split; try assumption; cbn; tauto.
  - cbn [map fst] in Hnd. apply NoDup_cons_iff in Hnd as [Ha Hr]. cbn [diff_new].
    rewrite (Hlow (a, nv) (or_introl eq_refl) : lower a = a).
    destruct (lower_map_step old ks a Hks) as (ks' & -> & Hks' & Hin'); [apply Hinv; left; reflexivity|]. cbn [fst snd].
    destruct (IH Hr (fun kv Hin => Hlow kv (or_intror Hin)) ks' Hks') as (L & -> & HL & HinL).
    { intros k Hk Hko. apply Hin'. split; [apply Hinv; [right|]; assumption|]. intros ->. contradiction. }
    exists L. cbn [fst snd opt_rows flat_map]. split; [|split; [exact HL|]].
    + do 2 f_equal. unfold op_of. destruct (eget old a), nv; try reflexivity. destruct (values_differ _ _); reflexivity.
    + intros b. rewrite HinL, Hin'. cbn [map fst In]. intuition congruence.
Qed.

(** ** LDAP modify on association lists *)
Definition effect (op : modop) (cur : list eval) : list eval :=
  match op with MAdd vs => cur ++ vs | MReplace vs => vs | MDelete => [] end.

Lemma alookup_aremove {A} (d : list (str * A)) k a : NoDup (map fst d) ->
  alookup (aremove d k) a = if str_eqb k a then None else alookup d a.
Proof.
  induction d as [|[k0 v0] t IH]; cbn [aremove alookup map fst]; [destruct (str_eqb k a); reflexivity|].
  intros [Hx Ht]%NoDup_cons_iff. destruct (str_eqb k0 k) eqn:E0.
  - apply str_eqb_eq in E0. subst k0. destruct (str_eqb k a) eqn:E1; [|reflexivity].
    apply str_eqb_eq in E1. subst a. apply alookup_none_notin. exact Hx.
  - cbn [alookup]. rewrite (IH Ht). destruct (str_eqb k0 a) eqn:E2; [|reflexivity].
    apply str_eqb_eq in E2. subst a. rewrite str_eqb_neq; [reflexivity|].
    intros ->. rewrite str_eqb_refl in E0. discriminate.
Qed.

Lemma aremove_keys_incl {A} (d : list (str * A)) k x : In x (map fst (aremove d k)) -> In x (map fst d).
Proof.
  induction d as [|[k0 v0] t IH]; cbn [aremove map fst]; [intros []|].
  destruct (str_eqb k0 k); cbn [map fst In]; tauto.
Qed.

Lemma aremove_nodup {A} (d : list (str * A)) k : NoDup (map fst d) -> NoDup (map fst (aremove d k)).
Proof.
  induction d as [|[k0 v0] t IH]; cbn [aremove map fst]; [constructor|]. intros [Hx Ht]%NoDup_cons_iff.
  destruct (str_eqb k0 k); [exact Ht|].
  cbn [map fst]. constructor; [|exact (IH Ht)]. intros Hin%aremove_keys_incl. contradiction.
Qed.

Lemma apply_mod_spec e m a : NoDup (map fst e) ->
  NoDup (map fst (apply_mod e m)) /\
  eget (apply_mod e m) a = if str_eqb (fst m) a then effect (snd m) (eget e (fst m)) else eget e a.
Proof.
  intros Hnd. destruct m as [k [vs|vs|]]; unfold apply_mod, eget; cbn [fst snd effect];
    (split; [auto using aset_nodup, aremove_nodup|]); rewrite ?alookup_aset, ?alookup_aremove by exact Hnd;
    destruct (str_eqb k a); reflexivity.
Qed.

Lemma apply_mods_spec ms a : NoDup (map fst ms) -> forall e, NoDup (map fst e) ->
  eget (apply_mods e ms) a = match alookup ms a with Some op => effect op (eget e a) | None => eget e a end.
Proof.
  induction ms as [|[k op] r IH]; cbn [map fst]; [reflexivity|]. intros [Hk Hr]%NoDup_cons_iff e Hnde.
  unfold apply_mods. cbn [fold_left alookup].
  destruct (apply_mod_spec e (k, op) a Hnde) as [Hnd' Hget]. cbn [fst snd] in Hget.
  fold (apply_mods (apply_mod e (k, op)) r). rewrite (IH Hr _ Hnd'), Hget.
  destruct (str_eqb k a) eqn:E; [|reflexivity].
  apply str_eqb_eq in E. subst a. rewrite (alookup_none_notin r k Hk). reflexivity.
Qed.

(** ** The diff applied *)
Lemma eval_eqb_eq a b : eval_eqb a b = true <-> a = b.
Proof. destruct a, b; cbn [eval_eqb]; rewrite ?str_eqb_eq, ?eqb_true_iff; split; congruence. Qed.

Lemma values_same ov nv : values_differ ov nv = false -> same_values ov nv.
Proof.
  unfold values_differ. rewrite !orb_false_iff, !negb_false_iff, !forallb_forall. intros [[_ H2] H3].
  split; intros v Hv%(existsb_eqb_In eval_eqb eval_eqb_eq); [apply H2|apply H3]; exact Hv.
Qed.

Lemma same_values_refl l : same_values l l.
Proof. split; intros v H; exact H. Qed.

Lemma op_of_effect old a nv :
  same_values (match op_of old a nv with Some op => effect op (eget old a) | None => eget old a end) nv.
Proof.
  unfold op_of. destruct (eget old a) as [|x l], nv as [|y t]; cbn [effect app]; try apply same_values_refl.
  destruct (values_differ (x :: l) (y :: t)) eqn:Ed; [apply same_values_refl|apply values_same, Ed].
Qed.

Lemma entry_ok_spec e : entry_ok e = true -> NoDup (map fst e) /\ lowercase_keys e.
Proof.
  unfold entry_ok. rewrite andb_true_iff, keys_nodup_NoDup, forallb_forall. intros [H1 H2].
  split; [exact H1|]. intros kv Hin. apply str_eqb_eq, H2, Hin.
Qed.

Theorem diff_applied_yields_new old new : entry_ok old = true -> entry_ok new = true ->
  forall a, same_values (eget (apply_mods old (diff_entries old new)) a) (eget new a).
Proof.
  intros [Hndo Hlowo]%entry_ok_spec [Hndn Hlown]%entry_ok_spec a.
  unfold diff_entries, lower_map. rewrite (lower_map_from old Hlowo [] Hndo). cbn [app].
  destruct (diff_new_spec old new Hndn Hlown (map fst old) Hndo (fun k _ H => H)) as (L & -> & HndL & HL).
  cbn [fst snd]. unfold idmap. rewrite map_map. cbn [snd].
  set (dels := map (fun k : str => (k, MDelete)) L).
  assert (Hkd : map fst dels = L) by (unfold dels; rewrite map_map; apply map_id).
  (* the two parts of the diff name distinct attributes *)
  rewrite apply_mods_spec, alookup_app, alookup_opt_rows_fst; [|exact Hndn| |exact Hndo].
  2:{ rewrite map_app, Hkd. apply nodup_app_intro; [apply opt_rows_nodup, Hndn|exact HndL|].
      intros x Hx%opt_rows_keys Hx2%HL. tauto. }
  unfold eget at 3. destruct (alookup new a) as [nv|] eqn:En.
  - (* the attribute is in the new entry *)
    cbn [fst snd]. pose proof (op_of_effect old a nv) as Hop. destruct (op_of old a nv); [exact Hop|].
    rewrite alookup_none_notin; [exact Hop|]. rewrite Hkd. intros Hin%HL. apply alookup_in_keys in En. tauto.
  - (* not in the new entry: deleted if the old entry has it *)
    destruct (in_dec str_eq_dec a L) as [Hin|Hnin].
    + rewrite (alookup_In dels a MDelete); [|rewrite Hkd; exact HndL|exact (in_map (fun k => (k, MDelete)) _ _ Hin)].
      apply same_values_refl.
    + rewrite alookup_none_notin by (rewrite Hkd; exact Hnin). unfold eget.
      destruct (alookup old a) as [ov|] eqn:Eo; [|apply same_values_refl].
      exfalso. apply Hnin, HL. split; [exact (alookup_in_keys old a ov Eo)|].
      apply alookup_none_iff, En.
Qed.
