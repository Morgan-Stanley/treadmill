(** Proofs about Codec/Dec.v: split/join/split1 algebra, int(str(z)) = z. *)
From Coq Require Import ZArith List Bool Lia ZifyBool.
From TM Require Import Codec.BaseN Codec.BaseNP Codec.Dec.
Import ListNotations.
Open Scope Z_scope.

(** * split / join *)
Lemma split_nonempty sep s : split sep s <> [].
Proof.
  destruct s as [|c t]; cbn [split]; [discriminate|].
  destruct (c =? sep); [discriminate|]. destruct (split sep t); discriminate.
Qed.

Lemma split_notin sep s : ~ In sep s -> split sep s = [s].
Proof.
  induction s as [|c t IH]; cbn [split]; [reflexivity|]. intros [Hc Ht]%notin_cons_eqb.
  rewrite Hc, (IH Ht). reflexivity.
Qed.

Lemma split_app sep a b : split sep (a ++ sep :: b) = split sep a ++ split sep b.
Proof.
  induction a as [|c a IH]; cbn [app split].
  - rewrite Z.eqb_refl. reflexivity.
  - rewrite IH. destruct (c =? sep); [reflexivity|].
    pose proof (split_nonempty sep a). destruct (split sep a); [contradiction|reflexivity].
Qed.

Lemma join_split sep s : join sep (split sep s) = s.
Proof.
  induction s as [|c t IH]; cbn [split]; [reflexivity|].
  pose proof (split_nonempty sep t). destruct (split sep t) as [|p ps]; [contradiction|].
  destruct (c =? sep) eqn:E.
  - apply Z.eqb_eq in E. subst c. cbn [join app] in *. rewrite IH. reflexivity.
  - destruct ps; cbn [join app] in *; rewrite <- IH; reflexivity.
Qed.

Lemma join_cons2 sep (x y : list Z) (t : list (list Z)) : join sep (x :: y :: t) = x ++ sep :: join sep (y :: t).
Proof. reflexivity. Qed.

Lemma split_join sep l :
  l <> [] -> Forall (fun s => ~ In sep s) l -> split sep (join sep l) = l.
Proof.
  induction l as [|x t IH]; intros Hne Hall; [congruence|].
  inversion Hall as [|y l' Hx Ht]; subst.
  destruct t as [|y t']; [exact (split_notin sep x Hx)|].
  rewrite join_cons2, split_app, (split_notin sep x Hx), IH; [reflexivity|discriminate|exact Ht].
Qed.

Lemma join_notin sep c l : c <> sep -> Forall (fun s => ~ In c s) l -> ~ In c (join sep l).
Proof.
  intros Hc. induction l as [|x t IH]; intros Hall; [intros []|].
  inversion Hall as [|y l' Hx Ht]; subst. destruct t as [|y t']; [exact Hx|].
  rewrite join_cons2. intros [Hin|[Hin|Hin]]%in_app_or; [contradiction|congruence|exact (IH Ht Hin)].
Qed.

Lemma split1_first sep a b : ~ In sep a -> split1 sep (a ++ sep :: b) = Some (a, b).
Proof.
  induction a as [|c a IH]; cbn [app split1]; [rewrite Z.eqb_refl; reflexivity|].
  intros [Hc Ha]%notin_cons_eqb. rewrite Hc, (IH Ha). reflexivity.
Qed.

Lemma split1_none sep s : ~ In sep s -> split1 sep s = None.
Proof.
  induction s as [|c t IH]; cbn [split1]; [reflexivity|]. intros [Hc Ht]%notin_cons_eqb.
  rewrite Hc, (IH Ht). reflexivity.
Qed.

(** * strip: [Dec.lstrip] and [Units.lstrip_sp] are [lstrip_by] at their whitespace test, by conversion *)
Section Strip.
  Variable p : Z -> bool.

  Fixpoint lstrip_by (s : str) : str :=
    match s with
    | c :: t => if p c then lstrip_by t else s
    | [] => []
    end.

  Lemma lstrip_by_id s : Forall (fun c => p c = false) s -> lstrip_by s = s.
  Proof. intros [|c t Hc _]; cbn [lstrip_by]; [|rewrite Hc]; reflexivity. Qed.

  Lemma strip_by_id s : Forall (fun c => p c = false) s -> rev (lstrip_by (rev (lstrip_by s))) = s.
  Proof. intros H. rewrite (lstrip_by_id s H), (lstrip_by_id _ (Forall_rev H)). apply rev_involutive. Qed.
End Strip.

Lemma strip_id s : Forall (fun c => is_ws c = false) s -> strip s = s.
Proof. exact (strip_by_id is_ws s). Qed.

(** * Decimal digits *)
Lemma digit_cases c : In c digits10 ->
  c = 48 \/ c = 49 \/ c = 50 \/ c = 51 \/ c = 52 \/ c = 53 \/ c = 54 \/ c = 55 \/ c = 56 \/ c = 57.
Proof. unfold digits10. cbn [In]. lia. Qed.

Lemma digit_props c : In c digits10 ->
  is_digit c = true /\ index_of c digits10 = Some (c - 48) /\ is_ws c = false /\ c <> 45 /\ c <> 43
  /\ c <> 46 /\ c <> 44 /\ c <> 58 /\ c <> 95.
Proof.
  intros H%digit_cases. unfold is_digit, is_ws. cbn [existsb]. repeat split; try lia.
  repeat (destruct H as [->|H]; [reflexivity|]). subst c. reflexivity.
Qed.

Lemma digits10_nodup : NoDup digits10.
Proof. apply nodupb_NoDup. reflexivity. Qed.

Lemma val10_cons c t : In c digits10 ->
  val digits10 10 (c :: t) = option_map (fun v => (c - 48) * 10 ^ zlen t + v) (val digits10 10 t).
Proof. intros (_ & Hi & _)%digit_props. cbn [val]. rewrite Hi. destruct (val digits10 10 t); reflexivity. Qed.

Lemma str_of_nonneg_spec n : 0 <= n ->
  val digits10 10 (str_of_nonneg n) = Some n /\ (1 <= length (str_of_nonneg n))%nat
  /\ (forall k, (1 <= k)%nat -> n < 10 ^ Z.of_nat k -> (length (str_of_nonneg n) <= k)%nat)
  /\ Forall (fun c => In c digits10) (str_of_nonneg n).
Proof.
  intros Hn. unfold str_of_nonneg.
  destruct (to_base_n_spec digits10 10 n digits10_nodup) as (s & -> & H);
    [change (zlen digits10) with 10; lia | exact Hn | exact H].
Qed.

Lemma str_of_nonneg_digits n : 0 <= n -> Forall (fun c => In c digits10) (str_of_nonneg n).
Proof. intros Hn. apply (str_of_nonneg_spec n Hn). Qed.

Lemma int_digits_val s : Forall (fun c => In c digits10) s ->
  forall acc prev, s <> [] \/ prev = true ->
  int_digits s acc prev = option_map (fun v => acc * 10 ^ zlen s + v) (val digits10 10 s).
Proof.
  induction 1 as [|c t Hc Ht IH]; intros acc prev Hp.
  - destruct Hp as [Hp| ->]; [congruence|]. cbn. f_equal. lia.
  - cbn [int_digits]. rewrite (proj1 (digit_props c Hc)), (val10_cons c t Hc), IH, pow_zlen_cons by (right; reflexivity).
    destruct (val digits10 10 t); cbn [option_map]; [f_equal; ring|reflexivity].
Qed.

Lemma int_digits_nonneg n : 0 <= n -> int_digits (str_of_nonneg n) 0 false = Some n.
Proof.
  intros Hn. destruct (str_of_nonneg_spec n Hn) as (Hv & Hl & _ & Hall).
  rewrite (int_digits_val _ Hall), Hv; [reflexivity|].
  left. intros E. rewrite E in Hl. cbn in Hl. lia.
Qed.

Lemma digits_no_ws s : Forall (fun c => In c digits10) s -> Forall (fun c => is_ws c = false) s.
Proof. apply Forall_impl. intros c Hc. apply digit_props, Hc. Qed.

Theorem py_int_str_of_Z z : py_int (str_of_Z z) = Some z.
Proof.
  unfold str_of_Z, py_int. destruct (z <? 0) eqn:E.
  - rewrite strip_id by (constructor; [reflexivity|apply digits_no_ws, str_of_nonneg_digits; lia]).
    rewrite Z.eqb_refl, int_digits_nonneg by lia. cbn [option_map]. f_equal. lia.
  - pose proof (str_of_nonneg_digits z ltac:(lia)) as Hall. rewrite strip_id by (apply digits_no_ws, Hall).
    pose proof (int_digits_nonneg z ltac:(lia)) as Hi.
    destruct (str_of_nonneg z) as [|c t]; [discriminate|]. inversion Hall as [|? ? Hc _]; subst.
    (* the first character is a digit, not a sign *)
    apply digit_props in Hc as (_ & _ & _ & H45 & H43 & _).
    rewrite (proj2 (Z.eqb_neq c 45) H45), (proj2 (Z.eqb_neq c 43) H43). exact Hi.
Qed.

Lemma str_of_Z_chars z c : In c (str_of_Z z) -> In c digits10 \/ c = 45.
Proof.
  unfold str_of_Z. destruct (z <? 0) eqn:E; [intros [<-|Hin]; [right; reflexivity|]|intros Hin];
    left; revert c Hin; apply Forall_forall, str_of_nonneg_digits; lia.
Qed.

Lemma str_of_Z_notin z c : c <> 45 -> ~ In c digits10 -> ~ In c (str_of_Z z).
Proof. intros H1 H2 [Hin|Hin]%str_of_Z_chars; [contradiction|congruence]. Qed.

Lemma str_of_Z_no_dot z : ~ In 46 (str_of_Z z).
Proof. apply str_of_Z_notin; [discriminate|]. intros H. apply digit_props in H. intuition. Qed.

Lemma str_of_Z_no_comma z : ~ In 44 (str_of_Z z).
Proof. apply str_of_Z_notin; [discriminate|]. intros H. apply digit_props in H. intuition. Qed.
