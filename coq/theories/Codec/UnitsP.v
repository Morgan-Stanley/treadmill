(** Proofs about Codec/Units.v: every unit spelling of a quantity is parsed to that quantity. *)
From Coq Require Import ZArith List Bool Lia ZifyBool.
From TM Require Import Codec.BaseN Codec.BaseNP Codec.Dec Codec.DecP Codec.Units.
Import ListNotations.
Open Scope Z_scope.

(** * Tables: the check pins the canonical tables *)
Lemma zz_eqb_eq a b : zz_eqb a b = true -> a = b.
Proof.
  revert b; induction a as [|[x1 x2] a IH]; intros [|[y1 y2] b] H; cbn [zz_eqb] in H;
    try reflexivity; try discriminate.
  apply andb_true_iff in H as [H H3]. apply andb_true_iff in H as [H1 H2].
  apply Z.eqb_eq in H1. apply Z.eqb_eq in H2. rewrite (IH b H3). subst. reflexivity.
Qed.

Lemma tables_ok_canon T : units_tables_ok T = true -> T = utables_canon.
Proof.
  destruct T as [sc ub ud md kz kd mbd pc rp ro rd]. unfold units_tables_ok.
  cbn [un_scale un_unit_bin un_unit_dec un_mod un_kb_zero un_kb_div un_mb_div un_pct
       un_res_parsers un_res_order un_res_default].
  intros H.
  repeat match type of H with _ && _ = true => let H' := fresh "H" in apply andb_true_iff in H as [H H'] end.
  repeat match goal with
         | X : zz_eqb _ _ = true |- _ => apply zz_eqb_eq in X
         | X : str_eqb _ _ = true |- _ => apply str_eqb_eq in X
         | X : (_ =? _) = true |- _ => apply Z.eqb_eq in X
         end.
  subst. reflexivity.
Qed.

(** * List plumbing: s[-1], s[:-1], endswith *)
Lemma unsnoc_app s c : unsnoc (s ++ [c]) = Some (s, c).
Proof. induction s as [|a s IH]; cbn [app unsnoc]; [reflexivity|]. rewrite IH. reflexivity. Qed.

Lemma endswith_last s c : endswith (s ++ [c]) [c] = true.
Proof. unfold endswith. rewrite rev_app_distr. cbn [rev app prefixb]. rewrite Z.eqb_refl. reflexivity. Qed.

Lemma endswith_other s d c : d <> c -> endswith (s ++ [d]) [c] = false.
Proof.
  intros Hd. unfold endswith. rewrite rev_app_distr. cbn [rev app prefixb].
  destruct (c =? d) eqn:E; [lia|reflexivity].
Qed.

(** * upper / lower *)
Lemma upper_app a b : upper (a ++ b) = upper a ++ upper b.
Proof. apply map_app. Qed.

Lemma upper_lower_c c : upper_c (lower_c c) = upper_c c.
Proof.
  unfold upper_c, lower_c. destruct ((65 <=? c) && (c <=? 90)) eqn:E1; [|reflexivity].
  destruct ((97 <=? c + 32) && (c + 32 <=? 122)) eqn:E2; destruct ((97 <=? c) && (c <=? 122)) eqn:E3; lia.
Qed.

Lemma upper_lower s : upper (lower s) = upper s.
Proof. unfold upper, lower. rewrite map_map. apply map_ext. exact upper_lower_c. Qed.

Lemma upper_id s : Forall (fun c => upper_c c = c) s -> upper s = s.
Proof. intros H. unfold upper. rewrite <- (map_id s) at 2. apply map_ext_in, Forall_forall, H. Qed.

Lemma upper_blank l : blank l = true -> upper l = l.
Proof.
  intros H. apply upper_id, Forall_forall. intros c Hc. apply (proj1 (forallb_forall _ _) H) in Hc.
  unfold is_space, upper_c in *. destruct ((97 <=? c) && (c <=? 122)) eqn:E; [lia|reflexivity].
Qed.

(** * strip *)
Lemma lstrip_sp_blank l x : blank l = true -> lstrip_sp (l ++ x) = lstrip_sp x.
Proof.
  induction l as [|c t IH]; cbn [blank forallb app lstrip_sp]; [reflexivity|].
  intros [-> Ht]%andb_true_iff. exact (IH Ht).
Qed.

Lemma lstrip_sp_app_blank_r s r : blank r = true ->
  lstrip_sp (s ++ r) = match lstrip_sp s with [] => [] | x => x ++ r end.
Proof.
  intros Hr. induction s as [|c t IH]; cbn [app lstrip_sp].
  - rewrite <- (app_nil_r r), lstrip_sp_blank by exact Hr. reflexivity.
  - destruct (is_space c); [exact IH|reflexivity].
Qed.

Lemma blank_rev r : blank r = true -> blank (rev r) = true.
Proof. unfold blank. rewrite !forallb_forall. intros H c Hc%in_rev. exact (H c Hc). Qed.

Lemma pstrip_blanks l s r : blank l = true -> blank r = true -> pstrip (l ++ s ++ r) = pstrip s.
Proof.
  intros Hl Hr. unfold pstrip. rewrite lstrip_sp_blank by exact Hl.
  rewrite lstrip_sp_app_blank_r by exact Hr.
  destruct (lstrip_sp s) as [|x xs] eqn:E; [reflexivity|].
  rewrite rev_app_distr. rewrite lstrip_sp_blank by (apply blank_rev; exact Hr). reflexivity.
Qed.

Lemma pstrip_id s : Forall (fun c => is_space c = false) s -> pstrip s = s.
Proof. exact (strip_by_id is_space s). Qed.

(** the normal form the parsers work on: value.upper().strip() *)
Definition norm (s : str) : str := pstrip (upper s).

Lemma norm_blanks l s r : blank l = true -> blank r = true -> norm (l ++ s ++ r) = norm s.
Proof.
  intros Hl Hr. unfold norm. rewrite !upper_app, (upper_blank l Hl), (upper_blank r Hr).
  apply pstrip_blanks; assumption.
Qed.

Lemma norm_lower s : norm (lower s) = norm s.
Proof. unfold norm. rewrite upper_lower. reflexivity. Qed.

Lemma norm_same_upper s1 s2 : upper s1 = upper s2 -> norm s1 = norm s2.
Proof. unfold norm. intros H. rewrite H. reflexivity. Qed.

(** characters that upper() and strip() leave alone *)
Definition plain_c (c : Z) : bool := negb (is_space c) && (upper_c c =? c).

Lemma norm_plain s : forallb plain_c s = true -> norm s = s.
Proof.
  intros H. rewrite forallb_forall in H. unfold norm. rewrite upper_id.
  - apply pstrip_id. apply Forall_forall. intros c Hc. specialize (H c Hc). unfold plain_c in H.
    apply andb_true_iff in H as [H _]. destruct (is_space c); [discriminate|reflexivity].
  - apply Forall_forall. intros c Hc. specialize (H c Hc). unfold plain_c in H.
    apply andb_true_iff in H as [_ H]. apply Z.eqb_eq in H. exact H.
Qed.

(** * str(n): digits and '-' only, never empty, ends with a digit *)
Lemma digit_plain c : In c digits10 -> plain_c c = true /\ assoc c canon_scale = None /\ c <> 37.
Proof.
  intros H. apply digit_cases in H.
  repeat (destruct H as [H|H]; [subst c; vm_compute; repeat split; discriminate|]).
  subst c; vm_compute; repeat split; discriminate.
Qed.

Lemma str_of_Z_plain z : forallb plain_c (str_of_Z z) = true.
Proof.
  apply forallb_forall. intros c [Hc| ->]%str_of_Z_chars; [apply digit_plain, Hc|reflexivity].
Qed.

Lemma str_of_Z_last z : exists i d, str_of_Z z = i ++ [d] /\ In d digits10.
Proof.
  assert (H : forall n, 0 <= n -> exists i d, str_of_nonneg n = i ++ [d] /\ In d digits10).
  { intros n Hn. destruct (str_of_nonneg_spec n Hn) as (_ & Hl & _ & Hall).
    destruct (exists_last (l := str_of_nonneg n)) as (i & d & Hd); [intros E; rewrite E in Hl; cbn in Hl; lia|].
    exists i, d. split; [exact Hd|]. rewrite Hd in Hall. apply Forall_app in Hall as [_ Hall].
    inversion Hall; assumption. }
  unfold str_of_Z. destruct (z <? 0) eqn:E; [|apply H; lia].
  destruct (H (- z) ltac:(lia)) as (i & d & -> & Hd). exists (45 :: i), d. split; [reflexivity|exact Hd].
Qed.

Lemma uint_str z : uint (str_of_Z z) = UOk z.
Proof. unfold uint. rewrite py_int_str_of_Z. reflexivity. Qed.

Lemma norm_str_sfx z sfx : forallb plain_c sfx = true -> norm (str_of_Z z ++ sfx) = str_of_Z z ++ sfx.
Proof. intros H. apply norm_plain. rewrite forallb_app, str_of_Z_plain, H. reflexivity. Qed.

Lemma norm_str z : norm (str_of_Z z) = str_of_Z z.
Proof. apply norm_plain, str_of_Z_plain. Qed.

Lemma str_of_Z_zero z : str_of_Z z = [48] -> z = 0.
Proof.
  intros H. pose proof (py_int_str_of_Z z) as Hp. rewrite H in Hp. vm_compute in Hp. congruence.
Qed.

Lemma scale_plain c e : assoc c canon_scale = Some e -> plain_c c = true /\ 0 <= e.
Proof.
  unfold canon_scale. cbn [assoc]. intros H.
  repeat match type of H with
         | (if ?k =? c then _ else _) = _ =>
             let E := fresh "E" in destruct (k =? c) eqn:E;
             [apply Z.eqb_eq in E; subst c; inversion H; subst e; split; [reflexivity|lia]|]
         end.
  discriminate.
Qed.

Lemma unsnoc_str z : exists i d, unsnoc (str_of_Z z) = Some (i, d) /\ assoc d canon_scale = None /\ d <> 37.
Proof.
  destruct (str_of_Z_last z) as (i & d & -> & Hd). exists i, d. split; [apply unsnoc_app|apply digit_plain, Hd].
Qed.

Lemma spell_not_zero n c dec : str_eqb (spell n c dec) [48] = false.
Proof.
  unfold spell. destruct (str_of_Z_last n) as (i & d & -> & _).
  destruct i as [|a i]; cbn [app str_eqb]; [|destruct i; cbn [app str_eqb]]; apply andb_false_r.
Qed.

(** * The parsers on a spelling in normal form, over tables that pass the check *)
Section Ok.
  Variable T : utables.
  Hypothesis Hok : units_tables_ok T = true.
  Let HT : T = utables_canon := tables_ok_canon T Hok.

  (** <n><c> and <n><c>B : n * 1024^e and n * 1000^e bytes *)
  Lemma size_to_bytes_spelled s n c e dec :
    norm s = spell n c dec -> assoc c canon_scale = Some e ->
    size_to_bytes T (VStr s) = UOk (denote n e dec).
  Proof.
    intros Hn Hc. rewrite HT. unfold size_to_bytes. fold (norm s). rewrite Hn. unfold spell, denote.
    cbn [un_mod un_unit_dec un_unit_bin un_scale utables_canon].
    destruct dec.
    - (* modifier: size[-1] == 'B', unit = 1000, then the suffix proper *)
      change (str_of_Z n ++ [c; 66]) with (str_of_Z n ++ [c] ++ [66]). rewrite app_assoc, unsnoc_app.
      rewrite Z.eqb_refl, unsnoc_app, Hc, uint_str. reflexivity.
    - rewrite unsnoc_app. destruct (c =? 66) eqn:E.
      + (* "<n>B": the modifier branch is taken and the remaining numeral has no suffix *)
        apply Z.eqb_eq in E. subst c. injection Hc as <-.
        destruct (unsnoc_str n) as (i & d & -> & -> & _). rewrite uint_str, Z.pow_0_r. f_equal. lia.
      + rewrite unsnoc_app, Hc, uint_str. reflexivity.
  Qed.

  Lemma kilobytes_spelled s n c e dec :
    norm s = spell n c dec -> assoc c canon_scale = Some e ->
    kilobytes T (VStr s) = UOk (denote n e dec / 1024).
  Proof.
    intros Hn Hc. unfold kilobytes. cbn [py_str]. fold (norm s).
    rewrite (size_to_bytes_spelled s n c e dec Hn Hc), Hn, HT.
    cbn [un_kb_zero un_scale un_kb_div utables_canon]. rewrite spell_not_zero.
    unfold spell. destruct dec.
    - change (str_of_Z n ++ [c; 66]) with (str_of_Z n ++ [c] ++ [66]). rewrite app_assoc, unsnoc_app.
      reflexivity.
    - rewrite unsnoc_app, Hc. reflexivity.
  Qed.

  Lemma megabytes_spelled s n c e dec :
    norm s = spell n c dec -> assoc c canon_scale = Some e ->
    megabytes T (VStr s) = UOk (denote n e dec / 1048576).
  Proof.
    intros Hn Hc. unfold megabytes. rewrite (kilobytes_spelled s n c e dec Hn Hc), HT.
    cbn [ubind un_mb_div utables_canon]. f_equal. rewrite Z.div_div by lia. reflexivity.
  Qed.

  (** unit-less values: only a spelling of "0" is accepted, anything else is the generic Exception *)
  Lemma kilobytes_unitless_val v n :
    norm (py_str v) = str_of_Z n -> kilobytes T v = if n =? 0 then UOk 0 else UException.
  Proof.
    intros Hn. unfold kilobytes. fold (norm (py_str v)). rewrite Hn, HT.
    cbn [un_kb_zero un_scale utables_canon].
    destruct (str_eqb (str_of_Z n) [48]) eqn:E.
    - apply str_eqb_eq, str_of_Z_zero in E. subst n. reflexivity.
    - destruct (n =? 0) eqn:E0; [apply Z.eqb_eq in E0; subst n; discriminate E|].
      destruct (unsnoc_str n) as (i & d & -> & -> & _). reflexivity.
  Qed.

  (** cpu_units: "<n>%", "<n>" and the int n *)
  Lemma cpu_units_spelled v n (pct : bool) :
    norm (py_str v) = str_of_Z n ++ (if pct then [37] else []) -> cpu_units T v = UOk n.
  Proof.
    intros Hn. unfold cpu_units. fold (norm (py_str v)). rewrite Hn, HT. cbn [un_pct utables_canon].
    destruct pct.
    - rewrite endswith_last, removelast_last. apply uint_str.
    - rewrite app_nil_r. destruct (str_of_Z_last n) as (i & d & Hi & Hd). rewrite Hi at 1.
      rewrite endswith_other by apply digit_plain, Hd. apply uint_str.
  Qed.

  Lemma spells_canon n c e dec : assoc c canon_scale = Some e -> spells (spell n c dec) (spell n c dec) = true.
  Proof.
    intros [Hp _]%scale_plain. apply str_eqb_eq. apply norm_str_sfx. destruct dec; cbn [forallb]; rewrite Hp; reflexivity.
  Qed.

  (** the parsers depend on their argument only through value.upper().strip() *)
  Lemma normal_form s1 s2 :
    pstrip (upper s1) = pstrip (upper s2) ->
    size_to_bytes T (VStr s1) = size_to_bytes T (VStr s2) /\ kilobytes T (VStr s1) = kilobytes T (VStr s2) /\
    megabytes T (VStr s1) = megabytes T (VStr s2) /\ cpu_units T (VStr s1) = cpu_units T (VStr s2).
  Proof.
    intros H.
    assert (Hs : size_to_bytes T (VStr s1) = size_to_bytes T (VStr s2)) by (unfold size_to_bytes; rewrite H; reflexivity).
    assert (Hk : kilobytes T (VStr s1) = kilobytes T (VStr s2)) by (unfold kilobytes; cbn [py_str]; rewrite H, Hs; reflexivity).
    repeat split; [exact Hs|exact Hk|unfold megabytes; rewrite Hk|unfold cpu_units; cbn [py_str]; rewrite H]; reflexivity.
  Qed.

  Lemma case_and_blanks l r s1 s2 :
    blank l = true -> blank r = true -> upper s1 = upper s2 ->
    size_to_bytes T (VStr (l ++ s1 ++ r)) = size_to_bytes T (VStr s2) /\
    kilobytes T (VStr (l ++ s1 ++ r)) = kilobytes T (VStr s2) /\
    megabytes T (VStr (l ++ s1 ++ r)) = megabytes T (VStr s2) /\
    cpu_units T (VStr (l ++ s1 ++ r)) = cpu_units T (VStr s2).
  Proof.
    intros Hl Hr Hu. apply normal_form. fold (norm (l ++ s1 ++ r)). fold (norm s2).
    rewrite norm_blanks by assumption. apply norm_same_upper. exact Hu.
  Qed.

  Lemma cpu_units_numeral v n : py_str v = str_of_Z n -> cpu_units T v = UOk n.
  Proof. intros Hv. apply (cpu_units_spelled v n false). rewrite Hv, app_nil_r. apply norm_str. Qed.

  Lemma cpu_spelled s n (pct : bool) :
    spells s (str_of_Z n ++ (if pct then [37] else [])) = true -> cpu_units T (VStr s) = UOk n.
  Proof. intros Hs%str_eqb_eq. exact (cpu_units_spelled (VStr s) n pct Hs). Qed.

  (** * resources *)
  Lemma resources_unfold d :
    resources T d =
    ubind (megabytes T (fval (r_memory d))) (fun m =>
    ubind (cpu_units T (fval (r_cpu d))) (fun c =>
    ubind (megabytes T (fval (r_disk d))) (fun k => UOk [m; c; k]))).
  Proof.
    rewrite HT. unfold resources. cbn [un_res_order utables_canon res_list un_res_parsers assoc Z.eqb Pos.eqb].
    unfold apply_parser, rget, fval, P_MEGABYTES, P_CPU_UNITS, K_MEMORY, K_CPU, K_DISK.
    cbn [Z.eqb Pos.eqb un_res_default utables_canon].
    destruct (megabytes _ _); cbn [ubind]; try reflexivity.
    destruct (cpu_units _ _); cbn [ubind]; try reflexivity.
    destruct (megabytes _ _); reflexivity.
  Qed.

  Lemma res_vector d m c k :
    megabytes T (fval (r_memory d)) = UOk m -> cpu_units T (fval (r_cpu d)) = UOk c ->
    megabytes T (fval (r_disk d)) = UOk k -> resources T d = UOk [m; c; k].
  Proof. intros H1 H2 H3. rewrite resources_unfold, H1, H2, H3. reflexivity. Qed.

  Lemma res_inv d l :
    resources T d = UOk l ->
    exists m c k, l = [m; c; k] /\ megabytes T (fval (r_memory d)) = UOk m /\
                  cpu_units T (fval (r_cpu d)) = UOk c /\ megabytes T (fval (r_disk d)) = UOk k.
  Proof.
    rewrite resources_unfold. intros H.
    destruct (megabytes T (fval (r_memory d))) as [m| | |]; cbn [ubind] in H; try discriminate.
    destruct (cpu_units T (fval (r_cpu d))) as [c| | |]; cbn [ubind] in H; try discriminate.
    destruct (megabytes T (fval (r_disk d))) as [k| | |]; cbn [ubind] in H; try discriminate.
    injection H as <-. exists m, c, k. repeat split; reflexivity.
  Qed.

  Lemma megabytes_zero v : norm (py_str v) = [48] -> megabytes T v = UOk 0.
  Proof. intros Hn. unfold megabytes. rewrite (kilobytes_unitless_val v 0 Hn), HT. reflexivity. Qed.

  Lemma megabytes_field f sp :
    fspells f sp = true -> fwf sp = true -> megabytes T (fval f) = UOk (fbytes sp / 1048576).
  Proof.
    intros Hs Hw. destruct sp as [| |n c dec], f as [[z|s]|]; try discriminate; cbn [fspells fval fbytes fwf] in *.
    - exact (megabytes_zero (VInt 0) eq_refl).
    - apply Z.eqb_eq in Hs. subst z. exact (megabytes_zero (VInt 0) eq_refl).
    - apply megabytes_zero, str_eqb_eq, Hs.
    - destruct (assoc c canon_scale) as [e|] eqn:Ec; [|discriminate].
      apply (megabytes_spelled s n c e dec); [apply str_eqb_eq, Hs|exact Ec].
  Qed.

  Lemma cpu_field f sp : cspells f sp = true -> cpu_units T (fval f) = UOk (cval sp).
  Proof.
    intros Hs. destruct sp as [|n|n pct], f as [[z|s]|]; try discriminate; cbn [cspells fval cval] in *.
    - exact (cpu_units_numeral (VInt 0) 0 eq_refl).
    - apply Z.eqb_eq in Hs. subst z. exact (cpu_units_numeral (VInt n) n eq_refl).
    - apply (cpu_spelled s n pct Hs).
  Qed.

End Ok.
