(** Proofs about Codec/BaseN.v: base-N round trip for every alphabet without duplicates,
    13-character unique ids for every seed of the masked width, unique-name round trip. *)
From Coq Require Import ZArith List Bool Lia ZifyBool.
From TM Require Base.Flat.
From TM Require Import Codec.BaseN.
Import ListNotations.
Open Scope Z_scope.

(** * Boolean predicates *)
(** The duplicate checks of the codec models ([nodupb], [Json.keys_nodup], [Event.nodup_strs]) are
    [nodup_by] at their equality test, by conversion. *)
Section Eqb.
  Context {A : Type} (eqb : A -> A -> bool) (eqb_eq : forall a b, eqb a b = true <-> a = b).

  Lemma existsb_eqb_In c l : existsb (eqb c) l = true <-> In c l.
  Proof.
    rewrite existsb_exists. split.
    - intros [x [Hin Heq]]. apply eqb_eq in Heq. subst. exact Hin.
    - intros Hin. exists c. split; [exact Hin | apply eqb_eq; reflexivity].
  Qed.

  Fixpoint nodup_by (l : list A) : bool :=
    match l with
    | [] => true
    | x :: t => negb (existsb (eqb x) t) && nodup_by t
    end.

  Lemma nodup_by_NoDup l : nodup_by l = true <-> NoDup l.
  Proof.
    induction l as [|x t IH]; cbn [nodup_by]; [split; [constructor | reflexivity]|].
    rewrite andb_true_iff, negb_true_iff, <- not_true_iff_false, existsb_eqb_In, IH, NoDup_cons_iff.
    reflexivity.
  Qed.
End Eqb.

Lemma memb_In c l : memb c l = true <-> In c l.
Proof. apply existsb_eqb_In, Z.eqb_eq. Qed.

Lemma memb_false_notin c l : memb c l = false -> ~ In c l.
Proof. rewrite <- memb_In. congruence. Qed.

Lemma nodupb_NoDup l : nodupb l = true <-> NoDup l.
Proof. exact (nodup_by_NoDup Z.eqb Z.eqb_eq l). Qed.

Lemma str_eqb_eq a b : str_eqb a b = true <-> a = b.
Proof. exact (Flat.zlist_eqb_eq a b). Qed.

Lemma str_eqb_refl s : str_eqb s s = true.
Proof. apply str_eqb_eq. reflexivity. Qed.

Lemma str_eqb_neq a b : a <> b -> str_eqb a b = false.
Proof. rewrite <- not_true_iff_false, str_eqb_eq. exact (fun H => H). Qed.

Lemma str_eq_dec (a b : str) : {a = b} + {a <> b}.
Proof. apply (list_eq_dec Z.eq_dec). Qed.

Lemma existsb_str_eqb_In x l : existsb (str_eqb x) l = true <-> In x l.
Proof. apply existsb_eqb_In, str_eqb_eq. Qed.

Lemma zlen_cons {A} (x : A) l : zlen (x :: l) = zlen l + 1.
Proof. unfold zlen. cbn [length]. lia. Qed.

Lemma zlen_app {A} (a b : list A) : zlen (a ++ b) = zlen a + zlen b.
Proof. unfold zlen. rewrite app_length. lia. Qed.

Lemma zlen_nonneg {A} (l : list A) : 0 <= zlen l.
Proof. unfold zlen. lia. Qed.

Lemma pow_zlen_cons {A} b (x : A) l : b ^ zlen (x :: l) = b * b ^ zlen l.
Proof. unfold zlen. cbn [length]. rewrite Nat2Z.inj_succ. apply Z.pow_succ_r. lia. Qed.

(** the step of every scan for a separator that does not occur *)
Lemma notin_cons_eqb sep c (t : str) : ~ In sep (c :: t) -> (c =? sep) = false /\ ~ In sep t.
Proof. intros [Hc Ht]%not_in_cons. split; [apply Z.eqb_neq; congruence | exact Ht]. Qed.

(** * index / nth *)
Lemma index_of_nth al : NoDup al -> forall k c, nth_error al k = Some c -> index_of c al = Some (Z.of_nat k).
Proof.
  induction al as [|x t IH]; intros Hnd k c Hk.
  - destruct k; discriminate.
  - inversion Hnd as [|y l' Hx Ht]; subst. destruct k as [|k]; cbn [nth_error] in Hk; cbn [index_of].
    + inversion Hk; subst. rewrite Z.eqb_refl. reflexivity.
    + assert (Hin : In c t) by (eapply nth_error_In; exact Hk).
      destruct (x =? c) eqn:E.
      * apply Z.eqb_eq in E. subst. contradiction.
      * rewrite (IH Ht k c Hk). cbn [option_map]. f_equal. lia.
Qed.

Lemma nth_z_index al i : NoDup al -> 0 <= i < zlen al ->
  exists c, nth_z i al = Some c /\ index_of c al = Some i /\ In c al.
Proof.
  intros Hnd Hi. unfold nth_z. replace (i <? 0) with false by lia.
  destruct (nth_error al (Z.to_nat i)) as [c|] eqn:En; [|apply nth_error_None in En; unfold zlen in Hi; lia].
  exists c. split; [reflexivity|]. split; [|exact (nth_error_In _ _ En)].
  rewrite (index_of_nth al Hnd _ _ En), Z2Nat.id by lia. reflexivity.
Qed.

Lemma index_of_In c al i : index_of c al = Some i -> In c al.
Proof.
  revert i; induction al as [|x t IH]; intros i H; cbn [index_of] in H; [discriminate|].
  destruct (x =? c) eqn:E.
  - apply Z.eqb_eq in E. left. exact E.
  - right. destruct (index_of c t) as [j|]; [|discriminate]. eapply IH. reflexivity.
Qed.

(** * The number a digit string denotes *)
Fixpoint val (al : str) (base : Z) (s : str) : option Z :=
  match s with
  | [] => Some 0
  | c :: t =>
      match index_of c al, val al base t with
      | Some i, Some v => Some (i * base ^ zlen t + v)
      | _, _ => None
      end
  end.

Lemma from_loop_val al base s : forall num,
  from_loop al base s num = option_map (Z.add num) (val al base s).
Proof.
  induction s as [|c t IH]; intros num; cbn [from_loop val].
  - cbn. f_equal. lia.
  - destruct (index_of c al) as [i|]; [|reflexivity].
    rewrite IH. destruct (val al base t) as [v|]; cbn [option_map]; [|reflexivity].
    f_equal. lia.
Qed.

Lemma val_snoc al base s ch :
  val al base (s ++ [ch]) =
  match val al base s, index_of ch al with
  | Some v, Some j => Some (v * base + j)
  | _, _ => None
  end.
Proof.
  induction s as [|c t IH]; cbn [app val].
  - destruct (index_of ch al) as [j|]; [|reflexivity]. cbn. f_equal. lia.
  - rewrite IH. destruct (index_of c al) as [i|]; [|reflexivity].
    destruct (val al base t) as [v|]; [|reflexivity].
    destruct (index_of ch al) as [j|]; [|reflexivity].
    f_equal. rewrite zlen_app. change (zlen [ch]) with 1.
    rewrite Z.pow_add_r by (pose proof (zlen_nonneg t); lia).
    rewrite Z.pow_1_r. ring.
Qed.

Lemma val_pad al base c k s :
  index_of c al = Some 0 -> val al base (repeat c k ++ s) = val al base s.
Proof.
  intros Hc. induction k as [|k IH]; cbn [repeat app val]; [reflexivity|].
  rewrite Hc, IH. destruct (val al base s) as [v|]; [|reflexivity]. f_equal; lia.
Qed.

(** * to_loop *)
Lemma to_loop_spec al base :
  NoDup al -> 2 <= base <= zlen al ->
  forall f num arr, 0 <= num < 2 ^ Z.of_nat f ->
  exists s, to_loop f al base num arr = Ok (s ++ arr)
            /\ val al base s = Some num
            /\ (forall k, num < base ^ Z.of_nat k -> (length s <= k)%nat)
            /\ (0 < num -> (1 <= length s)%nat)
            /\ Forall (fun c => In c al) s.
Proof.
  intros Hnd Hb. induction f as [|f IH]; intros num arr Hn; cbn [to_loop]; destruct (num =? 0) eqn:E0.
  1,3: apply Z.eqb_eq in E0; subst num; exists []; cbn; repeat split; try lia; constructor.
  - change (2 ^ Z.of_nat 0) with 1 in Hn. lia.
  - apply Z.eqb_neq in E0.
    assert (Hr : 0 <= num mod base < base) by (apply Z.mod_pos_bound; lia).
    destruct (nth_z_index al (num mod base) Hnd) as (ch & -> & Hidx & Hin); [lia|].
    assert (Hq : 0 <= num / base < 2 ^ Z.of_nat f).
    { rewrite Nat2Z.inj_succ, Z.pow_succ_r in Hn by lia.
      assert (0 < 2 ^ Z.of_nat f) by (apply Z.pow_pos_nonneg; lia).
      split; [apply Z.div_pos; lia|apply Z.div_lt_upper_bound; nia]. }
    destruct (IH (num / base) (ch :: arr) Hq) as (s' & Hs' & Hv' & Hlen' & _ & Hall').
    exists (s' ++ [ch]). rewrite <- app_assoc. split; [exact Hs'|]. rewrite app_length. cbn [length]. repeat split.
    + rewrite val_snoc, Hv', Hidx. f_equal. pose proof (Z.div_mod num base). lia.
    + intros [|k] Hk; [change (base ^ Z.of_nat 0) with 1 in Hk; lia|].
      rewrite Nat2Z.inj_succ, Z.pow_succ_r in Hk by lia.
      assert (num / base < base ^ Z.of_nat k) by (apply Z.div_lt_upper_bound; [lia|exact Hk]).
      specialize (Hlen' k). lia.
    + lia.
    + apply Forall_app. split; [exact Hall'|]. repeat constructor. exact Hin.
Qed.

Lemma fuel_for_enough num : 0 < num -> 0 <= num < 2 ^ Z.of_nat (fuel_for num).
Proof.
  intros Hn. unfold fuel_for. rewrite Nat2Z.inj_succ.
  rewrite Z2Nat.id by (apply Z.log2_nonneg).
  pose proof (Z.log2_spec num Hn). lia.
Qed.

Lemma base_check_true al base : 0 <= base <= zlen al -> base_check al base = true.
Proof. intros H. unfold base_check. lia. Qed.

Lemma to_base_n_spec al base n :
  NoDup al -> 2 <= base <= zlen al -> 0 <= n ->
  exists s, to_base_n al base n = Ok s
            /\ val al base s = Some n
            /\ (1 <= length s)%nat
            /\ (forall k, (1 <= k)%nat -> n < base ^ Z.of_nat k -> (length s <= k)%nat)
            /\ Forall (fun c => In c al) s.
Proof.
  intros Hnd Hb Hn. unfold to_base_n. rewrite base_check_true by lia. cbn [negb].
  destruct (n =? 0) eqn:E0.
  - apply Z.eqb_eq in E0. subst n. destruct al as [|c t].
    + unfold zlen in Hb. cbn in Hb. lia.
    + exists [c]. split; [reflexivity|]. split.
      { cbn [val index_of]. rewrite Z.eqb_refl. cbn. reflexivity. }
      split; [cbn; lia|]. split; [intros k Hk _; cbn; lia|].
      constructor; [left; reflexivity|constructor].
  - apply Z.eqb_neq in E0. destruct (base =? 0) eqn:Eb; [lia|].
    destruct (to_loop_spec al base Hnd Hb (fuel_for n) n [] (fuel_for_enough n ltac:(lia)))
      as [s [Hs [Hv [Hlen [Hpos Hall]]]]].
    exists s. rewrite app_nil_r in Hs. split; [exact Hs|]. split; [exact Hv|].
    split; [apply Hpos; lia|]. split; [intros k _ Hk; apply Hlen; exact Hk|exact Hall].
Qed.

Lemma from_base_n_val al base s :
  0 <= base <= zlen al ->
  from_base_n al base s = match val al base s with Some n => Ok n | None => Err E_VALUE end.
Proof.
  intros Hb. unfold from_base_n. rewrite base_check_true by lia. cbn [negb].
  rewrite from_loop_val. destruct (val al base s) as [v|]; cbn [option_map]; reflexivity.
Qed.

(** * Base-N round trip, injectivity *)
Theorem base_n_roundtrip al base n :
  nodupb al = true -> 2 <= base <= zlen al -> 0 <= n ->
  exists s, to_base_n al base n = Ok s /\ from_base_n al base s = Ok n.
Proof.
  intros Hnd Hb Hn. apply nodupb_NoDup in Hnd.
  destruct (to_base_n_spec al base n Hnd Hb Hn) as [s [Hs [Hv _]]].
  exists s. split; [exact Hs|]. rewrite from_base_n_val by lia. rewrite Hv. reflexivity.
Qed.

Theorem base_n_injective al base n m s :
  nodupb al = true -> 2 <= base <= zlen al -> 0 <= n -> 0 <= m ->
  to_base_n al base n = Ok s -> to_base_n al base m = Ok s -> n = m.
Proof.
  intros Hnd Hb Hn Hm H1 H2.
  destruct (base_n_roundtrip al base n Hnd Hb Hn) as (s1 & E1 & D1).
  destruct (base_n_roundtrip al base m Hnd Hb Hm) as (s2 & E2 & D2).
  congruence.
Qed.

(** * Unique ids *)
Record uid_ok (t : uid_tables) : Prop := {
  ok_default_nodup : NoDup (ut_default_alphabet t);
  ok_default_len : 2 <= zlen (ut_default_alphabet t);
  ok_nodup : NoDup (ut_alphabet t);
  ok_len : 2 <= zlen (ut_alphabet t);
  ok_width : ut_uid_width t = 13;
  ok_bits : 0 <= ut_seed_bits t;
  ok_cap : 2 ^ ut_seed_bits t <= zlen (ut_alphabet t) ^ ut_uid_width t;
  ok_fill : exists rest, ut_alphabet t = ut_uid_fill t :: rest;
  ok_sep : ut_name_sep t = [ut_split_sep t];
  ok_to : ut_name_to t = ut_split_sep t;
  ok_from : ut_name_from t = ut_join_sep t;
  ok_join_split : ut_join_sep t <> ut_split_sep t;
  ok_split_alphabet : ~ In (ut_split_sep t) (ut_alphabet t);
  ok_name_fill : ut_name_fill t <> ut_split_sep t;
  ok_name_width : ut_name_width t = ut_uid_width t
}.

Lemma tables_ok_fields t : uid_tables_ok t = true -> uid_ok t.
Proof.
  unfold uid_tables_ok, alphabet_ok. intros H.
  repeat match goal with X : _ && _ = true |- _ => apply andb_true_iff in X as [? ?] end.
  repeat match goal with
         | X : nodupb _ = true |- _ => apply nodupb_NoDup in X
         | X : str_eqb _ _ = true |- _ => apply str_eqb_eq in X
         | X : negb (memb _ _) = true |- _ => apply negb_true_iff, memb_false_notin in X
         end.
  destruct (ut_alphabet t) as [|c rest] eqn:Eal; [discriminate|].
  constructor; rewrite ?Eal; try assumption; try (exists rest; f_equal); lia.
Qed.

Theorem base_n_default t :
  uid_tables_ok t = true -> forall n, 0 <= n ->
  exists s, to_base_n (ut_default_alphabet t) (zlen (ut_default_alphabet t)) n = Ok s
            /\ from_base_n (ut_default_alphabet t) (zlen (ut_default_alphabet t)) s = Ok n.
Proof.
  intros Hok%tables_ok_fields n Hn. pose proof (ok_default_len t Hok).
  apply base_n_roundtrip; [apply nodupb_NoDup, Hok | lia | exact Hn].
Qed.

Lemma pad_left_length fill width s :
  zlen s <= width -> zlen (pad_left fill width s) = width.
Proof.
  intros H. unfold pad_left. rewrite zlen_app. unfold zlen in *. rewrite repeat_length. lia.
Qed.

Lemma pad_left_long fill width s : width <= zlen s -> pad_left fill width s = s.
Proof.
  intros H. unfold pad_left. replace (Z.to_nat (width - zlen s)) with 0%nat by lia. reflexivity.
Qed.

Lemma pad_left_notin fill width s c : fill <> c -> ~ In c s -> ~ In c (pad_left fill width s).
Proof.
  intros Hf Hs [Hin|Hin]%in_app_or; [apply repeat_spec in Hin; congruence | contradiction].
Qed.

Lemma uid_seed_range t ino ctime_us inst :
  0 <= ut_seed_bits t -> 0 <= uid_seed t ino ctime_us inst < 2 ^ ut_seed_bits t.
Proof.
  intros Hb. unfold uid_seed.
  replace (2 ^ ut_seed_bits t - 1) with (Z.ones (ut_seed_bits t)) by (rewrite Z.ones_equiv; lia).
  rewrite Z.land_ones by exact Hb.
  apply Z.mod_pos_bound. apply Z.pow_pos_nonneg; lia.
Qed.

Theorem uid_of_seed_spec t :
  uid_tables_ok t = true -> forall seed, 0 <= seed < 2 ^ ut_seed_bits t ->
  exists s, uid_of_seed t seed = Ok s /\ length s = 13%nat
            /\ from_base_n (ut_alphabet t) (zlen (ut_alphabet t)) s = Ok seed
            /\ Forall (fun c => In c (ut_alphabet t)) s.
Proof.
  intros Hok%tables_ok_fields seed Hseed.
  pose proof (ok_len t Hok) as Hlen. pose proof (ok_width t Hok) as Hw. pose proof (ok_cap t Hok) as Hcap.
  destruct (ok_fill t Hok) as [rest Hal].
  destruct (to_base_n_spec (ut_alphabet t) (zlen (ut_alphabet t)) seed (ok_nodup t Hok)) as (s & Hs & Hv & _ & Hk & Hall);
    [lia..|].
  assert (Hls : (length s <= 13)%nat) by (apply Hk; [lia|]; rewrite Hw in Hcap; change (Z.of_nat 13) with 13; lia).
  unfold uid_of_seed. rewrite Hs. eexists. split; [reflexivity|]. split; [|split].
  - pose proof (pad_left_length (ut_uid_fill t) (ut_uid_width t) s) as Hp. unfold zlen in Hp. lia.
  - (* the fill character is the zero digit *)
    rewrite from_base_n_val by lia. unfold pad_left. rewrite val_pad, Hv; [reflexivity|].
    rewrite Hal. cbn [index_of]. rewrite Z.eqb_refl. reflexivity.
  - apply Forall_app. split; [|exact Hall].
    apply Forall_forall. intros c ->%repeat_spec. rewrite Hal. left. reflexivity.
Qed.

Theorem gen_uniqueid_spec t :
  uid_tables_ok t = true -> forall ino ctime_us inst,
  exists s, gen_uniqueid t ino ctime_us inst = Ok s /\ length s = 13%nat
            /\ from_base_n (ut_alphabet t) (zlen (ut_alphabet t)) s = Ok (uid_seed t ino ctime_us inst)
            /\ ~ In (ut_split_sep t) s.
Proof.
  intros Hok ino ctime_us inst. pose proof (tables_ok_fields t Hok) as F.
  destruct (uid_of_seed_spec t Hok _ (uid_seed_range t ino ctime_us inst (ok_bits t F))) as (s & Hs & Hl & Hd & Hall).
  exists s. repeat split; try assumption.
  intros Hin. rewrite Forall_forall in Hall. exact (ok_split_alphabet t F (Hall _ Hin)).
Qed.

Theorem uid_of_seed_injective t :
  uid_tables_ok t = true -> forall a b s, 0 <= a < 2 ^ ut_seed_bits t -> 0 <= b < 2 ^ ut_seed_bits t ->
  uid_of_seed t a = Ok s -> uid_of_seed t b = Ok s -> a = b.
Proof.
  intros Hok a b s Ha Hb H1 H2.
  destruct (uid_of_seed_spec t Hok a Ha) as (s1 & E1 & _ & D1 & _).
  destruct (uid_of_seed_spec t Hok b Hb) as (s2 & E2 & _ & D2 & _).
  congruence.
Qed.

(** * rsplit *)
Lemma rsplit1_none sep s : ~ In sep s -> rsplit1 sep s = None.
Proof.
  induction s as [|c t IH]; cbn [rsplit1]; [reflexivity|]. intros [Hc Ht]%notin_cons_eqb.
  rewrite (IH Ht), Hc. reflexivity.
Qed.

Lemma rsplit1_last sep h tl : ~ In sep tl -> rsplit1 sep (h ++ sep :: tl) = Some (h, tl).
Proof.
  intros Hn. induction h as [|c h IH]; cbn [app rsplit1].
  - rewrite (rsplit1_none sep tl Hn). rewrite Z.eqb_refl. reflexivity.
  - rewrite IH. reflexivity.
Qed.

Lemma replace_char_notin a b s : ~ In a s -> replace_char a b s = s.
Proof.
  induction s as [|c t IH]; cbn [replace_char map]; [reflexivity|]. intros [Hc Ht]%notin_cons_eqb.
  rewrite Hc. f_equal. exact (IH Ht).
Qed.

Lemma replace_char_app a b s1 s2 : replace_char a b (s1 ++ s2) = replace_char a b s1 ++ replace_char a b s2.
Proof. apply map_app. Qed.

(** * Unique names *)
(** instance names are  base ++ '#' ++ inst  with no '#' in base, no '#' and no '-' in inst; uid has no '-' *)
Definition name_domain (t : uid_tables) (base inst uid : str) : Prop :=
  ~ In (ut_join_sep t) base /\ ~ In (ut_join_sep t) inst /\ ~ In (ut_split_sep t) inst
  /\ ~ In (ut_split_sep t) uid.

Definition inst_name (t : uid_tables) (base inst : str) : str := base ++ ut_join_sep t :: inst.

Lemma fmt_unique_name_shape t base inst uid :
  uid_tables_ok t = true -> ~ In (ut_join_sep t) base -> ~ In (ut_join_sep t) inst ->
  fmt_unique_name t (inst_name t base inst) uid =
  (base ++ ut_split_sep t :: inst) ++ ut_split_sep t :: pad_left (ut_name_fill t) (ut_name_width t) uid.
Proof.
  intros Hok%tables_ok_fields Hb Hi.
  unfold fmt_unique_name, inst_name. rewrite (ok_sep t Hok), (ok_to t Hok), (ok_from t Hok).
  change (base ++ ut_join_sep t :: inst) with (base ++ [ut_join_sep t] ++ inst). rewrite !replace_char_app.
  rewrite (replace_char_notin _ _ base), (replace_char_notin _ _ inst) by assumption. cbn [replace_char map]. rewrite Z.eqb_refl. reflexivity.
Qed.

Theorem unique_name_roundtrip t :
  uid_tables_ok t = true -> forall base inst uid, name_domain t base inst uid ->
  app_name t (fmt_unique_name t (inst_name t base inst) uid) = inst_name t base inst
  /\ app_unique_id t (fmt_unique_name t (inst_name t base inst) uid)
     = Ok (pad_left (ut_name_fill t) (ut_name_width t) uid).
Proof.
  intros Hok base inst uid (Hb & Hi & Hi2 & Hu).
  rewrite (fmt_unique_name_shape t base inst uid Hok Hb Hi).
  assert (Hp : ~ In (ut_split_sep t) (pad_left (ut_name_fill t) (ut_name_width t) uid))
    by (apply pad_left_notin; [apply ok_name_fill, tables_ok_fields, Hok | exact Hu]).
  unfold app_name, app_unique_id. rewrite (rsplit1_last _ _ _ Hp), (rsplit1_last _ _ _ Hi2).
  split; reflexivity.
Qed.

Lemma pad_left_13 t uid : uid_tables_ok t = true -> length uid = 13%nat ->
  pad_left (ut_name_fill t) (ut_name_width t) uid = uid.
Proof.
  intros Hok%tables_ok_fields Hl. apply pad_left_long.
  rewrite (ok_name_width t Hok), (ok_width t Hok). unfold zlen. lia.
Qed.

Corollary unique_name_roundtrip_13 t :
  uid_tables_ok t = true -> forall base inst uid, name_domain t base inst uid -> length uid = 13%nat ->
  app_unique_id t (fmt_unique_name t (inst_name t base inst) uid) = Ok uid.
Proof.
  intros Hok base inst uid Hd Hl. rewrite (proj2 (unique_name_roundtrip t Hok base inst uid Hd)), pad_left_13 by assumption.
  reflexivity.
Qed.

Theorem unique_name_injective t :
  uid_tables_ok t = true -> forall base inst uid base' inst' uid', name_domain t base inst uid -> name_domain t base' inst' uid' ->
  fmt_unique_name t (inst_name t base inst) uid = fmt_unique_name t (inst_name t base' inst') uid' ->
  inst_name t base inst = inst_name t base' inst'
  /\ pad_left (ut_name_fill t) (ut_name_width t) uid = pad_left (ut_name_fill t) (ut_name_width t) uid'.
Proof.
  intros Hok base inst uid base' inst' uid' D1 D2 Heq.
  destruct (unique_name_roundtrip t Hok base inst uid D1) as [N1 U1].
  destruct (unique_name_roundtrip t Hok base' inst' uid' D2) as [N2 U2].
  rewrite Heq in N1, U1. split; congruence.
Qed.

Theorem eventfile_unique_name_spec t :
  uid_tables_ok t = true -> forall base inst ino ctime_us i,
  ~ In (ut_join_sep t) base -> ~ In (ut_join_sep t) inst -> ~ In (ut_split_sep t) inst ->
  exists uid, gen_uniqueid t ino ctime_us i = Ok uid /\ length uid = 13%nat
    /\ eventfile_unique_name t (inst_name t base inst) ino ctime_us i
       = Ok ((base ++ ut_split_sep t :: inst) ++ ut_split_sep t :: uid)
    /\ app_name t ((base ++ ut_split_sep t :: inst) ++ ut_split_sep t :: uid) = inst_name t base inst
    /\ app_unique_id t ((base ++ ut_split_sep t :: inst) ++ ut_split_sep t :: uid) = Ok uid.
Proof.
  intros Hok base inst ino ctime_us i Hb Hi Hi2.
  destruct (gen_uniqueid_spec t Hok ino ctime_us i) as (uid & Hg & Hl & _ & Hsep).
  destruct (unique_name_roundtrip t Hok base inst uid) as [N U]; [repeat split; assumption|].
  rewrite (fmt_unique_name_shape t base inst uid Hok Hb Hi), pad_left_13 in N, U by assumption.
  exists uid. unfold eventfile_unique_name.
  rewrite Hg, (fmt_unique_name_shape t base inst uid Hok Hb Hi), pad_left_13 by assumption.
  repeat split; assumption.
Qed.
