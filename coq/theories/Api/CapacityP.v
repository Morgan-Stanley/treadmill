(** Proofs about Api/Capacity.v: with the canonical dataflow the capacity check is
    sound, complete and never fails with anything but an input error. *)
From Coq Require Import ZArith List Bool Lia.
From TM Require Import Api.Capacity.
Import ListNotations.
Open Scope Z_scope.

(** ** Well-formed inputs: what the REST schema admits for each field *)
Definition wf_cpu (r : raw) : bool := match r_suf r with SNone | SPct => true | SUnit _ _ => false end.
Definition wf_size (r : raw) : bool := match r_suf r with SNone | SUnit _ _ => true | SPct => false end.
Definition wf_res (o : res3) : bool := wf_cpu (f_cpu o) && wf_size (f_disk o) && wf_size (f_mem o).

(** the quantity a spelling denotes *)
Definition val_size (r : raw) : Z :=
  match r_suf r with
  | SUnit k dec => r_num r * (if dec then 1000 else 1024) ^ Z.of_nat k
  | _ => r_num r
  end.
Definition val3 (o : res3) : num3 :=
  {| n_cpu := r_num (f_cpu o); n_disk := val_size (f_disk o); n_mem := val_size (f_mem o) |}.

Definition nsub (a b : num3) : num3 :=
  {| n_cpu := n_cpu a - n_cpu b; n_disk := n_disk a - n_disk b; n_mem := n_mem a - n_mem b |}.
Definition nle (a b : num3) : Prop := n_cpu a <= n_cpu b /\ n_disk a <= n_disk b /\ n_mem a <= n_mem b.

Definition others (allocs : list alloc) (old : Z) := filter (fun a => negb (Z.eqb (a_id a) old)) allocs.
Definition with_trait (t : Z) (l : list alloc) := filter (fun a => mem_z t (a_traits a)) l.
Fixpoint total (l : list alloc) : num3 :=
  match l with
  | [] => nzero
  | a :: r => let s := total r in let v := val3 (a_res a) in
      {| n_cpu := n_cpu v + n_cpu s; n_disk := n_disk v + n_disk s; n_mem := n_mem v + n_mem s |}
  end.

(** ** The specification (the property statement) *)
Definition fits_overall (p : partition) (allocs : list alloc) (old : Z) (rq : request) : Prop :=
  nle (val3 (q_res rq)) (nsub (val3 (p_res p)) (total (others allocs old))).
Definition fits_trait (l : limit) (allocs : list alloc) (old : Z) (rq : request) : Prop :=
  nle (val3 (q_res rq)) (nsub (val3 (l_res l)) (total (with_trait (l_trait l) (others allocs old)))).
Definition fits (p : partition) (allocs : list alloc) (old : Z) (rq : request) : Prop :=
  fits_overall p allocs old rq /\
  forall l, In l (p_limits p) -> mem_z (l_trait l) (q_traits rq) = true -> fits_trait l allocs old rq.

Definition wf_inputs (p : partition) (allocs : list alloc) (rq : request) : Prop :=
  wf_res (p_res p) = true /\
  Forall (fun l => wf_res (l_res l) = true) (p_limits p) /\
  NoDup (map l_trait (p_limits p)) /\
  Forall (fun a => wf_res (a_res a) = true /\ NoDup (a_traits a)) allocs /\
  wf_res (q_res rq) = true.

(** ** table_is_canonical reflects equality *)
Lemma key_eqb_eq a b : key_eqb a b = true -> a = b.
Proof. destruct a, b; cbn; congruence. Qed.
Lemma flow_eqb_eq a b : flow_eqb a b = true -> a = b.
Proof.
  destruct a as [a1 p1 s1], b as [a2 p2 s2]; unfold flow_eqb; cbn.
  intros H. apply andb_true_iff in H as [H H3]. apply andb_true_iff in H as [H1 H2].
  apply key_eqb_eq in H1, H2. subst. destruct p1, p2; congruence.
Qed.
Lemma flows_eqb_eq a b : flows_eqb a b = true -> a = b.
Proof.
  revert b; induction a as [|x a IH]; intros [|y b]; cbn; try congruence.
  intros H. apply andb_true_iff in H as [H1 H2]. apply flow_eqb_eq in H1. apply IH in H2. congruence.
Qed.
Lemma table_is_canonical_eq tb : table_is_canonical tb = true -> tb = canon_tables.
Proof.
  unfold table_is_canonical, tables_eqb. destruct tb as [a b c d e]; cbn. intros H.
  repeat (apply andb_true_iff in H as [H ?]).
  repeat match goal with X : flows_eqb _ _ = true |- _ => apply flows_eqb_eq in X end.
  subst. reflexivity.
Qed.

(** ** parsers on well-formed fields *)
Lemma wf_res_parts o : wf_res o = true ->
  parse PCpu (f_cpu o) = Some (n_cpu (val3 o)) /\
  parse PSize (f_disk o) = Some (n_disk (val3 o)) /\
  parse PSize (f_mem o) = Some (n_mem (val3 o)).
Proof.
  unfold wf_res, wf_cpu, wf_size, parse, val3, val_size; cbn. intros H.
  apply andb_true_iff in H as [H H3]. apply andb_true_iff in H as [H1 H2].
  destruct (r_suf (f_cpu o)), (r_suf (f_disk o)), (r_suf (f_mem o)); try discriminate; auto.
Qed.

Lemma init_canon o acc : wf_res o = true -> init_free canon_flows o acc = Some (val3 o).
Proof.
  intros H. destruct (wf_res_parts _ H) as (H1 & H2 & H3).
  unfold canon_flows; cbn [init_free fl_parser fl_src fl_acc field].
  rewrite H1, H2, H3. cbn. reflexivity.
Qed.

Lemma sub_canon o acc : wf_res o = true -> sub_free canon_flows o acc = Some (nsub acc (val3 o)).
Proof.
  intros H. destruct (wf_res_parts _ H) as (H1 & H2 & H3).
  unfold canon_flows; cbn [sub_free fl_parser fl_src fl_acc field].
  rewrite H1, H2, H3. destruct acc; cbn. reflexivity.
Qed.

Lemma nsub_total_cons f a r :
  nsub (nsub f (val3 (a_res a))) (total r) = nsub f (total (a :: r)).
Proof. destruct f; unfold nsub; cbn. f_equal; lia. Qed.

Lemma nsub_zero f : nsub f nzero = f.
Proof. destruct f; unfold nsub, nzero; cbn. f_equal; lia. Qed.

Lemma calc_free_loop_canon allocs old free :
  Forall (fun a => wf_res (a_res a) = true /\ NoDup (a_traits a)) allocs ->
  calc_free_loop canon_tables allocs old free = Some (nsub free (total (others allocs old))).
Proof.
  revert free; induction allocs as [|a t IH]; intros free Hwf.
  - cbn. rewrite nsub_zero. reflexivity.
  - inversion Hwf as [|? ? [Ha _] Ht]; subst. cbn [calc_free_loop others filter].
    destruct (Z.eqb (a_id a) old); cbn [negb].
    + apply IH; assumption.
    + cbn [t_free_sub canon_tables]. rewrite sub_canon by assumption.
      rewrite IH by assumption. fold (others t old). rewrite nsub_total_cons. reflexivity.
Qed.

Lemma check_limit_canon lim o : wf_res o = true ->
  (check_limit canon_flows lim o = Accept <-> nle (val3 o) lim) /\
  check_limit canon_flows lim o <> Crash.
Proof.
  intros H. destruct (wf_res_parts _ H) as (H1 & H2 & H3).
  unfold canon_flows; cbn [check_limit fl_parser fl_src fl_acc field nget].
  rewrite H1, H2, H3. unfold nle.
  destruct (Z.gtb_spec (n_cpu (val3 o)) (n_cpu lim)), (Z.gtb_spec (n_disk (val3 o)) (n_disk lim)),
    (Z.gtb_spec (n_mem (val3 o)) (n_mem lim));
    (split; [split; [intros E; try discriminate E; lia | intros; try reflexivity; lia] | discriminate]).
Qed.

(** ** trait map *)
Lemma tm_get_set m t v u : tm_get (tm_set m t v) u = if t =? u then Some v else tm_get m u.
Proof.
  induction m as [|[k w] r IH]; cbn; [reflexivity|].
  destruct (Z.eqb_spec k t) as [->|]; cbn; [destruct (t =? u); reflexivity|]. rewrite IH.
  destruct (Z.eqb_spec k u) as [->|]; [rewrite (proj2 (Z.eqb_neq t u)) by congruence|]; reflexivity.
Qed.

Lemma mem_z_In x l : mem_z x l = true <-> In x l.
Proof.
  induction l as [|y t IH]; cbn; [split; [discriminate|tauto]|].
  rewrite orb_true_iff, IH, Z.eqb_eq. tauto.
Qed.

(** the trait map after initialisation: every limit with its own values, nothing else touched *)
Lemma traits_init_canon limits : forall m0,
  Forall (fun l => wf_res (l_res l) = true) limits -> NoDup (map l_trait limits) ->
  exists m, traits_init canon_tables limits m0 = Some m /\
            (forall l, In l limits -> tm_get m (l_trait l) = Some (val3 (l_res l))) /\
            (forall u, ~ In u (map l_trait limits) -> tm_get m u = tm_get m0 u).
Proof.
  induction limits as [|l t IH]; intros m0 Hwf Hnd.
  { exists m0. split; [reflexivity|]. split; [intros l []|reflexivity]. }
  inversion Hwf as [|? ? Hl Ht]; subst. inversion Hnd as [|? ? Hni Hnd']; subst.
  cbn [traits_init t_trait_init canon_tables]. rewrite init_canon by assumption.
  destruct (IH (tm_set m0 (l_trait l) (val3 (l_res l))) Ht Hnd') as (m & Hm & Hin & Hout).
  exists m. split; [exact Hm|]. split.
  - intros l' [<-|Hl']; [|exact (Hin l' Hl')]. rewrite (Hout _ Hni), tm_get_set, Z.eqb_refl. reflexivity.
  - intros u Hu. cbn [map In] in Hu. rewrite Hout, tm_get_set by tauto.
    destruct (Z.eqb_spec (l_trait l) u); [tauto | reflexivity].
Qed.

Lemma traits_sub_one_canon a : wf_res (a_res a) = true -> forall ts m,
  NoDup ts ->
  exists m', traits_sub_one canon_tables a ts m = Some m' /\
    forall t, tm_get m' t =
      match tm_get m t with
      | None => None
      | Some v => Some (if mem_z t ts then nsub v (val3 (a_res a)) else v)
      end.
Proof.
  intros Hwf. induction ts as [|t r IH]; intros m Hnd.
  - exists m. split; [reflexivity|]. intros t. cbn. destruct (tm_get m t); reflexivity.
  - inversion Hnd as [|? ? Hni Hr]; subst. cbn [traits_sub_one].
    destruct (tm_get m t) as [v|] eqn:E.
    + cbn [t_trait_sub canon_tables]. rewrite sub_canon by assumption.
      destruct (IH (tm_set m t (nsub v (val3 (a_res a)))) Hr) as (m' & Hm' & Hsp).
      exists m'. split; [assumption|]. intros u. rewrite Hsp. cbn [mem_z].
      rewrite tm_get_set. destruct (Z.eqb_spec t u) as [->|Hne]; cbn; [|reflexivity]. rewrite E.
      destruct (mem_z u r) eqn:Em; [apply mem_z_In in Em; contradiction|reflexivity].
    + destruct (IH m Hr) as (m' & Hm' & Hsp). exists m'. split; [assumption|].
      intros u. rewrite Hsp. cbn [mem_z]. destruct (Z.eqb_spec t u) as [->|Hne]; cbn; [|reflexivity].
      rewrite E. reflexivity.
Qed.

Lemma traits_sub_canon allocs old : forall m,
  Forall (fun a => wf_res (a_res a) = true /\ NoDup (a_traits a)) allocs ->
  exists m', traits_sub canon_tables allocs old m = Some m' /\
    forall t, tm_get m' t =
      match tm_get m t with
      | None => None
      | Some v => Some (nsub v (total (with_trait t (others allocs old))))
      end.
Proof.
  induction allocs as [|a r IH]; intros m Hwf.
  - exists m. split; [reflexivity|]. intros t. cbn. destruct (tm_get m t); [rewrite nsub_zero|]; reflexivity.
  - inversion Hwf as [|? ? [Ha Hnd] Hr]; subst. cbn [traits_sub others filter].
    destruct (Z.eqb (a_id a) old); cbn [negb].
    + apply IH. assumption.
    + destruct (traits_sub_one_canon a Ha (a_traits a) m Hnd) as (m1 & Hm1 & Hs1).
      rewrite Hm1. destruct (IH m1 Hr) as (m' & Hm' & Hs'). exists m'. split; [assumption|].
      intros t. rewrite Hs', Hs1. fold (others r old). cbn [with_trait filter].
      destruct (tm_get m t) as [v|]; [|reflexivity].
      destruct (mem_z t (a_traits a)); [|reflexivity].
      fold (with_trait t (others r old)). rewrite nsub_total_cons. reflexivity.
Qed.

Lemma check_traits_canon rq limits m (f : limit -> num3) : wf_res rq = true ->
  (forall l, In l limits -> tm_get m (l_trait l) = Some (f l)) ->
  (check_traits canon_tables limits m rq = Accept <-> forall l, In l limits -> nle (val3 rq) (f l)) /\
  check_traits canon_tables limits m rq <> Crash.
Proof.
  intros Hwf. induction limits as [|l t IH]; intros Hget.
  - cbn. split; [split; [intros _ l []|reflexivity]|discriminate].
  - cbn [check_traits]. rewrite (Hget l (or_introl eq_refl)).
    cbn [t_check canon_tables].
    destruct (check_limit_canon (f l) rq Hwf) as [Hiff Hnc].
    destruct (IH (fun l' H => Hget l' (or_intror H))) as [IHiff IHnc].
    destruct (check_limit canon_flows (f l) rq) eqn:E.
    + split; [|assumption]. rewrite IHiff. split.
      * intros H l' [<-|Hin]; [apply Hiff; reflexivity|apply H; assumption].
      * intros H l' Hin. apply H. right. assumption.
    + split; [|discriminate]. split; [discriminate|].
      intros H. exfalso. assert (X : Reject = Accept) by (apply Hiff, H; left; reflexivity). discriminate.
    + contradiction.
Qed.

Lemma filter_NoDup_map {A} (f : A -> Z) (p : A -> bool) l : NoDup (map f l) -> NoDup (map f (filter p l)).
Proof.
  induction l as [|x t IH]; cbn; intros H; [constructor|].
  inversion H as [|? ? Hni Ht]; subst. destruct (p x); cbn; [constructor|]; auto.
  intros X. apply Hni. apply in_map_iff in X as (y & Hy & Hin). apply filter_In in Hin as [Hin _].
  rewrite <- Hy. apply in_map. assumption.
Qed.

(** ** The check decides [fits] *)
Lemma check_capacity_canon p allocs old rq :
  wf_inputs p allocs rq ->
  (check_capacity canon_tables p allocs old rq = Accept <-> fits p allocs old rq) /\
  check_capacity canon_tables p allocs old rq <> Crash.
Proof.
  intros (Hp & Hl & Hnd & Ha & Hq). unfold check_capacity, calc_free.
  cbn [t_free_init canon_tables]. rewrite init_canon by assumption.
  rewrite calc_free_loop_canon by assumption.
  cbn [t_check canon_tables].
  destruct (check_limit_canon (nsub (val3 (p_res p)) (total (others allocs old))) (q_res rq) Hq) as [Hiff Hnc].
  destruct (check_limit canon_flows _ (q_res rq)) eqn:E.
  2:{ split; [|discriminate]. split; [discriminate|]. intros [Ho _]. apply Hiff in Ho. discriminate. }
  2:{ contradiction. }
  set (limits := filter (fun l => mem_z (l_trait l) (q_traits rq)) (p_limits p)).
  assert (Hlw : Forall (fun l => wf_res (l_res l) = true) limits).
  { apply Forall_forall. intros l Hin. apply filter_In in Hin as [Hin _].
    rewrite Forall_forall in Hl. apply Hl. assumption. }
  assert (Hlnd : NoDup (map l_trait limits)) by (apply filter_NoDup_map; assumption).
  unfold calc_free_traits. destruct (traits_init_canon limits [] Hlw Hlnd) as (m0 & Hm0 & Hs0 & _).
  rewrite Hm0. destruct (traits_sub_canon allocs old m0 Ha) as (m1 & Hm1 & Hs1). rewrite Hm1.
  destruct (check_traits_canon (q_res rq) limits m1
              (fun l => nsub (val3 (l_res l)) (total (with_trait (l_trait l) (others allocs old)))) Hq)
    as [Tiff Tnc].
  { intros l Hin. rewrite Hs1, (Hs0 l Hin). reflexivity. }
  split; [|assumption]. rewrite Tiff. unfold fits, fits_overall, fits_trait. split.
  - intros H. split; [apply Hiff; reflexivity|]. intros l Hin Hm. apply H. apply filter_In. split; assumption.
  - intros [_ H] l Hin. apply filter_In in Hin as [Hin Hm]. apply H; assumption.
Qed.

Theorem check_capacity_sound_complete tb p allocs old rq :
  table_is_canonical tb = true -> wf_inputs p allocs rq ->
  (check_capacity tb p allocs old rq = Accept <-> fits p allocs old rq) /\
  (check_capacity tb p allocs old rq = Reject <-> ~ fits p allocs old rq) /\
  check_capacity tb p allocs old rq <> Crash.
Proof.
  intros Ht Hwf. apply table_is_canonical_eq in Ht. subst tb.
  destruct (check_capacity_canon p allocs old rq Hwf) as [Hiff Hnc].
  split; [assumption|]. split; [|assumption].
  destruct (check_capacity canon_tables p allocs old rq) eqn:E.
  - split; [discriminate|]. intros Hn. exfalso. apply Hn, Hiff. reflexivity.
  - split; [|reflexivity]. intros _ Hf. apply Hiff in Hf. discriminate.
  - contradiction.
Qed.

(** ** Sequences of create/update requests keep the partition within capacity *)
Definition nonneg_res (o : res3) : Prop :=
  0 <= n_cpu (val3 o) /\ 0 <= n_disk (val3 o) /\ 0 <= n_mem (val3 o).

Definition within (p : partition) (allocs : list alloc) : Prop :=
  nle (total allocs) (val3 (p_res p)) /\
  forall l, In l (p_limits p) -> nle (total (with_trait (l_trait l) allocs)) (val3 (l_res l)).

Definition store_wf (allocs : list alloc) : Prop :=
  Forall (fun a => wf_res (a_res a) = true /\ NoDup (a_traits a)) allocs /\
  Forall (fun a => nonneg_res (a_res a)) allocs.

Lemma total_filter_le (f : alloc -> bool) allocs :
  Forall (fun a => nonneg_res (a_res a)) allocs -> nle (total (filter f allocs)) (total allocs).
Proof.
  induction allocs as [|a t IH]; intros H; [cbn; unfold nle; cbn; lia|].
  inversion H as [|? ? Ha Ht]; subst. specialize (IH Ht). cbn [filter].
  destruct (f a); cbn [total]; unfold nle, nonneg_res in *; cbn in *; lia.
Qed.

Lemma filter_comm {A} (f g : A -> bool) l : filter f (filter g l) = filter g (filter f l).
Proof.
  induction l as [|x t IH]; cbn; [reflexivity|].
  destruct (g x) eqn:Eg, (f x) eqn:Ef; cbn; rewrite ?Eg, ?Ef, ?IH; reflexivity.
Qed.

Lemma with_trait_others t allocs old :
  with_trait t (others allocs old) = others (with_trait t allocs) old.
Proof. unfold with_trait, others. apply filter_comm. Qed.

Lemma Forall_filter {A} (P : A -> Prop) f l : Forall P l -> Forall P (filter f l).
Proof. induction 1; cbn; [constructor|]. destruct (f x); auto. Qed.

Theorem api_request_within tb p allocs id rq :
  table_is_canonical tb = true ->
  wf_res (p_res p) = true -> Forall (fun l => wf_res (l_res l) = true) (p_limits p) ->
  NoDup (map l_trait (p_limits p)) ->
  store_wf allocs -> wf_res (q_res rq) = true -> NoDup (q_traits rq) -> nonneg_res (q_res rq) ->
  within p allocs ->
  let '(allocs', o) := api_request tb p allocs id rq in
  store_wf allocs' /\ within p allocs' /\ o <> Crash.
Proof.
  intros Ht Hp Hl Hnd [Hwf Hnn] Hq Hqnd Hqnn [Hw1 Hw2].
  unfold api_request.
  destruct (check_capacity_sound_complete tb p allocs id rq Ht) as (Hacc & _ & Hnc).
  { repeat split; assumption. }
  destruct (check_capacity tb p allocs id rq) eqn:E.
  - destruct (proj1 Hacc eq_refl) as [Ho Htr].
    set (a := {| a_id := id; a_res := q_res rq; a_traits := q_traits rq |}).
    assert (Hsame : filter (fun b => negb (Z.eqb (a_id b) (a_id a))) allocs = others allocs id) by reflexivity.
    split; [|split; [|discriminate]].
    + unfold store_put. rewrite Hsame. split; constructor; cbn; auto; apply Forall_filter; assumption.
    + unfold store_put. rewrite Hsame. split.
      * unfold fits_overall in Ho. cbn [total a_res a]. unfold nle, nsub in *. cbn in *. lia.
      * intros l Hin. cbn [with_trait filter a_traits a].
        destruct (mem_z (l_trait l) (q_traits rq)) eqn:Em.
        -- specialize (Htr l Hin Em). unfold fits_trait in Htr. cbn [total a_res a].
           fold (with_trait (l_trait l) (others allocs id)). unfold nle, nsub in *. cbn in *. lia.
        -- fold (with_trait (l_trait l) (others allocs id)). rewrite with_trait_others.
           specialize (Hw2 l Hin).
           pose proof (total_filter_le (fun a0 => negb (Z.eqb (a_id a0) id)) (with_trait (l_trait l) allocs)) as Hle.
           unfold others. unfold nle in *.
           assert (Hf : Forall (fun a0 => nonneg_res (a_res a0)) (with_trait (l_trait l) allocs))
             by (apply Forall_filter; assumption).
           specialize (Hle Hf). lia.
  - split; [split; assumption|]. split; [split; assumption|discriminate].
  - contradiction.
Qed.

Fixpoint api_run (tb : tables) (p : partition) (allocs : list alloc) (rqs : list (Z * request)) : list alloc :=
  match rqs with
  | [] => allocs
  | (id, rq) :: t => api_run tb p (fst (api_request tb p allocs id rq)) t
  end.

Theorem api_run_within tb p rqs : forall allocs,
  table_is_canonical tb = true ->
  wf_res (p_res p) = true -> Forall (fun l => wf_res (l_res l) = true) (p_limits p) ->
  NoDup (map l_trait (p_limits p)) ->
  Forall (fun '(_, rq) => wf_res (q_res rq) = true /\ NoDup (q_traits rq) /\ nonneg_res (q_res rq)) rqs ->
  store_wf allocs -> within p allocs ->
  within p (api_run tb p allocs rqs).
Proof.
  induction rqs as [|[id rq] t IH]; intros allocs Ht Hp Hl Hnd Hr Hs Hw; [exact Hw|].
  inversion Hr as [|? ? Hq Hrt]; subst. cbv beta iota in Hq. destruct Hq as (Hq1 & Hq2 & Hq3). cbn [api_run].
  pose proof (api_request_within tb p allocs id rq Ht Hp Hl Hnd Hs Hq1 Hq2 Hq3 Hw) as H.
  destruct (api_request tb p allocs id rq) as [allocs' o]. cbv beta iota in H. destruct H as (Hs' & Hw' & _).
  cbn [fst]. apply IH; assumption.
Qed.
