(** More consequences of the capacity check's soundness and completeness (Api/CapacityP.v):
    the decision depends only on the QUANTITIES and on the SET of the other reservations -
    not on the order in which the admin backend lists them, not on the unit spelling of any
    field - removing a reservation never turns an acceptance into a rejection, and a request
    that is not accepted leaves the store as it was. *)
From Coq Require Import ZArith List Bool Lia Permutation.
From TM Require Import Api.Capacity Api.CapacityP.
Import ListNotations.
Open Scope Z_scope.

(** ** the decision is a function of [fits] alone *)
Lemma decision_by_fits tb p allocs allocs' old old' rq rq' p' :
  table_is_canonical tb = true -> wf_inputs p allocs rq -> wf_inputs p' allocs' rq' ->
  (fits p allocs old rq <-> fits p' allocs' old' rq') ->
  check_capacity tb p allocs old rq = check_capacity tb p' allocs' old' rq'.
Proof.
  intros Ht H1 H2 Hiff.
  destruct (check_capacity_sound_complete tb p allocs old rq Ht H1) as (A1 & R1 & C1).
  destruct (check_capacity_sound_complete tb p' allocs' old' rq' Ht H2) as (A2 & R2 & C2).
  destruct (check_capacity tb p allocs old rq) eqn:E1.
  - symmetry. apply A2, Hiff, A1. reflexivity.
  - symmetry. apply R2. intros F. apply (proj1 R1 eq_refl). apply Hiff. exact F.
  - contradiction.
Qed.

(** [fits] looks at quantities only: capacity, request, limits, and the totals of the other reservations *)
Lemma fits_ext p p' allocs allocs' old old' rq rq' :
  val3 (p_res p) = val3 (p_res p') -> val3 (q_res rq) = val3 (q_res rq') -> q_traits rq = q_traits rq' ->
  total (others allocs old) = total (others allocs' old') ->
  (forall t, total (with_trait t (others allocs old)) = total (with_trait t (others allocs' old'))) ->
  (forall l', In l' (p_limits p') ->
     exists l, In l (p_limits p) /\ l_trait l = l_trait l' /\ val3 (l_res l) = val3 (l_res l')) ->
  fits p allocs old rq -> fits p' allocs' old' rq'.
Proof.
  intros Hp Hq Hqt Hu Ht Hl [Ho Hf]. split.
  - unfold fits_overall in *. rewrite <- Hp, <- Hq, <- Hu. exact Ho.
  - intros l' Hin' Hm'. destruct (Hl l' Hin') as (l & Hin & Hlt & Hlv). rewrite <- Hqt, <- Hlt in Hm'.
    specialize (Hf l Hin Hm'). unfold fits_trait in *. rewrite <- Hlv, <- Hq, <- Hlt, <- Ht. exact Hf.
Qed.

(** ** order of the listing *)
Lemma total_perm l l' : Permutation l l' -> total l = total l'.
Proof.
  induction 1 as [|x l l' _ IH|x y l|l l' l'' _ IH1 _ IH2]; cbn [total].
  - reflexivity.
  - rewrite IH. reflexivity.
  - cbv zeta. destruct (val3 (a_res x)), (val3 (a_res y)), (total l); cbn. f_equal; lia.
  - congruence.
Qed.

Lemma filter_perm {A} (f : A -> bool) l l' : Permutation l l' -> Permutation (filter f l) (filter f l').
Proof.
  induction 1 as [|x l l' _ IH|x y l|l l' l'' _ IH1 _ IH2]; cbn [filter].
  - constructor.
  - destruct (f x); [constructor|]; assumption.
  - destruct (f x), (f y); try apply perm_swap; apply Permutation_refl.
  - eapply Permutation_trans; eassumption.
Qed.

Lemma fits_perm p allocs allocs' old rq :
  Permutation allocs allocs' -> fits p allocs old rq -> fits p allocs' old rq.
Proof.
  intros Hp. apply fits_ext; auto.
  - apply total_perm, filter_perm, Hp.
  - intros t. apply total_perm, filter_perm, filter_perm, Hp.
  - intros l' Hin. exists l'. auto.
Qed.

Lemma wf_inputs_perm p allocs allocs' rq :
  Permutation allocs allocs' -> wf_inputs p allocs rq -> wf_inputs p allocs' rq.
Proof.
  intros Hp (H1 & H2 & H3 & H4 & H5). repeat split; try assumption.
  rewrite Forall_forall in *. intros a Ha. apply H4. eapply Permutation_in; [apply Permutation_sym|]; eassumption.
Qed.

Theorem check_capacity_order_irrelevant tb p allocs allocs' old rq :
  table_is_canonical tb = true -> wf_inputs p allocs rq -> Permutation allocs allocs' ->
  check_capacity tb p allocs old rq = check_capacity tb p allocs' old rq.
Proof.
  intros Ht Hwf Hp. apply decision_by_fits; try assumption.
  - eapply wf_inputs_perm; eassumption.
  - split; apply fits_perm; [|apply Permutation_sym]; assumption.
Qed.

(** ** unit spellings: only the denoted quantities matter *)
Definition same_quantity (a b : res3) : Prop := val3 a = val3 b.

Fixpoint same_store (l l' : list alloc) : Prop :=
  match l, l' with
  | [], [] => True
  | a :: r, b :: r' => a_id a = a_id b /\ a_traits a = a_traits b /\ same_quantity (a_res a) (a_res b) /\ same_store r r'
  | _, _ => False
  end.

Lemma same_store_total l : forall l', same_store l l' -> total l = total l'.
Proof.
  induction l as [|a r IH]; intros [|b r'] Hs; cbn in Hs; try contradiction; [reflexivity|].
  destruct Hs as (_ & _ & Hq & Hs). cbn [total]. cbv zeta. unfold same_quantity in Hq. rewrite Hq, (IH r' Hs). reflexivity.
Qed.

Lemma same_store_filter (f : alloc -> bool) : (forall a b, a_id a = a_id b -> a_traits a = a_traits b -> f a = f b) ->
  forall l l', same_store l l' -> same_store (filter f l) (filter f l').
Proof.
  intros Hf. induction l as [|a r IH]; intros [|b r'] Hs; cbn in Hs; try contradiction; [exact I|].
  destruct Hs as (Hid & Htr & Hq & Hs). cbn [filter]. rewrite (Hf a b Hid Htr).
  destruct (f b); [cbn [same_store]; auto | auto].
Qed.

Lemma same_store_others l l' old : same_store l l' -> same_store (others l old) (others l' old).
Proof. apply same_store_filter. intros a b Ha _. rewrite Ha. reflexivity. Qed.

Lemma Forall2_In_r {A B} (R : A -> B -> Prop) l l' y : Forall2 R l l' -> In y l' -> exists x, In x l /\ R x y.
Proof.
  induction 1 as [|x y' l l' HR _ IH]; [contradiction|]. intros [->|Hin]; [exists x; cbn; auto|].
  destruct (IH Hin) as (x' & Hx & Hxy). exists x'. cbn. auto.
Qed.

Lemma Forall2_In_l {A B} (R : A -> B -> Prop) l l' x : Forall2 R l l' -> In x l -> exists y, In y l' /\ R x y.
Proof.
  induction 1 as [|x' y l l' HR _ IH]; [contradiction|]. intros [->|Hin]; [exists y; cbn; auto|].
  destruct (IH Hin) as (y' & Hy & Hxy). exists y'. cbn. auto.
Qed.

Lemma fits_spelling p p' allocs allocs' old rq rq' :
  same_quantity (p_res p) (p_res p') ->
  Forall2 (fun l l' => l_trait l = l_trait l' /\ same_quantity (l_res l) (l_res l')) (p_limits p) (p_limits p') ->
  same_store allocs allocs' ->
  same_quantity (q_res rq) (q_res rq') -> q_traits rq = q_traits rq' ->
  fits p allocs old rq <-> fits p' allocs' old rq'.
Proof.
  intros Hp Hl Hs Hq Hqt. unfold same_quantity in *.
  assert (Hu : total (others allocs old) = total (others allocs' old))
    by (apply same_store_total, same_store_others, Hs).
  assert (Ht : forall t, total (with_trait t (others allocs old)) = total (with_trait t (others allocs' old))).
  { intros t. apply same_store_total, same_store_filter; [|apply same_store_others, Hs].
    intros a b _ Hb. rewrite Hb. reflexivity. }
  split; apply fits_ext; auto.
  - intros l' Hin. destruct (Forall2_In_r _ _ _ _ Hl Hin) as (l & Hl1 & Hl2 & Hl3). eauto.
  - intros l Hin. destruct (Forall2_In_l _ _ _ _ Hl Hin) as (l' & Hl1 & Hl2 & Hl3). eauto.
Qed.

(** the same quantities under any well-formed spelling ("1G", "1024M", "1048576K", with or without '%') give the same decision *)
Theorem check_capacity_spelling_irrelevant tb p p' allocs allocs' old rq rq' :
  table_is_canonical tb = true -> wf_inputs p allocs rq -> wf_inputs p' allocs' rq' ->
  same_quantity (p_res p) (p_res p') ->
  Forall2 (fun l l' => l_trait l = l_trait l' /\ same_quantity (l_res l) (l_res l')) (p_limits p) (p_limits p') ->
  same_store allocs allocs' ->
  same_quantity (q_res rq) (q_res rq') -> q_traits rq = q_traits rq' ->
  check_capacity tb p allocs old rq = check_capacity tb p' allocs' old rq'.
Proof.
  intros Ht H1 H2 Hp Hl Hs Hq Hqt. apply decision_by_fits; try assumption. apply fits_spelling; assumption.
Qed.

(** ** fewer promises never make a request fail *)
Lemma fits_drop p a allocs old rq :
  nonneg_res (a_res a) -> fits p (a :: allocs) old rq -> fits p allocs old rq.
Proof.
  intros Hn [Ho Ht]. unfold nonneg_res in Hn. split.
  - unfold fits_overall, others in *. cbn [filter] in Ho.
    destruct (negb (Z.eqb (a_id a) old)); [|exact Ho].
    cbn [total] in Ho. unfold nle, nsub in *. cbn in *. lia.
  - intros l Hin Hm. specialize (Ht l Hin Hm). unfold fits_trait, with_trait, others in *. cbn [filter] in Ht.
    destruct (negb (Z.eqb (a_id a) old)); [|exact Ht]. cbn [filter] in Ht.
    destruct (mem_z (l_trait l) (a_traits a)); [|exact Ht].
    cbn [total] in Ht. unfold nle, nsub in *. cbn in *. lia.
Qed.

Theorem check_capacity_drop_keeps_accept tb p a allocs old rq :
  table_is_canonical tb = true -> wf_inputs p (a :: allocs) rq -> nonneg_res (a_res a) ->
  check_capacity tb p (a :: allocs) old rq = Accept -> check_capacity tb p allocs old rq = Accept.
Proof.
  intros Ht Hwf Hn Hacc.
  assert (Hwf' : wf_inputs p allocs rq).
  { destruct Hwf as (H1 & H2 & H3 & H4 & H5). repeat split; try assumption. inversion H4; assumption. }
  destruct (check_capacity_sound_complete tb p (a :: allocs) old rq Ht Hwf) as (A1 & _ & _).
  destruct (check_capacity_sound_complete tb p allocs old rq Ht Hwf') as (A2 & _ & _).
  apply A2. eapply fits_drop; [eassumption|]. apply A1. exact Hacc.
Qed.

(** the reservation being replaced does not count against its own replacement, whatever it held *)
Theorem check_capacity_ignores_replaced tb p a a' allocs rq :
  table_is_canonical tb = true -> wf_inputs p (a :: allocs) rq -> wf_inputs p (a' :: allocs) rq ->
  a_id a' = a_id a ->
  check_capacity tb p (a :: allocs) (a_id a) rq = check_capacity tb p (a' :: allocs) (a_id a) rq.
Proof.
  intros Ht H1 H2 Hid. apply decision_by_fits; try assumption.
  unfold fits, fits_overall, fits_trait, others. cbn [filter]. rewrite Hid, Z.eqb_refl. cbn [negb]. reflexivity.
Qed.

(** ** a request that is not accepted changes nothing; an accepted one stores exactly what was asked *)
Theorem api_request_effect tb p allocs id rq :
  let '(allocs', o) := api_request tb p allocs id rq in
  (o <> Accept -> allocs' = allocs) /\
  (o = Accept -> allocs' = {| a_id := id; a_res := q_res rq; a_traits := q_traits rq |} :: others allocs id).
Proof.
  unfold api_request. destruct (check_capacity tb p allocs id rq); split; intros H; try reflexivity; try congruence.
Qed.
