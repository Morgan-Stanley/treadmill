(** Lemmas about Api/Quota.v: the check, the proid slice, the stats dict, runs of requests against fresh and against
    stale stats, the master's aggregate and the loop on instance names. *)
From Coq Require Import ZArith List Bool Lia ZifyBool.
From TM Require Import Codec.BaseN Codec.BaseNP Api.Quota.
Import ListNotations.
Open Scope Z_scope.

(** * The tables *)
Lemma tables_ok_fields T : quota_tables_ok T = true ->
  q_sep T = 46 /\ q_default T = 0 /\ 1 <= q_count_min T /\ q_count_min T <= q_count_max T /\
  q_count_max T <= q_proid T /\ q_proid T <= q_total T /\ q_agg_sep T = 46 /\ q_agg_inc T = 1.
Proof. unfold quota_tables_ok. intros H. repeat (apply andb_true_iff in H; destruct H as [H ?]). lia. Qed.

Lemma canonical_ok T : quota_tables_canonical T = true -> quota_tables_ok T = true.
Proof.
  unfold quota_tables_canonical, quota_tables_ok. intros H.
  repeat (apply andb_true_iff in H; destruct H as [H ?]).
  repeat (apply andb_true_iff; split); lia.
Qed.

(** * The check *)
(** the three outcomes, in the order the code tests *)
Lemma quota_checkP T st r c :
  match quota_check T st r c with
  | Accept => total_apps st + c <= q_total T /\ proid_apps T st r + c <= q_proid T
  | TotalExceeded => total_apps st + c > q_total T
  | ProidExceeded => total_apps st + c <= q_total T /\ proid_apps T st r + c > q_proid T
  end.
Proof.
  unfold quota_check. destruct (total_apps st + c >? q_total T) eqn:E1; [lia|].
  destruct (proid_apps T st r + c >? q_proid T) eqn:E2; lia.
Qed.

Lemma check_accept_iff T st r c :
  quota_check T st r c = Accept <->
  total_apps st + c <= q_total T /\ proid_apps T st r + c <= q_proid T.
Proof.
  pose proof (quota_checkP T st r c) as H. destruct (quota_check T st r c); split; (discriminate || lia || reflexivity).
Qed.

Lemma check_total_iff T st r c :
  quota_check T st r c = TotalExceeded <-> total_apps st + c > q_total T.
Proof.
  pose proof (quota_checkP T st r c) as H. destruct (quota_check T st r c); split; (discriminate || lia || reflexivity).
Qed.

Lemma check_proid_iff T st r c :
  quota_check T st r c = ProidExceeded <->
  total_apps st + c <= q_total T /\ proid_apps T st r + c > q_proid T.
Proof.
  pose proof (quota_checkP T st r c) as H. destruct (quota_check T st r c); split; (discriminate || lia || reflexivity).
Qed.

(** * rsrc_id[:rsrc_id.find('.')] *)
Lemma find_idx_before c s n : find_idx c s = Some n -> firstn n s = before c s.
Proof.
  revert n. induction s as [|x t IH]; intros n H; cbn [find_idx] in H; [discriminate H|].
  cbn [before]. destruct (x =? c).
  - inversion H. reflexivity.
  - destruct (find_idx c t) as [m|]; [|discriminate H].
    inversion H. cbn [firstn]. f_equal. apply IH. reflexivity.
Qed.

Lemma find_idx_none c s : find_idx c s = None <-> existsb (fun x => x =? c) s = false.
Proof.
  induction s as [|x t IH]; cbn [find_idx existsb]; [tauto|].
  destruct (x =? c); cbn [orb].
  - split; intros H; discriminate H.
  - destruct (find_idx c t) as [m|].
    + split; [intros H; discriminate H|intros H; apply IH in H; discriminate H].
    + split; [intros _; apply IH; reflexivity|reflexivity].
Qed.

Lemma slice_before c s : existsb (fun x => x =? c) s = true -> py_slice_to s (py_find c s) = before c s.
Proof.
  intros H. unfold py_find. destruct (find_idx c s) as [n|] eqn:E.
  - unfold py_slice_to. destruct (Z.ltb_spec (Z.of_nat n) 0) as [Hn|Hn]; [lia|].
    rewrite Nat2Z.id. apply find_idx_before. exact E.
  - apply find_idx_none in E. rewrite E in H. discriminate H.
Qed.

Lemma slice_nosep c s : existsb (fun x => x =? c) s = false -> py_slice_to s (py_find c s) = removelast s.
Proof.
  intros H. unfold py_find. apply find_idx_none in H. rewrite H.
  unfold py_slice_to. change (-1 <? 0) with true. cbv iota. change (Z.to_nat (- -1)) with 1%nat.
  rewrite removelast_firstn_len. rewrite Nat.sub_1_r. reflexivity.
Qed.

Lemma proid_of_sep T s : has_sep T s = true -> proid_of T s = before (q_sep T) s.
Proof. intros H. apply slice_before. exact H. Qed.

Lemma proid_of_nosep T s : has_sep T s = false -> proid_of T s = removelast s.
Proof. intros H. apply slice_nosep. exact H. Qed.

Lemma before_split c pre post : ~ In c pre -> before c (pre ++ c :: post) = pre.
Proof.
  induction pre as [|x t IH]; intros H; cbn [app before].
  - rewrite Z.eqb_refl. reflexivity.
  - destruct (Z.eqb_spec x c) as [E|E]; [exfalso; apply H; left; exact E|].
    f_equal. apply IH. intros Hin. apply H. right. exact Hin.
Qed.

Lemma before_app c s x : existsb (fun y => y =? c) s = true -> before c (s ++ x) = before c s.
Proof.
  induction s as [|y t IH]; cbn [existsb app before]; intros H; [discriminate H|].
  destruct (y =? c); [reflexivity|]. cbn [orb] in H. f_equal. apply IH. exact H.
Qed.

Lemma existsb_split c pre post : existsb (fun y => y =? c) (pre ++ c :: post) = true.
Proof. rewrite existsb_app. cbn [existsb]. rewrite Z.eqb_refl. cbn [orb]. apply orb_true_r. Qed.

Lemma proid_of_split T pre post :
  ~ In (q_sep T) pre -> proid_of T (pre ++ q_sep T :: post) = pre.
Proof.
  intros H. rewrite proid_of_sep; [apply before_split; exact H|].
  unfold has_sep. apply existsb_split.
Qed.

Lemma proid_of_app T s x : has_sep T s = true -> proid_of T (s ++ x) = proid_of T s.
Proof.
  intros H. rewrite (proid_of_sep T s H). rewrite proid_of_sep.
  - apply before_app. exact H.
  - unfold has_sep in *. rewrite existsb_app, H. reflexivity.
Qed.

Lemma agg_key_proid T s : q_agg_sep T = q_sep T -> agg_key T s = proid_of T s.
Proof. intros H. unfold agg_key, proid_of. rewrite H. reflexivity. Qed.

(** * The stats dict *)
Lemma total_add st p c : stats_total (stats_add st p c) = stats_total st + c.
Proof.
  induction st as [|[k n] t IH]; cbn [stats_add stats_total]; [lia|].
  destruct (str_eqb k p); cbn [stats_total]; [lia|]. rewrite IH. lia.
Qed.

Lemma get_add st p c q : stats_get 0 (stats_add st p c) q = stats_get 0 st q + if str_eqb p q then c else 0.
Proof.
  induction st as [|[k n] t IH]; cbn [stats_add stats_get]; [destruct (str_eqb p q); lia|].
  destruct (str_eqb k p) eqn:E; cbn [stats_get].
  - apply str_eqb_eq in E. subst k. destruct (str_eqb p q); lia.
  - destruct (str_eqb k q) eqn:E2; [|exact IH]. destruct (str_eqb p q) eqn:E3; [|lia].
    apply str_eqb_eq in E2, E3. subst. rewrite str_eqb_refl in E. discriminate.
Qed.

Lemma get_default_or_in d st p : stats_get d st p = d \/ exists kv, In kv st /\ fst kv = p.
Proof.
  induction st as [|[k n] t IH]; cbn [stats_get]; [left; reflexivity|].
  destruct (str_eqb k p) eqn:E.
  - right. exists (k, n). split; [left; reflexivity|apply str_eqb_eq; exact E].
  - destruct IH as [IH|[kv [Hin Hk]]]; [left; exact IH|].
    right. exists kv. split; [right; exact Hin|exact Hk].
Qed.

(** * Runs of requests *)
(** [run] and [run_stale] differ in the stats the check sees; what they do to the stats is the same *)
Section Loop.
  Variables (T : qtables) (chk : stats -> request -> outcome) (loop : stats -> list request -> stats * list outcome).
  Hypothesis loop_nil : forall st, loop st [] = (st, []).
  Hypothesis loop_cons : forall st r t,
    loop st (r :: t) = (fst (loop (apply_outcome T st r (chk st r)) t), chk st r :: snd (loop (apply_outcome T st r (chk st r)) t)).

  Lemma loop_total reqs : forall st, stats_total (fst (loop st reqs)) = stats_total st + accepted_sum reqs (snd (loop st reqs)).
  Proof.
    induction reqs as [|r t IH]; intros st; [rewrite loop_nil; cbn; lia|].
    rewrite loop_cons. cbn [fst snd accepted_sum]. rewrite IH.
    destruct (chk st r); cbn [apply_outcome]; rewrite ?total_add; lia.
  Qed.

  Lemma loop_get p reqs : q_default T = 0 -> forall st,
    stats_get (q_default T) (fst (loop st reqs)) p
    = stats_get (q_default T) st p + accepted_sum_for T p reqs (snd (loop st reqs)).
  Proof.
    intros Hd. induction reqs as [|r t IH]; intros st; [rewrite loop_nil; cbn; lia|].
    rewrite loop_cons. cbn [fst snd accepted_sum_for]. rewrite IH.
    destruct (chk st r); cbn [apply_outcome]; try lia.
    rewrite Hd, get_add. destruct (str_eqb (proid_of T (fst r)) p); lia.
  Qed.
End Loop.

(** ** one after the other *)
Lemma run_cons T st r t :
  run T st (r :: t) =
  (fst (run T (apply_outcome T st r (quota_check T st (fst r) (snd r))) t),
   quota_check T st (fst r) (snd r)
   :: snd (run T (apply_outcome T st r (quota_check T st (fst r) (snd r))) t)).
Proof. cbn [run]. destruct (run T _ t). reflexivity. Qed.

Lemma step_within T st r : q_default T = 0 -> within T st ->
  within T (apply_outcome T st r (quota_check T st (fst r) (snd r))).
Proof.
  intros Hd [Ht Hp].
  destruct (quota_check T st (fst r) (snd r)) eqn:E; cbn [apply_outcome]; try (split; assumption).
  apply check_accept_iff in E. destruct E as [E1 E2]. unfold total_apps in E1. unfold proid_apps in E2.
  split.
  - rewrite total_add. lia.
  - intros p. specialize (Hp p). rewrite Hd in *. rewrite get_add.
    destruct (str_eqb (proid_of T (fst r)) p) eqn:Ep; [apply str_eqb_eq in Ep; subst p|]; lia.
Qed.

Lemma run_within T reqs : q_default T = 0 -> forall st, within T st -> within T (fst (run T st reqs)).
Proof.
  intros Hd. induction reqs as [|r t IH]; intros st H; [exact H|].
  rewrite run_cons. cbn [fst]. apply IH. apply step_within; assumption.
Qed.

Lemma run_length T reqs : forall st, length (snd (run T st reqs)) = length reqs.
Proof.
  induction reqs as [|r t IH]; intros st; [reflexivity|].
  rewrite run_cons. cbn [snd length]. rewrite IH. reflexivity.
Qed.

Lemma run_total T reqs : forall st,
  stats_total (fst (run T st reqs)) = stats_total st + accepted_sum reqs (snd (run T st reqs)).
Proof. exact (loop_total T _ (run T) (fun _ => eq_refl) (run_cons T) reqs). Qed.

Lemma run_get T p reqs : q_default T = 0 -> forall st,
  stats_get (q_default T) (fst (run T st reqs)) p
  = stats_get (q_default T) st p + accepted_sum_for T p reqs (snd (run T st reqs)).
Proof. exact (loop_get T _ (run T) (fun _ => eq_refl) (run_cons T) p reqs). Qed.

Lemma run_app T a b st :
  run T st (a ++ b) =
  (fst (run T (fst (run T st a)) b), snd (run T st a) ++ snd (run T (fst (run T st a)) b)).
Proof.
  revert st. induction a as [|r t IH]; intros st.
  - cbn [app run fst snd]. destruct (run T st b). reflexivity.
  - cbn [app]. rewrite !run_cons. cbn [fst snd]. rewrite IH. reflexivity.
Qed.

(** every outcome is the check against the stats made of the initial ones and the creates accepted before it *)
Lemma run_nth T a r b st :
  nth_error (snd (run T st (a ++ r :: b))) (length a)
  = Some (quota_check T (fst (run T st a)) (fst r) (snd r)).
Proof.
  rewrite run_app. cbn [snd]. rewrite nth_error_app2; rewrite run_length; [|apply Nat.le_refl].
  rewrite Nat.sub_diag. rewrite run_cons. reflexivity.
Qed.

Lemma accepted_n_nonneg os : 0 <= accepted_n os.
Proof. induction os as [|o t IH]; cbn [accepted_n]; [lia|]. destruct o; lia. Qed.

(** with counts >= 1 the accepted sum dominates the number of accepted requests *)
Lemma accepted_n_le_sum reqs : forall os m, 1 <= m -> length os = length reqs ->
  forallb (fun r => m <=? snd r) reqs = true -> accepted_n os <= accepted_sum reqs os.
Proof.
  induction reqs as [|r t IH]; intros os m Hm Hl H; destruct os as [|o os]; try discriminate Hl.
  - cbn. lia.
  - cbn [forallb] in H. apply andb_true_iff in H. destruct H as [H1 H2].
    cbn [accepted_n accepted_sum]. cbn [length] in Hl.
    specialize (IH os m Hm (eq_add_S _ _ Hl) H2). destruct o; lia.
Qed.

Lemma counts_ok_min T reqs : counts_ok T reqs = true -> forallb (fun r => q_count_min T <=? snd r) reqs = true.
Proof.
  unfold counts_ok, count_ok. intros H. rewrite forallb_forall in *. intros r Hin.
  specialize (H r Hin). apply andb_true_iff in H. destruct H as [H _]. exact H.
Qed.

(** ** all checked against the same stats *)
Lemma stale_cons T seen st r t :
  run_stale T seen st (r :: t) =
  (fst (run_stale T seen (apply_outcome T st r (quota_check T seen (fst r) (snd r))) t),
   quota_check T seen (fst r) (snd r)
   :: snd (run_stale T seen (apply_outcome T st r (quota_check T seen (fst r) (snd r))) t)).
Proof. cbn [run_stale]. destruct (run_stale T seen _ t). reflexivity. Qed.

Lemma stale_outcomes T seen reqs : forall st,
  snd (run_stale T seen st reqs) = map (fun r => quota_check T seen (fst r) (snd r)) reqs.
Proof.
  induction reqs as [|r t IH]; intros st; [reflexivity|].
  rewrite stale_cons. cbn [snd map]. rewrite IH. reflexivity.
Qed.

Lemma stale_total T seen reqs : forall st,
  stats_total (fst (run_stale T seen st reqs))
  = stats_total st + accepted_sum reqs (snd (run_stale T seen st reqs)).
Proof. exact (loop_total T _ (run_stale T seen) (fun _ => eq_refl) (stale_cons T seen) reqs). Qed.

Lemma stale_get T seen p reqs : q_default T = 0 -> forall st,
  stats_get (q_default T) (fst (run_stale T seen st reqs)) p
  = stats_get (q_default T) st p + accepted_sum_for T p reqs (snd (run_stale T seen st reqs)).
Proof. exact (loop_get T _ (run_stale T seen) (fun _ => eq_refl) (stale_cons T seen) p reqs). Qed.

Definition checks (T : qtables) (seen : stats) (reqs : list request) : list outcome :=
  map (fun r => quota_check T seen (fst r) (snd r)) reqs.

(** the accepted requests weighted by [w]: [accepted_sum] weighs by the count, [accepted_sum_for] by the count of the
    requests charged to one proid *)
Fixpoint accepted_w (w : request -> Z) (reqs : list request) (os : list outcome) : Z :=
  match reqs, os with
  | r :: t, o :: os' => (match o with Accept => w r | _ => 0 end) + accepted_w w t os'
  | _, _ => 0
  end.

Lemma accepted_sum_w reqs : forall os, accepted_sum reqs os = accepted_w snd reqs os.
Proof. induction reqs as [|r t IH]; intros [|o os]; cbn; try reflexivity. rewrite IH. reflexivity. Qed.

Lemma accepted_sum_for_w T p reqs : forall os,
  accepted_sum_for T p reqs os = accepted_w (fun r => if str_eqb (proid_of T (fst r)) p then snd r else 0) reqs os.
Proof. induction reqs as [|r t IH]; intros [|o os]; cbn; try reflexivity. rewrite IH. reflexivity. Qed.

(** [base] is what [seen] holds against the quota Q.  When every accepted weight is at most M and fits into the room
    Q - base, n accepted requests weigh at most n * M, and at most that room + (n - 1) * M: the first one fits, every
    further one adds at most M *)
Lemma stale_weight_bound T seen (w : request -> Z) M base Q reqs : base <= Q ->
  (forall r, In r reqs -> quota_check T seen (fst r) (snd r) = Accept -> w r <= M /\ base + w r <= Q) ->
  base + accepted_w w reqs (checks T seen reqs) <= Q + Z.max 0 (accepted_n (checks T seen reqs) - 1) * M.
Proof.
  intros Hb H. pose proof (accepted_n_nonneg (checks T seen reqs)) as Hnn.
  assert (accepted_w w reqs (checks T seen reqs) <= accepted_n (checks T seen reqs) * M /\
          (1 <= accepted_n (checks T seen reqs) ->
           base + accepted_w w reqs (checks T seen reqs) <= Q + (accepted_n (checks T seen reqs) - 1) * M)) as [H0 H1].
  { clear Hnn. induction reqs as [|r t IH]; [cbn; lia|].
    destruct IH as [IH0 IH1]; [intros r' Hin; apply H; right; exact Hin|].
    pose proof (accepted_n_nonneg (checks T seen t)) as Hnn. specialize (H r (or_introl eq_refl)).
    unfold checks in *. cbn [map accepted_w accepted_n].
    destruct (quota_check T seen (fst r) (snd r)); [destruct (H eq_refl)|..]; lia. }
  destruct (Z.eq_dec (accepted_n (checks T seen reqs)) 0) as [Z0|Z0];
    [rewrite Z0 in *; rewrite Z.max_l by lia | rewrite Z.max_r by lia]; lia.
Qed.

Lemma counts_ok_max T reqs : counts_ok T reqs = true -> forallb (fun r => snd r <=? q_count_max T) reqs = true.
Proof.
  unfold counts_ok, count_ok. intros H. rewrite forallb_forall in *. intros r Hin.
  specialize (H r Hin). apply andb_true_iff in H. destruct H as [_ H]. exact H.
Qed.

(** * The writer of the stats and the loop on instance names *)
Lemma agg_fold_total T names : forall a,
  stats_total (fold_left (fun a n => stats_add a (agg_key T n) (q_agg_inc T)) names a)
  = stats_total a + q_agg_inc T * Z.of_nat (length names).
Proof.
  induction names as [|n t IH]; intros a; cbn [fold_left length]; [lia|].
  rewrite IH, total_add. lia.
Qed.

Lemma count_proid_cons T p n t :
  count_proid T p (n :: t) = (if str_eqb (agg_key T n) p then 1 else 0) + count_proid T p t.
Proof. unfold count_proid. cbn [filter]. destruct (str_eqb (agg_key T n) p); cbn [length]; lia. Qed.

Lemma count_proid_nil T p : count_proid T p [] = 0.
Proof. reflexivity. Qed.

Lemma agg_fold_get T p names : forall a,
  stats_get 0 (fold_left (fun a n => stats_add a (agg_key T n) (q_agg_inc T)) names a) p
  = stats_get 0 a p + q_agg_inc T * count_proid T p names.
Proof.
  induction names as [|n t IH]; intros a; cbn [fold_left].
  - rewrite count_proid_nil. lia.
  - rewrite IH, count_proid_cons, get_add. destruct (str_eqb (agg_key T n) p); lia.
Qed.

Lemma aggregate_total T names : q_agg_inc T = 1 -> stats_total (aggregate T names) = Z.of_nat (length names).
Proof. intros H. unfold aggregate. rewrite agg_fold_total, H. cbn [stats_total]. lia. Qed.

Lemma aggregate_get T p names : q_agg_inc T = 1 -> stats_get 0 (aggregate T names) p = count_proid T p names.
Proof. intros H. unfold aggregate. rewrite agg_fold_get, H. cbn [stats_get]. lia. Qed.

Lemma count_proid_app T p a b : count_proid T p (a ++ b) = count_proid T p a + count_proid T p b.
Proof. unfold count_proid. rewrite filter_app, app_length. lia. Qed.

Lemma count_proid_nonneg T p a : 0 <= count_proid T p a.
Proof. unfold count_proid. lia. Qed.

Lemma agg_key_inst T r s : q_agg_sep T = q_sep T -> has_sep T r = true ->
  agg_key T (r ++ 35 :: s) = proid_of T r.
Proof. intros H1 H2. rewrite (agg_key_proid T _ H1). apply proid_of_app. exact H2. Qed.

Lemma count_proid_inst T p r sfx : q_agg_sep T = q_sep T -> has_sep T r = true ->
  count_proid T p (inst_names r sfx) = if str_eqb (proid_of T r) p then Z.of_nat (length sfx) else 0.
Proof.
  intros H1 H2. induction sfx as [|s t IH].
  - cbn [inst_names map]. rewrite count_proid_nil. destruct (str_eqb (proid_of T r) p); reflexivity.
  - unfold inst_names in *. cbn [map]. rewrite count_proid_cons, IH, (agg_key_inst T r s H1 H2).
    destruct (str_eqb (proid_of T r) p); cbn [length]; lia.
Qed.

Lemma inst_names_length r sfx : length (inst_names r sfx) = length sfx.
Proof. unfold inst_names. apply map_length. Qed.

Lemma sys_step_within T names r : quota_tables_ok T = true -> has_sep T (fst r) = true ->
  sys_within T names -> sys_within T (fst (sys_step T names r)).
Proof.
  intros Hok Hs [Ht Hp]. destruct (tables_ok_fields T Hok) as (Hsep & Hd & _ & _ & _ & _ & Hasep & Hinc).
  assert (Hss : q_agg_sep T = q_sep T) by lia.
  unfold sys_step. cbn [fst].
  destruct (quota_check T (aggregate T names) (fst r) (Z.of_nat (length (snd r)))) eqn:E;
    try (split; assumption).
  apply check_accept_iff in E. destruct E as [E1 E2].
  unfold total_apps in E1. unfold proid_apps in E2. rewrite Hd in E2.
  rewrite (aggregate_total T names Hinc) in E1. rewrite (aggregate_get T _ names Hinc) in E2.
  split.
  - rewrite app_length, inst_names_length. lia.
  - intros p. rewrite count_proid_app, (count_proid_inst T p _ _ Hss Hs).
    destruct (str_eqb (proid_of T (fst r)) p) eqn:Ep.
    + apply str_eqb_eq in Ep. subst p. lia.
    + specialize (Hp p). lia.
Qed.

Lemma sys_run_cons T names r t :
  sys_run T names (r :: t) =
  (fst (sys_run T (fst (sys_step T names r)) t),
   snd (sys_step T names r) :: snd (sys_run T (fst (sys_step T names r)) t)).
Proof. cbn [sys_run]. destruct (sys_step T names r) as [n' o]. cbn [fst snd]. destruct (sys_run T n' t). reflexivity. Qed.

Lemma sys_run_within T reqs : quota_tables_ok T = true -> sys_names_ok T reqs = true ->
  forall names, sys_within T names -> sys_within T (fst (sys_run T names reqs)).
Proof.
  intros Hok. induction reqs as [|r t IH]; intros Hn names H; [exact H|].
  unfold sys_names_ok in Hn. cbn [forallb] in Hn. apply andb_true_iff in Hn. destruct Hn as [Hr Ht].
  rewrite sys_run_cons. cbn [fst]. apply (IH Ht). apply sys_step_within; assumption.
Qed.

(** stats the check cannot tell apart; up to this, appending a create's instance names to the master's input is
    [stats_add] on its aggregate *)
Definition stats_equiv (a b : stats) : Prop :=
  stats_total a = stats_total b /\ forall p, stats_get 0 a p = stats_get 0 b p.

Lemma check_equiv T a b r c : q_default T = 0 -> stats_equiv a b -> quota_check T a r c = quota_check T b r c.
Proof.
  intros Hd [H1 H2]. unfold quota_check, total_apps, proid_apps. rewrite Hd, H1, H2. reflexivity.
Qed.

Lemma aggregate_app_inst T names r sfx : quota_tables_ok T = true -> has_sep T r = true ->
  stats_equiv (aggregate T (names ++ inst_names r sfx))
              (stats_add (aggregate T names) (proid_of T r) (Z.of_nat (length sfx))).
Proof.
  intros Hok Hs. destruct (tables_ok_fields T Hok) as (Hsep & Hd & _ & _ & _ & _ & Hasep & Hinc).
  assert (Hss : q_agg_sep T = q_sep T) by lia.
  split.
  - rewrite total_add, !(aggregate_total T _ Hinc), app_length, inst_names_length. lia.
  - intros p. rewrite get_add, !(aggregate_get T _ _ Hinc), count_proid_app, (count_proid_inst T p _ _ Hss Hs).
    destruct (str_eqb (proid_of T r) p); lia.
Qed.

