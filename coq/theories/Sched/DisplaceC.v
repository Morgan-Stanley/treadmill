(** C07 for a whole cycle: the partition queues are run one after the other; the turn order of the cycle is the
    concatenation of the queues. *)
From Coq Require Import ZArith QArith List Bool.
From RecordUpdate Require Import RecordSet.
From TM Require Import Sched.Vec Sched.Types Sched.Queue Sched.Tree Sched.Cycle Sched.Steps Sched.InvAcct Sched.InvAff Sched.InvIdent Sched.MergeOrderP Sched.TurnP Sched.CycleP
                       Sched.KeepP Sched.DisplaceP.
Import ListNotations.
Open Scope Z_scope.

(** the turns of a cycle, in order *)
Definition turns (qs : list (Z * list entry)) : list Z := concat (map (fun lq => map e_app (snd lq)) qs).
Lemma turns_app a b : turns (a ++ b) = turns a ++ turns b.
Proof. unfold turns. rewrite map_app, concat_app. reflexivity. Qed.

(** the accumulated queue list only grows at the end *)
Lemma sched_fold_acc ch : forall l cc qs,
  fold_left (sched_F ch) l (cc, qs) =
  (fst (fold_left (sched_F ch) l (cc, [])), qs ++ snd (fold_left (sched_F ch) l (cc, []))).
Proof.
  induction l as [|p r IH]; intros cc qs; cbn [fold_left]; [rewrite app_nil_r; reflexivity|].
  unfold sched_F at 2 4 6. destruct (aget (fst p) (c_parts cc)) as [top|]; [|apply IH].
  destruct (schedule_alloc cc (fst p) top ch) as [cc' q].
  rewrite (IH cc' (qs ++ [(fst p, q)])), (IH cc' ([] ++ [(fst p, q)])). cbn [fst snd List.app]. rewrite <- app_assoc. reflexivity.
Qed.

(** every existing instance of the partitions run so far has had a turn *)
Lemma sched_fold_turns ch P : forall l cc,
  c_parts cc = P -> (forall p, In p l -> aget (fst p) P = Some (snd p)) ->
  forall z, In z (part_apps l) -> app_of cc z <> None -> In z (turns (snd (fold_left (sched_F ch) l (cc, [])))).
Proof.
  induction l as [|p r IH]; intros cc HP Hget z Hin Hex; [destruct Hin|].
  cbn [fold_left]. unfold sched_F at 2. rewrite HP, (Hget p (or_introl eq_refl)).
  pose proof (schedule_alloc_ps cc (fst p) (snd p) ch) as Hps.
  assert (Hq : snd (schedule_alloc cc (fst p) (snd p) ch) = partition_queue cc (fst p) (snd p)) by reflexivity.
  destruct (schedule_alloc cc (fst p) (snd p) ch) as [cc' q]. cbn [fst snd] in *. subst q.
  rewrite sched_fold_acc. cbn [snd]. rewrite turns_app. apply in_or_app.
  unfold part_apps in Hin. cbn [flat_map] in Hin. apply in_app_or in Hin.
  destruct Hin as [Hin|Hin].
  - left. unfold turns. cbn [List.app map concat snd]. rewrite app_nil_r. apply partition_queue_names. split; assumption.
  - right. apply IH.
    + destruct (psteps_static _ _ Hps) as (_ & E & _). congruence.
    + intros p0 H0. apply Hget. right. exact H0.
    + exact Hin.
    + intros E. apply Hex. destruct (app_of cc z) eqn:Ez; [|reflexivity].
      destruct (psteps_stat _ _ Hps z a Ez) as (a' & Ha' & _). congruence.
Qed.

Lemma part_apps_app l1 l2 : part_apps (l1 ++ l2) = part_apps l1 ++ part_apps l2.
Proof. unfold part_apps. apply flat_map_app. Qed.
Lemma rank_eq_keeps_r a b : rank_eq a b -> keeps_r a b.
Proof. intros (H1 & H2 & H3 & H4 & H5 & H6). split; [exact H1|]. repeat split; try assumption. intros E. congruence. Qed.

Section Cycle.
  Variables (c : cell) (ch : list (Z * Z)) (x : Z) (a : app) (n : Z) (s : server).
  Hypothesis HA : Acct c.
  Hypothesis HF : Aff c.
  Hypothesis HI : Ident c.
  Hypothesis Hwf : parts_wf c.
  Hypothesis Hin : In x (part_apps (c_parts c)).
  Hypothesis HP : prot c x a n s.
  Hypothesis Hren : a_renew a = false.
  Hypothesis Hid : has_id a.
  Hypothesis Hlab : forall l, app_label a = Some l -> l = s_label s.
  Hypothesis Htr : app_traits c a = 0 \/ has_traits (s_traits s) (app_traits c a) = true.
  Hypothesis Hrank : forall label q e, In (label, q) (snd (fst (schedule c ch))) -> In e q -> e_app e = x -> e_rank e <> UNPLACED_RANK.

  Theorem schedule_displaced :
    (exists a', app_of (fst (fst (schedule c ch))) x = Some a' /\ a_server a' = Some n) \/
    (exists z az bz l1 l2 l3,
        turns (snd (fst (schedule c ch))) = l1 ++ z :: l2 ++ x :: l3 /\
        app_of c z = Some az /\ a_server az <> Some n /\
        app_of (fst (fst (schedule c ch))) z = Some bz /\ a_server bz = Some n).
  Proof.
    destruct HP as [P1 P2 P3 P4 P5 P6 P7].
    destruct (pre_phases_keeps c x a n s HA P1 P2 P3 P4 P5 P6 P7) as [Hp0 Hx0].
    destruct (pre_phases_spec c HA HI) as (Hami0 & Hat & _ & _).
    set (cc0 := pre_phases c) in *.
    assert (HP0 : c_parts cc0 = c_parts c) by (destruct (psteps_static _ _ Hp0) as (_ & E & _); exact E).
    destruct Hwf as [Hlabels Hndp].
    pose proof (aget_nodup _ Hlabels) as Hget.
    unfold part_apps in Hin. apply in_flat_map in Hin. destruct Hin as (p & Hp & Hxp).
    destruct (in_split _ _ Hp) as (Pre & Post & Hsplit).
    rewrite Hsplit, part_apps_app in Hndp. change (part_apps (p :: Post)) with (all_apps (snd p) ++ part_apps Post) in Hndp.
    destruct (NoDup_app_inv _ _ Hndp) as (HndPre & Hnd23 & Hd1).
    destruct (NoDup_app_inv _ _ Hnd23) as (Hndp' & HndPost & Hd_p).
    assert (Hd_pre : forall y, In y (part_apps Pre) -> ~ In y (all_apps (snd p)) /\ ~ In y (part_apps Post))
      by (intros y Hy; split; intros H'; apply (Hd1 y Hy), in_or_app; [left|right]; exact H').
    assert (HgetPre : forall p0, In p0 Pre -> aget (fst p0) (c_parts c) = Some (snd p0)) by (intros p0 H0; apply Hget; rewrite Hsplit; apply in_or_app; left; exact H0).
    assert (HgetPost : forall p0, In p0 Post -> aget (fst p0) (c_parts c) = Some (snd p0)) by (intros p0 H0; apply Hget; rewrite Hsplit; apply in_or_app; right; right; exact H0).
    (* unfold the cycle *)
    rewrite schedule_fst in Hrank |- *. fold cc0 in Hrank |- *. rewrite HP0 in Hrank |- *.
    rewrite Hsplit in Hrank |- *. rewrite fold_left_app in Hrank |- *. cbn [fold_left] in Hrank |- *.
    (* stage 1: the partitions before *)
    pose proof (sched_fold_ps ch Pre cc0 []) as Hps1.
    pose proof (sched_fold_spec ch (c_parts c) Pre cc0 [] Hami0 HP0 HgetPre HndPre) as Hspec1.
    pose proof (sched_fold_turns ch (c_parts c) Pre cc0 HP0 HgetPre) as Hturns1.
    destruct (fold_left (sched_F ch) Pre (cc0, [])) as [cc1 qs1] eqn:E1. cbn [fst snd] in *.
    assert (Hami1 : AMI cc1) by exact (AMI_psteps _ _ Hps1 Hami0).
    assert (HP1 : c_parts cc1 = c_parts c) by (destruct (psteps_static _ _ Hps1) as (_ & E & _); congruence).
    assert (Hx_pre : ~ In x (part_apps Pre)) by (intros H; exact (proj1 (Hd_pre x H) Hxp)).
    destruct (proj1 (Hspec1 x a Hx0) Hx_pre) as (a1 & Ha1 & Hr1).
    (* stage 2: its own partition *)
    set (qi := partition_queue cc1 (fst p) (snd p)) in *.
    set (c1' := record_ranks cc1 qi) in *.
    set (cc2 := find_placements c1' (map e_app qi) ch) in *.
    assert (HF2 : sched_F ch (cc1, qs1) p = (cc2, qs1 ++ [(fst p, qi)])).
    { unfold sched_F. rewrite HP1, (Hget p Hp). reflexivity. }
    rewrite HF2 in Hrank |- *.
    assert (Hxq : In x (map e_app qi)) by (apply partition_queue_names; split; [exact Hxp|congruence]).
    destruct (in_split _ _ Hxq) as (pre0 & post0 & Hq).
    assert (Hndq : NoDup (map e_app qi)) by (apply partition_queue_nodup; exact Hndp').
    destruct (record_ranks_rank qi cc1 x a1 Ha1) as (a2 & Ha2 & Hr2 & Hw). fold c1' in Ha2.
    assert (Hps1' : psteps cc1 c1') by apply record_ranks_ps.
    assert (Hpc1' : psteps c c1') by (eapply ps_trans; [exact Hp0|eapply ps_trans; eassumption]).
    assert (Hami1' : AMI c1') by exact (AMI_psteps _ _ Hps1' Hami1).
    assert (Hps2 : psteps c1' cc2) by apply find_placements_ps.
    assert (Hami2 : AMI cc2) by exact (AMI_psteps _ _ Hps2 Hami1').
    assert (HP2 : c_parts cc2 = c_parts c).
    { destruct (psteps_static _ _ Hps2) as (_ & E & _). destruct (psteps_static _ _ Hps1') as (_ & E' & _). congruence. }
    pose proof (rank_eq_trans _ _ _ Hr1 Hr2) as Hr02.
    (* stage 3: the partitions after *)
    pose proof (sched_fold_spec ch (c_parts c) Post cc2 (qs1 ++ [(fst p, qi)]) Hami2 HP2 HgetPost HndPost) as Hspec3.
    rewrite (sched_fold_acc ch Post cc2 (qs1 ++ [(fst p, qi)])) in Hrank |- *.
    rewrite (sched_fold_acc ch Post cc2 (qs1 ++ [(fst p, qi)])) in Hspec3.
    destruct (fold_left (sched_F ch) Post (cc2, [])) as [c3 qs3] eqn:E3. cbn [fst snd] in *.
    assert (Hrk2 : a_rank a2 <> UNPLACED_RANK).
    { destruct Hw as [[Hni _]|(e & Hine & Hex & Hrk)]; [contradiction|]. rewrite Hrk.
      apply (Hrank (fst p) qi e); [apply in_or_app; left; apply in_or_app; right; left; reflexivity|exact Hine|exact Hex]. }
    assert (Hren2 : a_renew a2 = false) by (destruct Hr02 as (_ & _ & _ & _ & _ & E); congruence).
    (* the turn order *)
    assert (Hturns : turns ((qs1 ++ [(fst p, qi)]) ++ qs3) = turns qs1 ++ (pre0 ++ x :: post0) ++ turns qs3).
    { rewrite !turns_app. unfold turns at 2. cbn [map concat snd]. rewrite app_nil_r, Hq, <- app_assoc. reflexivity. }
    destruct (find_placements_displaced c c1' (map e_app qi) pre0 post0 ch x a a2 n s Hq Hndq Hpc1' HA HF HI P1 P2 P3 Ha2
                (rank_eq_keeps_r _ _ Hr02) P4 Hren2 Hrk2 Hid Hlab Htr)
      as [(a' & Ha' & Hsv')|(z & az & bz & Hzx & Haz & Hnaz & Hsbz & Hwhere)]; [fold cc2 in Ha'|fold cc2 in Hwhere].
    - (* still there after its own queue; the later partitions do not touch it *)
      left. destruct (proj1 (Hspec3 x a' Ha') (Hd_p x Hxp)) as (a3 & Ha3 & (_ & Hs3 & _)).
      exists a3. split; [exact Ha3|congruence].
    - right.
      assert (Hfinal : forall b, app_of cc2 z = Some b -> a_server b = Some n -> ~ In z (part_apps Post) ->
                exists b3, app_of c3 z = Some b3 /\ a_server b3 = Some n).
      { intros b Hb Hsb Hni. destruct (proj1 (Hspec3 z b Hb) Hni) as (b3 & Hb3 & (_ & Hs3 & _)). exists b3. split; [exact Hb3|congruence]. }
      destruct Hwhere as [[Hzpre Hbz]|[Hzpre Hbz]].
      + (* ahead of it in its own queue *)
        assert (Hzq : In z (map e_app qi)) by (rewrite Hq; apply in_or_app; left; exact Hzpre).
        apply partition_queue_names in Hzq. destruct Hzq as [Hzp _].
        destruct (Hfinal bz Hbz Hsbz (Hd_p z Hzp)) as (b3 & Hb3 & Hs3).
        destruct (in_split _ _ Hzpre) as (p1 & p2 & Hpre0).
        exists z, az, b3, (turns qs1 ++ p1), p2, (post0 ++ turns qs3).
        split; [rewrite Hturns, Hpre0; rewrite <- ?app_assoc; cbn [List.app]; rewrite <- ?app_assoc; reflexivity|].
        split; [exact Haz|]. split; [exact Hnaz|]. split; assumption.
      + (* placed by a partition that ran before *)
        assert (Hz_pre : In z (part_apps Pre)).
        { destruct (in_dec Z.eq_dec z (part_apps Pre)) as [H|H]; [exact H|exfalso].
          destruct (Hat z az Haz) as (az0 & Haz0 & (_ & _ & Hsv0)).
          destruct (proj1 (Hspec1 z az0 Haz0) H) as (az1 & Haz1 & Hrz1).
          destruct (record_ranks_spec qi cc1 z az1 Haz1) as (az2 & Haz2 & Hrz2). fold c1' in Haz2.
          rewrite Hbz in Haz2. inversion Haz2; subst az2.
          destruct Hrz1 as (_ & S1 & _). destruct Hrz2 as (_ & S2 & _).
          destruct Hsv0 as [[S0 _]|[S0 _]]; congruence. }
        destruct (Hd_pre z Hz_pre) as [Hz_np Hz_npost].
        assert (Hz_ex : app_of cc0 z <> None) by (destruct (Hat z az Haz) as (az0 & Haz0 & _); congruence).
        pose proof (Hturns1 z Hz_pre Hz_ex) as Hzt.
        assert (Hz_nq : ~ In z (map e_app qi)) by (intros H; apply partition_queue_names in H; exact (Hz_np (proj1 H))).
        destruct Hami1' as (HA1' & HM1' & HI1').
        assert (Hbz2 : app_of cc2 z = Some bz) by (unfold cc2; rewrite find_placements_frame; assumption).
        destruct (Hfinal bz Hbz2 Hsbz Hz_npost) as (b3 & Hb3 & Hs3).
        destruct (in_split _ _ Hzt) as (t1 & t2 & Ht).
        exists z, az, b3, t1, (t2 ++ pre0), (post0 ++ turns qs3).
        split; [rewrite Hturns, Ht; rewrite <- ?app_assoc; cbn [List.app]; rewrite <- ?app_assoc; reflexivity|].
        split; [exact Haz|]. split; [exact Hnaz|]. split; assumption.
  Qed.
End Cycle.
