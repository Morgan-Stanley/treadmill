(** C02 at the level of one turn of the placement loop: a pending instance that some up server fits is placed. *)
From Coq Require Import ZArith QArith List Bool.
From RecordUpdate Require Import RecordSet.
From TM Require Import Sched.Vec Sched.Types Sched.Queue Sched.Tree Sched.Cycle Sched.TurnP Sched.PutComplete Sched.InvAgg.
Import ListNotations.
Open Scope Z_scope.

(** what the walk reads of the cell besides servers and buckets *)
Definition walk_eq (c c' : cell) : Prop :=
  c_servers c' = c_servers c /\ c_buckets c' = c_buckets c /\ c_parts c' = c_parts c /\ c_now c' = c_now c /\
  c_root c' = c_root c.
Lemma walk_eq_trans a b c : walk_eq a b -> walk_eq b c -> walk_eq a c.
Proof. unfold walk_eq. intuition congruence. Qed.
Lemma walk_eq_upd_app c n f : walk_eq c (c_upd_app n f c).
Proof. repeat split. Qed.
Lemma walk_eq_acquire c x ch : walk_eq c (fst (acquire_identity c x ch)).
Proof.
  unfold acquire_identity. destruct (get_app x (c_apps c)) as [z|]; [|repeat split].
  destruct (group_of c z) as [[g grp]|]; [|repeat split]. destruct (a_identity z); [repeat split|].
  destruct (g_avail grp); repeat split.
Qed.

Lemma TreeWf_ext_walk c c' : walk_eq c c' -> TreeWf c -> TreeWf c'.
Proof. intros (Hs & Hb & _). apply TreeWf_ext; assumption. Qed.
Lemma anc_ext c c' : c_buckets c' = c_buckets c -> forall st b, anc c st b -> anc c' st b.
Proof. intros Hb st b H. induction H; [apply anc_here|eapply anc_up]; try rewrite Hb; eassumption. Qed.
Lemma AggSound_ext c c' : walk_eq c c' -> AggSound c -> AggSound c'.
Proof.
  intros (Hs & Hb & _) H n s b Hg Hup Hanc. rewrite Hs in Hg. apply (H n s b Hg Hup). eapply anc_ext; [|exact Hanc]. congruence.
Qed.
Lemma down_path_ext c c' : walk_eq c c' -> forall rest n sn, down_path c n rest sn -> down_path c' n rest sn.
Proof.
  intros (Hs & Hb & _). induction rest as [|m r IH]; intros n sn; cbn [down_path]; rewrite ?Hb, ?Hs; [tauto|].
  intros (H1 & H2 & H3). split; [exact H1|]. split; [exact H2|apply IH; exact H3].
Qed.
Lemma put_guard_stat c c' s a a' l : walk_eq c c' -> stat_eq a a' -> a_server a' = a_server a ->
  put_guard c' s a' l = put_guard c s a l.
Proof.
  intros (_ & _ & Hp & Hn & _) (E1 & _ & E3 & E4 & E5 & E6 & _ & _ & _ & _ & _ & E12 & _) Hsv.
  unfold put_guard, check_lifetime, check_constraints, app_label, app_traits, app_alloc, aff_limit.
  rewrite E1, Hsv, Hn, E12, E6, Hp, E4, E5, E3. reflexivity.
Qed.

Theorem place_one_places rq st x a s rest :
  TreeWf (l_cell st) -> AggSound (l_cell st) ->
  app_of (l_cell st) x = Some a -> a_server a = None -> a_blacklisted a = false -> a_rank a <> UNPLACED_RANK ->
  snd (acquire_identity (c_upd_app x (fun z => z <| a_renew := false |>) (l_cell st)) x (aget x (l_choices st))) = true ->
  aget x (l_evicted st) = None -> a_once a && a_evicted a = false ->
  (forall a', stat_eq a a' -> tr_feasible (l_tracker st) a' = true) ->
  get_srv (s_name s) (c_servers (l_cell st)) = Some s -> s_state s = Up ->
  put_guard (l_cell st) s a (a_lease a) = true ->
  down_path (l_cell st) (c_root (l_cell st)) rest (s_name s) ->
  (forall m b, In m (c_root (l_cell st) :: rest) -> get_bkt m (c_buckets (l_cell st)) = Some b ->
               under_limit (cget (a_aff a) (b_counters b)) (aff_limit a (b_level b)) = true) ->
  exists a', app_of (l_cell (place_one rq st x)) x = Some a' /\ a_server a' <> None.
Proof.
  intros HW HS Ha Hsv Hbl Hrank Hacq Hev Honce Hfeas Hs Hup Hg Hpath Hroom. unfold place_one.
  assert (Ha' : get_app x (c_apps (l_cell st)) = Some a) by exact Ha. rewrite Ha', Hbl.
  destruct (Z.eqb_spec (a_rank a) UNPLACED_RANK) as [E|_]; [contradiction|].
  assert (Hcr : (if a_renew a then match a_server a with
                                   | Some n => let '(cr, ok) := srv_renew (l_cell st) n x in
                                               if ok then (cr, None) else (srv_remove cr n x, Some (n, a_expiry a))
                                   | None => (l_cell st, None)
                                   end else (l_cell st, None)) = (l_cell st, @None (Z * option Z))).
  { rewrite Hsv. destruct (a_renew a); reflexivity. }
  rewrite Hcr. clear Hcr.
  set (c2 := c_upd_app x (fun z => z <| a_renew := false |>) (l_cell st)) in *.
  set (a2 := a <| a_renew := false |>).
  assert (Ha2 : app_of c2 x = Some a2) by (apply upd_app_self; [reflexivity|exact Ha]).
  assert (Ha2' : get_app x (c_apps c2) = Some a2) by exact Ha2. rewrite Ha2'.
  change (a_server a2) with (a_server a). rewrite Hsv.
  pose proof (walk_eq_acquire c2 x (aget x (l_choices st))) as Hw3.
  destruct (acquire_self c2 x (aget x (l_choices st)) a2 Ha2)
    as [(Hgot & _)|(_ & a3 & Ha3 & Hs3 & Hsv3 & _ & Hev3 & _)]; [congruence|].
  destruct (acquire_identity c2 x (aget x (l_choices st))) as [c3 got]. cbn [fst snd] in *. subst got. cbn [negb].
  rewrite Hev. unfold place_tail.
  assert (Ha3' : get_app x (c_apps c3) = Some a3) by exact Ha3. rewrite Ha3'.
  assert (Hst3 : stat_eq a a3) by (eapply stat_eq_trans; [|exact Hs3]; repeat split).
  assert (Honce3 : a_once a3 && a_evicted a3 = false).
  { rewrite (stat_once _ _ Hst3), Hev3. exact Honce. }
  rewrite Honce3, (Hfeas a3 Hst3). cbn [negb].
  assert (Hw : walk_eq (l_cell st) c3) by (eapply walk_eq_trans; [apply walk_eq_upd_app|exact Hw3]).
  assert (Hsv3' : a_server a3 = a_server a) by (rewrite Hsv3; reflexivity).
  assert (Hok : snd (cell_put c3 x) = true).
  { pose proof Hw as (Ws & Wb & Wp & Wn & Wr).
    apply (cell_put_complete c3 x a3 s rest).
    - apply (TreeWf_ext_walk _ _ Hw HW).
    - eapply AggSound_ext; eassumption.
    - exact Ha3'.
    - rewrite Ws. exact Hs.
    - exact Hup.
    - rewrite (stat_lease _ _ Hst3), (put_guard_stat (l_cell st) c3 s a a3 _ Hw Hst3 Hsv3'). exact Hg.
    - rewrite Wr. eapply down_path_ext; eassumption.
    - intros m b Hin Hb. rewrite Wr in Hin. rewrite Wb in Hb.
      destruct Hst3 as (_ & _ & _ & E4 & E5 & _). unfold aff_limit. rewrite E4, E5. exact (Hroom m b Hin Hb). }
  pose proof (bucket_put_result (S (depth_fuel c3)) c3 (c_root c3) x) as Hatt. fold (cell_put c3 x) in Hatt.
  destruct (cell_put c3 x) as [c5 ok]. cbn [fst snd] in *. subst ok.
  destruct (attempt_self _ _ _ _ _ Hatt Ha3) as (c1 & n & s1 & a5 & _ & _ & _ & _ & H5 & _ & Hsv5).
  assert (E5 : get_app x (c_apps c5) = Some a5) by exact H5. rewrite E5, Hsv5. cbn [l_cell set].
  exists a5. split; [exact H5|congruence].
Qed.
