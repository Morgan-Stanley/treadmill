(** Facts about lists, the vectors of Vec.v, the name-indexed lists of Types.v and association lists. *)
From Coq Require Import ZArith List Bool Lia Permutation.
From RecordUpdate Require Import RecordSet.
From TM Require Import Sched.Vec Sched.Types.
Import ListNotations.
Open Scope Z_scope.

(** ** vectors *)
Definition nonneg (v : vec) : Prop := Forall (fun x => 0 <= x) v.

Lemma vmap2_length f : forall a b, length b = length a -> length (vmap2 f a b) = length a.
Proof.
  induction a as [|x a IH]; intros [|y b] Hl; cbn in *; try discriminate; try reflexivity.
  f_equal. apply IH. lia.
Qed.
Lemma vadd_comm : forall a b, vadd a b = vadd b a.
Proof. induction a as [|x a IH]; intros [|y b]; cbn; try reflexivity. f_equal; [lia|apply IH]. Qed.
Lemma vadd_assoc : forall a b c, vadd (vadd a b) c = vadd a (vadd b c).
Proof.
  induction a as [|x a IH]; intros [|y b] [|z c]; cbn; try reflexivity. f_equal; [lia|apply IH].
Qed.
Lemma vadd_zero_r : forall a n, length a = n -> vadd a (vzero n) = a.
Proof.
  induction a as [|x a IH]; intros n Hl; subst n; cbn; [reflexivity|]. f_equal; [lia|apply IH; reflexivity].
Qed.
Lemma vsub_vadd : forall f d t, length d = length f -> length t = length f ->
  vadd (vsub f d) (vadd t d) = vadd f t.
Proof.
  induction f as [|x f IH]; intros [|y d] [|z t] H1 H2; cbn in *; try discriminate; try reflexivity.
  f_equal; [lia|apply IH; lia].
Qed.
Lemma vadd_vadd_cancel : forall f d t, length d = length f -> length t = length f ->
  vadd (vadd f d) t = vadd f (vadd d t).
Proof. intros. apply vadd_assoc. Qed.
Lemma not_any_gt_sub_nonneg : forall d f, length d = length f -> any_gt d f = false -> nonneg (vsub f d).
Proof.
  induction d as [|x d IH]; intros [|y f] Hl Hg; cbn in *; try discriminate; [constructor|].
  apply orb_false_iff in Hg as [H1 H2]. constructor; [apply Z.gtb_ltb in H1 || idtac; lia|apply IH; [lia|exact H2]].
Qed.
Lemma nonneg_vadd : forall a b, nonneg a -> nonneg b -> nonneg (vadd a b).
Proof.
  induction a as [|x a IH]; intros [|y b] Ha Hb; cbn; try constructor.
  - inversion Ha; inversion Hb; subst. lia.
  - inversion Ha; inversion Hb; subst. apply IH; assumption.
Qed.
Lemma vzero_length n : length (vzero n) = n.
Proof. apply repeat_length. Qed.
Lemma forallb_nonneg v : forallb (Z.leb 0) v = true -> nonneg v.
Proof. intros H. apply Forall_forall. intros x Hx. rewrite forallb_forall in H. apply Z.leb_le. apply H. exact Hx. Qed.

(** ** zmem / zremove *)
Lemma zmem_In x l : zmem x l = true <-> In x l.
Proof.
  induction l as [|y t IH]; cbn; [split; [discriminate|tauto]|].
  rewrite orb_true_iff, IH, Z.eqb_eq. tauto.
Qed.
Lemma zmem_false x l : zmem x l = false <-> ~ In x l.
Proof. rewrite <- zmem_In. destruct (zmem x l); split; congruence. Qed.
Lemma zremove_In x y l : In y (zremove x l) -> In y l.
Proof.
  induction l as [|z t IH]; cbn; [tauto|]. destruct (Z.eqb z x); [tauto|]. intros [H|H]; [left; exact H|right; apply IH; exact H].
Qed.
Lemma zremove_NoDup x l : NoDup l -> NoDup (zremove x l).
Proof.
  induction 1 as [|z t Hn Hd IH]; cbn; [constructor|]. destruct (Z.eqb z x); [exact Hd|].
  constructor; [|exact IH]. intros H. apply Hn. eapply zremove_In; exact H.
Qed.
Lemma zremove_not_in x l : NoDup l -> ~ In x (zremove x l).
Proof.
  induction 1 as [|z t Hn Hd IH]; cbn; [tauto|]. destruct (Z.eqb_spec z x); [subst; exact Hn|].
  intros [H|H]; [congruence|apply IH; exact H].
Qed.
Lemma zremove_keep x y l : y <> x -> In y l -> In y (zremove x l).
Proof.
  intros Hne. induction l as [|z t IH]; cbn; [tauto|]. destruct (Z.eqb_spec z x).
  - intros [H|H]; [congruence|exact H].
  - intros [H|H]; [left; exact H|right; apply IH; exact H].
Qed.

Lemma NoDup_app_intro {A} (l1 l2 : list A) :
  NoDup l1 -> NoDup l2 -> (forall x, In x l1 -> In x l2 -> False) -> NoDup (l1 ++ l2).
Proof.
  induction 1 as [|y t Hn Hd IH]; intros H2 Hdis; cbn [List.app]; [exact H2|]. constructor.
  - intros Hin. apply in_app_or in Hin as [Hin|Hin]; [contradiction|]. apply (Hdis y); [left; reflexivity|exact Hin].
  - apply IH; [exact H2|]. intros x Hx. apply Hdis. right. exact Hx.
Qed.
Lemma NoDup_snoc {A} (l : list A) x : NoDup l -> ~ In x l -> NoDup (l ++ [x]).
Proof.
  intros Hl Hx. apply NoDup_app_intro; [exact Hl|constructor; [intros []|constructor]|].
  intros y Hy [<-|[]]. exact (Hx Hy).
Qed.
Lemma NoDup_map_snoc {A} (f : A -> Z) l x : NoDup (map f l) -> ~ In (f x) (map f l) -> NoDup (map f (l ++ [x])).
Proof. intros. rewrite map_app. cbn. apply NoDup_snoc; assumption. Qed.
Lemma NoDup_map_filter {A} (f : A -> Z) (p : A -> bool) l : NoDup (map f l) -> NoDup (map f (filter p l)).
Proof.
  induction l as [|x r IH]; cbn [map filter]; intros Hnd; [constructor|]. inversion Hnd as [|? ? Hni Hr]; subst.
  destruct (p x); cbn [map]; [|apply IH; exact Hr]. constructor; [|apply IH; exact Hr].
  intros Hin. apply Hni. apply in_map_iff in Hin as (y & Ey & Hy). apply filter_In in Hy as [Hy _].
  rewrite <- Ey. apply in_map. exact Hy.
Qed.

Lemma zadd_set_In x y l : In y (zadd_set x l) <-> y = x \/ In y l.
Proof.
  unfold zadd_set. destruct (zmem x l) eqn:E.
  - apply zmem_In in E. split; [tauto|]. intros [->|H]; assumption.
  - rewrite in_app_iff. cbn. split; [intros [H|[H|[]]]; auto|intros [H|H]; auto].
Qed.
Lemma zadd_set_NoDup x l : NoDup l -> NoDup (zadd_set x l).
Proof.
  unfold zadd_set. destruct (zmem x l) eqn:E; [tauto|]. apply zmem_false in E. intros H. apply NoDup_snoc; assumption.
Qed.
Lemma zremove_In_iff x y l : NoDup l -> (In y (zremove x l) <-> y <> x /\ In y l).
Proof.
  intros Hn. split.
  - intros H. split; [intros ->; eapply zremove_not_in; eassumption|eapply zremove_In; exact H].
  - intros [H1 H2]. apply zremove_keep; assumption.
Qed.
Lemma Forall2_rel_trans {A} (R : A -> A -> Prop) (Rtrans : forall a b c, R a b -> R b c -> R a c) l1 l2 :
  Forall2 R l1 l2 -> forall l3, Forall2 R l2 l3 -> Forall2 R l1 l3.
Proof. induction 1 as [|a b l1 l2 Hab Hl IH]; intros l3 H3; inversion H3; subst; constructor; eauto. Qed.

(** ** lists indexed by a name
    [get_app]/[upd_app]/[del_app], [get_srv]/[upd_srv]/[del_srv] and [get_bkt]/[upd_bkt] of Types.v are the three
    functions below at [a_name], [s_name], [b_name] (the same fixpoints, so a lemma about [kget a_name] applies to
    [get_app] as it stands). *)
Section Keyed.
  Context {A : Type} (key : A -> Z).
  Fixpoint kget (n : Z) (l : list A) : option A :=
    match l with [] => None | a :: r => if Z.eqb (key a) n then Some a else kget n r end.
  Fixpoint kupd (n : Z) (f : A -> A) (l : list A) : list A :=
    match l with [] => [] | a :: r => if Z.eqb (key a) n then f a :: r else a :: kupd n f r end.
  Fixpoint kdel (n : Z) (l : list A) : list A :=
    match l with [] => [] | a :: r => if Z.eqb (key a) n then r else a :: kdel n r end.

  Lemma kget_key n l a : kget n l = Some a -> key a = n.
  Proof.
    induction l as [|x t IH]; cbn; [discriminate|].
    destruct (Z.eqb_spec (key x) n); [intros [= <-]; assumption|exact IH].
  Qed.
  Lemma kget_In n l a : kget n l = Some a -> In a l.
  Proof.
    induction l as [|x t IH]; cbn; [discriminate|].
    destruct (Z.eqb (key x) n); [intros [= <-]; left; reflexivity|right; apply IH; assumption].
  Qed.
  Lemma kget_none n l : kget n l = None -> ~ In n (map key l).
  Proof.
    induction l as [|x t IH]; cbn; [tauto|]. destruct (Z.eqb_spec (key x) n); [discriminate|].
    intros H [E|Hin]; [congruence|apply IH; assumption].
  Qed.
  Lemma In_kget l a : NoDup (map key l) -> In a l -> kget (key a) l = Some a.
  Proof.
    induction l as [|x t IH]; cbn; intros Hn Hin; [destruct Hin|].
    inversion Hn as [|? ? Hni Hnt]; subst. destruct Hin as [->|Hin]; [rewrite Z.eqb_refl; reflexivity|].
    destruct (Z.eqb_spec (key x) (key a)) as [E|E]; [|apply IH; assumption].
    exfalso. apply Hni. rewrite E. apply in_map. exact Hin.
  Qed.
  Lemma kget_snoc n l a :
    kget n (l ++ [a]) = match kget n l with Some x => Some x | None => if Z.eqb (key a) n then Some a else None end.
  Proof. induction l as [|x t IH]; cbn; [reflexivity|]. destruct (Z.eqb (key x) n); [reflexivity|exact IH]. Qed.

  (** an update that keeps [g] of every entry keeps [map g] *)
  Lemma map_kupd {B} (g : A -> B) n f l : (forall a, g (f a) = g a) -> map g (kupd n f l) = map g l.
  Proof.
    intros Hf. induction l as [|x t IH]; cbn; [reflexivity|].
    destruct (Z.eqb (key x) n); cbn; [rewrite Hf|rewrite IH]; reflexivity.
  Qed.
  Lemma kupd_keys n f l : (forall x, key (f x) = key x) -> map key (kupd n f l) = map key l.
  Proof. apply map_kupd. Qed.
  Lemma kget_kupd_same n f l a : (forall x, key (f x) = key x) -> kget n l = Some a -> kget n (kupd n f l) = Some (f a).
  Proof.
    intros Hf. induction l as [|x t IH]; cbn; [discriminate|].
    destruct (Z.eqb (key x) n) eqn:E; cbn; [rewrite Hf, E; intros [= <-]; reflexivity|rewrite E; exact IH].
  Qed.
  Lemma kupd_none n f l : kget n l = None -> kupd n f l = l.
  Proof.
    induction l as [|x t IH]; cbn; [reflexivity|]. destruct (Z.eqb (key x) n); [discriminate|].
    intros H. rewrite IH by exact H. reflexivity.
  Qed.
  Lemma kget_kupd_other n m f l : (forall x, key (f x) = key x) -> m <> n -> kget m (kupd n f l) = kget m l.
  Proof.
    intros Hf Hne. induction l as [|x t IH]; cbn; [reflexivity|].
    destruct (Z.eqb_spec (key x) n) as [E|E]; cbn.
    - rewrite Hf. destruct (Z.eqb_spec (key x) m); [congruence|reflexivity].
    - destruct (Z.eqb (key x) m); [reflexivity|exact IH].
  Qed.
  (** the entry that changed is the first of its name, the one [kget] finds *)
  Lemma In_kupd_first n f l y : In y (kupd n f l) -> In y l \/ exists x, kget n l = Some x /\ y = f x.
  Proof.
    induction l as [|x t IH]; cbn; [tauto|]. destruct (Z.eqb (key x) n); cbn.
    - intros [H|H]; [right; exists x; auto|auto].
    - intros [H|H]; [auto|]. destruct (IH H) as [H1|H1]; auto.
  Qed.
  Lemma In_kupd n f l y : In y (kupd n f l) -> In y l \/ (exists x, In x l /\ key x = n /\ y = f x).
  Proof.
    intros H. destruct (In_kupd_first _ _ _ _ H) as [H1|(x & Hx & E)]; [auto|].
    right. exists x. split; [eapply kget_In; exact Hx|]. split; [eapply kget_key; exact Hx|exact E].
  Qed.

  Lemma kget_kupd_inv n m f l b : (forall x, key (f x) = key x) -> kget m (kupd n f l) = Some b ->
    (m = n /\ exists a, kget n l = Some a /\ b = f a) \/ (m <> n /\ kget m l = Some b).
  Proof.
    intros Hf Hb. destruct (Z.eq_dec m n) as [->|Hne]; [left|right; rewrite kget_kupd_other in Hb; auto].
    split; [reflexivity|]. destruct (kget n l) as [a|] eqn:Ea.
    - rewrite (kget_kupd_same _ _ _ _ Hf Ea) in Hb. exists a. split; congruence.
    - rewrite (kupd_none _ _ _ Ea) in Hb. congruence.
  Qed.

  (** two lists with the same image under a projection that determines the name *)
  Lemma kget_map_eq {B} (g : A -> B) l l' : (forall a b, g b = g a -> key b = key a) -> map g l' = map g l ->
    forall n, match kget n l, kget n l' with Some a, Some b => g b = g a | None, None => True | _, _ => False end.
  Proof.
    intros Hk. revert l'. induction l as [|x t IH]; intros [|y u] H n; try discriminate H; cbn; [exact I|].
    injection H as Hxy Ht. rewrite (Hk _ _ Hxy). destruct (Z.eqb (key x) n); [exact Hxy|apply IH; exact Ht].
  Qed.

  (** two lists related entry by entry, by a relation that keeps the names *)
  Variable R : A -> A -> Prop.
  Hypothesis R_key : forall a b, R a b -> key a = key b.
  Lemma Forall2_keys l l' : Forall2 R l l' -> map key l' = map key l.
  Proof. induction 1 as [|a b l l' Hab _ IH]; cbn; [|rewrite IH, (R_key _ _ Hab)]; reflexivity. Qed.
  Lemma kget_Forall2 l l' : Forall2 R l l' -> forall n,
    match kget n l, kget n l' with Some a, Some b => R a b | None, None => True | _, _ => False end.
  Proof.
    induction 1 as [|a b l l' Hab _ IH]; intros n; cbn; [exact I|].
    rewrite <- (R_key _ _ Hab). destruct (Z.eqb (key a) n); [exact Hab|apply IH].
  Qed.
  Hypothesis R_refl : forall a, R a a.
  Lemma Forall2_diag l : Forall2 R l l.
  Proof. induction l; constructor; auto. Qed.
  Lemma Forall2_kupd n f l : (forall x, R x (f x)) -> Forall2 R l (kupd n f l).
  Proof.
    intros Hf. induction l as [|x t IH]; cbn; [constructor|].
    destruct (Z.eqb (key x) n); constructor; auto using Forall2_diag.
  Qed.

  Lemma In_kdel n l x : In x (kdel n l) -> In x l.
  Proof.
    induction l as [|y t IH]; cbn; [tauto|]. destruct (Z.eqb (key y) n); [tauto|]. intros [H|H]; [left; exact H|right; apply IH; exact H].
  Qed.
  Lemma kdel_keys_NoDup n l : NoDup (map key l) -> NoDup (map key (kdel n l)).
  Proof.
    induction l as [|x t IH]; cbn; intros Hnd; [constructor|]. inversion Hnd as [|? ? Hni Hnt]; subst.
    destruct (Z.eqb (key x) n); [exact Hnt|]. cbn. constructor; [|apply IH; exact Hnt].
    intros Hin. apply Hni. apply in_map_iff in Hin as (y & E & Hy). rewrite <- E. apply in_map. eapply In_kdel; exact Hy.
  Qed.
  Lemma kget_kdel_other n m l : m <> n -> kget m (kdel n l) = kget m l.
  Proof.
    intros Hne. induction l as [|x t IH]; cbn; [reflexivity|]. destruct (Z.eqb_spec (key x) n) as [E|E]; cbn.
    - destruct (Z.eqb_spec (key x) m); [congruence|reflexivity].
    - rewrite IH. reflexivity.
  Qed.
  (** the first entry of the name goes; without repeated names that is the only one *)
  Lemma kget_kdel n m l : NoDup (map key l) -> kget m (kdel n l) = if Z.eqb m n then None else kget m l.
  Proof.
    intros Hnd. destruct (Z.eqb_spec m n) as [->|Hne]; [|apply kget_kdel_other; exact Hne].
    induction l as [|x t IH]; cbn; [reflexivity|]. inversion Hnd as [|? ? Hni Hnt]; subst.
    destruct (Z.eqb_spec (key x) n) as [E|E]; cbn.
    - destruct (kget n t) eqn:G; [|reflexivity]. exfalso. apply Hni. rewrite E, <- (kget_key _ _ _ G).
      apply in_map. eapply kget_In; exact G.
    - destruct (Z.eqb_spec (key x) n); [contradiction|]. apply IH. exact Hnt.
  Qed.
End Keyed.

(** ** apps *)
Lemma get_app_name n l a : get_app n l = Some a -> a_name a = n.
Proof. apply (kget_key a_name). Qed.
Lemma get_app_In n l a : get_app n l = Some a -> In a l.
Proof. apply (kget_In a_name). Qed.
Lemma In_get_app l a : NoDup (map a_name l) -> In a l -> get_app (a_name a) l = Some a.
Proof. apply (In_kget a_name). Qed.
Lemma get_app_none_notin n l : get_app n l = None -> ~ In n (map a_name l).
Proof. apply (kget_none a_name). Qed.
Lemma get_app_snoc n l a : get_app n (l ++ [a]) =
  match get_app n l with Some x => Some x | None => if Z.eqb (a_name a) n then Some a else None end.
Proof. apply (kget_snoc a_name). Qed.

Lemma upd_app_names n f l : (forall x, a_name (f x) = a_name x) -> map a_name (upd_app n f l) = map a_name l.
Proof. apply (kupd_keys a_name). Qed.
Lemma get_upd_app_same n f l a : (forall x, a_name (f x) = a_name x) ->
  get_app n l = Some a -> get_app n (upd_app n f l) = Some (f a).
Proof. apply (kget_kupd_same a_name). Qed.
Lemma get_upd_app_none n f l : get_app n l = None -> upd_app n f l = l.
Proof. apply (kupd_none a_name). Qed.
Lemma get_upd_app_other n m f l : (forall x, a_name (f x) = a_name x) -> m <> n ->
  get_app m (upd_app n f l) = get_app m l.
Proof. apply (kget_kupd_other a_name). Qed.
Lemma get_upd_app_inv n m f l b : (forall x, a_name (f x) = a_name x) -> get_app m (upd_app n f l) = Some b ->
  (m = n /\ exists a, get_app n l = Some a /\ b = f a) \/ (m <> n /\ get_app m l = Some b).
Proof. apply (kget_kupd_inv a_name). Qed.
Lemma In_upd_app n f l y : In y (upd_app n f l) -> In y l \/ (exists x, In x l /\ a_name x = n /\ y = f x).
Proof. apply (In_kupd a_name). Qed.

Lemma get_app_Forall2 (R : app -> app -> Prop) l l' : (forall a b, R a b -> a_name a = a_name b) ->
  Forall2 R l l' -> forall n,
  match get_app n l, get_app n l' with Some a, Some b => R a b | None, None => True | _, _ => False end.
Proof. intros H. apply (kget_Forall2 a_name R H). Qed.
Lemma Forall2_upd_app (R : app -> app -> Prop) n f l : (forall a, R a a) -> (forall x, R x (f x)) ->
  Forall2 R l (upd_app n f l).
Proof. intros H. apply (Forall2_kupd a_name R H). Qed.

Lemma get_app_del n m l : NoDup (map a_name l) ->
  get_app m (del_app n l) = if Z.eqb m n then None else get_app m l.
Proof. apply (kget_kdel a_name). Qed.
Lemma del_app_names_NoDup n l : NoDup (map a_name l) -> NoDup (map a_name (del_app n l)).
Proof. apply (kdel_keys_NoDup a_name). Qed.
Lemma get_del_app_other n y l : y <> n -> get_app y (del_app n l) = get_app y l.
Proof. apply (kget_kdel_other a_name). Qed.

(** ** servers *)
Lemma get_srv_name n l s : get_srv n l = Some s -> s_name s = n.
Proof. apply (kget_key s_name). Qed.
Lemma get_srv_In n l s : get_srv n l = Some s -> In s l.
Proof. apply (kget_In s_name). Qed.
Lemma In_get_srv l s : NoDup (map s_name l) -> In s l -> get_srv (s_name s) l = Some s.
Proof. apply (In_kget s_name). Qed.
Lemma get_srv_none_notin n l : get_srv n l = None -> ~ In n (map s_name l).
Proof. apply (kget_none s_name). Qed.
Lemma get_srv_snoc n l s : get_srv n (l ++ [s]) =
  match get_srv n l with Some x => Some x | None => if Z.eqb (s_name s) n then Some s else None end.
Proof. apply (kget_snoc s_name). Qed.
Lemma upd_srv_names n f l : (forall x, s_name (f x) = s_name x) -> map s_name (upd_srv n f l) = map s_name l.
Proof. apply (kupd_keys s_name). Qed.
Lemma get_upd_srv_same n f l s : (forall x, s_name (f x) = s_name x) ->
  get_srv n l = Some s -> get_srv n (upd_srv n f l) = Some (f s).
Proof. apply (kget_kupd_same s_name). Qed.
Lemma get_upd_srv_other n m f l : (forall x, s_name (f x) = s_name x) -> m <> n ->
  get_srv m (upd_srv n f l) = get_srv m l.
Proof. apply (kget_kupd_other s_name). Qed.
Lemma get_upd_srv_inv n m f l b : (forall x, s_name (f x) = s_name x) -> get_srv m (upd_srv n f l) = Some b ->
  (m = n /\ exists a, get_srv n l = Some a /\ b = f a) \/ (m <> n /\ get_srv m l = Some b).
Proof. apply (kget_kupd_inv s_name). Qed.
Lemma In_upd_srv n f l y : In y (upd_srv n f l) -> (In y l /\ s_name y <> n) \/ (exists x, In x l /\ s_name x = n /\ y = f x) \/ In y l.
Proof. intros H. destruct (In_kupd s_name _ _ _ _ H); auto. Qed.
Lemma get_srv_del n m l : NoDup (map s_name l) ->
  get_srv m (del_srv n l) = if Z.eqb m n then None else get_srv m l.
Proof. apply (kget_kdel s_name). Qed.
Lemma del_srv_names_NoDup n l : NoDup (map s_name l) -> NoDup (map s_name (del_srv n l)).
Proof. apply (kdel_keys_NoDup s_name). Qed.

Lemma In_upd_srv_first n f l y : In y (upd_srv n f l) -> In y l \/ exists x, get_srv n l = Some x /\ y = f x.
Proof. apply (In_kupd_first s_name). Qed.

(** ** buckets *)
Lemma get_bkt_name n l b : get_bkt n l = Some b -> b_name b = n.
Proof. apply (kget_key b_name). Qed.
Lemma get_bkt_In n l b : get_bkt n l = Some b -> In b l.
Proof. apply (kget_In b_name). Qed.
Lemma In_get_bkt l b : NoDup (map b_name l) -> In b l -> get_bkt (b_name b) l = Some b.
Proof. apply (In_kget b_name). Qed.
Lemma get_bkt_none_notin n l : get_bkt n l = None -> ~ In n (map b_name l).
Proof. apply (kget_none b_name). Qed.
Lemma get_bkt_snoc n l b : get_bkt n (l ++ [b]) =
  match get_bkt n l with Some x => Some x | None => if Z.eqb (b_name b) n then Some b else None end.
Proof. apply (kget_snoc b_name). Qed.
Lemma upd_bkt_names n g l : (forall x, b_name (g x) = b_name x) -> map b_name (upd_bkt n g l) = map b_name l.
Proof. apply (kupd_keys b_name). Qed.
Lemma get_upd_bkt_same n f l b : (forall x, b_name (f x) = b_name x) ->
  get_bkt n l = Some b -> get_bkt n (upd_bkt n f l) = Some (f b).
Proof. apply (kget_kupd_same b_name). Qed.
Lemma get_upd_bkt_other n m f l : (forall x, b_name (f x) = b_name x) -> m <> n ->
  get_bkt m (upd_bkt n f l) = get_bkt m l.
Proof. apply (kget_kupd_other b_name). Qed.
Lemma get_upd_bkt_inv n m f l b : (forall x, b_name (f x) = b_name x) -> get_bkt m (upd_bkt n f l) = Some b ->
  (m = n /\ exists a, get_bkt n l = Some a /\ b = f a) \/ (m <> n /\ get_bkt m l = Some b).
Proof. apply (kget_kupd_inv b_name). Qed.

Lemma get_bkt_map_eq {B} (g : bucket -> B) l l' : (forall a b, g b = g a -> b_name b = b_name a) -> map g l' = map g l ->
  forall n, match get_bkt n l, get_bkt n l' with Some a, Some b => g b = g a | None, None => True | _, _ => False end.
Proof. apply (kget_map_eq b_name). Qed.

(** ** association lists: the lookup and the deletion are those of a list keyed by its first components *)
Lemma aget_kget {A} k (m : list (Z * A)) : aget k m = option_map snd (kget fst k m).
Proof. induction m as [|[k' w] r IH]; cbn; [reflexivity|]. destruct (Z.eqb k' k); [reflexivity|exact IH]. Qed.
Lemma adel_kdel {A} k (m : list (Z * A)) : adel k m = kdel fst k m.
Proof. induction m as [|[k' w] r IH]; cbn; [reflexivity|]. destruct (Z.eqb k' k); [reflexivity|rewrite IH; reflexivity]. Qed.

Lemma aget_In {A} k (m : list (Z * A)) v : aget k m = Some v -> In (k, v) m.
Proof.
  induction m as [|[k' w] r IH]; cbn; [discriminate|].
  destruct (Z.eqb_spec k' k) as [->|]; [intros [= ->]; left; reflexivity|intros H; right; apply IH; exact H].
Qed.
Lemma ag_as_same {A} k (v : A) m : aget k (aset k v m) = Some v.
Proof.
  induction m as [|[k' w] r IH]; cbn; [rewrite Z.eqb_refl; reflexivity|].
  destruct (Z.eqb k' k) eqn:E; cbn; rewrite E; auto.
Qed.
Lemma ag_as_other {A} k k2 (v : A) m : k2 <> k -> aget k2 (aset k v m) = aget k2 m.
Proof.
  intros Hne. induction m as [|[k' w] r IH]; cbn.
  - destruct (Z.eqb_spec k k2); [congruence|reflexivity].
  - destruct (Z.eqb_spec k' k); cbn.
    + subst. destruct (Z.eqb_spec k k2); [congruence|reflexivity].
    + destruct (Z.eqb k' k2); auto.
Qed.
Lemma keys_aset_in {A} k (v : A) m x : In x (map fst (aset k v m)) -> x = k \/ In x (map fst m).
Proof.
  induction m as [|[k' w] r IH]; cbn [aset map fst In]; [intros [H|[]]; left; symmetry; exact H|].
  destruct (Z.eqb k' k); cbn [map fst In]; [tauto|]. intros [H|H]; [tauto|]. destruct (IH H); tauto.
Qed.
Lemma NoDup_keys_aset {A} k (v : A) m : NoDup (map fst m) -> NoDup (map fst (aset k v m)).
Proof.
  induction m as [|[k' w] r IH]; cbn [aset map fst]; intros Hnd; [constructor; [tauto|constructor]|].
  inversion Hnd as [|? ? Hni Hr]; subst.
  destruct (Z.eqb_spec k' k) as [->|Hne]; cbn [map fst]; [constructor; assumption|].
  constructor; [|apply IH; exact Hr]. intros Hin. apply keys_aset_in in Hin as [->|Hin]; [congruence|contradiction].
Qed.
Lemma ag_adel_other {A} k k2 (m : list (Z * A)) : k2 <> k -> aget k2 (adel k m) = aget k2 m.
Proof. intros Hne. rewrite adel_kdel, !aget_kget, kget_kdel_other by exact Hne. reflexivity. Qed.
Lemma aget_adel {A} k k2 (m : list (Z * A)) : NoDup (map fst m) ->
  aget k2 (adel k m) = if Z.eqb k2 k then None else aget k2 m.
Proof. intros H. rewrite adel_kdel, !aget_kget, kget_kdel by exact H. destruct (Z.eqb k2 k); reflexivity. Qed.
Lemma adel_keys_NoDup {A} k (m : list (Z * A)) : NoDup (map fst m) -> NoDup (map fst (adel k m)).
Proof. rewrite adel_kdel. apply kdel_keys_NoDup. Qed.
Lemma aset_aset {A} k (v w : A) m : aset k v (aset k w m) = aset k v m.
Proof.
  induction m as [|[k' u] r IH]; cbn; [rewrite Z.eqb_refl; reflexivity|].
  destruct (Z.eqb k' k) eqn:E; cbn; rewrite E; [reflexivity|rewrite IH; reflexivity].
Qed.
