(** The invariants together ([Good]), the states reached from the empty cell by a history that meets the side
    conditions ([reachable]; they are [Good]), and the end-of-cycle theorems of C03/C05/C07/C08 for the cycle run
    from a [Good] state. *)
From Coq Require Import ZArith QArith List Bool Lia.
From RecordUpdate Require Import RecordSet.
From TM Require Import Sched.Vec Sched.Types Sched.Queue Sched.Tree Sched.Cycle Sched.Events Sched.EventsP Sched.Steps Sched.MapsP
                       Sched.FrameP Sched.InvAcct Sched.InvIdent Sched.TurnP Sched.CycleP Sched.InvAlloc Sched.InvIdRec
                       Sched.KeepP Sched.IdRange Sched.InvAff Sched.DisplaceP Sched.DisplaceC.
Import ListNotations.
Open Scope Z_scope.

Definition Good (c : cell) : Prop := Acct c /\ IdentG c /\ AllocWf c /\ IdRec c.

(** the side conditions on operations: those of the accounting invariant (a new server or instance has a fresh
    name and vectors of the cell's dimension, no instance record names the new server, a new instance record is not
    placed, a placement is restored on an existing server for an instance that is on none) and of the identity
    invariant (a new instance record holds no identity, group counts are non-negative, a restored identity is held
    by no other instance of the group) *)
Definition wf_op_all (c : cell) (o : op) : Prop := wf_op c o /\ wf_op_id c o.
Fixpoint wf_ops_all (c : cell) (ops : list op) : Prop :=
  match ops with [] => True | o :: r => wf_op_all c o /\ wf_ops_all (step c o) r end.

Lemma Good_init dim root level : Good (init_cell dim root level).
Proof.
  split; [apply Acct_init|]. split; [apply IdentG_init|]. split; [apply AllocWf_init|].
  intros x a Ha. cbn in Ha. discriminate.
Qed.

Theorem Good_step c o : wf_op_all c o -> Good c -> Good (step c o).
Proof.
  intros [W1 W2] (HA & HI & HW & HR).
  split; [apply Acct_step; assumption|]. split; [apply IdentG_step; assumption|]. split; [apply AllocWf_step_any; exact HW|].
  apply IdRec_step; [exact W1|exact W2| |exact HA|exact (proj1 HI)|exact HR].
  intros ch _. apply AllocWf_parts_wf. exact HW.
Qed.

Theorem Good_run ops : forall c, wf_ops_all c ops -> Good c -> Good (run c ops).
Proof. exact (run_inv Good wf_op_all Good_step ops). Qed.

Definition reachable (c : cell) : Prop :=
  exists dim root level ops, wf_ops_all (init_cell dim root level) ops /\ c = run (init_cell dim root level) ops.
Lemma reachable_Good c : reachable c -> Good c.
Proof. intros (dim & root & level & ops & Hwf & ->). apply Good_run; [exact Hwf|apply Good_init]. Qed.

(** histories compose *)
Lemma wf_ops_all_app ops1 : forall c ops2,
  wf_ops_all c (ops1 ++ ops2) <-> wf_ops_all c ops1 /\ wf_ops_all (run c ops1) ops2.
Proof. exact (wf_run_app wf_op_all ops1). Qed.
Lemma run_app c ops1 ops2 : run c (ops1 ++ ops2) = run (run c ops1) ops2.
Proof. unfold run. apply fold_left_app. Qed.

Lemma reachable_run c ops : reachable c -> wf_ops_all c ops -> reachable (run c ops).
Proof.
  intros (dim & root & level & ops0 & W0 & ->) W. exists dim, root, level, (ops0 ++ ops). split.
  - apply wf_ops_all_app. split; assumption.
  - symmetry. apply run_app.
Qed.

(** boolean side conditions, for concrete histories *)
Definition wf_op_idb (c : cell) (o : op) : bool :=
  match o with
  | OAddApp label path a =>
      match get_app (a_name a) (c_apps c) with
      | None => match a_identity a with None => true | Some _ => false end
      | Some _ => true
      end
  | OConfigGroup g count => Z.leb 0 count
  | ORestore sname aname verbatim expires ident =>
      match get_app aname (c_apps c) with
      | None => true
      | Some a =>
          match ident with
          | Some i =>
              Z.leb 0 i &&
              match a_group a with
              | Some g => forallb (fun b => Z.eqb (a_name b) aname
                                            || negb (opt_eqb (a_group b) (Some g) && opt_eqb (a_identity b) (Some i))) (c_apps c)
              | None => false
              end
          | None => match a_group a, a_identity a with Some _, None => false | _, _ => true end
          end
      end
  | _ => true
  end.
Lemma opt_eqb_eq o z : opt_eqb o (Some z) = true <-> o = Some z.
Proof.
  destruct o as [y|]; cbn; [rewrite Z.eqb_eq|]; split; intros H; try discriminate; [subst|inversion H]; reflexivity.
Qed.
Lemma wf_op_idb_sound c o : wf_op_idb c o = true -> wf_op_id c o.
Proof.
  destruct o; cbn [wf_op_idb wf_op_id]; try (intros; exact I).
  - intros H E. rewrite E in H. destruct (a_identity a); [discriminate|reflexivity].
  - intros H. apply Z.leb_le. exact H.
  - destruct ident as [i|].
    + intros H a Ha. rewrite Ha in H. apply andb_true_iff in H as [H0 H1]. split; [apply Z.leb_le; exact H0|].
      destruct (a_group a) as [g|]; [|discriminate]. exists g. split; [reflexivity|].
      intros n2 b Hne Hb [Hh1 Hh2]. rewrite forallb_forall in H1. specialize (H1 b (get_app_In _ _ _ Hb)).
      rewrite (get_app_name _ _ _ Hb) in H1. destruct (Z.eqb_spec n2 aname); [contradiction|]. cbn [orb] in H1.
      apply negb_true_iff in H1. rewrite (proj2 (opt_eqb_eq _ _) Hh1), (proj2 (opt_eqb_eq _ _) Hh2) in H1. discriminate.
    + intros H a Ha. rewrite Ha in H. destruct (a_group a); [|left; reflexivity].
      destruct (a_identity a); [right; discriminate|discriminate].
Qed.
Fixpoint wf_ops_allb (c : cell) (ops : list op) : bool :=
  match ops with [] => true | o :: r => wf_opb c o && wf_op_idb c o && wf_ops_allb (step c o) r end.
Lemma wf_ops_allb_sound ops : forall c, wf_ops_allb c ops = true -> wf_ops_all c ops.
Proof.
  apply (wf_runb_sound wf_op_all (fun c o => wf_opb c o && wf_op_idb c o)). intros c o H.
  apply andb_true_iff in H as [H1 H2]. split; [apply wf_opb_sound; exact H1|apply wf_op_idb_sound; exact H2].
Qed.

(** the instance records after a cycle are those before it (no instance is created or dropped by a cycle) *)
Lemma cycle_same_instances c ch x : app_of (fst (fst (schedule c ch))) x = None <-> app_of c x = None.
Proof.
  pose proof (psteps_names _ _ (schedule_ps c ch)) as Hn. split; apply names_none; [symmetry; exact Hn|exact Hn].
Qed.

(** C05 / C03 / C08 for the cycle run from a [Good] state, as every reachable one is *)
Theorem cycle_from_reachable c ch : Good c ->
  forall x a', app_of (fst (fst (schedule c ch))) x = Some a' ->
  exists a, app_of c x = Some a /\ after_cycle c a a'.
Proof.
  intros (HA & [HI _] & HW & HR) x a' Ha'.
  destruct (app_of c x) as [a|] eqn:Ea.
  2:{ apply (cycle_same_instances c ch x) in Ea. congruence. }
  exists a. split; [reflexivity|].
  destruct (schedule_final c ch HA HI (AllocWf_parts_wf c HW) x a (AllocWf_listed c HW x a Ea) Ea (HR x a Ea)) as (a2 & Ha2 & Hac).
  rewrite Ha' in Ha2. inversion Ha2; subst a2. exact Hac.
Qed.

(** C05 at the end of the cycle *)
Theorem end_of_cycle_identities c ch : Good c ->
  forall x a', app_of (step c (OSchedule ch)) x = Some a' ->
    (a_server a' = None -> no_id a') /\ (a_server a' <> None -> has_id a') /\
    (forall g i k, holds a' g i -> gcount (step c (OSchedule ch)) g = Some k -> 0 <= i < k).
Proof.
  intros HG x a' Ha'. rewrite step_schedule in *.
  destruct (cycle_from_reachable c ch HG x a' Ha') as (a & Ha & (_ & H1 & H2 & _)).
  split; [exact H1|]. split; [exact H2|]. intros g i k Hh Hk.
  destruct HG as (_ & [HI _] & _). split.
  - eapply (id_held_nonneg _ (Ident_schedule c ch HI)); [exact Ha'|exact Hh].
  - eapply (schedule_in_range c ch HI); eassumption.
Qed.

(** C03, first sentence: the cycle assigns an instance to a server other than the one
    it was on only if that server is up and satisfies partition, traits and lease lifetime of the instance *)
Theorem new_assignment c ch : Good c ->
  forall x a a' n, app_of c x = Some a -> app_of (step c (OSchedule ch)) x = Some a' ->
    a_server a' = Some n -> a_server a <> Some n ->
    exists s, get_srv n (c_servers c) = Some s /\ s_state s = Up /\ guard_facts c s a.
Proof.
  intros HG x a a' n Ha Ha' Hn Hne. rewrite step_schedule in *.
  destruct (cycle_from_reachable c ch HG x a' Ha') as (a1 & Ha1 & (_ & _ & _ & H4)).
  rewrite Ha in Ha1. inversion Ha1; subst a1. exact (H4 n Hn Hne).
Qed.

(** C08 *)
Theorem reachable_keeps c ch x a n s : Good c -> prot c x a n s -> s_state s <> Up -> a_renew a = false ->
  (forall label q e, In (label, q) (snd (fst (schedule c ch))) -> In e q -> e_app e = x -> e_rank e <> UNPLACED_RANK) ->
  exists a', app_of (step c (OSchedule ch)) x = Some a' /\ a_server a' = Some n /\ a_expiry a' = a_expiry a /\
             a_identity a' = a_identity a.
Proof.
  intros (HA & _) HP Hst Hren Hrank. rewrite step_schedule.
  destruct (schedule_keeps c ch x a n s HA HP Hst Hren Hrank) as (a' & Ha' & (Hd & Hsv & Hex & _)).
  exists a'. split; [exact Ha'|]. split; [rewrite Hsv; apply (pr_srv _ _ _ _ _ HP)|]. split; [exact Hex|].
  apply Hd.
Qed.

Theorem reachable_moves c ch x a n s : Good c ->
  app_of c x = Some a -> a_server a = Some n -> get_srv n (c_servers c) = Some s ->
  (s_state s = Down /\ expired c (s_since s) a = true) \/ (s_state s = Frozen /\ a_unschedule a = true) ->
  exists a', app_of (step c (OSchedule ch)) x = Some a' /\ a_server a' <> Some n.
Proof.
  intros (HA & [HI _] & HW & HR) Ha Hsv Hs Hmove. rewrite step_schedule.
  exact (schedule_moves c ch x a n s HA HI (AllocWf_parts_wf c HW) (AllocWf_listed c HW x a Ha) Ha (HR x a Ha) Hsv Hs Hmove).
Qed.

Theorem reachable_blacklisted c ch x a : Good c -> app_of c x = Some a -> a_blacklisted a = true ->
  exists a', app_of (step c (OSchedule ch)) x = Some a' /\ a_server a' = None /\ no_id a'.
Proof. intros (HA & [HI _] & _) Ha Hbl. rewrite step_schedule. exact (schedule_blacklisted c ch x a HA HI Ha Hbl). Qed.

(** C07 needs the affinity invariant as well (its side condition: instances of one affinity declare the same limits) *)
Definition reachableA (c : cell) : Prop :=
  exists dim root level ops, wf_ops_all (init_cell dim root level) ops /\ wf_ops_aff (init_cell dim root level) ops /\
                             c = run (init_cell dim root level) ops.
Lemma reachableA_Good c : reachableA c -> Good c /\ Aff c.
Proof.
  intros (dim & root & level & ops & Hwf & Hwa & ->). split; [apply Good_run; [exact Hwf|apply Good_init]|].
  exact (proj2 (AA_run ops _ Hwa (AA_init dim root level))).
Qed.

Theorem reachable_displaced c ch x a n s : reachableA c -> prot c x a n s -> a_renew a = false ->
  (forall l, app_label a = Some l -> l = s_label s) ->
  (app_traits c a = 0 \/ has_traits (s_traits s) (app_traits c a) = true) ->
  (forall label q e, In (label, q) (snd (fst (schedule c ch))) -> In e q -> e_app e = x -> e_rank e <> UNPLACED_RANK) ->
  (exists a', app_of (step c (OSchedule ch)) x = Some a' /\ a_server a' = Some n) \/
  (exists z az bz l1 l2 l3,
      turns (snd (fst (schedule c ch))) = l1 ++ z :: l2 ++ x :: l3 /\
      app_of c z = Some az /\ a_server az <> Some n /\
      app_of (step c (OSchedule ch)) z = Some bz /\ a_server bz = Some n).
Proof.
  intros Hr HP Hren Hlab Htr Hrank. destruct (reachableA_Good c Hr) as [(HA & [HI _] & HW & HR) HF]. rewrite step_schedule.
  apply (schedule_displaced c ch x a n s HA HF HI (AllocWf_parts_wf c HW)); try assumption.
  - apply (AllocWf_listed c HW x a). exact (pr_app _ _ _ _ _ HP).
  - apply (HR x a (pr_app _ _ _ _ _ HP)). rewrite (pr_srv _ _ _ _ _ HP). discriminate.
Qed.
