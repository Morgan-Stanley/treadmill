(** Every state change of a scheduling cycle is a sequence of a few primitive transitions.
    Invariants are then proved once per primitive (InvAcct.v, InvIdent.v, ...). *)
From Coq Require Import ZArith QArith List Bool Lia Relations.
From RecordUpdate Require Import RecordSet.
From TM Require Import Sched.Vec Sched.Types Sched.Queue Sched.Tree Sched.Cycle Sched.MapsP.
Import ListNotations.
Open Scope Z_scope.

(** ** cells that differ in their buckets only *)
Definition same_core (c c' : cell) : Prop :=
  c_dim c' = c_dim c /\ c_root c' = c_root c /\ c_servers c' = c_servers c /\ c_apps c' = c_apps c /\
  c_parts c' = c_parts c /\ c_groups c' = c_groups c /\ c_now c' = c_now c.

Lemma same_core_refl c : same_core c c.
Proof. repeat split. Qed.
Lemma same_core_trans a b c : same_core a b -> same_core b c -> same_core a c.
Proof. unfold same_core. intuition congruence. Qed.
Lemma same_core_upd_bkt n f c : same_core c (c_upd_bkt n f c).
Proof. repeat split. Qed.

(** [eauto with sc] closes [same_core c c'] when [c'] is [c] after bucket updates and calls of functions already
    shown to change buckets only *)
Lemma same_core_step n f c c' : same_core (c_upd_bkt n f c) c' -> same_core c c'.
Proof. apply same_core_trans, same_core_upd_bkt. Qed.
Create HintDb sc.
#[export] Hint Resolve same_core_refl same_core_upd_bkt same_core_step : sc.

Lemma propagate_traits_sc fuel : forall c b, same_core c (propagate_traits fuel c b).
Proof.
  induction fuel as [|f IH]; intros c b; cbn; [auto with sc|].
  destruct (get_bkt b (c_buckets c)) as [bk|]; [|auto with sc]. destruct (b_parent bk); eauto with sc.
Qed.
Lemma add_labels_sc fuel : forall c b ls, same_core c (add_labels fuel c b ls).
Proof.
  induction fuel as [|f IH]; intros c b ls; cbn; [auto with sc|].
  destruct (get_bkt b (c_buckets c)) as [bk|]; [|auto with sc]. destruct (b_parent bk); eauto with sc.
Qed.
Lemma bump_affinity_sc fuel : forall c b ds sg, same_core c (bump_affinity fuel c b ds sg).
Proof.
  induction fuel as [|f IH]; intros c b ds sg; cbn; [auto with sc|].
  destruct (get_bkt b (c_buckets c)) as [bk|]; [|auto with sc]. destruct (b_parent bk); eauto with sc.
Qed.
Lemma bump_from_sc c p ds sg : same_core c (bump_from c p ds sg).
Proof. unfold bump_from. destruct p; [apply bump_affinity_sc|apply same_core_refl]. Qed.
Lemma adjust_up_sc fuel : forall c b v, same_core c (adjust_up fuel c b v).
Proof.
  induction fuel as [|f IH]; intros c b v; cbn; [auto with sc|].
  destruct (get_bkt b (c_buckets c)) as [bk|]; [|auto with sc]. destruct (b_parent bk); eauto with sc.
Qed.
Lemma adjust_up_from_sc c p v : same_core c (adjust_up_from c p v).
Proof. unfold adjust_up_from. destruct p; [apply adjust_up_sc|apply same_core_refl]. Qed.
Lemma adjust_down_sc fuel : forall c b pv, same_core c (adjust_down fuel c b pv).
Proof.
  induction fuel as [|f IH]; intros c b pv; cbn; [auto with sc|].
  destruct (get_bkt b (c_buckets c)) as [bk|]; [|auto with sc].
  destruct (live_children (b_children bk)) as [|k ks]; [destruct (b_parent bk); eauto with sc|].
  destruct (match pv with Some v => all_lt v (b_free bk) | None => false end); [auto with sc|].
  destruct (any_lt _ _); [|auto with sc]. destruct (b_parent bk); eauto with sc.
Qed.
Lemma adjust_down_from_sc c p pv : same_core c (adjust_down_from c p pv).
Proof. unfold adjust_down_from. destruct p; [apply adjust_down_sc|apply same_core_refl]. Qed.
Lemma unhook_server_sc c p s : same_core c (unhook_server c p s).
Proof.
  unfold unhook_server.
  eapply same_core_trans; [apply same_core_upd_bkt|]. eapply same_core_trans; [apply propagate_traits_sc|].
  eapply same_core_trans; [apply bump_affinity_sc|apply adjust_down_sc].
Qed.
Lemma attach_common_sc c p ch tr cn lb fr : same_core c (attach_common c p ch tr cn lb fr).
Proof.
  unfold attach_common.
  eapply same_core_trans; [apply same_core_upd_bkt|].
  eapply same_core_trans; [apply propagate_traits_sc|].
  eapply same_core_trans; [apply bump_affinity_sc|].
  eapply same_core_trans; [apply add_labels_sc|apply adjust_up_sc].
Qed.
Lemma set_cursor_sc c b a i : same_core c (set_cursor c b a i).
Proof. apply same_core_upd_bkt. Qed.

(** ** updates of an instance that no invariant looks at *)
Definition soft (f : app -> app) : Prop :=
  forall x, a_name (f x) = a_name x /\ a_prio (f x) = a_prio x /\ a_demand (f x) = a_demand x /\
            a_aff (f x) = a_aff x /\ a_limits (f x) = a_limits x /\ a_traits (f x) = a_traits x /\
            a_lease (f x) = a_lease x /\ a_drt (f x) = a_drt x /\ a_group (f x) = a_group x /\
            a_once (f x) = a_once x /\ a_order (f x) = a_order x /\ a_alloc (f x) = a_alloc x /\
            a_server (f x) = a_server x /\ a_identity (f x) = a_identity x /\ a_blacklisted (f x) = a_blacklisted x.

(** ** primitive transitions of a cycle *)
Inductive pstep : cell -> cell -> Prop :=
| PS_bkt c c' : same_core c c' -> pstep c c'
| PS_put c sname aname s a lease :
    get_srv sname (c_servers c) = Some s -> get_app aname (c_apps c) = Some a ->
    put_guard c s a lease = true -> pstep c (prim_put c sname aname a lease)
| PS_remove c sname aname s a :
    get_srv sname (c_servers c) = Some s -> get_app aname (c_apps c) = Some a ->
    zmem aname (s_apps s) = true -> pstep c (prim_remove c sname aname a)
| PS_soft c aname f : soft f -> pstep c (c_upd_app aname f c)
| PS_unplace c aname a n :
    get_app aname (c_apps c) = Some a -> a_server a = Some n -> get_srv n (c_servers c) = None ->
    pstep c (c_upd_app aname (fun x => x <| a_server := None |> <| a_evicted := true |>) c)
| PS_release c aname : pstep c (release_identity c aname)
| PS_acquire c aname ch : pstep c (fst (acquire_identity c aname ch))
| PS_forget c aname a i g grp :
    get_app aname (c_apps c) = Some a -> a_identity a = Some i -> group_of c a = Some (g, grp) ->
    Z.geb i (g_count grp) = true ->
    pstep c (c_upd_app aname (fun x => x <| a_identity := None |>) c).

Definition psteps := clos_refl_trans cell pstep.

Lemma ps_refl c : psteps c c. Proof. apply rt_refl. Qed.
Lemma ps_one c c' : pstep c c' -> psteps c c'. Proof. apply rt_step. Qed.
Lemma ps_trans a b c : psteps a b -> psteps b c -> psteps a c. Proof. apply rt_trans. Qed.
Lemma ps_sc c c' : same_core c c' -> psteps c c'. Proof. intros; apply ps_one, PS_bkt; assumption. Qed.

(** ** the tree operations *)
Lemma srv_put_lease_ps c sn an l c' : srv_put_lease c sn an l = Some c' -> psteps c c'.
Proof.
  unfold srv_put_lease. destruct (get_srv sn (c_servers c)) as [s|] eqn:Es; [|discriminate].
  destruct (get_app an (c_apps c)) as [a|] eqn:Ea; [|discriminate].
  destruct (put_guard c s a l) eqn:Eg; [|discriminate]. intros H; inversion H; subst; clear H.
  eapply ps_trans; [apply ps_one; eapply PS_put; eassumption|].
  apply ps_sc. eapply same_core_trans; [apply bump_from_sc|apply adjust_down_from_sc].
Qed.
Lemma srv_remove_ps c sn an : psteps c (srv_remove c sn an).
Proof.
  unfold srv_remove. destruct (get_srv sn (c_servers c)) as [s|] eqn:Es; [|apply ps_refl].
  destruct (get_app an (c_apps c)) as [a|] eqn:Ea; [|apply ps_refl].
  destruct (zmem an (s_apps s)) eqn:Em; cbn [negb]; [|apply ps_refl].
  eapply ps_trans; [apply ps_one; eapply PS_remove; eassumption|].
  apply ps_sc. eapply same_core_trans; [apply bump_from_sc|apply adjust_up_from_sc].
Qed.

Lemma soft_expiry ex : soft (fun x => x <| a_expiry := ex |>).
Proof. intros x. repeat split. Qed.
Lemma soft_evicted b : soft (fun x => x <| a_evicted := b |>).
Proof. intros x. repeat split. Qed.
Lemma soft_renew b : soft (fun x => x <| a_renew := b |>).
Proof. intros x. repeat split. Qed.
Lemma soft_rank r : soft (fun x => x <| a_rank := r |>).
Proof. intros x. repeat split. Qed.

(** ** the steps of a cycle, finer: a cursor move, a whole placement, a whole removal, or a primitive that leaves
    dimension, servers and buckets alone.  The traversal of a cycle is proved once, for these. *)
Inductive astep : cell -> cell -> Prop :=
| AS_cursor c b aff i : astep c (set_cursor c b aff i)
| AS_put c sn an l c' : srv_put_lease c sn an l = Some c' -> astep c c'
| AS_remove c sn an : astep c (srv_remove c sn an)
| AS_core c c' : pstep c c' -> c_dim c' = c_dim c -> c_servers c' = c_servers c -> c_buckets c' = c_buckets c ->
                 astep c c'.
Definition asteps := clos_refl_trans cell astep.

Lemma astep_psteps c c' : astep c c' -> psteps c c'.
Proof.
  destruct 1.
  - apply ps_sc, set_cursor_sc.
  - eapply srv_put_lease_ps; eassumption.
  - apply srv_remove_ps.
  - apply ps_one. assumption.
Qed.
Lemma asteps_psteps c c' : asteps c c' -> psteps c c'.
Proof. induction 1; [apply astep_psteps; assumption|apply ps_refl|eapply ps_trans; eassumption]. Qed.

Lemma as_refl c : asteps c c. Proof. apply rt_refl. Qed.
Lemma as_one c c' : astep c c' -> asteps c c'. Proof. apply rt_step. Qed.
Lemma as_trans a b c : asteps a b -> asteps b c -> asteps a c. Proof. apply rt_trans. Qed.
Lemma as_cursor c b aff i : asteps c (set_cursor c b aff i). Proof. apply as_one, AS_cursor. Qed.
Lemma as_remove c sn an : asteps c (srv_remove c sn an). Proof. apply as_one, AS_remove. Qed.
Lemma as_put_lease c sn an l c' : srv_put_lease c sn an l = Some c' -> asteps c c'.
Proof. intros H. eapply as_one, AS_put. exact H. Qed.
Lemma as_put c sn an c' : srv_put c sn an = Some c' -> asteps c c'.
Proof. unfold srv_put. destruct (get_app an (c_apps c)); [apply as_put_lease|discriminate]. Qed.
Lemma as_soft c an f : soft f -> asteps c (c_upd_app an f c).
Proof. intros H. apply as_one, AS_core; [apply PS_soft; exact H| | |]; reflexivity. Qed.
Lemma release_identity_frame c an :
  c_dim (release_identity c an) = c_dim c /\ c_servers (release_identity c an) = c_servers c /\
  c_buckets (release_identity c an) = c_buckets c /\ c_parts (release_identity c an) = c_parts c.
Proof.
  unfold release_identity. destruct (get_app an (c_apps c)) as [a|]; [|auto].
  destruct (group_of c a) as [[g grp]|]; [|auto]. destruct (a_identity a); auto.
Qed.
Lemma acquire_identity_frame c an ch :
  c_dim (fst (acquire_identity c an ch)) = c_dim c /\ c_servers (fst (acquire_identity c an ch)) = c_servers c /\
  c_buckets (fst (acquire_identity c an ch)) = c_buckets c /\ c_parts (fst (acquire_identity c an ch)) = c_parts c.
Proof.
  unfold acquire_identity. destruct (get_app an (c_apps c)) as [a|]; [|auto].
  destruct (group_of c a) as [[g grp]|]; [|auto]. destruct (a_identity a); [auto|]. destruct (g_avail grp); auto.
Qed.
Lemma as_release c an : asteps c (release_identity c an).
Proof. apply as_one, AS_core; [apply PS_release| | |]; apply release_identity_frame. Qed.
Lemma as_acquire c an ch : asteps c (fst (acquire_identity c an ch)).
Proof. apply as_one, AS_core; [apply PS_acquire| | |]; apply acquire_identity_frame. Qed.

Lemma srv_restore_as c sn an ex : asteps c (fst (srv_restore c sn an ex)).
Proof.
  unfold srv_restore. destruct (get_app an (c_apps c)) as [a|]; [|apply as_refl].
  destruct (srv_put_lease c sn an 0) as [c'|] eqn:E; cbn [fst].
  - eapply as_trans; [eapply as_put_lease; exact E|]. apply as_soft, soft_expiry.
  - apply as_soft, soft_expiry.
Qed.

Lemma srv_renew_as c sn an : asteps c (fst (srv_renew c sn an)).
Proof.
  unfold srv_renew. destruct (get_srv sn (c_servers c)); [|apply as_refl].
  destruct (get_app an (c_apps c)) as [a|]; [|apply as_refl].
  destruct (check_lifetime c a (a_lease a) s); cbn [fst]; [|apply as_refl].
  apply as_soft, soft_expiry.
Qed.

Lemma fold_as {A} (f : cell -> A -> cell) (l : list A) :
  (forall c x, asteps c (f c x)) -> forall c, asteps c (fold_left f l c).
Proof.
  intros Hf. induction l as [|x r IH]; intros c; cbn; [apply as_refl|].
  eapply as_trans; [apply Hf|apply IH].
Qed.

Lemma try_children_as put_bkt b aff an p0 :
  (forall c n, asteps c (fst (put_bkt c n))) ->
  forall l c, asteps c (fst (try_children put_bkt b aff an p0 l c)).
Proof.
  intros Hp. induction l as [|[p n] r IHl]; intros c; cbn [try_children].
  - cbn [fst]. apply as_cursor.
  - set (c1 := set_cursor c b aff (S p)).
    assert (H1 : asteps c c1) by (apply as_cursor).
    destruct (get_srv n (c_servers c1)) as [s|].
    + destruct (s_state s).
      * destruct (srv_put c1 n an) as [c2|] eqn:Ep.
        -- cbn [fst]. eapply as_trans; [exact H1|]. eapply as_put; exact Ep.
        -- eapply as_trans; [exact H1|apply IHl].
      * eapply as_trans; [exact H1|apply IHl].
      * eapply as_trans; [exact H1|apply IHl].
    + specialize (Hp c1 n). destruct (put_bkt c1 n) as [c2 ok]. cbn [fst] in Hp.
      destruct ok.
      * cbn [fst]. eapply as_trans; [exact H1|exact Hp].
      * eapply as_trans; [exact H1|]. eapply as_trans; [exact Hp|apply IHl].
Qed.

Lemma bucket_put_as fuel : forall c b an, asteps c (fst (bucket_put fuel c b an)).
Proof.
  induction fuel as [|f IH]; intros c b an; cbn [bucket_put]; [apply as_refl|].
  destruct (get_bkt b (c_buckets c)) as [bk|]; [|apply as_refl].
  destruct (get_app an (c_apps c)) as [a|]; [|apply as_refl].
  destruct (check_constraints c a (b_labels bk) (bkt_traits bk) (b_counters bk) (b_level bk) (b_free bk)); [|apply as_refl].
  destruct (live_positions (b_children bk) (cursor_of bk (a_aff a))) as [|[p0 n0] rest] eqn:El.
  - cbn [fst]. apply as_cursor.
  - apply try_children_as. intros c' n. apply IH.
Qed.

Lemma cell_put_as c an : asteps c (fst (cell_put c an)).
Proof. apply bucket_put_as. Qed.

Lemma fix_invalid_placements_as c : asteps c (fix_invalid_placements c).
Proof.
  unfold fix_invalid_placements. apply fold_as. intros c0 a0.
  destruct (get_app (a_name a0) (c_apps c0)) as [a|] eqn:Ea; [|apply as_refl].
  destruct (a_server a) as [n|] eqn:Es; [|apply as_refl].
  unfold is_member. destruct (get_srv n (c_servers c0)) eqn:En; [apply as_refl|].
  rewrite (get_app_name _ _ _ Ea).
  eapply as_trans; [apply as_one, AS_core; [eapply PS_unplace; eassumption| | |]; reflexivity|apply as_release].
Qed.

Lemma handle_inactive_servers_as c : asteps c (handle_inactive_servers c).
Proof.
  unfold handle_inactive_servers. apply fold_as. intros c0 s0.
  destruct (get_srv (s_name s0) (c_servers c0)) as [s|]; [|apply as_refl].
  apply fold_as. intros c1 n. eapply as_trans; [apply as_remove|apply as_release].
Qed.

Lemma handle_blacklisted_as c : asteps c (handle_blacklisted c).
Proof.
  unfold handle_blacklisted. apply fold_as. intros c0 a0.
  destruct (get_app (a_name a0) (c_apps c0)) as [a|]; [|apply as_refl].
  destruct (a_blacklisted a); [|apply as_refl].
  destruct (a_server a) as [n|].
  - eapply as_trans; [apply as_remove|apply as_release].
  - apply as_release.
Qed.

Lemma fix_invalid_identities_as c : asteps c (fix_invalid_identities c).
Proof.
  unfold fix_invalid_identities. apply fold_as. intros c0 a0.
  destruct (get_app (a_name a0) (c_apps c0)) as [a|] eqn:Ea; [|apply as_refl].
  destruct (a_identity a) as [i|] eqn:Ei; [|apply as_refl].
  destruct (group_of c0 a) as [[g grp]|] eqn:Eg; [|apply as_refl].
  destruct (Z.geb i (g_count grp)) eqn:Ege; [|apply as_refl].
  rewrite (get_app_name _ _ _ Ea).
  eapply as_trans; [apply as_one, AS_core; [eapply PS_forget; eassumption| | |]; reflexivity|].
  destruct (a_server a); [apply as_remove|apply as_refl].
Qed.

Lemma pre_phases_as c : asteps c (pre_phases c).
Proof.
  unfold pre_phases.
  eapply as_trans; [apply fix_invalid_placements_as|].
  eapply as_trans; [apply handle_inactive_servers_as|].
  eapply as_trans; [apply handle_blacklisted_as|apply fix_invalid_identities_as].
Qed.

Lemma evict_scan_as victims placer : forall c ev, asteps c (fst (evict_scan victims placer c ev)).
Proof.
  induction victims as [|v r IH]; intros c ev; cbn [evict_scan]; [apply as_refl|].
  destruct (Z.eqb v placer); [apply as_refl|].
  destruct (get_app v (c_apps c)) as [va|]; [|apply IH].
  destruct (a_server va) as [sn|]; [|apply IH].
  destruct (get_srv sn (c_servers c)) as [s|]; [|apply IH].
  destruct (s_state s); try apply IH.
  destruct (srv_put (srv_remove c sn v) sn placer) as [c2|] eqn:Ep.
  - cbn [fst]. eapply as_trans; [apply as_remove|eapply as_put; exact Ep].
  - eapply as_trans; [apply as_remove|apply IH].
Qed.

Lemma place_one_as rq st an : asteps (l_cell st) (l_cell (place_one rq st an)).
Proof.
  unfold place_one.
  destruct (get_app an (c_apps (l_cell st))) as [a|]; [|apply as_refl].
  destruct (a_blacklisted a); [apply as_refl|].
  destruct (Z.eqb (a_rank a) UNPLACED_RANK).
  { destruct (a_server a); cbn [l_cell set];
      [eapply as_trans; [apply as_remove|apply as_release]|apply as_release]. }
  set (cr := if a_renew a
             then match a_server a with
                  | Some n => let '(cr, ok) := srv_renew (l_cell st) n an in
                              if ok then (cr, None) else (srv_remove cr n an, Some (n, a_expiry a))
                  | None => (l_cell st, None)
                  end
             else (l_cell st, None)).
  assert (Hcr : asteps (l_cell st) (fst cr)).
  { subst cr. destruct (a_renew a); [|apply as_refl]. destruct (a_server a) as [n|]; [|apply as_refl].
    pose proof (srv_renew_as (l_cell st) n an) as Hr. destruct (srv_renew (l_cell st) n an) as [c0 ok]. cbn [fst] in Hr.
    destruct ok; cbn [fst]; [exact Hr|]. eapply as_trans; [exact Hr|apply as_remove]. }
  destruct cr as [c1 restore]. cbn [fst] in Hcr.
  set (c2 := c_upd_app an (fun x => x <| a_renew := false |>) c1).
  assert (H2 : asteps (l_cell st) c2) by (eapply as_trans; [exact Hcr|apply as_soft, soft_renew]).
  destruct (get_app an (c_apps c2)) as [a2|]; [|apply as_refl].
  destruct (a_server a2); [exact H2|].
  pose proof (as_acquire c2 an (aget an (l_choices st))) as Hacq.
  destruct (acquire_identity c2 an (aget an (l_choices st))) as [c3 got]. cbn [fst] in Hacq.
  assert (H3 : asteps (l_cell st) c3) by (eapply as_trans; [exact H2|exact Hacq]).
  destruct got; cbn [negb]; [|exact H3].
  (* restore after eviction *)
  set (r4 := match aget an (l_evicted st) with
             | Some (sn, ex) =>
                 let '(cr, ok) := srv_restore c3 sn an ex in
                 if ok then (c_upd_app an (fun x => x <| a_evicted := false |>) cr, true, adel an (l_evicted st))
                 else (cr, false, adel an (l_evicted st))
             | None => (c3, false, l_evicted st)
             end).
  assert (H4 : asteps c3 (fst (fst r4))).
  { subst r4. destruct (aget an (l_evicted st)) as [[sn ex]|]; [|apply as_refl].
    pose proof (srv_restore_as c3 sn an ex) as Hr. destruct (srv_restore c3 sn an ex) as [c0 ok]. cbn [fst] in Hr.
    destruct ok; cbn [fst]; [|exact Hr]. eapply as_trans; [exact Hr|apply as_soft, soft_evicted]. }
  destruct r4 as [[c4 restored] ev1]. cbn [fst] in H4.
  assert (H4' : asteps (l_cell st) c4) by (eapply as_trans; eassumption).
  destruct restored; [exact H4'|]. unfold place_tail.
  destruct (get_app an (c_apps c4)) as [a4|]; [|apply as_refl].
  destruct (a_once a4 && a_evicted a4); [cbn [l_cell set]; eapply as_trans; [exact H4'|apply as_release]|].
  destruct (negb (tr_feasible (l_tracker st) a4)); [cbn [l_cell set]; eapply as_trans; [exact H4'|apply as_release]|].
  pose proof (cell_put_as c4 an) as H5. destruct (cell_put c4 an) as [c5 ok]. cbn [fst] in H5.
  set (r6 := if ok then (c5, ev1) else evict_scan rq an c5 ev1).
  assert (H6 : asteps c5 (fst r6)).
  { subst r6. destruct ok; [apply as_refl|apply evict_scan_as]. }
  destruct r6 as [c6 ev2]. cbn [fst] in H6.
  assert (H6' : asteps (l_cell st) c6) by (eapply as_trans; [exact H4'|eapply as_trans; eassumption]).
  destruct (match get_app an (c_apps c6) with
            | Some a6 => match a_server a6 with Some _ => true | None => false end
            | None => false
            end); [exact H6'|].
  destruct restore as [[n ex]|].
  - pose proof (srv_restore_as c6 n an ex) as H7. destruct (srv_restore c6 n an ex) as [c7 ok7]. cbn [fst] in H7.
    destruct ok7; [|unfold give_up]; cbn [l_cell set]; (eapply as_trans; [exact H6'|]).
    + eapply as_trans; [exact H7|apply as_soft, soft_renew].
    + eapply as_trans; [exact H7|apply as_release].
  - unfold give_up. cbn [l_cell set]. eapply as_trans; [exact H6'|apply as_release].
Qed.

Lemma find_placements_as c q ch : asteps c (find_placements c q ch).
Proof.
  unfold find_placements.
  assert (G : forall l st, asteps (l_cell st) (l_cell (fold_left (place_one (rev q)) l st))).
  { induction l as [|x r IH]; intros st; cbn; [apply as_refl|].
    eapply as_trans; [apply place_one_as|apply IH]. }
  apply (G q (mkLoop c [] [] ch)).
Qed.

Lemma record_ranks_as c q : asteps c (record_ranks c q).
Proof. unfold record_ranks. apply fold_as. intros c0 e. apply as_soft, soft_rank. Qed.

Lemma schedule_alloc_as c label top ch : asteps c (fst (schedule_alloc c label top ch)).
Proof.
  unfold schedule_alloc. cbn [fst]. eapply as_trans; [apply record_ranks_as|apply find_placements_as].
Qed.

Theorem schedule_as c ch : asteps c (fst (fst (schedule c ch))).
Proof.
  unfold schedule.
  set (F := fun (acc : cell * list (Z * list entry)) (p : Z * alloc) =>
              let '(cc, qs) := acc in
              match aget (fst p) (c_parts cc) with
              | Some top => let '(cc', q) := schedule_alloc cc (fst p) top ch in (cc', qs ++ [(fst p, q)])
              | None => (cc, qs)
              end).
  assert (G : forall l acc, asteps (fst acc) (fst (fold_left F l acc))).
  { induction l as [|p r IH]; intros acc; cbn [fold_left]; [apply as_refl|].
    eapply as_trans; [|apply IH]. subst F. cbn beta. destruct acc as [cc qs]. cbn [fst].
    destruct (aget (fst p) (c_parts cc)) as [top|]; [|apply as_refl].
    pose proof (schedule_alloc_as cc (fst p) top ch) as Hs.
    destruct (schedule_alloc cc (fst p) top ch) as [cc' q]. exact Hs. }
  specialize (G (c_parts (pre_phases c)) (pre_phases c, [])).
  fold F. destruct (fold_left F (c_parts (pre_phases c)) (pre_phases c, [])) as [c1 qs]. cbn [fst] in *.
  eapply as_trans; [apply pre_phases_as|exact G].
Qed.

(** ** the same in terms of the primitives *)
Lemma srv_restore_ps c sn an ex : psteps c (fst (srv_restore c sn an ex)).
Proof. apply asteps_psteps, srv_restore_as. Qed.
Lemma srv_renew_ps c sn an : psteps c (fst (srv_renew c sn an)).
Proof. apply asteps_psteps, srv_renew_as. Qed.
Lemma fold_ps {A} (f : cell -> A -> cell) (l : list A) :
  (forall c x, psteps c (f c x)) -> forall c, psteps c (fold_left f l c).
Proof.
  intros Hf. induction l as [|x r IH]; intros c; cbn; [apply ps_refl|].
  eapply ps_trans; [apply Hf|apply IH].
Qed.
Lemma srv_remove_all_ps c sn : psteps c (srv_remove_all c sn).
Proof.
  unfold srv_remove_all. destruct (get_srv sn (c_servers c)); [|apply ps_refl].
  apply fold_ps. intros c0 x. apply srv_remove_ps.
Qed.
Lemma cell_put_ps c an : psteps c (fst (cell_put c an)).
Proof. apply asteps_psteps, cell_put_as. Qed.
Lemma fix_invalid_placements_ps c : psteps c (fix_invalid_placements c).
Proof. apply asteps_psteps, fix_invalid_placements_as. Qed.
Lemma handle_inactive_servers_ps c : psteps c (handle_inactive_servers c).
Proof. apply asteps_psteps, handle_inactive_servers_as. Qed.
Lemma handle_blacklisted_ps c : psteps c (handle_blacklisted c).
Proof. apply asteps_psteps, handle_blacklisted_as. Qed.
Lemma fix_invalid_identities_ps c : psteps c (fix_invalid_identities c).
Proof. apply asteps_psteps, fix_invalid_identities_as. Qed.
Lemma pre_phases_ps c : psteps c (pre_phases c).
Proof. apply asteps_psteps, pre_phases_as. Qed.
Lemma evict_scan_ps victims placer : forall c ev, psteps c (fst (evict_scan victims placer c ev)).
Proof. intros c ev. apply asteps_psteps, evict_scan_as. Qed.
Lemma place_one_ps rq st an : psteps (l_cell st) (l_cell (place_one rq st an)).
Proof. apply asteps_psteps, place_one_as. Qed.
Lemma find_placements_ps c q ch : psteps c (find_placements c q ch).
Proof. apply asteps_psteps, find_placements_as. Qed.
Lemma record_ranks_ps c q : psteps c (record_ranks c q).
Proof. apply asteps_psteps, record_ranks_as. Qed.
Lemma schedule_alloc_ps c label top ch : psteps c (fst (schedule_alloc c label top ch)).
Proof. apply asteps_psteps, schedule_alloc_as. Qed.

Theorem schedule_ps c ch : psteps c (fst (fst (schedule c ch))).
Proof. apply asteps_psteps, schedule_as. Qed.
