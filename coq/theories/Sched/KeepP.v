(** C08 at the level of a whole cycle: an instance on a server that is not up (down within the retention time,
    or frozen and not marked for unscheduling) keeps its placement through Cell.schedule. *)
From Coq Require Import ZArith QArith List Bool Lia.
From RecordUpdate Require Import RecordSet.
From TM Require Import Sched.Vec Sched.Types Sched.Queue Sched.Tree Sched.Cycle Sched.Steps Sched.MapsP Sched.FrameP
                       Sched.InvAcct Sched.InvIdent Sched.TurnP Sched.CycleP. Import ListNotations. Open Scope Z_scope.

(** the record is what it was, the renew flag possibly cleared *)
Definition keeps (a a' : app) : Prop :=
  dyn_eq a a' /\ a_server a' = a_server a /\ a_expiry a' = a_expiry a /\ a_rank a' = a_rank a /\
  a_evicted a' = a_evicted a /\ a_unschedule a' = a_unschedule a /\ (a_renew a = false -> a_renew a' = false).
Lemma keeps_refl a : keeps a a.
Proof. split; [apply dyn_eq_refl|]. repeat split; auto. Qed.
Lemma keeps_trans a b c : keeps a b -> keeps b c -> keeps a c.
Proof.
  intros (H1 & H2 & H3 & H4 & H5 & H6 & H7) (G1 & G2 & G3 & G4 & G5 & G6 & G7).
  split; [eapply dyn_eq_trans; eassumption|]. repeat split; try congruence. auto.
Qed.

(** its own turn: a placed instance that is not blacklisted, not over the cap and not up for renewal is passed over *)
Lemma place_one_stays rq st x a n :
  app_of (l_cell st) x = Some a -> a_server a = Some n -> a_blacklisted a = false -> a_renew a = false ->
  a_rank a <> UNPLACED_RANK ->
  exists a', app_of (l_cell (place_one rq st x)) x = Some a' /\ keeps a a'.
Proof.
  intros Ha Hsv Hbl Hren Hrank. unfold place_one.
  assert (Ha' : get_app x (c_apps (l_cell st)) = Some a) by exact Ha. rewrite Ha', Hbl.
  destruct (Z.eqb_spec (a_rank a) UNPLACED_RANK) as [E|_]; [contradiction|]. rewrite Hren.
  set (c2 := c_upd_app x (fun z => z <| a_renew := false |>) (l_cell st)).
  assert (Ha2 : app_of c2 x = Some (a <| a_renew := false |>)) by (apply upd_app_self; [reflexivity|exact Ha]).
  assert (Ha2' : get_app x (c_apps c2) = Some (a <| a_renew := false |>)) by exact Ha2. rewrite Ha2'.
  change (a_server (a <| a_renew := false |>)) with (a_server a). rewrite Hsv. cbn [l_cell set].
  eexists. split; [exact Ha2|]. split; [apply dyn_set_renew|]. repeat split.
Qed.

Theorem find_placements_keeps c q ch x a n s :
  Acct c -> app_of c x = Some a -> a_server a = Some n -> get_srv n (c_servers c) = Some s -> s_state s <> Up ->
  a_blacklisted a = false -> a_renew a = false -> (In x q -> a_rank a <> UNPLACED_RANK) ->
  exists a', app_of (find_placements c q ch) x = Some a' /\ keeps a a'.
Proof.
  intros HA Ha Hsv Hs Hst Hbl Hren Hrank. unfold find_placements.
  set (Q := fun st => psteps c (l_cell st) /\ exists a1, app_of (l_cell st) x = Some a1 /\ keeps a a1).
  enough (H : Q (fold_left (place_one (rev q)) q (mkLoop c [] [] ch))) by apply H.
  apply fold_left_inv_in; [|split; [apply ps_refl|exists a; split; [exact Ha|apply keeps_refl]]].
  intros st y Hy [Hps (a1 & Ha1 & K)]. split; [eapply ps_trans; [exact Hps|apply place_one_ps]|].
  pose proof K as (Kd & Ksv & Kex & Krk & _ & _ & Krn).
  destruct (Z.eq_dec y x) as [->|Hne].
  - (* its own turn *)
    destruct (place_one_stays (rev q) st x a1 n Ha1) as (a2 & Ha2 & K2); [congruence| |auto|rewrite Krk; auto|].
    + pose proof (stat_bl _ _ (dyn_stat _ _ Kd)) as Hb. congruence.
    + exists a2. split; [exact Ha2|eapply keeps_trans; eassumption].
  - (* nobody evicts it: its server is not up *)
    destruct (place_one_other (rev q) st y x (Acct_psteps _ _ Hps HA) (not_eq_sym Hne))
      as [[H1 _]|(_ & a0 & sn & s1 & Ha0 & Hsv0 & Hs1 & Hup & _)]; [exists a1; split; [rewrite H1; exact Ha1|exact K]|].
    exfalso. rewrite Ha1 in Ha0. inversion Ha0; subst a0. rewrite Ksv, Hsv in Hsv0. inversion Hsv0; subst sn.
    destruct (psteps_states_kept _ _ Hps _ _ Hs1) as (s0 & Hs0 & E). rewrite Hs in Hs0. inversion Hs0; subst s0. congruence.
Qed.

(** ** primitive transitions keep group sizes *)
Definition gcount (c : cell) (g : Z) : option Z := option_map g_count (aget g (c_groups c)).
Lemma pstep_counts c c' : pstep c c' -> forall g, gcount c' g = gcount c g.
Proof. intros Hs. apply (pstep_shape _ _ Hs). Qed.
Lemma psteps_counts c c' : psteps c c' -> forall g, gcount c' g = gcount c g.
Proof.
  induction 1 as [c c' Hs|c|a b c' H1 IH1 H2 IH2]; intros g; [apply pstep_counts; exact Hs|reflexivity|].
  rewrite IH2, IH1. reflexivity.
Qed.

(** ** the four phases leave a protected placement alone *)
Record prot (c : cell) (x : Z) (a : app) (n : Z) (s : server) : Prop := {
  pr_app : app_of c x = Some a;
  pr_srv : a_server a = Some n;
  pr_mem : get_srv n (c_servers c) = Some s;
  pr_bl : a_blacklisted a = false;
  pr_down : s_state s = Down -> expired c (s_since s) a = false;
  pr_frozen : s_state s = Frozen -> a_unschedule a = false;
  pr_id : forall i g k, a_identity a = Some i -> a_group a = Some g -> gcount c g = Some k -> i < k
}.

Section Phases.
  Variables (c0 : cell) (x : Z) (a : app) (n : Z) (s : server).
  Hypothesis HA0 : Acct c0.
  Hypothesis H_app : app_of c0 x = Some a.
  Hypothesis H_srv : a_server a = Some n.
  Hypothesis H_mem : get_srv n (c_servers c0) = Some s.
  Hypothesis H_bl : a_blacklisted a = false.
  Hypothesis H_down : s_state s = Down -> expired c0 (s_since s) a = false.
  Hypothesis H_frozen : s_state s = Frozen -> a_unschedule a = false.
  Hypothesis H_id : forall i g k, a_identity a = Some i -> a_group a = Some g -> gcount c0 g = Some k -> i < k.

  Definition K (acc : cell) : Prop := psteps c0 acc /\ app_of acc x = Some a.

  Lemma K_other acc acc' : K acc -> psteps acc acc' -> app_of acc' x = app_of acc x -> K acc'.
  Proof. intros [H1 H2] Hp E. split; [eapply ps_trans; eassumption|congruence]. Qed.
  Lemma K_only acc acc' v : K acc -> only v acc acc' -> v <> x -> K acc'.
  Proof. intros HK [Hp F] Hne. apply (K_other _ _ HK Hp), F. congruence. Qed.

  (* the server record of [n] keeps its state and the time of its last state change *)
  Lemma K_server acc : K acc -> exists s', get_srv n (c_servers acc) = Some s' /\ srv_static s s'.
  Proof.
    intros [Hp _]. destruct (psteps_srv_exists _ _ _ _ Hp H_mem) as (s' & Hs').
    exists s'. split; [exact Hs'|]. destruct (psteps_static _ _ Hp) as (_ & _ & _ & Hsrv).
    destruct (Hsrv _ _ Hs') as (s0 & Hs0 & St). rewrite H_mem in Hs0. inversion Hs0; subst s0. exact St.
  Qed.

  Lemma K_phase1 acc a0 : K acc -> K (phase1_step acc a0).
  Proof.
    intros HK. destruct (Z.eq_dec (a_name a0) x) as [E|Hne].
    - (* its own step: the server is a member *)
      unfold phase1_step. destruct (K_server acc HK) as (s' & Hs' & _). destruct HK as [Hp Hx].
      unfold app_of in Hx. unfold is_member. rewrite E, Hx, H_srv, Hs'. split; assumption.
    - exact (K_only _ _ _ HK (phase1_step_only acc a0) Hne).
  Qed.

  Lemma K_phase2_inner sn : forall l acc, ~ In x l -> K acc ->
    K (fold_left (fun acc2 m => release_identity (srv_remove acc2 sn m) m) l acc).
  Proof.
    induction l as [|m r IH]; intros acc Hni HK; cbn [fold_left]; [exact HK|].
    apply IH; [intros H; apply Hni; right; exact H|].
    assert (Hne : x <> m) by (intros ->; apply Hni; left; reflexivity).
    eapply K_other; [exact HK|apply release_remove_ps|].
    rewrite release_app, srv_remove_app by exact Hne. reflexivity.
  Qed.

  Lemma K_phase2 acc s0 : K acc -> K (phase2_step acc s0).
  Proof.
    intros HK. unfold phase2_step. destruct (get_srv (s_name s0) (c_servers acc)) as [s1|] eqn:E1; [|exact HK].
    apply K_phase2_inner; [|exact HK]. intros Hin. apply to_be_moved_spec in Hin.
    destruct Hin as (Hin & b & Hb & Hwhy). destruct (K_server acc HK) as (s' & Hs' & (_ & Hst & _ & _ & _ & Hsince & _)).
    destruct HK as [Hp Hx].
    assert (Eb : b = a) by (unfold app_of in Hx; congruence). subst b.
    assert (HA : Acct acc) by (eapply Acct_psteps; eassumption).
    destruct (ac_listed _ HA _ _ _ E1 Hin) as (b & Hb2 & Hsv2). rewrite Hb in Hb2. inversion Hb2; subst b.
    rewrite H_srv in Hsv2. inversion Hsv2 as [En].
    rewrite En, E1 in Hs'. inversion Hs'; subst s'.
    destruct (psteps_static _ _ Hp) as (Hnow & _).
    destruct Hwhy as [[Hd He]|[Hf Hu]].
    - rewrite Hst in Hd. pose proof (H_down Hd) as Hne. unfold expired in *. rewrite Hsince, Hnow in He. congruence.
    - rewrite Hst in Hf. pose proof (H_frozen Hf). congruence.
  Qed.

  Lemma K_phase3 acc a0 : K acc -> K (phase3_step acc a0).
  Proof.
    intros HK. destruct (Z.eq_dec (a_name a0) x) as [E|Hne].
    - unfold phase3_step. destruct HK as [Hp Hx]. unfold app_of in Hx. rewrite E, Hx, H_bl. split; assumption.
    - exact (K_only _ _ _ HK (phase3_step_only acc a0) Hne).
  Qed.

  Lemma K_phase4 acc a0 : K acc -> K (phase4_step acc a0).
  Proof.
    intros HK. destruct (Z.eq_dec (a_name a0) x) as [E|Hne];
      [|exact (K_only _ _ _ HK (phase4_step_only acc a0) Hne)].
    (* its own identity is valid: the step does nothing *)
    unfold phase4_step. destruct HK as [Hp Hx]. unfold app_of in Hx. rewrite E, Hx.
    destruct (a_identity a) as [i|] eqn:Ei; [|split; assumption].
    destruct (group_of acc a) as [[g grp]|] eqn:Eg; [|split; assumption].
    destruct (Z.geb i (g_count grp)) eqn:Ege; [exfalso|split; assumption].
    unfold group_of in Eg. destruct (a_group a) as [g0|] eqn:Eg0; [|discriminate].
    destruct (aget g0 (c_groups acc)) as [grp0|] eqn:Egr; [|discriminate]. inversion Eg; subst g0 grp0.
    assert (Hc : gcount c0 g = Some (g_count grp)) by (rewrite <- (psteps_counts _ _ Hp g); unfold gcount; rewrite Egr; reflexivity).
    pose proof (H_id i g _ eq_refl eq_refl Hc). apply Z.geb_le in Ege. lia.
  Qed.

  Theorem pre_phases_keeps : K (pre_phases c0).
  Proof.
    unfold pre_phases. destruct (pre_phases_folds c0) as (-> & _).
    pose proof (fold_left_inv K phase1_step (c_apps c0) K_phase1 c0 (conj (ps_refl c0) H_app)) as H1.
    set (c1 := fold_left phase1_step (c_apps c0) c0) in *. destruct (pre_phases_folds c1) as (_ & -> & _).
    pose proof (fold_left_inv K phase2_step (c_servers c1) K_phase2 c1 H1) as H2.
    set (c2 := fold_left phase2_step (c_servers c1) c1) in *. destruct (pre_phases_folds c2) as (_ & _ & -> & _).
    pose proof (fold_left_inv K phase3_step (c_apps c2) K_phase3 c2 H2) as H3.
    set (c3 := fold_left phase3_step (c_apps c2) c2) in *. destruct (pre_phases_folds c3) as (_ & _ & _ & ->).
    exact (fold_left_inv K phase4_step (c_apps c3) K_phase4 c3 H3).
  Qed.
End Phases.

(** ** the whole cycle *)
(* everything but the rank *)
Definition keeps_r (a a' : app) : Prop :=
  dyn_eq a a' /\ a_server a' = a_server a /\ a_expiry a' = a_expiry a /\
  a_evicted a' = a_evicted a /\ a_unschedule a' = a_unschedule a /\ (a_renew a = false -> a_renew a' = false).
Lemma keeps_r_refl a : keeps_r a a.
Proof. split; [apply dyn_eq_refl|]. repeat split; auto. Qed.
Lemma keeps_r_trans a b c : keeps_r a b -> keeps_r b c -> keeps_r a c.
Proof.
  intros (H1 & H2 & H3 & H5 & H6 & H7) (G1 & G2 & G3 & G5 & G6 & G7).
  split; [eapply dyn_eq_trans; eassumption|]. repeat split; try congruence. auto.
Qed.

Section Keep.
  Variables (c : cell) (ch : list (Z * Z)) (x : Z) (a : app) (n : Z) (s : server).
  Hypothesis HA : Acct c.
  Hypothesis Hsv : a_server a = Some n.
  Hypothesis Hs : get_srv n (c_servers c) = Some s.
  Hypothesis Hst : s_state s <> Up.
  Hypothesis Hbl : a_blacklisted a = false.
  Hypothesis Hren : a_renew a = false.

  Definition J (cc : cell) : Prop := psteps c cc /\ exists a1, app_of cc x = Some a1 /\ keeps_r a a1.

  Lemma J_alloc cc label top :
    J cc -> (forall e, In e (partition_queue cc label top) -> e_app e = x -> e_rank e <> UNPLACED_RANK) ->
    J (fst (schedule_alloc cc label top ch)).
  Proof.
    intros [Hp (a1 & Ha1 & K1)] Hrank. split; [eapply ps_trans; [exact Hp|apply schedule_alloc_ps]|].
    unfold schedule_alloc. cbn [fst]. set (q := partition_queue cc label top) in *.
    destruct (record_ranks_rank q cc x a1 Ha1) as (a2 & Ha2 & Hr2 & Hw).
    pose proof (record_ranks_ps cc q) as Hp2.
    assert (Hp2' : psteps c (record_ranks cc q)) by (eapply ps_trans; eassumption).
    destruct (psteps_srv_exists _ _ _ _ Hp2' Hs) as (s2 & Hs2).
    assert (Hst2 : s_state s2 <> Up).
    { destruct (psteps_states_kept _ _ Hp2' _ _ Hs2) as (s0 & Hs0 & E). rewrite Hs in Hs0. inversion Hs0; subst s0. congruence. }
    pose proof K1 as (Kd & Ksv & Kex & Kev & Kun & Krn).
    pose proof Hr2 as (Rd & Rsv & Rex & Rev & Run & Rrn).
    destruct (find_placements_keeps (record_ranks cc q) (map e_app q) ch x a2 n s2) as (a3 & Ha3 & K3).
    - eapply Acct_psteps; eassumption.
    - exact Ha2.
    - congruence.
    - exact Hs2.
    - exact Hst2.
    - pose proof (stat_bl _ _ (dyn_stat _ _ Rd)) as Hb.
      pose proof (stat_bl _ _ (dyn_stat _ _ Kd)) as Hb1. congruence.
    - rewrite Rrn. auto.
    - intros Hin. destruct Hw as [[Hni _]|(e & Hine & Hex & Hrk)]; [contradiction|]. rewrite Hrk. exact (Hrank e Hine Hex).
    - exists a3. split; [exact Ha3|].
      destruct K3 as (Dd & Dsv & Dex & _ & Dev & Dun & Drn).
      split; [eapply dyn_eq_trans; [exact Kd|eapply dyn_eq_trans; eassumption]|].
      repeat split; try congruence. intros _. apply Drn. rewrite Rrn. auto.
  Qed.

End Keep.

(** C08: an instance that sits on a server that is not up - down for less than its data-retention time, or
    frozen while the instance is not marked for unscheduling - and is not blacklisted, not flagged for renewal,
    holds a valid identity and is not ranked beyond the utilisation cap in this cycle's queues, is on the same
    server with the same expiry after the cycle: the phases leave it alone, nothing evicts it (eviction only
    looks at up servers) and its own turn passes it over. *)
Theorem schedule_keeps c ch x a n s :
  Acct c -> prot c x a n s -> s_state s <> Up -> a_renew a = false ->
  (forall label q e, In (label, q) (snd (fst (schedule c ch))) -> In e q -> e_app e = x -> e_rank e <> UNPLACED_RANK) ->
  exists a', app_of (fst (fst (schedule c ch))) x = Some a' /\ keeps_r a a'.
Proof.
  intros HA HP Hst Hren Hrank.
  destruct HP as [P1 P2 P3 P4 P5 P6 P7].
  destruct (pre_phases_keeps c x a n s HA P1 P2 P3 P4 P5 P6 P7) as [Hp0 Hx0].
  assert (HJ0 : J c x a (pre_phases c)) by (split; [exact Hp0|exists a; split; [exact Hx0|apply keeps_r_refl]]).
  rewrite schedule_fst in *.
  (* while the queues recorded so far rank it within the cap, it is kept *)
  refine (proj2 (sched_fold_inv ch
           (fun cc qs => (forall label q e, In (label, q) qs -> In e q -> e_app e = x -> e_rank e <> UNPLACED_RANK) -> J c x a cc)
           _ (c_parts (pre_phases c)) (pre_phases c) [] (fun _ => HJ0) Hrank)).
  intros cc qs label top HQ Hr. apply (J_alloc c ch x a n s HA P2 P3 Hst P4 Hren).
  - apply HQ. intros l0 q e Hin. apply (Hr l0 q e), in_or_app. left. exact Hin.
  - intros e. apply (Hr label (partition_queue cc label top) e), in_or_app. right. left. reflexivity.
Qed.

(** ** the other half of C08: once the retention time has run out (or a frozen server's instance is marked for
    unscheduling) the placement is gone after the cycle *)
(* without a server, and with the accounting that lets a removal be followed *)
Definition unplaced (x : Z) (c : cell) : Prop := Acct c /\ exists a, app_of c x = Some a /\ a_server a = None.

Lemma stays_none_step sn x acc m : unplaced x acc -> unplaced x (release_identity (srv_remove acc sn m) m).
Proof.
  intros [HA (a1 & Ha1 & Hs1)]. split; [exact (Acct_psteps _ _ (release_remove_ps acc sn m) HA)|].
  destruct (at_srv_remove acc sn m x a1 Ha1) as (b & Hb & (_ & _ & Hw)).
  assert (Hsb : a_server b = None) by (destruct Hw as [[E _]|[E _]]; congruence).
  destruct (Z.eq_dec x m) as [->|Hne].
  - destruct (release_self _ _ _ Hb) as (b2 & Hb2 & _ & Hsv2 & _). exists b2. split; [exact Hb2|congruence].
  - exists b. split; [rewrite release_app by exact Hne; exact Hb|exact Hsb].
Qed.
Lemma stays_none_phase2 x acc s0 : unplaced x acc -> unplaced x (phase2_step acc s0).
Proof.
  intros H. unfold phase2_step. destruct (get_srv (s_name s0) (c_servers acc)) as [s1|]; [|exact H].
  apply fold_left_inv; [apply stays_none_step|exact H].
Qed.
Lemma none_stays c c' x a1 : all_touched c c' -> app_of c x = Some a1 -> a_server a1 = None ->
  exists a2, app_of c' x = Some a2 /\ a_server a2 = None.
Proof.
  intros Ht Ha1 Hs1. destruct (Ht x a1 Ha1) as (a2 & Ha2 & (_ & _ & Hw)). exists a2. split; [exact Ha2|].
  destruct Hw as [[E _]|[E _]]; congruence.
Qed.

Section Expire.
  Variables (c0 : cell) (x : Z) (a : app) (n : Z) (s : server).
  Hypothesis HA0 : Acct c0.
  Hypothesis H_app : app_of c0 x = Some a.
  Hypothesis H_srv : a_server a = Some n.
  Hypothesis H_mem : get_srv n (c_servers c0) = Some s.
  Hypothesis H_move : (s_state s = Down /\ expired c0 (s_since s) a = true) \/ (s_state s = Frozen /\ a_unschedule a = true).

  Lemma inner_removes : forall l acc, K c0 x a acc -> In x l ->
    unplaced x (fold_left (fun acc2 m => release_identity (srv_remove acc2 n m) m) l acc).
  Proof.
    induction l as [|m r IH]; intros acc HK Hin; [destruct Hin|]. cbn [fold_left].
    assert (HA : Acct acc) by (eapply Acct_psteps; [exact (proj1 HK)|exact HA0]).
    assert (Hps : psteps acc (release_identity (srv_remove acc n m) m)) by (eapply ps_trans; [apply srv_remove_ps|apply ps_one, PS_release]).
    destruct (Z.eq_dec m x) as [->|Hne].
    - destruct (K_server c0 x a n s H_mem acc HK) as (s2 & Hs2 & _). destruct HK as [Hp Hx].
      assert (Hl : In x (s_apps s2)) by (eapply (ac_placed _ HA); eassumption).
      pose proof (srv_remove_self _ _ _ _ _ Hs2 Hx Hl) as Hr.
      destruct (release_self _ _ _ Hr) as (b2 & Hb2 & _ & Hsv2 & _).
      apply (fold_left_inv (unplaced x) _ r (stays_none_step n x)).
      split; [eapply Acct_psteps; eassumption|]. exists b2. split; [exact Hb2|rewrite Hsv2; reflexivity].
    - apply IH; [|destruct Hin as [E|Hin]; [congruence|exact Hin]].
      eapply K_other; [exact HK|exact Hps|]. rewrite release_app, srv_remove_app by congruence. reflexivity.
  Qed.

  Lemma outer_removes : forall l acc, K c0 x a acc -> In n (map s_name l) -> unplaced x (fold_left phase2_step l acc).
  Proof.
    induction l as [|s0 r IH]; intros acc HK Hin; [destruct Hin|]. cbn [fold_left map] in *.
    assert (HA : Acct acc) by (eapply Acct_psteps; [exact (proj1 HK)|exact HA0]).
    destruct (Z.eq_dec (s_name s0) n) as [E|Hne].
    - (* the server's own step *)
      destruct (K_server c0 x a n s H_mem acc HK) as (s2 & Hs2 & (Hn2 & Hst2 & _ & _ & _ & Hsince2 & _)).
      assert (H1 : unplaced x (phase2_step acc s0)).
      { unfold phase2_step. rewrite E, Hs2. rewrite (get_srv_name _ _ _ Hs2). apply inner_removes; [exact HK|].
        apply to_be_moved_spec. destruct HK as [Hp Hx]. split; [eapply (ac_placed _ HA); eassumption|].
        exists a. split; [exact Hx|]. destruct (psteps_static _ _ Hp) as (Hnow & _).
        destruct H_move as [[Hd He]|[Hf Hu]]; [left|right]; (split; [congruence|]); [|exact Hu].
        unfold expired in *. rewrite Hsince2, Hnow. exact He. }
      exact (fold_left_inv (unplaced x) _ r (stays_none_phase2 x) _ H1).
    - apply IH; [|destruct Hin as [E|Hin]; [congruence|exact Hin]].
      unfold phase2_step. destruct (get_srv (s_name s0) (c_servers acc)) as [s1|] eqn:E1; [|exact HK].
      apply (K_phase2_inner c0 x a H_app); [|exact HK]. intros Hin1. apply to_be_moved_spec in Hin1.
      destruct Hin1 as (Hl & _). destruct HK as [Hp Hx].
      destruct (ac_listed _ HA _ _ _ E1 Hl) as (b & Hb & Hsb). unfold app_of in Hx. rewrite Hx in Hb. inversion Hb; subst b.
      rewrite H_srv in Hsb. inversion Hsb. congruence.
  Qed.

  Theorem pre_phases_moves : exists a0, app_of (pre_phases c0) x = Some a0 /\ a_server a0 = None.
  Proof.
    unfold pre_phases.
    assert (H0 : K c0 x a c0) by (split; [apply ps_refl|exact H_app]).
    assert (H1 : K c0 x a (fix_invalid_placements c0))
      by exact (fold_left_inv _ phase1_step _ (K_phase1 c0 x a n s H_srv H_mem) c0 H0).
    set (c1 := fix_invalid_placements c0) in *.
    assert (HA1 : Acct c1) by (eapply Acct_psteps; [exact (proj1 H1)|exact HA0]).
    assert (HM1 : Mem c1) by apply phase1_mem.
    destruct (outer_removes (c_servers c1) c1 H1) as [_ (a2 & Ha2 & Hs2)].
    { destruct (K_server c0 x a n s H_mem c1 H1) as (s1 & Hs1 & _).
      rewrite <- (get_srv_name _ _ _ Hs1). apply in_map. eapply get_srv_In; exact Hs1. }
    change (fold_left phase2_step (c_servers c1) c1) with (handle_inactive_servers c1) in Ha2.
    destruct (at_phase2 c1 (conj HA1 HM1)) as [_ HAM2]. set (c2 := handle_inactive_servers c1) in *.
    destruct (at_phase3 c2 HAM2) as [T3 HAM3].
    destruct (none_stays _ _ x a2 T3 Ha2 Hs2) as (a3 & Ha3 & Hs3).
    destruct (at_phase4 _ HAM3) as [T4 _].
    exact (none_stays _ _ x a3 T4 Ha3 Hs3).
  Qed.
End Expire.

Theorem schedule_moves c ch x a n s :
  Acct c -> Ident c -> parts_wf c -> In x (part_apps (c_parts c)) -> app_of c x = Some a -> id_rec a ->
  a_server a = Some n -> get_srv n (c_servers c) = Some s ->
  (s_state s = Down /\ expired c (s_since s) a = true) \/ (s_state s = Frozen /\ a_unschedule a = true) ->
  exists a', app_of (fst (fst (schedule c ch))) x = Some a' /\ a_server a' <> Some n.
Proof.
  intros HA HI Hwf Hin Ha Hid Hsv Hs Hmove.
  destruct (pre_phases_moves c x a n s HA Ha Hsv Hs Hmove) as (a0 & Ha0 & Hs0).
  destruct (schedule_final_mid c ch HA HI Hwf x a Hin Ha Hid) as (a0' & a' & Ha0' & _ & Ha' & (_ & _ & _ & H4)).
  rewrite Ha0 in Ha0'. inversion Ha0'; subst a0'.
  exists a'. split; [exact Ha'|]. intros E. destruct (H4 n E) as (s1 & Hs1 & Hup & _); [rewrite Hs0; discriminate|].
  destruct (psteps_states_kept _ _ (pre_phases_ps c) _ _ Hs1) as (s2 & Hs2 & Est). rewrite Hs in Hs2. inversion Hs2; subst s2.
  destruct Hmove as [[Hd _]|[Hf _]]; congruence.
Qed.

(** ** a blacklisted instance ends every cycle without a server and without an identity *)
Lemma find_placements_skips c q ch x a :
  Acct c -> app_of c x = Some a -> a_blacklisted a = true -> a_server a = None ->
  app_of (find_placements c q ch) x = Some a.
Proof.
  intros HA Ha Hbl Hsv. unfold find_placements.
  set (Q := fun st => psteps c (l_cell st) /\ app_of (l_cell st) x = Some a).
  enough (H : Q (fold_left (place_one (rev q)) q (mkLoop c [] [] ch))) by apply H.
  apply fold_left_inv; [|split; [apply ps_refl|exact Ha]].
  intros st y [Hps Hx]. split; [eapply ps_trans; [exact Hps|apply place_one_ps]|].
  destruct (Z.eq_dec y x) as [->|Hne]; [rewrite (place_one_blacklisted (rev q) st x a Hx Hbl); exact Hx|].
  destruct (place_one_other (rev q) st y x (Acct_psteps _ _ Hps HA) (not_eq_sym Hne))
    as [[H1 _]|(_ & a0 & sn & s1 & Ha0 & Hsv0 & _)]; [rewrite H1; exact Hx|].
  rewrite Hx in Ha0. inversion Ha0; subst a0. congruence.
Qed.

Theorem schedule_blacklisted c ch x a :
  Acct c -> Ident c -> app_of c x = Some a -> a_blacklisted a = true ->
  exists a', app_of (fst (fst (schedule c ch))) x = Some a' /\ a_server a' = None /\ no_id a'.
Proof.
  intros HA HI Ha Hbl.
  destruct (pre_phases_spec c HA HI) as ((HA0 & _ & _) & Hat & Hps & Hblr).
  destruct (Hat x a Ha) as (a0 & Ha0 & (Hst & _ & _)).
  assert (Hbl0 : a_blacklisted a0 = true) by (pose proof (stat_bl _ _ Hst) as Hb; congruence).
  destruct (Hblr x a0 Ha0 Hbl0) as [Hsv0 Hno0]. rewrite schedule_fst.
  (* every partition's queue passes it over; only its rank may be rewritten *)
  destruct (sched_fold_inv ch (fun cc _ => psteps c cc /\ exists a1, app_of cc x = Some a1 /\ rank_eq a0 a1)) with
    (l := c_parts (pre_phases c)) (cc := pre_phases c) (qs := @nil (Z * list entry)) as [_ (a1 & Ha1 & (Hd & Hs & _))].
  - intros cc qs label top [Hp (a1 & Ha1 & Hr1)]. split; [eapply ps_trans; [exact Hp|apply schedule_alloc_ps]|].
    unfold schedule_alloc. cbn [fst]. set (q := partition_queue cc label top).
    destruct (record_ranks_spec q cc x a1 Ha1) as (a2 & Ha2 & Hr2).
    pose proof (rank_eq_trans _ _ _ Hr1 Hr2) as Hr02. pose proof Hr02 as (Hd & Hs & _).
    exists a2. split; [|exact Hr02].
    apply find_placements_skips; [exact (Acct_psteps _ _ (ps_trans _ _ _ Hp (record_ranks_ps cc q)) HA)|exact Ha2| |congruence].
    pose proof (stat_bl _ _ (dyn_stat _ _ Hd)) as Hb. congruence.
  - split; [exact Hps|]. exists a0. split; [exact Ha0|apply rank_eq_refl].
  - exists a1. split; [exact Ha1|]. split; [congruence|].
    exact (no_id_stat _ _ (dyn_stat _ _ Hd) (dyn_identity _ _ Hd) Hno0).
Qed.
