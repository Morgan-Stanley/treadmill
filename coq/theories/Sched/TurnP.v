(** Per-turn specification of the placement loop: what one iteration of _find_placements does to the placer itself
    and to every other instance. Basis of the cycle-level theorems of C03 (assignments), C05 (end of cycle) and C08.
    Everything rests on two statements: [pstep_shape], what one primitive transition can do to the cell, and
    [place_one_cases], the case analysis of one iteration; the four phases before the queue are folds of one step each. *)
From Coq Require Import ZArith QArith List Bool.
From RecordUpdate Require Import RecordSet.
From TM Require Import Sched.Vec Sched.Types Sched.Queue Sched.Tree Sched.Cycle Sched.Steps Sched.MapsP Sched.FrameP
                       Sched.InvAcct Sched.InvIdent Sched.MergeOrderP.
Import ListNotations.
Open Scope Z_scope.

Definition app_of (c : cell) (x : Z) : option app := get_app x (c_apps c).

(** the record of an instance after Server.remove *)
Definition removed (a : app) : app :=
  a <| a_server := None |> <| a_evicted := true |> <| a_unschedule := false |> <| a_expiry := None |>.

(** ** what stays of a record, of a server and of the cell inside a cycle *)
(* everything but the placement fields (server, expiry, evicted, unschedule, renew, rank) *)
Definition dyn_eq (a a' : app) : Prop :=
  a_name a' = a_name a /\ a_prio a' = a_prio a /\ a_demand a' = a_demand a /\ a_aff a' = a_aff a /\
  a_limits a' = a_limits a /\ a_traits a' = a_traits a /\ a_lease a' = a_lease a /\ a_drt a' = a_drt a /\
  a_group a' = a_group a /\ a_once a' = a_once a /\ a_order a' = a_order a /\ a_alloc a' = a_alloc a /\
  a_blacklisted a' = a_blacklisted a /\ a_identity a' = a_identity a.
(* the same, identity excepted *)
Definition stat_eq (a a' : app) : Prop :=
  a_name a' = a_name a /\ a_prio a' = a_prio a /\ a_demand a' = a_demand a /\ a_aff a' = a_aff a /\
  a_limits a' = a_limits a /\ a_traits a' = a_traits a /\ a_lease a' = a_lease a /\ a_drt a' = a_drt a /\
  a_group a' = a_group a /\ a_once a' = a_once a /\ a_order a' = a_order a /\ a_alloc a' = a_alloc a /\
  a_blacklisted a' = a_blacklisted a.

Lemma dyn_eq_refl a : dyn_eq a a. Proof. repeat split. Qed.
Lemma dyn_eq_trans a b c : dyn_eq a b -> dyn_eq b c -> dyn_eq a c.
Proof. unfold dyn_eq. intros H G. decompose [and] H. decompose [and] G. repeat split; etransitivity; eassumption. Qed.
Lemma dyn_stat a a' : dyn_eq a a' -> stat_eq a a'.
Proof. unfold dyn_eq, stat_eq. intros H. decompose [and] H. repeat split; assumption. Qed.
Lemma stat_group a a' : stat_eq a a' -> a_group a' = a_group a. Proof. intros H. apply H. Qed.
Lemma stat_bl a a' : stat_eq a a' -> a_blacklisted a' = a_blacklisted a. Proof. intros H. apply H. Qed.
Lemma stat_traits a a' : stat_eq a a' -> a_traits a' = a_traits a. Proof. intros H. apply H. Qed.
Lemma stat_lease a a' : stat_eq a a' -> a_lease a' = a_lease a. Proof. intros H. apply H. Qed.
Lemma stat_once a a' : stat_eq a a' -> a_once a' = a_once a. Proof. intros H. apply H. Qed.
Lemma stat_alloc a a' : stat_eq a a' -> a_alloc a' = a_alloc a. Proof. intros H. apply H. Qed.
Lemma dyn_identity a a' : dyn_eq a a' -> a_identity a' = a_identity a. Proof. intros H. apply H. Qed.
Lemma stat_eq_refl a : stat_eq a a. Proof. repeat split. Qed.
Lemma stat_eq_trans a b c : stat_eq a b -> stat_eq b c -> stat_eq a c.
Proof. unfold stat_eq. intros H G. decompose [and] H. decompose [and] G. repeat split; etransitivity; eassumption. Qed.
(* updates of one placement field, and of the identity. On a constructor the update computes once; on a variable
   each of the conjuncts would unfold the setter again *)
Lemma dyn_set_server a v : dyn_eq a (a <| a_server := v |>). Proof. destruct a. cbv. repeat split. Qed.
Lemma dyn_set_expiry a v : dyn_eq a (a <| a_expiry := v |>). Proof. destruct a. cbv. repeat split. Qed.
Lemma dyn_set_evicted a v : dyn_eq a (a <| a_evicted := v |>). Proof. destruct a. cbv. repeat split. Qed.
Lemma dyn_set_renew a v : dyn_eq a (a <| a_renew := v |>). Proof. destruct a. cbv. repeat split. Qed.
Lemma stat_set_identity a v : stat_eq a (a <| a_identity := v |>). Proof. destruct a. cbv. repeat split. Qed.
Lemma removed_dyn a : dyn_eq a (removed a).
Proof. repeat split. Qed.
(* a soft update rewrites placement fields other than the server *)
Lemma soft_dyn f : soft f -> forall z, dyn_eq z (f z) /\ a_server (f z) = a_server z.
Proof.
  intros Hf z. destruct (Hf z) as (F1 & F2 & F3 & F4 & F5 & F6 & F7 & F8 & F9 & F10 & F11 & F12 & F13 & F14 & F15).
  split; [repeat split; assumption|exact F13].
Qed.

(** the record of an instance after a successful Server.put *)
Definition placed_rec (c : cell) (a : app) (sn lease : Z) : app :=
  (match a_expiry a with
   | None => a <| a_expiry := Some (c_now c + lease) |>
   | Some _ => a
   end) <| a_server := Some sn |>.
Lemma placed_rec_dyn c a sn l : dyn_eq a (placed_rec c a sn l) /\ a_server (placed_rec c a sn l) = Some sn.
Proof.
  unfold placed_rec. split; [|reflexivity].
  destruct (a_expiry a); [apply dyn_set_server|eapply dyn_eq_trans; [apply dyn_set_expiry|apply dyn_set_server]].
Qed.

Definition srv_static (s s' : server) : Prop :=
  s_name s' = s_name s /\ s_state s' = s_state s /\ s_label s' = s_label s /\ s_traits s' = s_traits s /\
  s_valid_until s' = s_valid_until s /\ s_since s' = s_since s /\ s_cap s' = s_cap s.
Definition static_kept (c c' : cell) : Prop :=
  c_now c' = c_now c /\ c_parts c' = c_parts c /\ c_dim c' = c_dim c /\
  forall n s', get_srv n (c_servers c') = Some s' -> exists s, get_srv n (c_servers c) = Some s /\ srv_static s s'.
Definition states_kept (c c' : cell) : Prop :=
  forall n s', get_srv n (c_servers c') = Some s' -> exists s, get_srv n (c_servers c) = Some s /\ s_state s' = s_state s.

Lemma srv_static_refl s : srv_static s s. Proof. repeat split. Qed.
Lemma srv_static_touch s fr fa fc : srv_static s (s <| s_free := fr |> <| s_apps ::= fa |> <| s_counters ::= fc |>).
Proof. destruct s. cbv. repeat split. Qed.
Lemma static_kept_refl c : static_kept c c.
Proof. repeat split; auto. intros n s' H. exists s'. split; [exact H|apply srv_static_refl]. Qed.
Lemma static_kept_trans a b c : static_kept a b -> static_kept b c -> static_kept a c.
Proof.
  intros (H1 & H2 & H3 & H4) (G1 & G2 & G3 & G4). repeat split; try congruence.
  intros n s' Hg. destruct (G4 _ _ Hg) as (s1 & Hs1 & E1). destruct (H4 _ _ Hs1) as (s0 & Hs0 & E0).
  exists s0. split; [exact Hs0|]. unfold srv_static in *. decompose [and] E0. decompose [and] E1.
  repeat split; etransitivity; eassumption.
Qed.

(** every instance that names a server names a server of the cell *)
Definition Mem (c : cell) : Prop :=
  forall x a n, app_of c x = Some a -> a_server a = Some n -> exists s, get_srv n (c_servers c) = Some s.

(** ** lookups after an update by name *)
Lemma get_app_upd n f l k : (forall x, a_name (f x) = a_name x) ->
  get_app k (upd_app n f l) = if Z.eq_dec k n then option_map f (get_app k l) else get_app k l.
Proof.
  intros Hf. destruct (Z.eq_dec k n) as [->|Hne]; [|apply get_upd_app_other; assumption].
  destruct (get_app n l) as [a|] eqn:E; [apply get_upd_app_same; assumption|].
  rewrite get_upd_app_none; assumption.
Qed.
Lemma get_srv_upd n f l k : (forall x, s_name (f x) = s_name x) ->
  get_srv k (upd_srv n f l) = if Z.eq_dec k n then option_map f (get_srv k l) else get_srv k l.
Proof.
  intros Hf. destruct (Z.eq_dec k n) as [->|Hne]; [|apply get_upd_srv_other; assumption].
  destruct (get_srv n l) as [s|] eqn:E; [apply get_upd_srv_same; assumption|].
  rewrite (kupd_none s_name n f l E : upd_srv n f l = l). exact E.
Qed.
Lemma app_of_upd c n f x : (forall z, a_name (f z) = a_name z) ->
  app_of (c_upd_app n f c) x = if Z.eq_dec x n then option_map f (app_of c x) else app_of c x.
Proof. apply get_app_upd. Qed.
Lemma upd_app_other c y f x : (forall z, a_name (f z) = a_name z) -> x <> y -> app_of (c_upd_app y f c) x = app_of c x.
Proof. intros Hf Hne. rewrite app_of_upd by exact Hf. destruct (Z.eq_dec x y); [contradiction|reflexivity]. Qed.
Lemma upd_app_self c x f a : (forall z, a_name (f z) = a_name z) -> app_of c x = Some a ->
  app_of (c_upd_app x f c) x = Some (f a).
Proof. intros Hf Ha. rewrite app_of_upd by exact Hf. destruct (Z.eq_dec x x); [rewrite Ha; reflexivity|contradiction]. Qed.

(** ** effect of the primitives on one instance *)
Lemma app_of_sc c c' x : same_core c c' -> app_of c' x = app_of c x.
Proof. intros (_ & _ & _ & H4 & _). unfold app_of. rewrite H4. reflexivity. Qed.

Lemma srv_remove_app c sn v x : x <> v -> app_of (srv_remove c sn v) x = app_of c x.
Proof. intros H. destruct (srv_remove_frame c sn v) as [_ Hf]. apply Hf. exact H. Qed.

Lemma srv_remove_self c sn v s a :
  get_srv sn (c_servers c) = Some s -> app_of c v = Some a -> In v (s_apps s) ->
  app_of (srv_remove c sn v) v = Some (removed a).
Proof.
  intros Hs Ha Hin. unfold srv_remove. rewrite Hs. change (get_app v (c_apps c)) with (app_of c v). rewrite Ha.
  apply zmem_In in Hin. rewrite Hin. cbn [negb].
  rewrite (app_of_sc _ _ v (same_core_trans _ _ _ (bump_from_sc _ _ _ _) (adjust_up_from_sc _ _ _))).
  unfold prim_remove. exact (upd_app_self _ v removed a (fun z => eq_refl) Ha).
Qed.

Lemma srv_put_app c sn p c' x : srv_put c sn p = Some c' -> x <> p -> app_of c' x = app_of c x.
Proof. intros H Hne. destruct (srv_put_frame _ _ _ _ H) as [_ Hf]. apply Hf. exact Hne. Qed.

(* identities are handed out and taken back by rewriting one group (its size stays) and one field of one record *)
Lemma release_shape c y : release_identity c y = c \/
  exists g grp grp', aget g (c_groups c) = Some grp /\ g_count grp' = g_count grp /\
    release_identity c y = c_upd_app y (fun x => x <| a_identity := None |>) (c <| c_groups ::= aset g grp' |>).
Proof.
  unfold release_identity, group_of. destruct (get_app y (c_apps c)) as [a|]; [|left; reflexivity].
  destruct (a_group a) as [g|]; [|left; reflexivity]. destruct (aget g (c_groups c)) as [grp|] eqn:Eg; [|left; reflexivity].
  destruct (a_identity a) as [i|]; [|left; reflexivity]. right. exists g, grp.
  destruct (Z.ltb i (g_count grp)); eexists; (split; [exact Eg|split; [|reflexivity]]); reflexivity.
Qed.
Lemma acquire_shape c y ch : fst (acquire_identity c y ch) = c \/
  exists a g grp i, get_app y (c_apps c) = Some a /\ a_group a = Some g /\ aget g (c_groups c) = Some grp /\ In i (g_avail grp) /\
    fst (acquire_identity c y ch) =
    c_upd_app y (fun x => x <| a_identity := Some i |>)
              (c <| c_groups ::= aset g (mkGroup (g_count grp) (zremove i (g_avail grp))) |>).
Proof.
  unfold acquire_identity, group_of. destruct (get_app y (c_apps c)) as [a|]; [|left; reflexivity].
  destruct (a_group a) as [g|] eqn:Ega; [|left; reflexivity]. destruct (aget g (c_groups c)) as [grp|] eqn:Eg; [|left; reflexivity].
  destruct (a_identity a); [left; reflexivity|]. destruct (g_avail grp) as [|first rest] eqn:Eav; [left; reflexivity|].
  right. exists a, g, grp. eexists. split; [reflexivity|]. split; [exact Ega|]. split; [exact Eg|]. rewrite Eav.
  split; [|reflexivity].
  destruct ch as [ch0|]; [destruct (zmem ch0 (first :: rest)) eqn:Em|]; [apply zmem_In; exact Em|left; reflexivity..].
Qed.
Lemma aset_count g (grp grp0 : idgroup) m g1 : aget g m = Some grp0 -> g_count grp = g_count grp0 ->
  option_map g_count (aget g1 (aset g grp m)) = option_map g_count (aget g1 m).
Proof.
  intros H0 Hc. destruct (Z.eq_dec g1 g) as [->|Hne]; [rewrite ag_as_same, H0; cbn; congruence|].
  rewrite ag_as_other by exact Hne. reflexivity.
Qed.

Lemma release_servers c v : c_servers (release_identity c v) = c_servers c.
Proof. destruct (release_shape c v) as [->|(g & grp & grp' & _ & _ & ->)]; reflexivity. Qed.
Lemma release_app c y x : x <> y -> app_of (release_identity c y) x = app_of c x.
Proof.
  intros Hne. destruct (release_shape c y) as [->|(g & grp & grp' & _ & _ & ->)]; [reflexivity|].
  rewrite upd_app_other by auto. reflexivity.
Qed.
Lemma srv_restore_app c sn y ex x : x <> y -> app_of (fst (srv_restore c sn y ex)) x = app_of c x.
Proof.
  intros Hne. unfold srv_restore. destruct (get_app y (c_apps c)) as [a|]; [|reflexivity].
  destruct (srv_put_lease c sn y 0) as [c'|] eqn:E; cbn [fst]; rewrite upd_app_other by auto; [|reflexivity].
  destruct (srv_put_lease_frame _ _ _ _ _ E) as [_ Hf]. apply Hf. exact Hne.
Qed.
(** ** what a primitive transition can do
    At most one server record and one instance record are rewritten and group sizes stay. The static part of a
    rewritten record is kept; the server it names afterwards is its old one, none, or a server of the cell; the
    identity it holds afterwards is its old one, none, or one its group had on offer. *)
Definition rec_step (c : cell) (x : Z) (f : app -> app) : Prop :=
  (forall a, stat_eq a (f a) /\
             (a_server (f a) = a_server a \/ a_server (f a) = None \/
              exists n s, a_server (f a) = Some n /\ get_srv n (c_servers c) = Some s)) /\
  (forall a, get_app x (c_apps c) = Some a ->
             a_identity (f a) = a_identity a \/ a_identity (f a) = None \/
             exists g grp i, a_group a = Some g /\ aget g (c_groups c) = Some grp /\ In i (g_avail grp) /\
                             a_identity (f a) = Some i).

Lemma pstep_shape c c' : pstep c c' ->
  (c_now c' = c_now c /\ c_parts c' = c_parts c /\ c_dim c' = c_dim c) /\
  (c_servers c' = c_servers c \/
   exists n f, c_servers c' = upd_srv n f (c_servers c) /\ forall s, srv_static s (f s)) /\
  (forall g, option_map g_count (aget g (c_groups c')) = option_map g_count (aget g (c_groups c))) /\
  (c_apps c' = c_apps c \/ exists x f, c_apps c' = upd_app x f (c_apps c) /\ rec_step c x f).
Proof.
  intros Hs.
  destruct Hs as [c c' Hsc|c sn an s a l Hs Ha Hg|c sn an s a Hs Ha Hm|c an f Hf|c an a n Ha Hsv Hn|c an|c an ch
                 |c an a i g grp Ha Hi Hg Hge].
  - destruct Hsc as (H1 & _ & H3 & H4 & H5 & H6 & H7).
    split; [auto|]. split; [left; exact H3|]. split; [intros g; rewrite H6; reflexivity|left; exact H4].
  - split; [auto|]. split; [right; eexists _, _; split; [reflexivity|intros z; apply srv_static_touch]|]. split; [reflexivity|].
    right. exists an, (fun z => placed_rec c z sn l). split; [reflexivity|]. split; [intros z|intros z _; left; apply (dyn_identity _ _ (proj1 (placed_rec_dyn c z sn l)))].
    split; [exact (dyn_stat _ _ (proj1 (placed_rec_dyn c z sn l)))|]. right. right. exists sn, s.
    split; [exact (proj2 (placed_rec_dyn c z sn l))|exact Hs].
  - split; [auto|]. split; [right; eexists _, _; split; [reflexivity|intros z; apply srv_static_touch]|]. split; [reflexivity|].
    right. exists an, removed. split; [reflexivity|]. split; [intros z|intros z _; left; reflexivity].
    split; [exact (dyn_stat _ _ (removed_dyn z))|right; left; reflexivity].
  - split; [auto|]. split; [left; reflexivity|]. split; [reflexivity|]. right. exists an, f. split; [reflexivity|].
    split; [intros z; split; [exact (dyn_stat _ _ (proj1 (soft_dyn f Hf z)))|left; exact (proj2 (soft_dyn f Hf z))]|].
    intros z _. left. exact (dyn_identity _ _ (proj1 (soft_dyn f Hf z))).
  - split; [auto|]. split; [left; reflexivity|]. split; [reflexivity|]. right. eexists _, _. split; [reflexivity|].
    split; [intros z|intros z _; left; reflexivity].
    split; [exact (dyn_stat _ _ (dyn_eq_trans _ _ _ (dyn_set_server z None) (dyn_set_evicted _ true)))|right; left; reflexivity].
  - destruct (release_shape c an) as [->|(g & grp & grp' & Eg & Ec & ->)];
      [auto 7|].
    split; [auto|]. split; [left; reflexivity|]. split; [intros g1; apply (aset_count g grp' grp); assumption|].
    right. eexists _, _. split; [reflexivity|]. split; [intros z|intros z _; right; left; reflexivity].
    split; [apply stat_set_identity|left; reflexivity].
  - destruct (acquire_shape c an ch) as [->|(a & g & grp & j & Ea & Eg & Egr & Hin & ->)];
      [auto 7|].
    split; [auto|]. split; [left; reflexivity|]. split; [intros g1; apply (aset_count g _ grp); [exact Egr|reflexivity]|].
    right. eexists _, _. split; [reflexivity|]. split; [intros z; split; [apply stat_set_identity|left; reflexivity]|].
    intros z Ez. right. right. exists g, grp, j. replace z with a by congruence. auto.
  - split; [auto|]. split; [left; reflexivity|]. split; [reflexivity|]. right. eexists _, _. split; [reflexivity|].
    split; [intros z|intros z _; right; left; reflexivity]. split; [apply stat_set_identity|left; reflexivity].
Qed.

(** the static description of a server, and of the cell, does not change inside a cycle *)
Lemma pstep_static c c' : pstep c c' -> static_kept c c'.
Proof.
  intros Hs. destruct (pstep_shape _ _ Hs) as ((H1 & H2 & H3) & [E|(n & f & E & Hf)] & _); unfold static_kept; rewrite E;
    (split; [exact H1|split; [exact H2|split; [exact H3|]]]); intros k s' Hg.
  - exists s'. split; [exact Hg|apply srv_static_refl].
  - rewrite get_srv_upd in Hg by (intros x; apply (Hf x)). destruct (Z.eq_dec k n); [|exists s'; split; [exact Hg|apply srv_static_refl]].
    destruct (get_srv k (c_servers c)) as [s|]; [|discriminate]. inversion Hg. exists s. split; [reflexivity|apply Hf].
Qed.
Lemma psteps_static c c' : psteps c c' -> static_kept c c'.
Proof.
  induction 1; [apply pstep_static; assumption|apply static_kept_refl|eapply static_kept_trans; eassumption].
Qed.
Lemma psteps_states_kept c c' : psteps c c' -> states_kept c c'.
Proof.
  intros Hp n s' Hg. destruct (psteps_static _ _ Hp) as (_ & _ & _ & H). destruct (H _ _ Hg) as (s & Hs & St).
  exists s. split; [exact Hs|apply St].
Qed.

(** primitive transitions never create or drop records *)
Lemma pstep_names cA cB : pstep cA cB -> map a_name (c_apps cB) = map a_name (c_apps cA).
Proof.
  intros Hs. destruct (pstep_shape _ _ Hs) as (_ & _ & _ & [E|(x & f & E & Hf & _)]); rewrite E; [reflexivity|].
  apply upd_app_names. intros z. apply (Hf z).
Qed.
Lemma psteps_names cA cB : psteps cA cB -> map a_name (c_apps cB) = map a_name (c_apps cA).
Proof. induction 1 as [cA cB Hs|cA|cA cB cC H1 IH1 H2 IH2]; [apply pstep_names; exact Hs|reflexivity|congruence]. Qed.
Lemma names_none c c' x : map a_name (c_apps c') = map a_name (c_apps c) -> app_of c x = None -> app_of c' x = None.
Proof.
  intros Hn Hy. destruct (app_of c' x) as [b|] eqn:Eb; [|reflexivity]. exfalso.
  unfold app_of in Hy, Eb. apply get_app_none_notin in Hy. apply Hy. rewrite <- Hn.
  rewrite <- (get_app_name _ _ _ Eb). apply in_map. eapply get_app_In; exact Eb.
Qed.
Lemma psteps_none c c' x : psteps c c' -> app_of c x = None -> app_of c' x = None.
Proof. intros Hp. apply names_none. apply psteps_names. exact Hp. Qed.

Lemma pstep_srv_names c c' : pstep c c' -> map s_name (c_servers c') = map s_name (c_servers c).
Proof.
  intros Hs. destruct (pstep_shape _ _ Hs) as (_ & [E|(n & f & E & Hf)] & _); rewrite E; [reflexivity|].
  apply upd_srv_names. intros z. apply (Hf z).
Qed.
Lemma psteps_srv_names c c' : psteps c c' -> map s_name (c_servers c') = map s_name (c_servers c).
Proof. induction 1 as [c c' Hs|c|a b c' H1 IH1 H2 IH2]; [apply pstep_srv_names; exact Hs|reflexivity|congruence]. Qed.
Lemma psteps_srv_exists c c' n s : psteps c c' -> get_srv n (c_servers c) = Some s -> exists s', get_srv n (c_servers c') = Some s'.
Proof.
  intros Hp Hs. destruct (get_srv n (c_servers c')) as [s'|] eqn:E; [exists s'; reflexivity|]. exfalso.
  apply get_srv_none_notin in E. apply E. rewrite (psteps_srv_names _ _ Hp).
  rewrite <- (get_srv_name _ _ _ Hs). apply in_map. eapply get_srv_In; exact Hs.
Qed.

(** every record survives a primitive transition, with its static part *)
Lemma pstep_stat c c' : pstep c c' -> forall z a, app_of c z = Some a -> exists a', app_of c' z = Some a' /\ stat_eq a a'.
Proof.
  intros Hs z a Ha. unfold app_of. destruct (pstep_shape _ _ Hs) as (_ & _ & _ & [E|(x & f & E & Hf & _)]); rewrite E.
  - exists a. split; [exact Ha|apply stat_eq_refl].
  - rewrite get_app_upd by (intros y; apply (Hf y)). fold (app_of c z). rewrite Ha.
    destruct (Z.eq_dec z x); [exists (f a); split; [reflexivity|apply Hf]|exists a; split; [reflexivity|apply stat_eq_refl]].
Qed.
Lemma psteps_stat c c' : psteps c c' -> forall z a, app_of c z = Some a -> exists a', app_of c' z = Some a' /\ stat_eq a a'.
Proof.
  induction 1 as [c c' Hs|c|c1 c2 c3 H1 IH1 H2 IH2]; intros z a Ha.
  - eapply pstep_stat; eassumption.
  - exists a. split; [exact Ha|apply stat_eq_refl].
  - destruct (IH1 z a Ha) as (a1 & Ha1 & S1). destruct (IH2 z a1 Ha1) as (a2 & Ha2 & S2).
    exists a2. split; [exact Ha2|eapply stat_eq_trans; eassumption].
Qed.

Lemma srv_remove_cases c sn v a' : app_of (srv_remove c sn v) v = Some a' ->
  exists a, app_of c v = Some a /\ (a' = a \/ a' = removed a).
Proof.
  intros H. destruct (app_of c v) as [a|] eqn:Ea; [|rewrite (psteps_none _ _ v (srv_remove_ps c sn v) Ea) in H; discriminate].
  exists a. split; [reflexivity|]. destruct (get_srv sn (c_servers c)) as [s|] eqn:Es.
  - destruct (in_dec Z.eq_dec v (s_apps s)) as [Hin|Hni]; [right; rewrite (srv_remove_self _ _ _ _ _ Es Ea Hin) in H; congruence|].
    left. unfold srv_remove in H. rewrite Es in H. change (get_app v (c_apps c)) with (app_of c v) in H.
    apply zmem_false in Hni. rewrite Ea, Hni in H. cbn [negb] in H. congruence.
  - left. unfold srv_remove in H. rewrite Es in H. congruence.
Qed.

Lemma Mem_pstep c c' : pstep c c' -> Mem c -> Mem c'.
Proof.
  intros Hs HM x a' n Ha' Hsv'.
  assert (Hfwd : forall m, (exists s, get_srv m (c_servers c) = Some s) -> exists s', get_srv m (c_servers c') = Some s')
    by (intros m (s & Hm); exact (psteps_srv_exists _ _ _ _ (ps_one _ _ Hs) Hm)).
  apply Hfwd. unfold app_of in Ha'. destruct (pstep_shape _ _ Hs) as (_ & _ & _ & [E|(y & f & E & Hf & _)]); rewrite E in Ha'.
  - exact (HM x a' n Ha' Hsv').
  - rewrite get_app_upd in Ha' by (intros z; apply (Hf z)). destruct (Z.eq_dec x y) as [_|_]; [|exact (HM x a' n Ha' Hsv')].
    destruct (get_app x (c_apps c)) as [a|] eqn:Ea; [|discriminate]. inversion Ha'; subst a'.
    destruct (Hf a) as [_ [E1|[E1|(m & s & E1 & Hm)]]]; rewrite E1 in Hsv'; [exact (HM x a n Ea Hsv')|discriminate|].
    inversion Hsv'; subst m. exists s. exact Hm.
Qed.
Lemma Mem_psteps c c' : psteps c c' -> Mem c -> Mem c'.
Proof. induction 1; [apply Mem_pstep; assumption|tauto|tauto]. Qed.

(** ** the eviction scan, seen from one instance *)
Lemma evict_scan_spec victims placer : forall c ev x c' ev',
  Acct c -> x <> placer -> evict_scan victims placer c ev = (c', ev') ->
  (app_of c' x = app_of c x /\ aget x ev' = aget x ev) \/
  (In x (before_placer victims placer) /\
   exists a sn s, app_of c x = Some a /\ a_server a = Some sn /\ get_srv sn (c_servers c) = Some s /\ s_state s = Up /\
                  app_of c' x = Some (removed a) /\ aget x ev' = Some (sn, a_expiry a)).
Proof.
  induction victims as [|v r IH]; intros c ev x c' ev' HA Hxp; cbn [evict_scan before_placer];
    [intros E; injection E as <- <-; left; split; reflexivity|].
  destruct (Z.eqb_spec v placer) as [->|Hvp]; [intros E; injection E as <- <-; left; split; reflexivity|].
  assert (Hw : forall P Q, P \/ (In x (before_placer r placer) /\ Q) -> P \/ (In x (v :: before_placer r placer) /\ Q))
    by (intros P Q [H|[H1 H2]]; [left; exact H|right; split; [right; exact H1|exact H2]]).
  pose proof (fun E => Hw _ _ (IH c ev x c' ev' HA Hxp E)) as Hskip.
  destruct (get_app v (c_apps c)) as [va|] eqn:Eva; [|exact Hskip].
  destruct (a_server va) as [sn|] eqn:Esv; [|exact Hskip].
  destruct (get_srv sn (c_servers c)) as [s|] eqn:Es; [|exact Hskip].
  destruct (s_state s) eqn:Est; try exact Hskip. clear Hskip.
  (* v is evicted *)
  set (c1 := srv_remove c sn v). set (ev1 := aset v (sn, a_expiry va) ev).
  assert (HA1 : Acct c1) by (apply Acct_srv_remove; exact HA).
  assert (Hlisted : In v (s_apps s)) by (eapply (ac_placed _ HA); eassumption).
  intros E. destruct (Z.eq_dec x v) as [->|Hxv].
  - (* x is this victim: removed and remembered, whatever follows *)
    assert (Hx1 : app_of c1 v = Some (removed va)) by (eapply srv_remove_self; eassumption).
    assert (Hfin : app_of c' v = Some (removed va) /\ aget v ev' = Some (sn, a_expiry va)).
    { destruct (srv_put c1 sn placer) as [c2|] eqn:Ep.
      - injection E as <- <-. split; [rewrite (srv_put_app _ _ _ _ _ Ep Hxp); exact Hx1|apply ag_as_same].
      - destruct (IH _ _ v _ _ HA1 Hxp E) as [[H1 H2]|(_ & a' & sn' & s' & Ha' & Hsv' & _)].
        + split; [rewrite H1; exact Hx1|rewrite H2; apply ag_as_same].
        + rewrite Hx1 in Ha'. inversion Ha'; subst a'. discriminate Hsv'. }
    right. split; [left; reflexivity|]. exists va, sn, s. repeat split; try assumption; apply Hfin.
  - (* another instance is evicted *)
    assert (Hx1 : app_of c1 x = app_of c x) by (apply srv_remove_app; exact Hxv).
    assert (Hev1 : aget x ev1 = aget x ev) by (apply ag_as_other; exact Hxv).
    destruct (srv_put c1 sn placer) as [c2|] eqn:Ep.
    + injection E as <- <-. left. split; [rewrite (srv_put_app _ _ _ _ _ Ep Hxp); exact Hx1|exact Hev1].
    + destruct (IH _ _ x _ _ HA1 Hxp E) as [[H1 H2]|(Hin & a & sn' & s' & Ha & Hsv & Hs' & Hst & Hr1 & Hr2)].
      * left. split; congruence.
      * right. split; [right; exact Hin|]. rewrite Hx1 in Ha.
        destruct (srv_remove_state _ _ _ _ _ Hs') as (s0 & Hs0 & Hst0).
        exists a, sn', s0. repeat split; try assumption. congruence.
Qed.

(** ** one iteration of the loop: its stages, and its case analysis stated once *)
(* renewal of the lease: the cell afterwards, and (after a failed renewal) where to put the instance back *)
Definition renew_try (c : cell) (y : Z) (a : app) : cell * option (Z * option Z) :=
  if a_renew a then
    match a_server a with
    | Some n =>
        let '(cr, ok) := srv_renew c n y in
        if ok then (cr, None) else (srv_remove cr n y, Some (n, a_expiry a))
    | None => (c, None)
    end
  else (c, None).
(* restore of an eviction suffered earlier in this cycle: the cell, whether it worked, the evictions still remembered *)
Definition restore_try (c : cell) (y : Z) (ev : list (Z * (Z * option Z)))
  : cell * bool * list (Z * (Z * option Z)) :=
  match aget y ev with
  | Some (sn, ex) =>
      let '(cr, ok) := srv_restore c sn y ex in
      if ok then (c_upd_app y (fun x => x <| a_evicted := false |>) cr, true, adel y ev)
      else (cr, false, adel y ev)
  | None => (c, false, ev)
  end.
Definition is_placed (c : cell) (y : Z) : bool :=
  match get_app y (c_apps c) with
  | Some a => match a_server a with Some _ => true | None => false end
  | None => false
  end.

Lemma place_one_cases rq st y (Q : loopst -> Prop) :
  (app_of (l_cell st) y = None -> Q st) ->
  (forall a, app_of (l_cell st) y = Some a -> a_blacklisted a = true -> Q st) ->
  (forall a, app_of (l_cell st) y = Some a -> a_blacklisted a = false -> a_rank a = UNPLACED_RANK ->
     Q (match a_server a with
        | Some n => st <| l_cell := release_identity (srv_remove (l_cell st) n y) y |>
        | None => st <| l_cell := release_identity (l_cell st) y |>
        end)) ->
  (forall a c1 restore, app_of (l_cell st) y = Some a -> a_blacklisted a = false -> a_rank a <> UNPLACED_RANK ->
     renew_try (l_cell st) y a = (c1, restore) ->
     forall c2, c2 = c_upd_app y (fun x => x <| a_renew := false |>) c1 ->
     (app_of c2 y = None -> Q st) /\
     forall a2, app_of c2 y = Some a2 ->
       (a_server a2 <> None -> Q (st <| l_cell := c2 |>)) /\
       (a_server a2 = None -> forall c3 got, acquire_identity c2 y (aget y (l_choices st)) = (c3, got) ->
          (got = false -> Q (st <| l_cell := c3 |>)) /\
          (got = true -> forall c4 restored ev1, restore_try c3 y (l_evicted st) = (c4, restored, ev1) ->
             (restored = true -> Q (st <| l_cell := c4 |> <| l_evicted := ev1 |>)) /\
             (restored = false -> Q (place_tail rq st y c4 ev1 restore))))) ->
  Q (place_one rq st y).
Proof.
  intros H1 H2 H3 H4. unfold place_one. change (get_app y (c_apps (l_cell st))) with (app_of (l_cell st) y).
  (* the premises speak of the same lookups as the goal: only the goal is split, or every case would carry them along *)
  destruct (app_of (l_cell st) y) as [a|] eqn:Ea in |- *; [|exact (H1 Ea)].
  destruct (a_blacklisted a) eqn:Ebl; [exact (H2 a Ea Ebl)|].
  destruct (Z.eqb_spec (a_rank a) UNPLACED_RANK) as [Erk|Erk]; [exact (H3 a Ea Ebl Erk)|].
  fold (renew_try (l_cell st) y a). destruct (renew_try (l_cell st) y a) as [c1 restore] eqn:E1.
  specialize (H4 a c1 restore Ea Ebl Erk E1 _ eq_refl).
  set (c2 := c_upd_app y _ c1) in *. change (get_app y (c_apps c2)) with (app_of c2 y).
  destruct (app_of c2 y) as [a2|] eqn:E2 in |- *; [|exact (proj1 H4 E2)]. destruct (proj2 H4 a2 E2) as [G3 G4].
  destruct (a_server a2) as [n|]; [apply G3; discriminate|].
  destruct (acquire_identity c2 y (aget y (l_choices st))) as [c3 got] eqn:E3 in |- *.
  destruct (G4 eq_refl c3 got E3) as [G5 G6]. destruct got; cbn [negb]; [|exact (G5 eq_refl)].
  fold (restore_try c3 y (l_evicted st)). destruct (restore_try c3 y (l_evicted st)) as [[c4 restored] ev1] eqn:E4 in |- *.
  destruct (G6 eq_refl c4 restored ev1 E4) as [G7 G8]. destruct restored; [exact (G7 eq_refl)|exact (G8 eq_refl)].
Qed.

(** primitive transitions that leave every record but that of [y] alone *)
Definition only (y : Z) (c c' : cell) : Prop := psteps c c' /\ forall x, x <> y -> app_of c' x = app_of c x.

Lemma only_refl y c : only y c c.
Proof. split; [apply ps_refl|reflexivity]. Qed.
Lemma only_trans y a b c : only y a b -> only y b c -> only y a c.
Proof. intros [P1 F1] [P2 F2]. split; [eapply ps_trans; eassumption|]. intros x Hx. rewrite F2, F1; auto. Qed.
Lemma only_upd y f c : soft f -> only y c (c_upd_app y f c).
Proof. intros Hf. split; [apply ps_one, PS_soft, Hf|]. intros x Hx. apply upd_app_other; [intros z; apply (Hf z)|exact Hx]. Qed.
Lemma only_release y c : only y c (release_identity c y).
Proof. split; [apply ps_one, PS_release|intros x; apply release_app]. Qed.
Lemma only_acquire y c ch : only y c (fst (acquire_identity c y ch)).
Proof.
  split; [apply ps_one, PS_acquire|]. intros x Hne.
  destruct (acquire_shape c y ch) as [->|(a & g & grp & i & _ & _ & _ & _ & ->)]; [reflexivity|].
  rewrite upd_app_other by auto. reflexivity.
Qed.
Lemma only_remove y c n : only y c (srv_remove c n y).
Proof. split; [apply srv_remove_ps|intros x; apply srv_remove_app]. Qed.
Lemma only_renew y c n : only y c (fst (srv_renew c n y)).
Proof.
  split; [apply srv_renew_ps|]. intros x Hne. unfold srv_renew. destruct (get_srv n (c_servers c)); [|reflexivity].
  destruct (get_app y (c_apps c)) as [a|]; [|reflexivity]. destruct (check_lifetime c a (a_lease a) s); [|reflexivity].
  apply upd_app_other; auto.
Qed.
Lemma only_restore y c n ex : only y c (fst (srv_restore c n y ex)).
Proof. split; [apply srv_restore_ps|intros x; apply srv_restore_app]. Qed.
Lemma only_put y c : only y c (fst (cell_put c y)).
Proof. split; [apply cell_put_ps|intros x; apply bucket_put_others]. Qed.

Lemma renew_try_only c y a : only y c (fst (renew_try c y a)).
Proof.
  unfold renew_try. destruct (a_renew a); [|apply only_refl]. destruct (a_server a) as [n|]; [|apply only_refl].
  pose proof (only_renew y c n) as H. destruct (srv_renew c n y) as [cr ok]. destruct ok; [exact H|].
  eapply only_trans; [exact H|apply only_remove].
Qed.
Lemma restore_try_only c y ev :
  only y c (fst (fst (restore_try c y ev))) /\ forall x, x <> y -> aget x (snd (restore_try c y ev)) = aget x ev.
Proof.
  unfold restore_try. destruct (aget y ev) as [[sn ex]|]; [|split; [apply only_refl|reflexivity]].
  pose proof (only_restore y c sn ex) as H. destruct (srv_restore c sn y ex) as [cr ok].
  destruct ok; cbn [fst snd]; (split; [|intros x Hx; apply ag_adel_other; exact Hx]); [|exact H].
  eapply only_trans; [exact H|apply only_upd, soft_evicted].
Qed.

(** the tail of an iteration touches other records in the eviction scan only *)
Lemma place_tail_shape rq st y c4 ev1 restore (Q : loopst -> Prop) :
  Q st ->
  (forall c5 c6 st', only y c4 c5 -> only y c6 (l_cell st') ->
     (c6, l_evicted st') = (c5, ev1) \/ (c6, l_evicted st') = evict_scan rq y c5 ev1 -> Q st') ->
  Q (place_tail rq st y c4 ev1 restore).
Proof.
  intros H0 H. unfold place_tail. destruct (get_app y (c_apps c4)) as [a4|]; [|exact H0].
  pose proof (H c4 c4 (st <| l_cell := release_identity c4 y |> <| l_evicted := ev1 |>) (only_refl y c4) (only_release y c4)
                (or_introl eq_refl)) as Hrel.
  destruct (a_once a4 && a_evicted a4); [exact Hrel|]. destruct (negb (tr_feasible (l_tracker st) a4)); [exact Hrel|].
  clear Hrel. pose proof (only_put y c4) as O5. destruct (cell_put c4 y) as [c5 ok]. cbn [fst] in O5.
  destruct (if ok then (c5, ev1) else evict_scan rq y c5 ev1) as [c6 ev2] eqn:Er.
  assert (Hr : (c6, ev2) = (c5, ev1) \/ (c6, ev2) = evict_scan rq y c5 ev1) by (destruct ok; [left|right]; symmetry; exact Er).
  specialize (fun st' O6 => H c5 c6 st' O5 O6). fold (is_placed c6 y).
  destruct (is_placed c6 y); [apply H; [exact (only_refl y c6)|exact Hr]|].
  destruct restore as [[n ex]|]; [|apply H; [exact (only_release y c6)|exact Hr]].
  pose proof (only_restore y c6 n ex) as O7. destruct (srv_restore c6 n y ex) as [c7 ok7]. cbn [fst] in O7.
  destruct ok7; (apply H; [|exact Hr]); [exact (only_trans _ _ _ _ O7 (only_upd y _ _ (soft_renew true)))|].
  exact (only_trans _ _ _ _ O7 (only_release y c7)).
Qed.

(** ** one iteration of the loop, seen from another instance *)
Definition other_unchanged (x : Z) (st st' : loopst) : Prop :=
  app_of (l_cell st') x = app_of (l_cell st) x /\ aget x (l_evicted st') = aget x (l_evicted st).
Definition other_evicted (rq : list Z) (y x : Z) (st st' : loopst) : Prop :=
  In x (before_placer rq y) /\
  exists a sn s, app_of (l_cell st) x = Some a /\ a_server a = Some sn /\
                 get_srv sn (c_servers (l_cell st)) = Some s /\ s_state s = Up /\
                 app_of (l_cell st') x = Some (removed a) /\ aget x (l_evicted st') = Some (sn, a_expiry a).

Lemma place_tail_other rq st y x c4 ev1 restore :
  Acct (l_cell st) -> x <> y -> only y (l_cell st) c4 -> aget x ev1 = aget x (l_evicted st) ->
  other_unchanged x st (place_tail rq st y c4 ev1 restore) \/ other_evicted rq y x st (place_tail rq st y c4 ev1 restore).
Proof.
  intros HA Hxy O4 Hev. pattern (place_tail rq st y c4 ev1 restore). apply place_tail_shape; [left; split; reflexivity|].
  intros c5 c6 st' O5 [_ F6] Hr.
  destruct (only_trans _ _ _ _ O4 O5) as [P5 F5]. unfold other_unchanged, other_evicted. rewrite (F6 x Hxy).
  destruct Hr as [Hr|Hr].
  - injection Hr as -> ->. left. split; [apply F5, Hxy|exact Hev].
  - destruct (evict_scan_spec rq y c5 ev1 x _ _ (Acct_psteps _ _ P5 HA) Hxy (eq_sym Hr))
      as [[H1 H2]|(Hin & a0 & sn & s5 & Ha0 & Hsv0 & Hs5 & Hst5 & Hr1 & Hr2)].
    + left. split; [rewrite H1; apply F5, Hxy|rewrite H2; exact Hev].
    + right. split; [exact Hin|]. rewrite (F5 x Hxy) in Ha0.
      destruct (psteps_states_kept _ _ P5 _ _ Hs5) as (s0 & Hs0 & Est).
      exists a0, sn, s0. repeat split; try assumption. congruence.
Qed.

Theorem place_one_other rq st y x : Acct (l_cell st) -> x <> y ->
  other_unchanged x st (place_one rq st y) \/ other_evicted rq y x st (place_one rq st y).
Proof.
  intros HA Hxy.
  assert (Hkeep : forall st', only y (l_cell st) (l_cell st') -> aget x (l_evicted st') = aget x (l_evicted st) ->
            other_unchanged x st st' \/ other_evicted rq y x st st')
    by (intros st' [_ F] E; left; split; [apply F, Hxy|exact E]).
  pattern (place_one rq st y). apply place_one_cases.
  - intros _. apply Hkeep; [apply only_refl|reflexivity].
  - intros a _ _. apply Hkeep; [apply only_refl|reflexivity].
  - intros a _ _ _. destruct (a_server a); (apply Hkeep; [cbn [l_cell set]|reflexivity]);
      [eapply only_trans; [apply only_remove|apply only_release]|apply only_release].
  - intros a c1 restore _ _ _ E1 c2 ->.
    pose proof (renew_try_only (l_cell st) y a) as O2. rewrite E1 in O2. cbn [fst] in O2.
    apply (fun H => only_trans _ _ _ _ H (only_upd y _ _ (soft_renew false))) in O2.
    split; [intros _; apply Hkeep; [apply only_refl|reflexivity]|]. intros a2 _.
    split; [intros _; apply Hkeep; [exact O2|reflexivity]|]. intros _ c3 got E3.
    pose proof (only_trans _ _ _ _ O2 (only_acquire y _ (aget y (l_choices st)))) as O3. rewrite E3 in O3.
    split; [intros _; apply Hkeep; [exact O3|reflexivity]|]. intros _ c4 restored ev1 E4.
    destruct (restore_try_only c3 y (l_evicted st)) as [O4 Hev]. rewrite E4 in O4, Hev.
    apply (only_trans _ _ _ _ O3) in O4. specialize (Hev x Hxy).
    split; intros _; [apply Hkeep; assumption|apply place_tail_other; assumption].
Qed.

(** ** what a successful Server.put does to the placer *)
Lemma srv_put_lease_self c sn x l c' :
  srv_put_lease c sn x l = Some c' ->
  exists s a, get_srv sn (c_servers c) = Some s /\ app_of c x = Some a /\ put_guard c s a l = true /\
              app_of c' x = Some (placed_rec c a sn l).
Proof.
  unfold srv_put_lease. destruct (get_srv sn (c_servers c)) as [s|] eqn:Es; [|discriminate].
  change (get_app x (c_apps c)) with (app_of c x). destruct (app_of c x) as [a|] eqn:Ea; [|discriminate].
  destruct (put_guard c s a l) eqn:Eg; [|discriminate]. intros H; inversion H; subst; clear H.
  exists s, a. repeat split; try assumption.
  rewrite (app_of_sc _ _ x (same_core_trans _ _ _ (bump_from_sc _ _ _ _) (adjust_down_from_sc _ _ _))).
  unfold prim_put. apply (upd_app_self _ x (fun z => placed_rec c z sn l) a); [|exact Ea].
  intros z. unfold placed_rec. destruct (a_expiry z); reflexivity.
Qed.

Lemma srv_put_self c sn x c' :
  srv_put c sn x = Some c' ->
  exists s a, get_srv sn (c_servers c) = Some s /\ app_of c x = Some a /\ put_guard c s a (a_lease a) = true /\
              app_of c' x = Some (placed_rec c a sn (a_lease a)).
Proof.
  unfold srv_put. destruct (get_app x (c_apps c)) as [a0|] eqn:E0; [|discriminate]. intros H.
  destruct (srv_put_lease_self _ _ _ _ _ H) as (s & a & Hs & Ha & Hg & Hr).
  unfold app_of in Ha. rewrite E0 in Ha. inversion Ha; subst a0. exists s, a. auto.
Qed.

(** ** outcome of a fresh placement attempt (Bucket.put from the top) *)
Definition attempt_spec (x : Z) (c c' : cell) (ok : bool) : Prop :=
  if ok then exists c1 n s, same_core c c1 /\ get_srv n (c_servers c1) = Some s /\ s_state s = Up /\
                            srv_put c1 n x = Some c'
  else same_core c c'.

Lemma attempt_spec_sc x c0 c c' ok : same_core c0 c -> attempt_spec x c c' ok -> attempt_spec x c0 c' ok.
Proof.
  intros H0 H. unfold attempt_spec in *. destruct ok.
  - destruct H as (c1 & n & s & H1 & H2 & H3 & H4). exists c1, n, s.
    split; [eapply same_core_trans; eassumption|]. split; [exact H2|]. split; [exact H3|exact H4].
  - eapply same_core_trans; eassumption.
Qed.

Theorem bucket_put_result fuel : forall c b x,
  attempt_spec x c (fst (bucket_put fuel c b x)) (snd (bucket_put fuel c b x)).
Proof.
  intros c b x. apply (bucket_put_walk (attempt_spec x)).
  - intros c0 c' H. exact H.
  - intros a0 b0 c0 ok. apply attempt_spec_sc.
  - intros a0 b0 c0 ok. apply attempt_spec_sc.
  - intros c0 n s c' Es Est Ep. exists c0, n, s. auto using same_core_refl.
Qed.

(** ** the eviction scan, seen from the placer: nothing happens to it, or a guarded put on an up server *)
Theorem evict_scan_placer victims x a : forall c ev, app_of c x = Some a ->
  app_of (fst (evict_scan victims x c ev)) x = Some a \/
  exists c1 n s a', psteps c c1 /\ get_srv n (c_servers c1) = Some s /\ s_state s = Up /\
                    put_guard c1 s a (a_lease a) = true /\
                    app_of (fst (evict_scan victims x c ev)) x = Some a' /\ dyn_eq a a' /\ a_server a' = Some n.
Proof.
  induction victims as [|v r IH]; intros c ev Ha; cbn [evict_scan]; [left; exact Ha|].
  destruct (Z.eqb_spec v x) as [->|Hvx]; [left; exact Ha|].
  destruct (get_app v (c_apps c)) as [va|]; [|apply IH; exact Ha].
  destruct (a_server va) as [sn|]; [|apply IH; exact Ha].
  destruct (get_srv sn (c_servers c)) as [s|] eqn:Es; [|apply IH; exact Ha].
  destruct (s_state s) eqn:Est; try (apply IH; exact Ha).
  set (c1 := srv_remove c sn v).
  assert (Ha1 : app_of c1 x = Some a) by (unfold c1; rewrite srv_remove_app by congruence; exact Ha).
  destruct (srv_put c1 sn x) as [c2|] eqn:Ep.
  - cbn [fst]. right. destruct (srv_put_self _ _ _ _ Ep) as (s1 & a1 & Hs1 & Ha1' & Hg & Hr).
    rewrite Ha1 in Ha1'. inversion Ha1'; subst a1.
    (* the server is still up after the removal *)
    destruct (srv_remove_state _ _ _ _ _ Hs1) as (s0 & Hs0 & Hst0). rewrite Es in Hs0. inversion Hs0; subst s0.
    exists c1, sn, s1, (placed_rec c1 a sn (a_lease a)). split; [apply srv_remove_ps|]. split; [exact Hs1|].
    split; [congruence|]. split; [exact Hg|]. split; [exact Hr|apply placed_rec_dyn].
  - destruct (IH c1 (aset v (sn, a_expiry va) ev) Ha1) as [H|(c3 & n3 & s3 & a3 & Hp3 & H)]; [left; exact H|].
    right. exists c3, n3, s3, a3. split; [eapply ps_trans; [apply srv_remove_ps|exact Hp3]|exact H].
Qed.

(** ** the placer's own record through its turn *)
Lemma release_self c x a : app_of c x = Some a ->
  exists a', app_of (release_identity c x) x = Some a' /\ stat_eq a a' /\ a_server a' = a_server a /\
             (a_identity a' = None \/ (group_of c a = None /\ a_identity a' = a_identity a)).
Proof.
  intros Ha. unfold release_identity. unfold app_of in Ha. rewrite Ha.
  destruct (group_of c a) as [[g grp]|] eqn:Eg.
  - destruct (a_identity a) as [i|] eqn:Ei.
    + exists (a <| a_identity := None |>). split; [|split; [apply stat_set_identity|split; [reflexivity|left; reflexivity]]].
      unfold app_of. cbn [c_upd_app c_apps set]. apply get_upd_app_same; [reflexivity|exact Ha].
    + exists a. split; [exact Ha|]. split; [apply stat_eq_refl|]. split; [reflexivity|left; exact Ei].
  - exists a. split; [exact Ha|]. split; [apply stat_eq_refl|]. split; [reflexivity|right; split; reflexivity].
Qed.

Lemma acquire_self c x ch a : app_of c x = Some a ->
  let r := acquire_identity c x ch in
  (snd r = false /\ fst r = c /\ a_identity a = None /\ group_of c a <> None) \/
  (snd r = true /\ exists a', app_of (fst r) x = Some a' /\ stat_eq a a' /\ a_server a' = a_server a /\
                              a_expiry a' = a_expiry a /\ a_evicted a' = a_evicted a /\
                              (group_of c a = None \/ a_identity a' <> None)).
Proof.
  intros Ha. unfold acquire_identity. unfold app_of in Ha. rewrite Ha.
  destruct (group_of c a) as [[g grp]|] eqn:Eg.
  - destruct (a_identity a) as [i|] eqn:Ei.
    + right. cbn [fst snd]. split; [reflexivity|]. exists a. split; [exact Ha|]. split; [apply stat_eq_refl|].
      repeat split. right. congruence.
    + destruct (g_avail grp) as [|first rest].
      * left. cbn [fst snd]. repeat split; congruence.
      * right. cbn [fst snd]. split; [reflexivity|].
        set (i := match ch with Some ch0 => if zmem ch0 (first :: rest) then ch0 else first | None => first end).
        exists (a <| a_identity := Some i |>). split.
        -- unfold app_of. cbn [c_upd_app c_apps set]. apply get_upd_app_same; [reflexivity|exact Ha].
        -- split; [apply stat_set_identity|]. repeat split. right. cbn. discriminate.
  - right. cbn [fst snd]. split; [reflexivity|]. exists a. split; [exact Ha|]. split; [apply stat_eq_refl|].
    repeat split. left. reflexivity.
Qed.

Lemma srv_restore_self c sn x ex a : app_of c x = Some a ->
  let r := srv_restore c sn x ex in
  exists a', app_of (fst r) x = Some a' /\ dyn_eq a a' /\
             (if snd r then a_server a' = Some sn else a_server a' = a_server a).
Proof.
  intros Ha. unfold srv_restore. unfold app_of in Ha. rewrite Ha.
  destruct (srv_put_lease c sn x 0) as [c'|] eqn:E; cbn [fst snd].
  - destruct (srv_put_lease_self _ _ _ _ _ E) as (s & a0 & Hs & Ha0 & Hg & Hr).
    unfold app_of in Ha0. rewrite Ha in Ha0. inversion Ha0; subst a0.
    eexists. split; [apply upd_app_self; [reflexivity|exact Hr]|].
    destruct (placed_rec_dyn c a sn 0) as [Hd Hsv]. split; [|exact Hsv].
    eapply dyn_eq_trans; [exact Hd|apply dyn_set_expiry].
  - eexists. split; [apply upd_app_self; [reflexivity|exact Ha]|]. split; [apply dyn_set_expiry|reflexivity].
Qed.

Lemma attempt_self x c c' ok a : attempt_spec x c c' ok -> app_of c x = Some a ->
  if ok then exists c1 n s a', same_core c c1 /\ get_srv n (c_servers c1) = Some s /\ s_state s = Up /\
                               put_guard c1 s a (a_lease a) = true /\
                               app_of c' x = Some a' /\ dyn_eq a a' /\ a_server a' = Some n
  else app_of c' x = Some a.
Proof.
  intros H Ha. unfold attempt_spec in H. destruct ok.
  - destruct H as (c1 & n & s & Hsc & Hs & Hst & Hput).
    destruct (srv_put_self _ _ _ _ Hput) as (s1 & a1 & Hs1 & Ha1 & Hg & Hr).
    rewrite (app_of_sc _ _ _ Hsc), Ha in Ha1. inversion Ha1; subst a1. rewrite Hs in Hs1. inversion Hs1; subst s1.
    destruct (placed_rec_dyn c1 a n (a_lease a)) as [Hd Hsv].
    exists c1, n, s, (placed_rec c1 a n (a_lease a)).
    split; [exact Hsc|]. split; [exact Hs|]. split; [exact Hst|]. split; [exact Hg|]. split; [exact Hr|]. split; [exact Hd|exact Hsv].
  - rewrite (app_of_sc _ _ _ H). exact Ha.
Qed.

(** ** what a new placement guarantees, stated on the state at the start of the turn *)
Definition guard_facts (c : cell) (s : server) (a : app) : Prop :=
  (forall l, app_label a = Some l -> l = s_label s) /\
  (app_traits c a = 0 \/ has_traits (s_traits s) (app_traits c a) = true) /\
  (a_lease a = 0 \/ c_now c + a_lease a < s_valid_until s).

Lemma app_traits_static c c' a a' : c_parts c' = c_parts c -> stat_eq a a' -> app_traits c' a' = app_traits c a.
Proof.
  intros Hp Hs. unfold app_traits, app_alloc. rewrite (stat_alloc _ _ Hs), (stat_traits _ _ Hs), Hp. reflexivity.
Qed.

Lemma guard_facts_back c st_c s a a1 n :
  static_kept c st_c -> get_srv n (c_servers st_c) = Some s -> s_state s = Up -> stat_eq a a1 -> guard_facts st_c s a1 ->
  exists s0, get_srv n (c_servers c) = Some s0 /\ s_state s0 = Up /\ guard_facts c s0 a.
Proof.
  intros (Hnow & Hparts & _ & Hsrv) Hg Hup Hs (G1 & G2 & G3).
  destruct (Hsrv _ _ Hg) as (s0 & Hs0 & (Hn & Hstt & Hlab & Htr & Hvu & _)).
  exists s0. split; [exact Hs0|]. split; [congruence|].
  pose proof (app_traits_static c st_c a a1 Hparts Hs) as Et.
  repeat split.
  - intros lb Hlb. rewrite <- Hlab. apply G1. unfold app_label in *. rewrite (stat_alloc _ _ Hs). exact Hlb.
  - rewrite <- Et, <- Htr. exact G2.
  - rewrite <- (stat_lease _ _ Hs), <- Hnow, <- Hvu. exact G3.
Qed.

Definition has_id (a : app) : Prop := a_group a = None \/ a_identity a <> None.
Definition no_id (a : app) : Prop := a_group a = None \/ a_identity a = None.

Lemma group_none_iff c a n : Ident c -> app_of c n = Some a -> (group_of c a = None <-> a_group a = None).
Proof.
  intros HI Ha. unfold group_of. destruct (a_group a) as [g|] eqn:Eg; [|tauto].
  destruct (id_group_exists _ HI _ _ _ Ha Eg) as (grp & Hgrp). rewrite Hgrp. split; discriminate.
Qed.

(** the five ways an instance can come out of its own turn *)
Definition own_result (st : loopst) (x : Z) (a a' : app) : Prop :=
  stat_eq a a' /\
  ( (a_server a' = a_server a /\ a_identity a' = a_identity a /\ (a_blacklisted a = true \/ a_server a <> None))
  \/ (a_server a' = None /\ no_id a')
  \/ (exists sn ex, aget x (l_evicted st) = Some (sn, ex) /\ a_server a' = Some sn /\ has_id a')
  \/ (exists n s, a_server a' = Some n /\
                  get_srv n (c_servers (l_cell st)) = Some s /\ s_state s = Up /\
                  guard_facts (l_cell st) s a /\ has_id a')
  \/ (a_server a' = a_server a /\ a_server a <> None /\ a_renew a = true /\ has_id a') ).

Lemma no_id_stat a a' : stat_eq a a' -> a_identity a' = a_identity a -> no_id a -> no_id a'.
Proof. intros Hs Hi [H|H]; [left; rewrite (stat_group _ _ Hs)|right; rewrite Hi]; exact H. Qed.
Lemma has_id_stat a a' : stat_eq a a' -> a_identity a' = a_identity a -> has_id a -> has_id a'.
Proof. intros Hs Hi [H|H]; [left; rewrite (stat_group _ _ Hs)|right; rewrite Hi]; exact H. Qed.
Lemma has_id_dyn a a' : dyn_eq a a' -> has_id a -> has_id a'.
Proof. intros Hd. exact (has_id_stat _ _ (dyn_stat _ _ Hd) (dyn_identity _ _ Hd)). Qed.

(** the record of [x] followed from [c0]: reached by primitive transitions, static part as in [a] *)
Record tracked (c0 : cell) (x : Z) (a : app) (c : cell) (b : app) : Prop := {
  tr_steps : psteps c0 c;
  tr_ident : Ident c;
  tr_app : app_of c x = Some b;
  tr_stat : stat_eq a b
}.

Lemma tracked_step c0 x a c b c' b' :
  tracked c0 x a c b -> psteps c c' -> app_of c' x = Some b' -> stat_eq b b' -> tracked c0 x a c' b'.
Proof.
  intros [P I A S] Hp Hb Hs.
  constructor; [eapply ps_trans; eassumption|eapply Ident_psteps; eassumption|exact Hb|eapply stat_eq_trans; eassumption].
Qed.

(** giving up: the identity goes back *)
Lemma released_own c0 x a c b : tracked c0 x a c b -> a_server b = None ->
  exists a', app_of (release_identity c x) x = Some a' /\ stat_eq a a' /\ a_server a' = None /\ no_id a'.
Proof.
  intros [P I A S] Hsv. destruct (release_self _ _ _ A) as (a' & Ha' & Hs' & Hsv' & Hid').
  exists a'. split; [exact Ha'|]. split; [eapply stat_eq_trans; eassumption|]. split; [congruence|].
  destruct Hid' as [Hn|[Hg Hn]]; [right; exact Hn|]. left.
  rewrite (stat_group _ _ Hs').
  apply (proj1 (group_none_iff _ _ _ I A)). exact Hg.
Qed.

Lemma released_result st x a c b : tracked (l_cell st) x a c b -> a_server b = None ->
  exists a', app_of (release_identity c x) x = Some a' /\ own_result st x a a'.
Proof.
  intros T Hb. destruct (released_own _ _ _ _ _ T Hb) as (a' & H1 & H2 & H3).
  exists a'. split; [exact H1|]. split; [exact H2|right; left; exact H3].
Qed.

(** the tail of the turn of a pending instance that holds an identity (or needs none): it gives up, finds a new
    server, or goes back to the server of its failed renewal *)
Lemma place_tail_own rq st x a c4 a4 ev1 restore :
  tracked (l_cell st) x a c4 a4 -> a_server a4 = None -> has_id a4 ->
  (forall n ex, restore = Some (n, ex) -> a_server a = Some n /\ a_renew a = true) ->
  exists a', app_of (l_cell (place_tail rq st x c4 ev1 restore)) x = Some a' /\ own_result st x a a'.
Proof.
  intros T Hsv4 Hhas4 Hres. pose proof T as [Hp4 HI4 Ha4 Hst4].
  unfold place_tail. change (get_app x (c_apps c4)) with (app_of c4 x). rewrite Ha4.
  destruct (a_once a4 && a_evicted a4); [exact (released_result _ _ _ _ _ T Hsv4)|].
  destruct (negb (tr_feasible (l_tracker st) a4)); [exact (released_result _ _ _ _ _ T Hsv4)|].
  (* a placement found somewhere, by a guarded put on an up server reached from the start of the turn *)
  assert (Hplaced : forall cput n s1 a5,
            psteps (l_cell st) cput -> get_srv n (c_servers cput) = Some s1 -> s_state s1 = Up ->
            put_guard cput s1 a4 (a_lease a4) = true -> dyn_eq a4 a5 -> a_server a5 = Some n ->
            own_result st x a a5).
  { intros cput n s1 a5 Hpp Hs1 Hup Hg Hd5 Hsv5.
    split; [eapply stat_eq_trans; [exact Hst4|apply dyn_stat; exact Hd5]|]. right. right. right. left.
    destruct (put_guard_spec _ _ _ _ Hg) as (G1 & G2 & G3 & _).
    destruct (guard_facts_back (l_cell st) cput s1 a a4 n (psteps_static _ _ Hpp) Hs1 Hup Hst4 (conj G1 (conj G2 G3)))
      as (s0 & Hs0 & Hup0 & Hgf).
    exists n, s0. repeat split; try assumption; try (apply Hgf).
    eapply has_id_dyn; eassumption. }
  pose proof (bucket_put_result (S (depth_fuel c4)) c4 (c_root c4) x) as Hatt. fold (cell_put c4 x) in Hatt.
  pose proof (cell_put_ps c4 x) as Hp5.
  destruct (cell_put c4 x) as [c5 ok]. cbn [fst snd] in Hatt, Hp5.
  pose proof (attempt_self _ _ _ _ _ Hatt Ha4) as Hself.
  destruct ok.
  - (* placed by Bucket.put *)
    destruct Hself as (c1 & n & s1 & a5 & Hsc & Hs1 & Hup & Hg & H5 & Hd5 & Hsv5).
    change (get_app x (c_apps c5)) with (app_of c5 x). rewrite H5, Hsv5. exists a5. split; [exact H5|].
    apply (Hplaced c1 n s1); try assumption. eapply ps_trans; [exact Hp4|apply ps_sc; exact Hsc].
  - (* eviction scan *)
    pose proof (evict_scan_placer rq x a4 c5 ev1 Hself) as Hscan.
    pose proof (evict_scan_ps rq x c5 ev1) as Hp6.
    destruct (evict_scan rq x c5 ev1) as [c6 ev2]. cbn [fst] in Hscan, Hp6.
    change (get_app x (c_apps c6)) with (app_of c6 x).
    destruct Hscan as [H6|(c1 & n & s1 & a6 & Hpp & Hs1 & Hup & Hg & H6 & Hd6 & Hsv6)].
    + (* nothing worked: back to the server of a failed renewal if it still takes the instance, else give up *)
      pose proof (tracked_step _ _ _ _ _ _ _ T (ps_trans _ _ _ Hp5 Hp6) H6 (stat_eq_refl _)) as T6.
      rewrite H6, Hsv4. destruct restore as [[rn rex]|]; [|exact (released_result _ _ _ _ _ T6 Hsv4)].
      destruct (srv_restore_self c6 rn x rex a4 H6) as (a7 & Ha7 & Hd7 & Hsv7).
      pose proof (srv_restore_ps c6 rn x rex) as Hp7.
      destruct (srv_restore c6 rn x rex) as [c7 ok7]. cbn [fst snd] in *.
      destruct ok7.
      * eexists. split; [apply upd_app_self; [reflexivity|exact Ha7]|].
        split; [eapply stat_eq_trans; [exact Hst4|]; eapply stat_eq_trans; [apply dyn_stat; exact Hd7|apply dyn_stat, dyn_set_renew]|].
        destruct (Hres rn rex eq_refl) as [Esn Ern]. right. right. right. right.
        split; [cbn; congruence|]. split; [congruence|]. split; [exact Ern|exact (has_id_dyn _ _ Hd7 Hhas4)].
      * apply (released_result st x a c7 a7); [|congruence]. exact (tracked_step _ _ _ _ _ _ _ T6 Hp7 Ha7 (dyn_stat _ _ Hd7)).
    + rewrite H6, Hsv6. exists a6. split; [exact H6|]. apply (Hplaced c1 n s1); try assumption.
      eapply ps_trans; [exact Hp4|]. eapply ps_trans; [exact Hp5|exact Hpp].
Qed.

(** the renewal: either nothing happens to the placement, or the instance leaves its server for this turn *)
Lemma renew_try_own c x a :
  Acct c -> app_of c x = Some a -> (forall n, a_server a = Some n -> exists s, get_srv n (c_servers c) = Some s) ->
  exists a1, app_of (fst (renew_try c x a)) x = Some a1 /\ dyn_eq a a1 /\
    ((snd (renew_try c x a) = None /\ a_server a1 = a_server a) \/
     (exists n, snd (renew_try c x a) = Some (n, a_expiry a) /\ a_server a = Some n /\ a_renew a = true /\
                a_server a1 = None)).
Proof.
  intros HA Ha Hmem. unfold renew_try.
  assert (Hnone : exists a1, app_of c x = Some a1 /\ dyn_eq a a1 /\
            ((@None (Z * option Z) = None /\ a_server a1 = a_server a) \/
             (exists n, None = Some (n, a_expiry a) /\ a_server a = Some n /\ a_renew a = true /\ a_server a1 = None)))
    by (exists a; split; [exact Ha|]; split; [apply dyn_eq_refl|left; auto]).
  destruct (a_renew a) eqn:Hren; [|exact Hnone]. destruct (a_server a) as [n|] eqn:Esv; [|exact Hnone]. clear Hnone.
  destruct (Hmem n eq_refl) as (s & Es). unfold srv_renew. rewrite Es. change (get_app x (c_apps c)) with (app_of c x). rewrite Ha.
  destruct (check_lifetime c a (a_lease a) s); cbn [fst snd].
  - eexists. split; [apply upd_app_self; [reflexivity|exact Ha]|]. split; [apply dyn_set_expiry|]. left. split; [reflexivity|exact Esv].
  - assert (Hin : In x (s_apps s)) by (eapply (ac_placed _ HA); eassumption).
    exists (removed a). split; [exact (srv_remove_self _ _ _ _ _ Es Ha Hin)|]. split; [apply removed_dyn|]. right. exists n. auto.
Qed.

Theorem place_one_own rq st x a :
  Acct (l_cell st) -> Ident (l_cell st) -> app_of (l_cell st) x = Some a ->
  (forall n, a_server a = Some n -> exists s, get_srv n (c_servers (l_cell st)) = Some s) ->
  exists a', app_of (l_cell (place_one rq st x)) x = Some a' /\ own_result st x a a'.
Proof.
  intros HA HI Ha Hmem.
  assert (T0 : tracked (l_cell st) x a (l_cell st) a) by (constructor; [apply ps_refl|exact HI|exact Ha|apply stat_eq_refl]).
  pattern (place_one rq st x). apply place_one_cases; [congruence|..].
  - (* blacklisted *) intros a0 E Hbl. rewrite Ha in E. injection E as <-. exists a. split; [exact Ha|]. split; [apply stat_eq_refl|]. left. auto.
  - (* over the cap: removed and released *)
    intros a0 E _ _. rewrite Ha in E. injection E as <-.
    destruct (a_server a) as [n|] eqn:Esv; [|exact (released_result _ _ _ _ _ T0 Esv)].
    destruct (Hmem n eq_refl) as (s & Es). apply (released_result st x a _ (removed a)); [|reflexivity].
    apply (tracked_step _ _ _ _ _ _ _ T0 (srv_remove_ps _ _ _)); [|apply dyn_stat, removed_dyn].
    eapply srv_remove_self; [exact Es|exact Ha|eapply (ac_placed _ HA); eassumption].
  - intros a0 c1 restore E _ _ E1 c2 ->. rewrite Ha in E. injection E as <-.
    destruct (renew_try_own _ _ _ HA Ha Hmem) as (a1 & Ha1 & Hd1 & Hwhich).
    destruct (renew_try_only (l_cell st) x a) as [Hp1 _]. rewrite E1 in Ha1, Hwhich, Hp1. cbn [fst snd] in Ha1, Hwhich, Hp1.
    set (c2 := c_upd_app x (fun z => z <| a_renew := false |>) c1). set (a2 := a1 <| a_renew := false |>).
    assert (Hd2 : dyn_eq a a2) by (eapply dyn_eq_trans; [exact Hd1|apply dyn_set_renew]).
    assert (T2 : tracked (l_cell st) x a c2 a2).
    { apply (tracked_step _ _ _ _ _ _ _ T0 (ps_trans _ _ _ Hp1 (ps_one _ _ (PS_soft _ x _ (soft_renew false)))));
        [apply upd_app_self; [reflexivity|exact Ha1]|apply dyn_stat; exact Hd2]. }
    pose proof T2 as [Hp2 HI2 Ha2 _]. rewrite Ha2. split; [discriminate|]. intros a0 E. injection E as <-. split.
    { (* still placed: stays *)
      intros Hne. exists a2. split; [exact Ha2|]. split; [apply dyn_stat; exact Hd2|]. left.
      destruct Hwhich as [[_ E]|(n & _ & _ & _ & E)]; [|contradiction].
      split; [exact E|]. split; [apply Hd2|]. right. rewrite <- E. exact Hne. }
    intros Esv2 c3 got E3.
    pose proof (acquire_self c2 x (aget x (l_choices st)) a2 Ha2) as Hacq.
    pose proof (PS_acquire c2 x (aget x (l_choices st))) as Hp3. rewrite E3 in Hacq, Hp3. cbn [fst snd] in Hacq, Hp3.
    destruct Hacq as [(-> & -> & Hidn & Hgrp)|(-> & a3 & Ha3 & Hs3 & Hsv3 & Hex3 & Hev3 & Hid3)].
    { (* no identity to be had *)
      split; [intros _|discriminate]. exists a2. split; [exact Ha2|]. split; [apply dyn_stat; exact Hd2|]. right. left.
      split; [exact Esv2|right; exact Hidn]. }
    split; [discriminate|intros _].
    assert (T3 : tracked (l_cell st) x a c3 a3) by exact (tracked_step _ _ _ _ _ _ _ T2 (ps_one _ _ Hp3) Ha3 Hs3).
    assert (Hhas3 : has_id a3).
    { destruct Hid3 as [Hg|Hn]; [left|right; exact Hn].
      rewrite (stat_group _ _ Hs3).
      apply (proj1 (group_none_iff _ _ _ HI2 Ha2)). exact Hg. }
    (* the tail goes back only to the server of a renewal that failed in this turn *)
    assert (Hres : forall n ex, restore = Some (n, ex) -> a_server a = Some n /\ a_renew a = true).
    { intros n ex E. destruct Hwhich as [[E0 _]|(n1 & Er & Esn & Ern & _)]; [congruence|].
      rewrite Er in E. inversion E; subst n1. auto. }
    intros c4 restored ev1 E4. unfold restore_try in E4.
    destruct (aget x (l_evicted st)) as [[sn ex]|] eqn:Eev.
    2:{ injection E4 as <- <- <-. split; [discriminate|]. intros _. apply (place_tail_own rq st x a c3 a3); [exact T3|congruence|exact Hhas3|exact Hres]. }
    destruct (srv_restore_self c3 sn x ex a3 Ha3) as (a4 & Ha4 & Hd4 & Hsv4).
    pose proof (srv_restore_ps c3 sn x ex) as Hp4.
    destruct (srv_restore c3 sn x ex) as [cr ok4]. cbn [fst snd] in *.
    destruct ok4; injection E4 as <- <- <-.
    + (* restored *)
      split; [intros _|discriminate]. eexists. split; [apply upd_app_self; [reflexivity|exact Ha4]|].
      split; [eapply stat_eq_trans; [apply T3|]; eapply stat_eq_trans; [apply dyn_stat; exact Hd4|apply dyn_stat, dyn_set_evicted]|].
      right. right. left. exists sn, ex. split; [exact Eev|]. split; [exact Hsv4|exact (has_id_dyn _ _ Hd4 Hhas3)].
    + (* restore failed: goes on as a pending instance *)
      split; [discriminate|intros _].
      apply (place_tail_own rq st x a cr a4); [exact (tracked_step _ _ _ _ _ _ _ T3 Hp4 Ha4 (dyn_stat _ _ Hd4))|congruence| |exact Hres].
      eapply has_id_dyn; eassumption.
Qed.

(** ** the whole loop *)
Lemma before_placer_app l1 y l2 : ~ In y l1 -> before_placer (l1 ++ y :: l2) y = l1.
Proof.
  induction l1 as [|v r IH]; cbn; intros Hn.
  - rewrite Z.eqb_refl. reflexivity.
  - destruct (Z.eqb_spec v y) as [->|Hne]; [exfalso; apply Hn; left; reflexivity|].
    f_equal. apply IH. intros H. apply Hn. right. exact H.
Qed.
Lemma before_placer_rev pre y post : NoDup (pre ++ y :: post) -> before_placer (rev (pre ++ y :: post)) y = rev post.
Proof.
  intros Hnd. rewrite rev_app_distr. cbn [rev]. rewrite <- app_assoc. cbn [List.app].
  apply before_placer_app. intros Hin. apply in_rev in Hin.
  apply NoDup_remove_2 in Hnd. apply Hnd. apply in_or_app. right. exact Hin.
Qed.

Record pre_ok (c : cell) (x : Z) (a : app) : Prop := {
  po_app : app_of c x = Some a;
  po_id : a_server a <> None -> has_id a;
  po_bl : a_blacklisted a = true -> a_server a = None /\ no_id a
}.

Definition fin_ok (c : cell) (a a' : app) : Prop :=
  stat_eq a a' /\
  (a_server a' = None -> no_id a') /\ (a_server a' <> None -> has_id a') /\
  (forall n, a_server a' = Some n -> a_server a <> Some n ->
     exists s, get_srv n (c_servers c) = Some s /\ s_state s = Up /\ guard_facts c s a).

(** an instance whose turn has not come is as it was at the start of the loop, or evicted and remembered *)
Definition pending (a : app) (st : loopst) (x : Z) : Prop :=
  (app_of (l_cell st) x = Some a /\ aget x (l_evicted st) = None) \/
  (exists sn, a_server a = Some sn /\ app_of (l_cell st) x = Some (removed a) /\
              aget x (l_evicted st) = Some (sn, a_expiry a)).

Lemma pending_step rq st y x a : Acct (l_cell st) -> x <> y -> pending a st x -> pending a (place_one rq st y) x.
Proof.
  intros HA Hne [[Hcur Hev]|(sn & Hsv & Hcur & Hev)].
  - destruct (place_one_other rq st y x HA Hne) as [[H1 H2]|(_ & a0 & sn & s & Ha0 & Hsv0 & _ & _ & Hr1 & Hr2)].
    + left. split; [rewrite H1; exact Hcur|rewrite H2; exact Hev].
    + rewrite Hcur in Ha0. inversion Ha0; subst a0. right. exists sn. auto.
  - destruct (place_one_other rq st y x HA Hne) as [[H1 H2]|(_ & a0 & sn0 & s & Ha0 & Hsv0 & _)].
    + right. exists sn. split; [exact Hsv|]. split; [rewrite H1; exact Hcur|rewrite H2; exact Hev].
    + rewrite Hcur in Ha0. inversion Ha0; subst a0. cbn in Hsv0. discriminate.
Qed.

(** from the outcome of its own turn to what the loop promises for an instance: [a0] is its record at the start of
    the loop, [a] the record at the start of the turn (the same, or the same evicted) *)
Lemma own_fin c st x a0 a a' :
  psteps c (l_cell st) -> pre_ok c x a0 -> stat_eq a0 a -> a_identity a = a_identity a0 ->
  (a_server a = a_server a0 \/ a_server a = None /\ a_server a0 <> None) ->
  (forall sn ex, aget x (l_evicted st) = Some (sn, ex) -> a_server a0 = Some sn) ->
  own_result st x a a' -> fin_ok c a0 a'.
Proof.
  intros Hp Hpo Hst0 Hi0 Hsv0 Hev [Hst Hres]. split; [eapply stat_eq_trans; eassumption|].
  assert (Hnew : forall n s, a_server a' = Some n -> get_srv n (c_servers (l_cell st)) = Some s -> s_state s = Up ->
            guard_facts (l_cell st) s a -> forall n', a_server a' = Some n' ->
            exists s0, get_srv n' (c_servers c) = Some s0 /\ s_state s0 = Up /\ guard_facts c s0 a0).
  { intros n s Hs Hg Hup Hgf n' Hs'. assert (n' = n) by congruence. subst n'.
    eapply guard_facts_back; [apply psteps_static; exact Hp|exact Hg|exact Hup|exact Hst0|exact Hgf]. }
  destruct Hres as [(Hs & Hi & Hwhy)|[(Hs & Hn)|[(sn & ex & Hev' & Hs & Hh)|[(n & s & Hs & Hg & Hup & Hgf & Hh)|(Hs & Hne & _ & Hh)]]]].
  - (* passed over: blacklisted, or still placed; then not evicted *)
    assert (E : a_server a = a_server a0).
    { destruct Hsv0 as [E|[E Hne0]]; [exact E|exfalso]. destruct Hwhy as [Hbl|Hne]; [|contradiction].
      pose proof (stat_bl _ _ Hst0) as Hb. rewrite Hb in Hbl. apply Hne0, (po_bl _ _ _ Hpo Hbl). }
    rewrite E in Hs. rewrite Hi0 in Hi. pose proof (stat_eq_trans _ _ _ Hst0 Hst) as Hst'.
    split; [|split].
    + intros H0. rewrite Hs in H0. eapply no_id_stat; [exact Hst'|exact Hi|].
      destruct Hwhy as [Hbl|Hne]; [|congruence].
      pose proof (stat_bl _ _ Hst0) as Hb. rewrite Hb in Hbl. apply (po_bl _ _ _ Hpo Hbl).
    + intros H0. rewrite Hs in H0. eapply has_id_stat; [exact Hst'|exact Hi|]. apply (po_id _ _ _ Hpo H0).
    + intros n H1 H2. congruence.
  - split; [intros _; exact Hn|]. split; [congruence|]. intros n H1. congruence.
  - split; [congruence|]. split; [intros _; exact Hh|]. intros n H1 H2. rewrite (Hev _ _ Hev') in H2. congruence.
  - split; [congruence|]. split; [intros _; exact Hh|]. intros n' H1 _. exact (Hnew n s Hs Hg Hup Hgf n' H1).
  - split; [congruence|]. split; [intros _; exact Hh|]. intros n H1 H2. destruct Hsv0 as [E|[E _]]; congruence.
Qed.

(** state of the loop after the prefix [pre], with [post] still to come *)
Record loop_inv (c : cell) (st : loopst) (pre post : list Z) : Prop := {
  li_steps : psteps c (l_cell st);
  li_acct : Acct (l_cell st);
  li_ident : Ident (l_cell st);
  li_mem : Mem (l_cell st);
  li_done : forall x a, In x pre -> pre_ok c x a -> exists a', app_of (l_cell st) x = Some a' /\ fin_ok c a a';
  li_todo : forall x a, In x post -> pre_ok c x a -> pending a st x;
  li_out : forall x, ~ In x (pre ++ post) -> app_of (l_cell st) x = app_of c x
}.

(** the turn of [y] touches nobody ahead of it in the queue or outside it *)
Lemma place_one_ahead q pre y post st x :
  q = pre ++ y :: post -> NoDup q -> Acct (l_cell st) -> x <> y -> ~ In x post ->
  app_of (l_cell (place_one (rev q) st y)) x = app_of (l_cell st) x.
Proof.
  intros Hq Hnd HA Hxy Hx. destruct (place_one_other (rev q) st y x HA Hxy) as [[H _]|(Hbad & _)]; [exact H|].
  rewrite Hq, before_placer_rev in Hbad by (rewrite <- Hq; exact Hnd). apply in_rev in Hbad. contradiction.
Qed.

Lemma loop_step c q pre y post st :
  q = pre ++ y :: post -> NoDup q -> loop_inv c st pre (y :: post) ->
  loop_inv c (place_one (rev q) st y) (pre ++ [y]) post.
Proof.
  intros Hq Hnd [J1 J2 J3 J4 J5 J6 J7].
  pose proof (place_one_ps (rev q) st y) as Hps.
  pose proof (fun x => place_one_ahead q pre y post st x Hq Hnd J2) as Hkeep.
  rewrite Hq in Hnd. destruct (NoDup_app_inv _ _ Hnd) as (_ & Hnd2 & Hdisj). inversion Hnd2 as [|? ? Hy_post _]; subst.
  constructor.
  - eapply ps_trans; eassumption.
  - eapply Acct_psteps; eassumption.
  - eapply Ident_psteps; eassumption.
  - eapply Mem_psteps; eassumption.
  - (* finished instances *)
    intros x a Hin Hpo. apply in_app_or in Hin as [Hin|[<-|[]]].
    + destruct (J5 x a Hin Hpo) as (a' & Ha' & Hfin). exists a'. split; [|exact Hfin].
      rewrite Hkeep; [exact Ha'|intros ->; exact (Hdisj y Hin (or_introl eq_refl))|intros H; exact (Hdisj x Hin (or_intror H))].
    + (* the instance whose turn it is *)
      destruct (J6 y a (or_introl eq_refl) Hpo) as [[Hcur Hev]|(sn & Hsv & Hcur & Hev)].
      * destruct (place_one_own (rev (pre ++ y :: post)) st y a J2 J3 Hcur (fun n Hn => J4 _ _ n Hcur Hn)) as (a' & Ha' & Hres).
        exists a'. split; [exact Ha'|]. apply (own_fin c st y a a a' J1 Hpo (stat_eq_refl a) eq_refl (or_introl eq_refl)); [|exact Hres].
        intros sn ex E. congruence.
      * destruct (place_one_own (rev (pre ++ y :: post)) st y (removed a) J2 J3 Hcur) as (a' & Ha' & Hres); [discriminate|].
        exists a'. split; [exact Ha'|].
        apply (own_fin c st y a (removed a) a' J1 Hpo (dyn_stat _ _ (removed_dyn a)) eq_refl); [right; split; [reflexivity|congruence]| |exact Hres].
        intros sn' ex E. congruence.
  - (* instances still to come *)
    intros x a Hin Hpo. apply pending_step; [exact J2|intros ->; contradiction|exact (J6 x a (or_intror Hin) Hpo)].
  - (* instances outside the queue *)
    intros x Hx. rewrite <- app_assoc in Hx. cbn [List.app] in Hx.
    rewrite Hkeep; [apply J7; exact Hx|intros ->; apply Hx, in_or_app; right; left; reflexivity|].
    intros H. apply Hx, in_or_app. right. right. exact H.
Qed.

Lemma find_placements_inv c q ch : NoDup q -> Acct c -> Ident c -> Mem c ->
  loop_inv c (fold_left (place_one (rev q)) q (mkLoop c [] [] ch)) q [].
Proof.
  intros Hnd HA HI HM.
  assert (G : forall post pre st, q = pre ++ post -> loop_inv c st pre post ->
              loop_inv c (fold_left (place_one (rev q)) post st) q []).
  { induction post as [|y post IH]; intros pre st Hq HJ; cbn [fold_left].
    - rewrite app_nil_r in Hq. subst pre. exact HJ.
    - apply (IH (pre ++ [y])); [rewrite <- app_assoc; exact Hq|]. eapply loop_step; eassumption. }
  apply (G q []); [reflexivity|].
  constructor; cbn [l_cell l_evicted]; try assumption; [apply ps_refl|intros x a []| |reflexivity].
  intros x a _ Hpo. left. split; [apply (po_app _ _ _ Hpo)|reflexivity].
Qed.

Theorem find_placements_final c q ch :
  NoDup q -> Acct c -> Ident c -> Mem c ->
  forall x a, In x q -> pre_ok c x a ->
  exists a', app_of (find_placements c q ch) x = Some a' /\ fin_ok c a a'.
Proof. intros Hnd HA HI HM. exact (li_done _ _ _ _ (find_placements_inv c q ch Hnd HA HI HM)). Qed.

Theorem find_placements_frame c q ch x :
  NoDup q -> Acct c -> Ident c -> Mem c -> ~ In x q -> app_of (find_placements c q ch) x = app_of c x.
Proof.
  intros Hnd HA HI HM Hx. apply (li_out _ _ _ _ (find_placements_inv c q ch Hnd HA HI HM)). rewrite app_nil_r. exact Hx.
Qed.

(** ** the phases before the queue: what they can do to one instance *)
Definition touched (a a' : app) : Prop :=
  stat_eq a a' /\ a_renew a' = a_renew a /\
  ( (a_server a' = a_server a /\ a_identity a' = a_identity a)
  \/ (a_server a' = None /\ (a_identity a' = None \/ a_identity a' = a_identity a)) ).

Lemma touched_refl a : touched a a.
Proof. split; [apply stat_eq_refl|]. split; [reflexivity|left; auto]. Qed.
Lemma touched_trans a b c : touched a b -> touched b c -> touched a c.
Proof.
  intros (H1 & H2 & H3) (G1 & G2 & G3). split; [eapply stat_eq_trans; eassumption|]. split; [congruence|].
  destruct H3 as [[S1 I1]|[S1 I1]]; destruct G3 as [[S2 I2]|[S2 I2]].
  - left. split; congruence.
  - right. split; [exact S2|]. destruct I2 as [I2|I2]; [left; exact I2|right; congruence].
  - right. split; [congruence|]. destruct I1 as [I1|I1]; [left; congruence|right; congruence].
  - right. split; [exact S2|]. destruct I2 as [I2|I2]; [left; exact I2|]. destruct I1 as [I1|I1]; [left; congruence|right; congruence].
Qed.

Definition all_touched (c c' : cell) : Prop :=
  forall x a, app_of c x = Some a -> exists a', app_of c' x = Some a' /\ touched a a'.
Lemma all_touched_refl c : all_touched c c.
Proof. intros x a H. exists a. split; [exact H|apply touched_refl]. Qed.
Lemma all_touched_trans a b c : all_touched a b -> all_touched b c -> all_touched a c.
Proof.
  intros H1 H2 x r Hr. destruct (H1 _ _ Hr) as (r1 & Hr1 & T1). destruct (H2 _ _ Hr1) as (r2 & Hr2 & T2).
  exists r2. split; [exact Hr2|eapply touched_trans; eassumption].
Qed.

(* a step that leaves every record but that of [v] alone is judged on that record *)
Lemma at_only v c c' :
  (forall x, x <> v -> app_of c' x = app_of c x) ->
  (forall a, app_of c v = Some a -> exists a', app_of c' v = Some a' /\ touched a a') -> all_touched c c'.
Proof.
  intros F Hown x a Ha. destruct (Z.eq_dec x v) as [->|Hne]; [exact (Hown a Ha)|].
  exists a. split; [rewrite F by exact Hne; exact Ha|apply touched_refl].
Qed.

Lemma at_srv_remove c sn v : all_touched c (srv_remove c sn v).
Proof.
  apply (at_only v); [intros x; apply srv_remove_app|]. intros a Ha.
  destruct (psteps_stat _ _ (srv_remove_ps c sn v) v a Ha) as (a' & Ha' & _). exists a'. split; [exact Ha'|].
  destruct (srv_remove_cases _ _ _ _ Ha') as (a1 & Ha1 & [->| ->]); rewrite Ha in Ha1; inversion Ha1; subst a1; [apply touched_refl|].
  split; [apply dyn_stat, removed_dyn|]. split; [reflexivity|right; split; [reflexivity|right; reflexivity]].
Qed.

(** release of an instance that names no server *)
Lemma at_release c v : (forall a, app_of c v = Some a -> a_server a = None) -> all_touched c (release_identity c v).
Proof.
  intros Hnone. apply (at_only v); [intros x; apply release_app|]. intros a Ha.
  destruct (release_shape c v) as [->|(g & grp & grp' & _ & _ & ->)]; [exists a; split; [exact Ha|apply touched_refl]|].
  eexists. split; [apply upd_app_self; [reflexivity|exact Ha]|].
  split; [apply stat_set_identity|]. split; [reflexivity|]. right. split; [exact (Hnone a Ha)|left; reflexivity].
Qed.

Lemma all_touched_fold {A} (g : cell -> A -> cell) (Inv : cell -> Prop) (l : list A) :
  (forall c e, Inv c -> all_touched c (g c e) /\ Inv (g c e)) ->
  forall c, Inv c -> all_touched c (fold_left g l c) /\ Inv (fold_left g l c).
Proof.
  intros Hg. induction l as [|e r IH]; intros c Hc; cbn [fold_left]; [split; [apply all_touched_refl|exact Hc]|].
  destruct (Hg c e Hc) as [H1 H2]. destruct (IH _ H2) as [H3 H4]. split; [eapply all_touched_trans; eassumption|exact H4].
Qed.

Definition AM (c : cell) : Prop := Acct c /\ Mem c.
Lemma AM_psteps c c' : psteps c c' -> AM c -> AM c'.
Proof. intros Hp [HA HM]. split; [eapply Acct_psteps; eassumption|eapply Mem_psteps; eassumption]. Qed.

(** ** the four phases, each the fold of one step *)
Definition phase1_step (c : cell) (a0 : app) : cell :=
  match get_app (a_name a0) (c_apps c) with
  | Some a => match a_server a with
              | Some n => if is_member c n then c
                          else release_identity (c_upd_app (a_name a) (fun z => z <| a_server := None |> <| a_evicted := true |>) c) (a_name a)
              | None => c
              end
  | None => c
  end.
Definition phase2_step (acc : cell) (s0 : server) : cell :=
  match get_srv (s_name s0) (c_servers acc) with
  | Some s1 => fold_left (fun acc2 m => release_identity (srv_remove acc2 (s_name s1) m) m) (to_be_moved acc s1) acc
  | None => acc
  end.
Definition phase3_step (c : cell) (a0 : app) : cell :=
  match get_app (a_name a0) (c_apps c) with
  | Some a =>
      match a_blacklisted a, a_server a with
      | true, Some n => release_identity (srv_remove c n (a_name a)) (a_name a)
      | true, None => release_identity c (a_name a)
      | _, _ => c
      end
  | None => c
  end.
Definition phase4_step (acc : cell) (a0 : app) : cell :=
  match get_app (a_name a0) (c_apps acc) with
  | Some b =>
      match a_identity b, group_of acc b with
      | Some i, Some (_, grp) =>
          if Z.geb i (g_count grp) then
            let acc1 := c_upd_app (a_name b) (fun z => z <| a_identity := None |>) acc in
            match a_server b with
            | Some m => srv_remove acc1 m (a_name b)
            | None => acc1
            end
          else acc
      | _, _ => acc
      end
  | None => acc
  end.

Lemma pre_phases_folds c :
  fix_invalid_placements c = fold_left phase1_step (c_apps c) c /\
  handle_inactive_servers c = fold_left phase2_step (c_servers c) c /\
  handle_blacklisted c = fold_left phase3_step (c_apps c) c /\
  fix_invalid_identities c = fold_left phase4_step (c_apps c) c.
Proof. repeat split. Qed.

(** what every step keeps, the whole fold keeps *)
Lemma fold_left_inv_in {A B} (Q : A -> Prop) (f : A -> B -> A) l :
  (forall a b, In b l -> Q a -> Q (f a b)) -> forall a, Q a -> Q (fold_left f l a).
Proof.
  induction l as [|b r IH]; intros Hf a H; cbn [fold_left]; [exact H|].
  apply IH; [intros a' b' Hb'; apply Hf; right; exact Hb'|apply Hf; [left; reflexivity|exact H]].
Qed.
Lemma fold_left_inv {A B} (Q : A -> Prop) (f : A -> B -> A) l :
  (forall a b, Q a -> Q (f a b)) -> forall a, Q a -> Q (fold_left f l a).
Proof. intros Hf. apply fold_left_inv_in. intros a b _. apply Hf. Qed.

(** what the step of a record establishes for that record, and the steps of the others keep, holds of every record
    in the list after the fold *)
Lemma fold_apps_each (step : cell -> app -> cell) (Inv : cell -> Prop) (P : cell -> Z -> Prop) :
  (forall c a0, Inv c -> Inv (step c a0)) ->
  (forall c a0, Inv c -> P (step c a0) (a_name a0)) ->
  (forall c a0 x, Inv c -> x <> a_name a0 -> P c x -> P (step c a0) x) ->
  forall l c, Inv c -> forall x, In x (map a_name l) -> P (fold_left step l c) x.
Proof.
  intros HI Hown Hoth. induction l as [|a0 r IH] using rev_ind; intros c Hc x Hin; [destruct Hin|].
  rewrite fold_left_app. cbn [fold_left]. pose proof (fold_left_inv Inv step r HI c Hc) as Hc'.
  destruct (Z.eq_dec x (a_name a0)) as [->|Hne]; [apply Hown; exact Hc'|]. apply Hoth; [exact Hc'|exact Hne|].
  apply IH; [exact Hc|]. rewrite map_app in Hin. apply in_app_or in Hin. destruct Hin as [H|[H|[]]]; [exact H|congruence].
Qed.
Lemma app_of_In c x a : app_of c x = Some a -> In x (map a_name (c_apps c)).
Proof. intros H. rewrite <- (get_app_name _ _ _ H). apply in_map. eapply get_app_In; exact H. Qed.

Lemma release_remove_ps c sn v : psteps c (release_identity (srv_remove c sn v) v).
Proof. eapply ps_trans; [apply srv_remove_ps|apply ps_one, PS_release]. Qed.
(* the steps of phases 1, 3 and 4 look up one record, and if it meets their condition rewrite that record alone *)
Lemma phase1_step_only c a0 : only (a_name a0) c (phase1_step c a0).
Proof.
  unfold phase1_step. destruct (get_app (a_name a0) (c_apps c)) as [a|] eqn:Ea; [|apply only_refl].
  destruct (a_server a) as [n|] eqn:Es; [|apply only_refl]. unfold is_member.
  destruct (get_srv n (c_servers c)) eqn:En; [apply only_refl|]. rewrite (get_app_name _ _ _ Ea).
  eapply only_trans; [|apply only_release].
  split; [apply ps_one; eapply PS_unplace; eassumption|intros x Hx; apply upd_app_other; auto].
Qed.
Lemma phase2_step_ps acc s0 : psteps acc (phase2_step acc s0).
Proof.
  unfold phase2_step. destruct (get_srv (s_name s0) (c_servers acc)) as [s1|]; [|apply ps_refl].
  apply fold_ps. intros c1 m. apply release_remove_ps.
Qed.
Lemma phase3_step_only c a0 : only (a_name a0) c (phase3_step c a0).
Proof.
  unfold phase3_step. destruct (get_app (a_name a0) (c_apps c)) as [a|] eqn:Ea; [|apply only_refl].
  rewrite (get_app_name _ _ _ Ea). destruct (a_blacklisted a); [|apply only_refl].
  destruct (a_server a); [eapply only_trans; [apply only_remove|apply only_release]|apply only_release].
Qed.
Lemma phase4_step_only c a0 : only (a_name a0) c (phase4_step c a0).
Proof.
  unfold phase4_step. destruct (get_app (a_name a0) (c_apps c)) as [b|] eqn:Eb; [|apply only_refl].
  destruct (a_identity b) as [i|] eqn:Ei; [|apply only_refl]. destruct (group_of c b) as [[g grp]|] eqn:Eg; [|apply only_refl].
  destruct (Z.geb i (g_count grp)) eqn:Ege; [|apply only_refl]. rewrite (get_app_name _ _ _ Eb).
  eapply only_trans; [|destruct (a_server b); [apply only_remove|apply only_refl]].
  split; [apply ps_one; eapply PS_forget; eassumption|intros x Hx; apply upd_app_other; auto].
Qed.

(** a fold of steps that only touch records, from a state with accounting and membership *)
Lemma at_fold {B} (step : cell -> B -> cell) l :
  (forall c e, psteps c (step c e)) -> (forall c e, AM c -> all_touched c (step c e)) ->
  forall c, AM c -> all_touched c (fold_left step l c) /\ AM (fold_left step l c).
Proof.
  intros Hps Hat. apply all_touched_fold. intros c e Hc. split; [apply Hat, Hc|exact (AM_psteps _ _ (Hps c e) Hc)].
Qed.

Lemma at_unplace c v : all_touched c (c_upd_app v (fun z => z <| a_server := None |> <| a_evicted := true |>) c).
Proof.
  apply (at_only v); [intros x Hne; apply upd_app_other; auto|]. intros a Ha.
  eexists. split; [apply upd_app_self; [reflexivity|exact Ha]|].
  split; [exact (dyn_stat _ _ (dyn_eq_trans _ _ _ (dyn_set_server a None) (dyn_set_evicted _ true)))|]. split; [reflexivity|].
  right. split; [reflexivity|right; reflexivity].
Qed.

Lemma at_phase1_step c a0 : all_touched c (phase1_step c a0).
Proof.
  unfold phase1_step. destruct (get_app (a_name a0) (c_apps c)) as [a|] eqn:Ea; [|apply all_touched_refl].
  destruct (a_server a) as [n|]; [|apply all_touched_refl]. destruct (is_member c n); [apply all_touched_refl|].
  eapply all_touched_trans; [apply at_unplace|]. apply at_release.
  intros b Hb. rewrite (get_app_name _ _ _ Ea) in *. set (fu := fun z : app => z <| a_server := None |> <| a_evicted := true |>) in *.
  rewrite (upd_app_self c _ fu a (fun z => eq_refl) Ea) in Hb.
  inversion Hb. reflexivity.
Qed.

Lemma at_phase1 c : Acct c -> all_touched c (fix_invalid_placements c) /\ Acct (fix_invalid_placements c).
Proof.
  apply (all_touched_fold phase1_step Acct). intros c0 a0 H0.
  split; [apply at_phase1_step|exact (Acct_psteps _ _ (proj1 (phase1_step_only c0 a0)) H0)].
Qed.

Definition mem_rec (c : cell) (x : Z) : Prop :=
  forall a n, app_of c x = Some a -> a_server a = Some n -> exists s, get_srv n (c_servers c) = Some s.

Lemma phase1_step_servers c a0 : c_servers (phase1_step c a0) = c_servers c.
Proof.
  unfold phase1_step. destruct (get_app (a_name a0) (c_apps c)) as [a|]; [|reflexivity].
  destruct (a_server a); [|reflexivity]. destruct (is_member c z); [reflexivity|]. rewrite release_servers. reflexivity.
Qed.
Lemma phase1_step_own c a0 : mem_rec (phase1_step c a0) (a_name a0).
Proof.
  intros a' n Ha' Hsv. rewrite phase1_step_servers. unfold phase1_step in Ha'.
  destruct (get_app (a_name a0) (c_apps c)) as [a|] eqn:Ea; [|unfold app_of in Ha'; congruence].
  pose proof (get_app_name _ _ _ Ea) as Hn.
  destruct (a_server a) as [m|] eqn:Esv; [|unfold app_of in Ha'; congruence].
  unfold is_member in Ha'. destruct (get_srv m (c_servers c)) as [s|] eqn:Em; [unfold app_of in Ha'; exists s; congruence|].
  exfalso. rewrite Hn in Ha'. set (fu := fun z : app => z <| a_server := None |> <| a_evicted := true |>) in Ha'.
  destruct (release_self _ _ _ (upd_app_self c (a_name a0) fu a (fun z => eq_refl) Ea)) as (a2 & Ha2 & _ & Hsv2 & _).
  rewrite Ha2 in Ha'. inversion Ha'; subst a'. rewrite Hsv2 in Hsv. discriminate.
Qed.

Lemma phase1_mem c : Mem (fix_invalid_placements c).
Proof.
  intros x a n Ha.
  assert (Hin : In x (map a_name (c_apps c)))
    by (rewrite <- (psteps_names _ _ (fix_invalid_placements_ps c)); exact (app_of_In _ _ _ Ha)).
  revert a n Ha. change (mem_rec (fold_left phase1_step (c_apps c) c) x).
  apply (fold_apps_each phase1_step (fun _ => True) mem_rec); [auto|intros; apply phase1_step_own| |exact I|exact Hin].
  intros c0 a0 y _ Hne H a n Ha Hsv. rewrite phase1_step_servers. rewrite (proj2 (phase1_step_only c0 a0)) in Ha by exact Hne.
  eapply H; eassumption.
Qed.

(** remove-and-release of an instance that can only be on that server *)
Lemma at_remove_release c sn v :
  AM c -> (forall a, app_of c v = Some a -> a_server a = None \/ a_server a = Some sn) ->
  all_touched c (release_identity (srv_remove c sn v) v).
Proof.
  intros [HA HM] Hcond. eapply all_touched_trans; [apply at_srv_remove|]. apply at_release.
  intros a1 Ha1. destruct (srv_remove_cases _ _ _ _ Ha1) as (a & Ea & [->| ->]); [|reflexivity].
  destruct (Hcond a Ea) as [Hn|Hs]; [exact Hn|]. destruct (HM _ _ _ Ea Hs) as (s & Es).
  (* it names sn, hence is listed there and the removal took place *)
  rewrite (srv_remove_self _ _ _ _ _ Es Ea) in Ha1 by (eapply (ac_placed _ HA); eassumption).
  injection Ha1 as E. rewrite <- E. reflexivity.
Qed.

Lemma at_inner_fold sn : forall l c,
  AM c -> (forall n a, In n l -> app_of c n = Some a -> a_server a = None \/ a_server a = Some sn) ->
  all_touched c (fold_left (fun acc2 n => release_identity (srv_remove acc2 sn n) n) l c).
Proof.
  induction l as [|n r IH]; intros c HAM Hcond; cbn [fold_left]; [apply all_touched_refl|].
  pose proof (at_remove_release c sn n HAM (fun a Ha => Hcond n a (or_introl eq_refl) Ha)) as H1.
  eapply all_touched_trans; [exact H1|]. apply IH; [exact (AM_psteps _ _ (release_remove_ps c sn n) HAM)|].
  intros m a Hin Ha. destruct (Z.eq_dec m n) as [->|Hne].
  - (* processed already: names no server any more *)
    destruct (app_of c n) as [a0|] eqn:E0.
    + destruct (H1 n a0 E0) as (a1 & Ha1 & (_ & _ & Hform)). rewrite Ha in Ha1. inversion Ha1; subst a1.
      destruct Hform as [[S _]|[S _]]; [rewrite S; apply (Hcond n a0 (or_introl eq_refl) E0)|left; exact S].
    + rewrite (psteps_none _ _ n (release_remove_ps c sn n) E0) in Ha. discriminate.
  - rewrite release_app, srv_remove_app in Ha by exact Hne. eapply Hcond; [right; exact Hin|exact Ha].
Qed.

Lemma at_phase2_step c s0 : AM c -> all_touched c (phase2_step c s0).
Proof.
  intros HAM. unfold phase2_step.
  destruct (get_srv (s_name s0) (c_servers c)) as [s|] eqn:Es; [|apply all_touched_refl].
  rewrite <- (get_srv_name _ _ _ Es) in Es. apply at_inner_fold; [exact HAM|].
  intros n a Hin Ha. right.
  assert (Hl : In n (s_apps s)) by (apply to_be_moved_spec in Hin; apply Hin).
  destruct (ac_listed _ (proj1 HAM) _ _ _ Es Hl) as (a1 & Ha1 & Hsv1).
  unfold app_of in Ha. rewrite Ha in Ha1. inversion Ha1; subst a1. exact Hsv1.
Qed.
Lemma at_phase2 c : AM c -> all_touched c (handle_inactive_servers c) /\ AM (handle_inactive_servers c).
Proof. exact (at_fold phase2_step _ phase2_step_ps at_phase2_step c). Qed.

Lemma at_phase3_step c a0 : AM c -> all_touched c (phase3_step c a0).
Proof.
  intros HAM. unfold phase3_step.
  destruct (get_app (a_name a0) (c_apps c)) as [a|] eqn:Ea; [|apply all_touched_refl].
  rewrite <- (get_app_name _ _ _ Ea) in Ea. destruct (a_blacklisted a); [|apply all_touched_refl].
  destruct (a_server a) as [n|] eqn:Esv.
  - apply at_remove_release; [exact HAM|]. intros b Hb. right. unfold app_of in Hb. congruence.
  - apply at_release. intros b Hb. unfold app_of in Hb. congruence.
Qed.
Lemma at_phase3 c : AM c -> all_touched c (handle_blacklisted c) /\ AM (handle_blacklisted c).
Proof. exact (at_fold phase3_step _ (fun c0 a0 => proj1 (phase3_step_only c0 a0)) at_phase3_step c). Qed.

Lemma at_phase4_step c a0 : AM c -> all_touched c (phase4_step c a0).
Proof.
  intros HAM. apply (at_only (a_name a0)); [apply phase4_step_only|]. intros a Ha.
  assert (Hsame : exists a', app_of c (a_name a0) = Some a' /\ touched a a') by (exists a; split; [exact Ha|apply touched_refl]).
  unfold phase4_step. change (get_app (a_name a0) (c_apps c)) with (app_of c (a_name a0)). rewrite Ha.
  destruct (a_identity a) as [i|] eqn:Ei; [|exact Hsame]. destruct (group_of c a) as [[g grp]|] eqn:Eg; [|exact Hsame].
  destruct (Z.geb i (g_count grp)) eqn:Ege; [clear Hsame|exact Hsame]. rewrite (get_app_name _ _ _ Ha).
  set (fi := fun z : app => z <| a_identity := None |>).
  pose proof (upd_app_self c (a_name a0) fi a (fun z => eq_refl) Ha) as Ea1.
  destruct (a_server a) as [n|] eqn:Esv.
  - (* the identity is dropped and the instance leaves its server *)
    destruct (AM_psteps _ _ (ps_one _ _ (PS_forget _ _ _ _ _ _ Ha Ei Eg Ege)) HAM) as [HA1 HM1].
    destruct (HM1 _ _ n Ea1 Esv) as (s & Hs).
    exists (removed (fi a)). split; [eapply srv_remove_self; [exact Hs|exact Ea1|eapply (ac_placed _ HA1); eassumption]|].
    split; [exact (stat_eq_trans _ _ _ (stat_set_identity a None) (dyn_stat _ _ (removed_dyn _)))|].
    split; [reflexivity|right; split; [reflexivity|left; reflexivity]].
  - exists (fi a). split; [exact Ea1|]. split; [apply stat_set_identity|]. split; [reflexivity|right; split; [exact Esv|left; reflexivity]].
Qed.
Lemma at_phase4 c : AM c -> all_touched c (fix_invalid_identities c) /\ AM (fix_invalid_identities c).
Proof. exact (at_fold phase4_step _ (fun c0 a0 => proj1 (phase4_step_only c0 a0)) at_phase4_step c). Qed.

(** ** blacklisted instances after phase 3 *)
Definition bl_rec (a : app) : Prop := a_blacklisted a = true -> a_server a = None /\ no_id a.
Definition id_rec (a : app) : Prop := a_server a <> None -> has_id a.

Lemma bl_rec_touched a a' : touched a a' -> bl_rec a -> bl_rec a'.
Proof.
  intros (Hs & _ & Hf) Hb Hbl. pose proof (stat_group _ _ Hs) as Hg. pose proof (stat_bl _ _ Hs) as Hblk.
  rewrite Hblk in Hbl. destruct (Hb Hbl) as [H1 H2].
  destruct Hf as [[S I]|[S I]].
  - split; [congruence|]. destruct H2 as [H2|H2]; [left|right]; congruence.
  - split; [exact S|]. destruct I as [I|I]; [right; exact I|]. destruct H2 as [H2|H2]; [left|right]; congruence.
Qed.
Lemma id_rec_touched a a' : touched a a' -> id_rec a -> id_rec a'.
Proof.
  intros (Hs & _ & Hf) Hi Hne. pose proof (stat_group _ _ Hs) as Hg.
  destruct Hf as [[S I]|[S _]]; [|contradiction].
  rewrite S in Hne. destruct (Hi Hne) as [H|H]; [left|right]; congruence.
Qed.

Definition AMI (c : cell) : Prop := Acct c /\ Mem c /\ Ident c.
Lemma AMI_psteps c c' : psteps c c' -> AMI c -> AMI c'.
Proof.
  intros Hp (HA & HM & HI). split; [eapply Acct_psteps; eassumption|]. split; [eapply Mem_psteps; eassumption|eapply Ident_psteps; eassumption].
Qed.

Lemma phase3_step_own c a0 : AMI c -> forall a', app_of (phase3_step c a0) (a_name a0) = Some a' -> bl_rec a'.
Proof.
  intros (HA & HM & HI) a' Ha'. unfold phase3_step in Ha'.
  destruct (get_app (a_name a0) (c_apps c)) as [a|] eqn:Ea; [|unfold app_of in Ha'; congruence].
  destruct (a_blacklisted a) eqn:Ebl; [|intros H; unfold app_of in Ha'; congruence].
  intros _. pose proof (get_app_name _ _ _ Ea) as Hn. rewrite <- Hn in *.
  assert (T0 : tracked c (a_name a) a c a) by (constructor; [apply ps_refl|exact HI|exact Ea|apply stat_eq_refl]).
  assert (Hrel : forall c1 b, tracked c (a_name a) a c1 b -> a_server b = None ->
            app_of (release_identity c1 (a_name a)) (a_name a) = Some a' -> a_server a' = None /\ no_id a').
  { intros c1 b T Hb E. destruct (released_own _ _ _ _ _ T Hb) as (b' & Hb' & _ & H). congruence. }
  destruct (a_server a) as [n|] eqn:Esv; [|exact (Hrel _ _ T0 Esv Ha')].
  destruct (HM _ _ n Ea Esv) as (s & Hs). apply (Hrel (srv_remove c n (a_name a)) (removed a)); [|reflexivity|exact Ha'].
  apply (tracked_step _ _ _ _ _ _ _ T0 (srv_remove_ps _ _ _)); [|apply dyn_stat, removed_dyn].
  eapply srv_remove_self; [exact Hs|exact Ea|eapply (ac_placed _ HA); eassumption].
Qed.

Lemma phase3_bl c : AMI c -> forall x a, app_of (handle_blacklisted c) x = Some a -> bl_rec a.
Proof.
  intros H0 x a Ha.
  assert (Hin : In x (map a_name (c_apps c)))
    by (rewrite <- (psteps_names _ _ (handle_blacklisted_ps c)); exact (app_of_In _ _ _ Ha)).
  revert a Ha. change (handle_blacklisted c) with (fold_left phase3_step (c_apps c) c).
  apply (fold_apps_each phase3_step AMI (fun c x => forall a, app_of c x = Some a -> bl_rec a));
    [intros c0 a0; apply AMI_psteps, phase3_step_only|apply phase3_step_own| |exact H0|exact Hin].
  intros c0 a0 y _ Hne H b Hb. rewrite (proj2 (phase3_step_only c0 a0)) in Hb by exact Hne. exact (H b Hb).
Qed.

(** ** summary of the four phases *)
Theorem pre_phases_spec c : Acct c -> Ident c ->
  AMI (pre_phases c) /\ all_touched c (pre_phases c) /\ psteps c (pre_phases c) /\
  (forall x a, app_of (pre_phases c) x = Some a -> bl_rec a).
Proof.
  intros HA HI. pose proof (pre_phases_ps c) as Hps. unfold pre_phases in *.
  destruct (at_phase1 c HA) as [T1 A1]. pose proof (phase1_mem c) as M1.
  set (c1 := fix_invalid_placements c) in *.
  assert (I1 : Ident c1) by exact (Ident_psteps _ _ (fix_invalid_placements_ps c) HI).
  destruct (at_phase2 c1 (conj A1 M1)) as [T2 [A2 M2]]. pose proof (handle_inactive_servers_ps c1) as P2.
  set (c2 := handle_inactive_servers c1) in *.
  assert (HAMI2 : AMI c2) by exact (conj A2 (conj M2 (Ident_psteps _ _ P2 I1))).
  destruct (at_phase3 c2 (conj A2 M2)) as [T3 AM3]. pose proof (phase3_bl c2 HAMI2) as B3.
  pose proof (AMI_psteps _ _ (handle_blacklisted_ps c2) HAMI2) as HAMI3.
  set (c3 := handle_blacklisted c2) in *.
  destruct (at_phase4 c3 AM3) as [T4 _].
  split; [exact (AMI_psteps _ _ (fix_invalid_identities_ps c3) HAMI3)|].
  split; [eapply all_touched_trans; [exact T1|]; eapply all_touched_trans; [exact T2|]; eapply all_touched_trans; eassumption|].
  split; [exact Hps|]. intros x a Ha.
  (* the record exists in c3 (records never appear) and is blacklist-clean there; phase 4 only touches *)
  destruct (app_of c3 x) as [a3|] eqn:E3; [|rewrite (psteps_none _ _ x (fix_invalid_identities_ps c3) E3) in Ha; discriminate].
  destruct (T4 x a3 E3) as (a4 & Ha4 & Ht). rewrite Ha in Ha4. inversion Ha4; subst a4.
  eapply bl_rec_touched; [exact Ht|]. eapply B3; exact E3.
Qed.
