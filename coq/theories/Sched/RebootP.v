(** Proofs about Sched/Reboot.v (Partition.add / tick / RebootBucket.cost / reboot_dates). *)
From Coq Require Import ZArith List Bool Lia ZifyBool Sorted.
From TM Require Import Sched.Reboot.
Import ListNotations.
Open Scope Z_scope.

(** * Python's min *)
Section PyMin.
  Context {A K : Type}.
  Variable lt : K -> K -> bool.
  Variable key : A -> K.

  Lemma pymin_go_snoc l x : forall best, pymin_go lt key best (l ++ [x]) =
    let m := pymin_go lt key best l in if lt (key x) (key m) then x else m.
  Proof. induction l as [|y l IH]; intros best; cbn; [reflexivity|apply IH]. Qed.

  (** min(reversed(x :: l), key): [x] is looked at last and wins only when strictly smaller *)
  Lemma pymin_rev_cons x l : pymin lt key (rev (x :: l)) =
    Some (match pymin lt key (rev l) with None => x | Some m => if lt (key x) (key m) then x else m end).
  Proof. cbn [rev]. destruct (rev l) as [|y r]; [reflexivity|]. cbn [List.app pymin]. rewrite pymin_go_snoc. reflexivity. Qed.

  Lemma pymin_some : forall l, l <> [] -> exists r, pymin lt key l = Some r.
  Proof. intros [|x l] H; [congruence|]. eexists. reflexivity. Qed.

  Hypothesis lt_irrefl : forall a, lt a a = false.
  Hypothesis lt_trans : forall a b c, lt a b = true -> lt b c = true -> lt a c = true.
  Hypothesis lt_le_trans : forall a b c, lt a b = true -> lt c b = false -> lt a c = true.

  (** min(reversed(l), key) is an item of [l]; no item has a smaller key, every LATER item of [l] a strictly larger one *)
  Lemma pymin_rev_spec : forall l r, pymin lt key (rev l) = Some r ->
    exists k, nth_error l k = Some r /\
      (forall j x, nth_error l j = Some x -> lt (key x) (key r) = false) /\
      (forall j x, nth_error l j = Some x -> (k < j)%nat -> lt (key r) (key x) = true).
  Proof.
    induction l as [|y l IH]; intros r H; [discriminate|]. rewrite pymin_rev_cons in H. injection H as H.
    destruct (pymin lt key (rev l)) as [m|] eqn:E.
    - destruct (IH m eq_refl) as (k & Hk & Hmin & Hlate). destruct (lt (key y) (key m)) eqn:Ey; subst r.
      + exists 0%nat. split; [reflexivity|]. split.
        * intros [|j] x Hx; cbn in Hx; [injection Hx as <-; apply lt_irrefl|].
          destruct (lt (key x) (key y)) eqn:Exy; [|reflexivity]. rewrite <- (Hmin _ _ Hx). symmetry. exact (lt_trans _ _ _ Exy Ey).
        * intros [|j] x Hx Hlt; [inversion Hlt|]. exact (lt_le_trans _ _ _ Ey (Hmin _ _ Hx)).
      + exists (S k). split; [exact Hk|]. split.
        * intros [|j] x Hx; cbn in Hx; [injection Hx as <-; exact Ey|exact (Hmin _ _ Hx)].
        * intros [|j] x Hx Hlt; [inversion Hlt|]. apply (Hlate _ _ Hx), Nat.succ_lt_mono, Hlt.
    - subst r. destruct l as [|z l]; [|cbn [rev] in E; destruct (rev l); discriminate].
      exists 0%nat. split; [reflexivity|]. split; intros [|[|j]] x Hx; try discriminate; [|intros Hlt; inversion Hlt].
      injection Hx as <-. apply lt_irrefl.
  Qed.
End PyMin.

(** * The order on costs *)
Lemma clt_trans a b c : clt a b = true -> clt b c = true -> clt a c = true.
Proof. destruct a, b, c; cbn; intros; try discriminate; try reflexivity; lia. Qed.
Lemma clt_le_trans a b c : clt a b = true -> clt c b = false -> clt a c = true.
Proof. destruct a, b, c; cbn; intros; try discriminate; try reflexivity; lia. Qed.
Lemma clt_irrefl a : clt a a = false.
Proof. destruct a; cbn; [lia|reflexivity]. Qed.

(** [admissible]: the bucket lies in [up + MIN, up + UPTIME], i.e. its cost is finite *)
Definition admissible (C : rconst) (up : Z) (b : bucket) : Prop :=
  up + rc_min C <= b_ts b <= up + rc_uptime C.

Lemma cost_some C up b n : cost C up b = Some n -> admissible C up b /\ n = load b.
Proof.
  unfold cost, admissible. intros H.
  destruct (b_ts b >? up + rc_uptime C) eqn:E1; [discriminate|].
  destruct (b_ts b <? up + rc_min C) eqn:E2; [discriminate|].
  injection H as H. split; [lia|congruence].
Qed.
Lemma cost_admissible C up b : admissible C up b -> cost C up b = Some (load b).
Proof.
  unfold cost, admissible. intros H.
  destruct (b_ts b >? up + rc_uptime C) eqn:E1; [lia|].
  destruct (b_ts b <? up + rc_min C) eqn:E2; [lia|]. reflexivity.
Qed.
Lemma cost_none C up b : cost C up b = None -> ~ admissible C up b.
Proof. intros H Ha. rewrite (cost_admissible _ _ _ Ha) in H. discriminate. Qed.

(** * Positions *)
Lemma enum_nth_error bs k : nth_error (enum bs) k = option_map (pair k) (nth_error bs k).
Proof.
  unfold enum. change k with (0 + k)%nat at 2. generalize 0%nat as s. revert k.
  induction bs as [|x bs IH]; intros [|k] s; cbn; try reflexivity; [rewrite Nat.add_0_r; reflexivity|].
  rewrite IH, Nat.add_succ_r. reflexivity.
Qed.

(** * min(reversed(buckets), key=cost): no bucket is cheaper, every LATER bucket is strictly dearer *)
Lemma cheapest_spec C up bs i : cheapest C up bs = Some i ->
  exists b, nth_error bs i = Some b /\
    (forall j bj, nth_error bs j = Some bj -> clt (cost C up bj) (cost C up b) = false) /\
    (forall j bj, nth_error bs j = Some bj -> (i < j)%nat -> clt (cost C up b) (cost C up bj) = true).
Proof.
  unfold cheapest.
  destruct (pymin clt (fun ib : nat * bucket => cost C up (snd ib)) (rev (enum bs))) as [[i' b]|] eqn:E;
    cbn; intros H; [|discriminate].
  injection H as ->.
  apply (pymin_rev_spec clt _ clt_irrefl clt_trans clt_le_trans) in E. destruct E as (k & Hk & Hmin & Hlate).
  rewrite enum_nth_error in Hk. destruct (nth_error bs k) as [b'|] eqn:Eb; [|discriminate]. injection Hk as -> ->.
  exists b. split; [exact Eb|]. split; intros j bj Hj.
  - apply (Hmin j (j, bj)). rewrite enum_nth_error, Hj. reflexivity.
  - apply (Hlate j (j, bj)). rewrite enum_nth_error, Hj. reflexivity.
Qed.

Lemma cheapest_some C up bs : bs <> [] -> exists i, cheapest C up bs = Some i.
Proof.
  intros H. unfold cheapest.
  destruct (pymin_some clt (fun ib : nat * bucket => cost C up (snd ib)) (rev (enum bs))) as [r Hr].
  - intros E. apply (f_equal (@rev _)) in E. rewrite rev_involutive in E. destruct bs; [congruence|discriminate].
  - rewrite Hr. eexists. reflexivity.
Qed.

(** * _find_bucket *)
Lemma find_idx_spec : forall bs t i, find_idx t bs = Some i ->
  exists b, nth_error bs i = Some b /\ b_ts b = t /\
    (forall j bj, (j < i)%nat -> nth_error bs j = Some bj -> b_ts bj <> t).
Proof.
  induction bs as [|x bs IH]; intros t i H; [discriminate|].
  cbn in H. destruct (b_ts x =? t) eqn:E.
  - injection H as H. subst i. exists x. split; [reflexivity|]. split; [lia|]. intros j bj Hj. lia.
  - destruct (find_idx t bs) as [k|] eqn:F; [|discriminate]. cbn in H. injection H as H. subst i.
    destruct (IH _ _ F) as (b & Hn & Ht & Hfirst). exists b. split; [exact Hn|]. split; [exact Ht|].
    intros [|j] bj Hj Hnth; cbn in Hnth.
    + injection Hnth as Hnth. subst bj. lia.
    + apply (Hfirst j bj); [lia|exact Hnth].
Qed.

Lemma find_idx_in : forall bs t, In t (map b_ts bs) -> exists i, find_idx t bs = Some i.
Proof.
  induction bs as [|x bs IH]; intros t H; [destruct H|].
  cbn. destruct (b_ts x =? t) eqn:E; [eexists; reflexivity|].
  destruct H as [H|H]; [lia|]. destruct (IH _ H) as [i Hi]. rewrite Hi. eexists. reflexivity.
Qed.

(** * choose *)
Lemma choose_overdue C up ts bs : overdue C up bs = true -> choose C up ts bs = Some 0%nat.
Proof. intros H. destruct bs as [|b0 r]; [discriminate|]. unfold choose. rewrite H. reflexivity. Qed.

Lemma choose_explicit C up ts bs i :
  overdue C up bs = false -> explicit_idx ts bs = Some i -> choose C up ts bs = Some i.
Proof.
  intros H E. destruct bs as [|b0 r].
  - unfold explicit_idx in E. destruct ts as [t|]; [|discriminate]. destruct (t =? 0); discriminate.
  - unfold choose. rewrite H, E. reflexivity.
Qed.

Lemma choose_cheapest C up ts bs :
  bs <> [] -> overdue C up bs = false -> explicit_idx ts bs = None -> choose C up ts bs = cheapest C up bs.
Proof. intros Hn H E. destruct bs as [|b0 r]; [congruence|]. unfold choose. rewrite H, E. reflexivity. Qed.

Lemma explicit_idx_spec ts bs i : explicit_idx ts bs = Some i ->
  exists t b, ts = Some t /\ t <> 0 /\ nth_error bs i = Some b /\ b_ts b = t.
Proof.
  unfold explicit_idx. destruct ts as [t|]; [|discriminate]. destruct (t =? 0) eqn:E; [discriminate|].
  intros H. destruct (find_idx_spec _ _ _ H) as (b & Hn & Ht & _). exists t, b. repeat split; try assumption. lia.
Qed.

Lemma choose_total C up ts bs : bs <> [] -> exists i b, choose C up ts bs = Some i /\ nth_error bs i = Some b.
Proof.
  intros Hne. destruct (overdue C up bs) eqn:Eo; [|destruct (explicit_idx ts bs) as [k|] eqn:Ee].
  - rewrite (choose_overdue _ _ _ _ Eo). destruct bs as [|b0 r]; [discriminate|]. exists 0%nat, b0. split; reflexivity.
  - rewrite (choose_explicit _ _ _ _ _ Eo Ee). destruct (explicit_idx_spec _ _ _ Ee) as (t & b & _ & _ & Hn & _).
    exists k, b. split; [reflexivity|exact Hn].
  - rewrite (choose_cheapest _ _ _ _ Hne Eo Ee). destruct (cheapest_some C up bs Hne) as [i Hi].
    destruct (cheapest_spec _ _ _ _ Hi) as (b & Hn & _). exists i, b. split; assumption.
Qed.

(** * add *)
Lemma add_inv C s up ts p v p' : add C s up ts p = Some (v, p') ->
  exists i b, choose C up ts (p_buckets p) = Some i /\ nth_error (p_buckets p) i = Some b /\
    v = b_ts b /\ p' = set_buckets p (upd_nth i (bucket_add s) (p_buckets p)).
Proof.
  unfold add. destruct (choose C up ts (p_buckets p)) as [i|] eqn:Ec; [|discriminate].
  destruct (nth_error (p_buckets p) i) as [b|] eqn:En; [|discriminate].
  intros H. injection H as Hv Hp. exists i, b. repeat split; congruence.
Qed.

Lemma add_total C s up ts p : p_buckets p <> [] -> exists v p', add C s up ts p = Some (v, p').
Proof.
  intros Hne. destruct (choose_total C up ts _ Hne) as (i & b & Hi & Hb).
  unfold add. rewrite Hi, Hb. eexists. eexists. reflexivity.
Qed.

Lemma upd_nth_map {A B} (g : A -> B) f : (forall x, g (f x) = g x) -> forall i l, map g (upd_nth i f l) = map g l.
Proof. intros Hg i l. revert i. induction l as [|x l IH]; intros [|i]; cbn; rewrite ?Hg, ?IH; reflexivity. Qed.

Lemma bucket_add_ts s b : b_ts (bucket_add s b) = b_ts b.
Proof. unfold bucket_add. destruct (mem s (b_srv b)); reflexivity. Qed.

Lemma upd_nth_length {A} (f : A -> A) : forall i l, length (upd_nth i f l) = length l.
Proof. intros i l. revert i. induction l as [|x l IH]; intros [|i]; cbn; try reflexivity. f_equal. apply IH. Qed.

Lemma upd_nth_nth {A} (f : A -> A) : forall i l j,
  nth_error (upd_nth i f l) j = if Nat.eqb i j then option_map f (nth_error l j) else nth_error l j.
Proof.
  intros i l. revert i. induction l as [|x l IH]; intros i j.
  - destruct i, j; cbn; try reflexivity; destruct (Nat.eqb _ _); reflexivity.
  - destruct i as [|i], j as [|j]; cbn; try reflexivity. apply IH.
Qed.

Lemma mem_in s l : mem s l = true <-> In s l.
Proof.
  unfold mem. rewrite existsb_exists. split.
  - intros (x & Hx & E). apply Z.eqb_eq in E. subst. exact Hx.
  - intros H. exists s. split; [exact H|apply Z.eqb_refl].
Qed.

Lemma bucket_add_in s b : In s (b_srv (bucket_add s b)).
Proof.
  unfold bucket_add. destruct (mem s (b_srv b)) eqn:E; [apply mem_in; exact E|].
  cbn. apply in_or_app. right. left. reflexivity.
Qed.

Theorem add_overdue_first C s up ts p b0 r : p_buckets p = b0 :: r -> b_ts b0 > up + rc_uptime C ->
  add C s up ts p = Some (b_ts b0, set_buckets p (bucket_add s b0 :: r)).
Proof.
  intros Hb Ho. unfold add. rewrite (choose_overdue C up ts (p_buckets p)).
  - rewrite Hb. reflexivity.
  - rewrite Hb. cbn. lia.
Qed.

Theorem add_cheapest_latest C s up ts p v p' :
  overdue C up (p_buckets p) = false -> explicit_idx ts (p_buckets p) = None ->
  add C s up ts p = Some (v, p') ->
  exists i b, nth_error (p_buckets p) i = Some b /\ b_ts b = v /\
    (forall j bj, nth_error (p_buckets p) j = Some bj -> clt (cost C up bj) (cost C up b) = false) /\
    (forall j bj, nth_error (p_buckets p) j = Some bj -> (i < j)%nat -> clt (cost C up b) (cost C up bj) = true).
Proof.
  intros Ho He H. destruct (add_inv _ _ _ _ _ _ _ H) as (i & b & Hc & Hn & Hv & _).
  assert (Hne : p_buckets p <> []) by (intros E; rewrite E in Hn; destruct i; discriminate).
  rewrite (choose_cheapest _ _ _ _ Hne Ho He) in Hc.
  destruct (cheapest_spec _ _ _ _ Hc) as (b' & Hn' & Hmin & Hlate).
  assert (b' = b) by congruence. subst b'. exists i, b. repeat split; try assumption. congruence.
Qed.

Corollary add_least_loaded C s up ts p v p' j bj :
  overdue C up (p_buckets p) = false -> explicit_idx ts (p_buckets p) = None ->
  add C s up ts p = Some (v, p') ->
  nth_error (p_buckets p) j = Some bj -> admissible C up bj ->
  exists i b, nth_error (p_buckets p) i = Some b /\ b_ts b = v /\ admissible C up b /\
    load b <= load bj /\ ((i < j)%nat -> load b < load bj).
Proof.
  intros Ho He H Hj Ha. destruct (add_cheapest_latest _ _ _ _ _ _ _ Ho He H) as (i & b & Hn & Hv & Hmin & Hlate).
  exists i, b. split; [exact Hn|]. split; [exact Hv|].
  pose proof (Hmin _ _ Hj) as H1. rewrite (cost_admissible _ _ _ Ha) in H1.
  destruct (cost C up b) as [n|] eqn:Ec; [|discriminate].
  destruct (cost_some _ _ _ _ Ec) as [Hab Hl]. subst n. cbn in H1. split; [exact Hab|]. split; [lia|].
  intros Hlt. pose proof (Hlate _ _ Hj Hlt) as H2. rewrite (cost_admissible _ _ _ Ha) in H2. cbn in H2. lia.
Qed.

Theorem add_in_window C s up ts p v p' ba :
  overdue C up (p_buckets p) = false -> explicit_idx ts (p_buckets p) = None ->
  In ba (p_buckets p) -> admissible C up ba ->
  add C s up ts p = Some (v, p') ->
  up + rc_min C <= v <= up + rc_uptime C.
Proof.
  intros Ho He Hin Ha H. destruct (In_nth_error _ _ Hin) as [j Hj].
  destruct (add_least_loaded _ _ _ _ _ _ _ _ _ Ho He H Hj Ha) as (i & b & _ & Hv & Hab & _).
  subst v. exact Hab.
Qed.

(** a chosen bucket of cost +inf can only be the last one: a later bucket would have to be strictly dearer *)
Lemma inf_cost_last C up pre bl i b : nth_error (pre ++ [bl]) i = Some b -> cost C up b = None ->
  (forall j bj, nth_error (pre ++ [bl]) j = Some bj -> (i < j)%nat -> clt (cost C up b) (cost C up bj) = true) -> b = bl.
Proof.
  intros Hn Hc Hlate.
  assert (Hlast : nth_error (pre ++ [bl]) (length pre) = Some bl) by (rewrite nth_error_app2, Nat.sub_diag; [reflexivity|lia]).
  assert (Hi : (i < length (pre ++ [bl]))%nat) by (apply nth_error_Some; congruence).
  rewrite app_length in Hi. cbn in Hi.
  destruct (Nat.eq_dec i (length pre)) as [->|E]; [congruence|].
  rewrite Hc in Hlate. discriminate (Hlate _ _ Hlast ltac:(lia)).
Qed.

(** * The date stream and the invariant of the bucket list *)
Definition StrictInc (ds : nat -> Z) : Prop := forall n, ds n < ds (S n).

Lemma inc_lt ds : StrictInc ds -> forall n m, (n < m)%nat -> ds n < ds m.
Proof. intros H n m Hlt. induction Hlt as [|m _ IH]; [apply H|]. exact (Z.lt_trans _ _ _ IH (H m)). Qed.

Lemma sorted_ds ds : StrictInc ds -> forall n i0, StronglySorted Z.lt (map ds (seq i0 n)).
Proof.
  intros H. induction n as [|n IH]; intros i0; cbn; constructor.
  - apply IH.
  - apply Forall_forall. intros x Hx. apply in_map_iff in Hx. destruct Hx as (k & Hk & Hin).
    apply in_seq in Hin. subst x. apply inc_lt; [exact H|lia].
Qed.

(** the time stamps are consecutive values of the generator, ending at the last one taken; _reboot_last is the
    last bucket's time stamp *)
Definition InvT (ds : nat -> Z) (tsl : list Z) (last : Z) (idx : nat) : Prop :=
  exists i0, tsl = map ds (seq i0 (length tsl)) /\ (i0 + length tsl = idx)%nat /\
    (tsl <> [] -> last = ds (pred idx)).
Definition Inv (ds : nat -> Z) (p : part) : Prop := InvT ds (map b_ts (p_buckets p)) (p_last p) (p_idx p).

Definition tss (p : part) : list Z := map b_ts (p_buckets p).

Lemma Inv_sorted ds p : StrictInc ds -> Inv ds p -> StronglySorted Z.lt (tss p).
Proof. intros H (i0 & Hm & _). unfold tss. rewrite Hm. apply sorted_ds. exact H. Qed.

Lemma app_inj_len {A} : forall (l1 m1 l2 m2 : list A), l1 ++ l2 = m1 ++ m2 -> length l1 = length m1 ->
  l1 = m1 /\ l2 = m2.
Proof.
  induction l1 as [|x l1 IH]; intros [|y m1] l2 m2 H Hl; try discriminate.
  - split; [reflexivity|exact H].
  - cbn in H. injection H as Hx H. cbn in Hl. injection Hl as Hl. destruct (IH _ _ _ H Hl). subst. split; reflexivity.
Qed.

Lemma InvT_last ds tsl last idx : InvT ds tsl last idx -> tsl <> [] ->
  exists pre, tsl = pre ++ [last].
Proof.
  intros (i0 & Hm & Hi & Hl) Hne. specialize (Hl Hne).
  destruct (length tsl) as [|n]; [rewrite Hm in Hne; contradiction|].
  exists (map ds (seq i0 n)). rewrite Hm, seq_S, map_app, Hl, <- Hi. cbn [map]. do 3 f_equal. lia.
Qed.

Lemma InvT_push ds tsl last idx : InvT ds tsl last idx -> InvT ds (tsl ++ [ds idx]) (ds idx) (S idx).
Proof.
  intros (i0 & Hm & Hi & _). exists i0. rewrite app_length. cbn [length]. rewrite Nat.add_1_r, seq_S, map_app.
  cbn [map]. split; [rewrite <- Hm, Hi; reflexivity|]. split; [lia|]. intros _. reflexivity.
Qed.

Lemma InvT_suffix ds old tsl last idx : InvT ds (old ++ tsl) last idx -> tsl <> [] -> InvT ds tsl last idx.
Proof.
  intros (i0 & Hm & Hi & Hl) Hne. rewrite app_length in Hm, Hi. rewrite seq_app, map_app in Hm.
  apply app_inj_len in Hm; [|rewrite map_length, seq_length; reflexivity]. destruct Hm as [_ Hm].
  exists (i0 + length old)%nat. split; [exact Hm|]. split; [lia|]. intros _. apply Hl.
  destruct old; [exact Hne|discriminate].
Qed.

Lemma push_Inv ds p : Inv ds p -> Inv ds (push ds p).
Proof. unfold Inv, push. cbn [p_buckets p_last p_idx]. rewrite map_app. cbn [map b_ts]. apply InvT_push. Qed.

(** * tick *)
Section Tick.
  Variable C : rconst.
  Variable ds : nat -> Z.
  Variable now : Z.

  Lemma extend_spec : forall fuel p p1, extend C ds fuel now p = Some p1 -> Inv ds p ->
    Inv ds p1 /\ now + rc_uptime C < p_last p1 /\
    exists news, p_buckets p1 = p_buckets p ++ news /\ (forall b, In b news -> b_srv b = []) /\
      (p_last p <= now + rc_uptime C -> news <> []).
  Proof.
    induction fuel as [|f IH]; intros p p1 H HI; cbn [extend] in H;
      destruct (p_last p <=? now + rc_uptime C) eqn:E; try discriminate.
    2: { destruct (IH _ _ H (push_Inv _ _ HI)) as (HI1 & Hl1 & news & Hb & He & _).
         split; [exact HI1|]. split; [exact Hl1|]. cbn [push p_buckets] in Hb. rewrite <- app_assoc in Hb.
         eexists. split; [exact Hb|]. split; [|intros _; discriminate].
         intros b [Hb0|Hb0]; [subst b; reflexivity|exact (He b Hb0)]. }
    all: injection H as <-; split; [exact HI|]; split; [lia|]; exists []; rewrite app_nil_r;
      split; [reflexivity|]; split; [intros b []|lia].
  Qed.

  (** enough fuel: the number of seconds the stream still has to cover, plus one *)
  Definition fuel_bound (p : part) : nat := S (Z.to_nat (now + rc_uptime C + 1 - ds (p_idx p))).

  Lemma extend_terminates : StrictInc ds -> forall fuel p, (fuel_bound p <= fuel)%nat ->
    exists p1, extend C ds fuel now p = Some p1.
  Proof.
    intros Hinc. induction fuel as [|f IH]; intros p Hf; unfold fuel_bound in Hf; [lia|].
    cbn [extend]. destruct (p_last p <=? now + rc_uptime C) eqn:E; [|eexists; reflexivity].
    destruct (ds (p_idx p) <=? now + rc_uptime C) eqn:E2.
    - apply IH. unfold fuel_bound, push. cbn [p_idx]. specialize (Hinc (p_idx p)). lia.
    - destruct f as [|f']; cbn [extend push p_last]; rewrite E2; eexists; reflexivity.
  Qed.

  Lemma drop_old_spec : forall bs bs', drop_old now bs = Some bs' ->
    exists old, bs = old ++ bs' /\ (forall b, In b old -> b_ts b < now) /\
      exists b r, bs' = b :: r /\ now <= b_ts b.
  Proof.
    induction bs as [|x bs IH]; intros bs' H; [discriminate|]. cbn in H. destruct (b_ts x <? now) eqn:E.
    - destruct (IH _ H) as (old & Hb & Hold & Hhd). exists (x :: old). split; [cbn; rewrite Hb; reflexivity|].
      split; [|exact Hhd]. intros b [Hb0|Hb0]; [subst; lia|exact (Hold b Hb0)].
    - injection H as H. subst bs'. exists []. split; [reflexivity|]. split; [intros b []|].
      exists x, bs. split; [reflexivity|lia].
  Qed.

  Lemma drop_old_some : forall bs b, In b bs -> now <= b_ts b -> exists bs', drop_old now bs = Some bs'.
  Proof.
    induction bs as [|x bs IH]; intros b Hin Hb; [destruct Hin|]. cbn. destruct (b_ts x <? now) eqn:E.
    - destruct Hin as [Hin|Hin]; [subst; lia|]. exact (IH _ Hin Hb).
    - eexists. reflexivity.
  Qed.

  (** the bucket list is current for [now]: nothing older than now, the last bucket lies beyond
      now + DEFAULT_SERVER_UPTIME (so it is non-empty) *)
  Definition Current (p : part) : Prop :=
    exists pre tl, tss p = pre ++ [tl] /\ now + rc_uptime C < tl /\ (forall t, In t (tss p) -> now <= t).

  Theorem tick_spec fuel p p' : StrictInc ds -> Inv ds p -> tick C ds fuel now p = TOk p' ->
    Inv ds p' /\ Current p' /\ StronglySorted Z.lt (tss p') /\
    now + rc_uptime C < p_last p' /\
    (forall b, In b (p_buckets p) -> now <= b_ts b -> In b (p_buckets p')) /\
    (forall b, In b (p_buckets p') -> In b (p_buckets p) \/ b_srv b = []) /\
    (forall b, In b (p_buckets p') -> now <= b_ts b).
  Proof.
    intros Hinc HI H. unfold tick in H.
    destruct (extend C ds fuel now p) as [p1|] eqn:E1; [|discriminate].
    destruct (drop_old now (p_buckets p1)) as [bs|] eqn:E2; [|discriminate].
    injection H as H. subst p'.
    destruct (extend_spec _ _ _ E1 HI) as (HI1 & Hl1 & news & Hb1 & Hnews & Hne).
    destruct (drop_old_spec _ _ E2) as (old & Hsplit & Hold & b & r & Hbs & Hb).
    assert (HI' : Inv ds (set_buckets p1 bs)).
    { unfold Inv in *. cbn [set_buckets p_buckets p_last p_idx]. rewrite Hsplit, map_app in HI1.
      apply InvT_suffix in HI1; [exact HI1|]. rewrite Hbs. discriminate. }
    pose proof (Inv_sorted _ _ Hinc HI') as Hs. unfold tss in Hs. cbn [set_buckets p_buckets] in Hs.
    assert (Hall : forall t, In t (map b_ts bs) -> now <= t).
    { intros t Ht. rewrite Hbs in Hs, Ht. cbn [map] in Hs, Ht. apply StronglySorted_inv in Hs. destruct Hs as [_ Hf].
      destruct Ht as [<-|Ht]; [exact Hb|]. rewrite Forall_forall in Hf. specialize (Hf _ Ht). lia. }
    split; [exact HI'|]. split; [|split; [exact Hs|split; [exact Hl1|split; [|split]]]].
    - unfold Current, tss. cbn [set_buckets p_buckets].
      assert (Hne' : map b_ts bs <> []) by (rewrite Hbs; discriminate).
      destruct (InvT_last _ _ _ _ HI' Hne') as (pre & Hpre). cbn [set_buckets p_buckets p_last] in Hpre.
      exists pre, (p_last p1). split; [exact Hpre|]. split; [exact Hl1|exact Hall].
    - cbn [set_buckets p_buckets]. intros b' Hin Hge.
      assert (Hin1 : In b' (old ++ bs)) by (rewrite <- Hsplit, Hb1; apply in_or_app; left; exact Hin).
      apply in_app_or in Hin1. destruct Hin1 as [Ho|Ho]; [specialize (Hold _ Ho); lia|exact Ho].
    - cbn [set_buckets p_buckets]. intros b' Hin.
      assert (Hin1 : In b' (p_buckets p ++ news)) by (rewrite <- Hb1, Hsplit; apply in_or_app; right; exact Hin).
      apply in_app_or in Hin1. destruct Hin1 as [Ho|Ho]; [left; exact Ho|right; exact (Hnews _ Ho)].
    - cbn [set_buckets p_buckets]. intros b' Hin. apply Hall. apply in_map. exact Hin.
  Qed.

  (** `self._reboot_buckets[0]` never raises IndexError in tick *)
  Theorem tick_no_index_error fuel p : 0 <= rc_uptime C -> Inv ds p ->
    (p_buckets p <> [] \/ p_last p <= now + rc_uptime C) -> tick C ds fuel now p <> TIndex.
  Proof.
    intros HD HI Hstart H. unfold tick in H.
    destruct (extend C ds fuel now p) as [p1|] eqn:E1; [|discriminate].
    destruct (drop_old now (p_buckets p1)) as [bs|] eqn:E2; [discriminate|].
    destruct (extend_spec _ _ _ E1 HI) as (HI1 & Hl1 & news & Hb1 & Hnews & Hne).
    assert (Hne1 : map b_ts (p_buckets p1) <> []).
    { rewrite Hb1, map_app. destruct Hstart as [Hs|Hs].
      - destruct (p_buckets p); [congruence|discriminate].
      - specialize (Hne Hs). destruct news; [congruence|]. destruct (map b_ts (p_buckets p)); discriminate. }
    destruct (InvT_last _ _ _ _ HI1 Hne1) as (pre & Hpre).
    assert (Hin : In (p_last p1) (map b_ts (p_buckets p1))) by (rewrite Hpre; apply in_or_app; right; left; reflexivity).
    apply in_map_iff in Hin. destruct Hin as (b & Hbt & Hin).
    destruct (drop_old_some _ b Hin) as [bs' Hbs']; [lia|congruence].
  Qed.

  (** the first loop terminates: with [fuel_bound p] fuel tick does not stop early *)
  Theorem tick_enough_fuel fuel p : StrictInc ds -> (fuel_bound p <= fuel)%nat -> tick C ds fuel now p <> TFuel.
  Proof.
    intros Hinc Hf H. unfold tick in H. destruct (extend_terminates Hinc fuel p Hf) as [p1 E1]. rewrite E1 in H.
    destruct (drop_old now (p_buckets p1)); discriminate.
  Qed.
End Tick.

(** servers of a bucket are a set: no id twice (so [load] counts distinct servers) *)
Definition SetLike (p : part) : Prop := forall b, In b (p_buckets p) -> NoDup (b_srv b).

(** * add / remove keep the bucket structure: both put a bucket list with the same time stamps in place of the
    old one, and its server sets are still sets *)
Lemma rebucket_keeps C ds now p bs :
  map b_ts bs = tss p -> (SetLike p -> Forall (fun b => NoDup (b_srv b)) bs) ->
  Inv ds p /\ Current C now p /\ SetLike p ->
  Inv ds (set_buckets p bs) /\ Current C now (set_buckets p bs) /\ SetLike (set_buckets p bs).
Proof.
  unfold Inv, Current, tss, SetLike. cbn [set_buckets p_buckets p_last p_idx]. intros -> HS (HI & Hc & Hs).
  split; [exact HI|]. split; [exact Hc|]. apply Forall_forall, HS, Hs.
Qed.

Lemma Current_last C now p : Current C now p ->
  exists pre bl, p_buckets p = pre ++ [bl] /\ now + rc_uptime C < b_ts bl /\
    (forall b, In b (p_buckets p) -> now <= b_ts b).
Proof.
  intros (pre & tl & Hm & Hl & Hall). unfold tss in *.
  apply map_eq_app in Hm. destruct Hm as (pre' & l2 & Hb & _ & H2).
  destruct l2 as [|bl [|? ?]]; try discriminate. cbn in H2. injection H2 as H2.
  exists pre', bl. split; [exact Hb|]. split; [lia|]. intros b Hin. apply Hall. apply in_map. exact Hin.
Qed.

Lemma bucket_add_nodup s b : NoDup (b_srv b) -> NoDup (b_srv (bucket_add s b)).
Proof.
  intros H. unfold bucket_add. destruct (mem s (b_srv b)) eqn:E; [exact H|]. cbn [b_srv].
  rewrite <- (rev_involutive (b_srv b ++ [s])), rev_unit. apply NoDup_rev. constructor; [|apply NoDup_rev, H].
  rewrite <- in_rev, <- mem_in. congruence.
Qed.

Lemma upd_nth_Forall {A} (P : A -> Prop) f : (forall x, P x -> P (f x)) ->
  forall i l, Forall P l -> Forall P (upd_nth i f l).
Proof. intros Hf i l H. revert i. induction H as [|x l Hx Hl IH]; intros [|i]; cbn; constructor; auto. Qed.

Lemma remove_gone s p b : In b (p_buckets (remove s p)) -> ~ In s (b_srv b).
Proof.
  intros Hb Hin. unfold remove in Hb. cbn [set_buckets p_buckets] in Hb. apply in_map_iff in Hb.
  destruct Hb as (y & E & Hy). subst b. cbn in Hin. apply filter_In in Hin. destruct Hin as [_ Hin]. lia.
Qed.

(** [up + rc_min C <= now + rc_uptime C] holds of every server that exists; overdue it gets the first bucket,
    otherwise an admissible one or, when none is admissible, the last *)
Theorem no_early_reboot C now s up ts p v p' :
  0 <= rc_min C <= rc_uptime C -> Current C now p ->
  up + rc_min C <= now + rc_uptime C ->
  explicit_idx ts (p_buckets p) = None ->
  add C s up ts p = Some (v, p') ->
  up + rc_min C <= v.
Proof.
  intros HC Hcur Hup He H. destruct (Current_last _ _ _ Hcur) as (pre & bl & Hb & Hl & Hall).
  destruct (overdue C up (p_buckets p)) eqn:Eo.
  - destruct (p_buckets p) as [|b0 r] eqn:Ebs; [discriminate|]. cbn in Eo.
    rewrite (add_overdue_first C s up ts p b0 r Ebs) in H by lia. injection H as Hv _. lia.
  - destruct (add_cheapest_latest _ _ _ _ _ _ _ Eo He H) as (i & b & Hn & Hv & _ & Hlate).
    destruct (cost C up b) as [n|] eqn:Ec.
    + destruct (cost_some _ _ _ _ Ec) as [[Ha _] _]. lia.
    + rewrite Hb in Hn, Hlate.
      assert (b = bl) as -> by (apply (inf_cost_last C up pre bl i b Hn Ec); rewrite Ec; exact Hlate). lia.
Qed.

(** consecutive dates are at most [G] apart *)
Definition GapBound (ds : nat -> Z) (G : Z) : Prop := forall n, ds (S n) <= ds n + G.

(** a stream with gaps of at most [G] cannot jump over a window of width [G]: between a date at or below [hi]
    and a later one at or above [lo] some date lies in [lo, hi] *)
Lemma ds_hits ds G lo hi : GapBound ds G -> lo + G <= hi -> forall n i0, ds i0 <= hi -> lo <= ds (i0 + n)%nat ->
  exists k, (i0 <= k <= i0 + n)%nat /\ lo <= ds k <= hi.
Proof.
  intros HG Hw. induction n as [|n IH]; intros i0 Hhi Hlo.
  - rewrite Nat.add_0_r in Hlo. exists i0. lia.
  - destruct (Z_le_gt_dec lo (ds i0)) as [Hge|Hlt]; [exists i0; lia|].
    destruct (IH (S i0)) as (k & Hk & Hr); [specialize (HG i0); lia|rewrite Nat.add_succ_comm; exact Hlo|].
    exists k. split; [lia|exact Hr].
Qed.

(** when consecutive reboot dates are at most UPTIME - MIN apart, such a server, unless overdue, always has an
    admissible bucket *)
Theorem window_guaranteed C ds G now s up ts p v p' :
  GapBound ds G -> rc_min C + G <= rc_uptime C ->
  Inv ds p -> Current C now p ->
  overdue C up (p_buckets p) = false ->
  up + rc_min C <= now + rc_uptime C ->
  explicit_idx ts (p_buckets p) = None ->
  add C s up ts p = Some (v, p') ->
  up + rc_min C <= v <= up + rc_uptime C.
Proof.
  intros HG HC (i0 & HIm & _) (pre & tl & Hm & Hl & _) Ho Hup He H. unfold tss in Hm.
  destruct (p_buckets p) as [|b0 r] eqn:Ebs; [destruct pre; discriminate|].
  (* the time stamps are ds i0 .. ds (i0 + n); the first is not overdue, the last lies beyond now + UPTIME *)
  cbn [map length] in HIm, Hm. set (n := length (map b_ts r)) in HIm.
  assert (H0 : b_ts b0 = ds i0) by (cbn in HIm; congruence).
  assert (Hn : tl = ds (i0 + n)%nat).
  { rewrite HIm, seq_S, map_app in Hm. apply app_inj_tail in Hm. symmetry. apply Hm. }
  destruct (ds_hits ds G (up + rc_min C) (up + rc_uptime C) HG ltac:(lia) n i0) as (k & Hk & Hr);
    [cbn in Ho; lia|lia|].
  assert (Hin : In (ds k) (map b_ts (b0 :: r))).
  { cbn [map]. rewrite HIm. apply in_map, in_seq. lia. }
  apply in_map_iff in Hin. destruct Hin as (ba & Hba & Hin).
  apply (add_in_window C s up ts p v p' ba); try (rewrite Ebs; assumption); try assumption.
  unfold admissible. lia.
Qed.

(** * reboot_dates for a weekly schedule *)
Section Sched.
  Variable W : sched.
  Variables wd0 tz : Z.

  Lemma weekday_range d : 0 <= weekday wd0 d < 7.
  Proof. unfold weekday. apply Z.mod_pos_bound. lia. Qed.

  Lemma in_week k : 0 <= k < 7 -> In k [0; 1; 2; 3; 4; 5; 6].
  Proof.
    cbn [In]. lia.
  Qed.

  Lemma next_day_spec : forall f d d', next_day W wd0 f d = Some d' ->
    d <= d' < d + Z.of_nat f /\ lookup (weekday wd0 d') W <> None.
  Proof.
    induction f as [|f IH]; intros d d' H; [discriminate|]. cbn [next_day] in H.
    destruct (lookup (weekday wd0 d) W) as [hms|] eqn:E.
    - injection H as H. subst d'. split; [lia|congruence].
    - destruct (IH _ _ H) as [Hr Hl]. split; [lia|exact Hl].
  Qed.

  Lemma next_day_none : forall f d, next_day W wd0 f d = None ->
    forall e, d <= e < d + Z.of_nat f -> lookup (weekday wd0 e) W = None.
  Proof.
    induction f as [|f IH]; intros d H e He; [lia|]. cbn [next_day] in H.
    destruct (lookup (weekday wd0 d) W) as [hms|] eqn:E; [discriminate|].
    destruct (Z.eq_dec e d) as [->|Hne]; [exact E|]. apply (IH _ H). lia.
  Qed.

  Lemma live_next : sched_live W = true -> forall d, exists d', next_day W wd0 7 d = Some d'.
  Proof.
    intros Hl d. destruct (next_day W wd0 7 d) as [d'|] eqn:E; [eexists; reflexivity|]. exfalso.
    unfold sched_live in Hl. apply existsb_exists in Hl. destruct Hl as (k & Hk & Hs).
    assert (Hr : 0 <= k < 7) by (cbn in Hk; lia).
    pose proof (next_day_none _ _ E (d + (k - (d + wd0)) mod 7)) as Hn.
    assert (Hm : 0 <= (k - (d + wd0)) mod 7 < 7) by (apply Z.mod_pos_bound; lia).
    assert (Hw : weekday wd0 (d + (k - (d + wd0)) mod 7) = k).
    { unfold weekday. replace (d + (k - (d + wd0)) mod 7 + wd0) with ((d + wd0) + (k - (d + wd0)) mod 7) by lia.
      rewrite Zplus_mod_idemp_r. replace (d + wd0 + (k - (d + wd0))) with k by lia. apply Z.mod_small. lia. }
    assert (Hin : d <= d + (k - (d + wd0)) mod 7 < d + Z.of_nat 7) by lia.
    specialize (Hn Hin). rewrite Hw in Hn. rewrite Hn in Hs. discriminate.
  Qed.

  Hypothesis Hlive : sched_live W = true.

  Lemma nth_day_some d0 : forall n, exists d, nth_day W wd0 d0 n = Some d.
  Proof.
    induction n as [|n [d IH]]; cbn [nth_day]; [apply live_next; exact Hlive|].
    rewrite IH. apply live_next. exact Hlive.
  Qed.

  Lemma nth_day_sched d0 : forall n d, nth_day W wd0 d0 n = Some d -> lookup (weekday wd0 d) W <> None.
  Proof.
    intros [|n] d H; cbn [nth_day] in H.
    - exact (proj2 (next_day_spec _ _ _ H)).
    - destruct (nth_day W wd0 d0 n); [|discriminate]. exact (proj2 (next_day_spec _ _ _ H)).
  Qed.

  Lemma nth_day_step d0 n d d' : nth_day W wd0 d0 n = Some d -> nth_day W wd0 d0 (S n) = Some d' ->
    d + 1 <= d' <= d + 7.
  Proof.
    intros H H'. cbn [nth_day] in H'. rewrite H in H'. pose proof (proj1 (next_day_spec _ _ _ H')). lia.
  Qed.

  Hypothesis Htod : sched_tod_ok W = true.

  Lemma tod_range d hms : lookup (weekday wd0 d) W = Some hms -> 0 <= tod hms < 86400.
  Proof.
    intros H. unfold sched_tod_ok in Htod. rewrite forallb_forall in Htod.
    specialize (Htod _ (in_week _ (weekday_range d))). rewrite H in Htod. lia.
  Qed.

  (** the n-th date, spelled out *)
  Lemma sched_ds_eq d0 n : exists d hms, nth_day W wd0 d0 n = Some d /\ lookup (weekday wd0 d) W = Some hms /\
    0 <= tod hms < 86400 /\ sched_ds W wd0 tz d0 n = d * 86400 + tod hms - tz.
  Proof.
    destruct (nth_day_some d0 n) as [d Hd]. pose proof (nth_day_sched _ _ _ Hd) as Hs.
    destruct (lookup (weekday wd0 d) W) as [hms|] eqn:E; [|congruence].
    exists d, hms. split; [exact Hd|]. split; [exact E|]. split; [exact (tod_range _ _ E)|].
    unfold sched_ds, day_ts. rewrite Hd, E. reflexivity.
  Qed.

  (** dates of a live schedule with times of day are strictly increasing and at most 8 days - 1 s apart *)
  Lemma sched_ds_step d0 n :
    sched_ds W wd0 tz d0 n < sched_ds W wd0 tz d0 (S n) <= sched_ds W wd0 tz d0 n + 691199.
  Proof.
    destruct (sched_ds_eq d0 n) as (d & hms & Hd & _ & Ht & ->).
    destruct (sched_ds_eq d0 (S n)) as (d' & hms' & Hd' & _ & Ht' & ->).
    pose proof (nth_day_step _ _ _ _ Hd Hd') as Hs. clear - Ht Ht' Hs. lia.
  Qed.

  Theorem sched_ds_inc d0 : StrictInc (sched_ds W wd0 tz d0).
  Proof. intros n. apply sched_ds_step. Qed.

  Theorem sched_ds_gap d0 : GapBound (sched_ds W wd0 tz d0) 691199.
  Proof. intros n. apply sched_ds_step. Qed.

  (** the first date is on the start day or within the six days after it *)
  Theorem sched_ds_first d0 : d0 * 86400 - tz <= sched_ds W wd0 tz d0 0 < (d0 + 7) * 86400 - tz.
  Proof.
    destruct (sched_ds_eq d0 0) as (d & hms & Hd & _ & Ht & ->). cbn [nth_day] in Hd.
    pose proof (proj1 (next_day_spec _ _ _ Hd)) as Hs. clear - Ht Hs. lia.
  Qed.
End Sched.

(** * The constants *)
Lemma tables_ok_canon C : reboot_tables_ok C = true -> C = rconst_canon.
Proof.
  destruct C as [u m [[h mi] s] dd]. unfold reboot_tables_ok, rconst_canon. cbn. intros H.
  repeat (apply andb_prop in H; destruct H as [H ?]). f_equal; try lia. f_equal; [f_equal|]; lia.
Qed.

Lemma tables_ok_arith C : reboot_tables_ok C = true ->
  0 <= rc_min C <= rc_uptime C /\ rc_min C + 691199 <= rc_uptime C /\ 0 <= rc_uptime C /\
  rc_uptime C = 21 * 86400 /\ rc_min C = 86400.
Proof. intros H. rewrite (tables_ok_canon C H). cbn. lia. Qed.

Lemma default_sched_ok C : reboot_tables_ok C = true -> sched_ok (default_sched C) = true.
Proof. intros H. rewrite (tables_ok_canon C H). reflexivity. Qed.

Definition sched_given_ok (W : sched) : bool := match W with [] => true | _ => sched_ok W end.

Lemma eff_sched_ok C W : reboot_tables_ok C = true -> sched_given_ok W = true -> sched_ok (eff_sched C W) = true.
Proof. intros H HW. destruct W as [|x W]; [apply default_sched_ok; exact H|exact HW]. Qed.

(** * States a Partition object goes through *)
Inductive reach (C : rconst) (ds : nat -> Z) : Z -> part -> Prop :=
  | R_init fuel now p : init C ds fuel now = TOk p -> reach C ds now p
  | R_tick fuel now0 now p p' : reach C ds now0 p -> tick C ds fuel now p = TOk p' -> reach C ds now p'
  | R_add now s up ts p v p' : reach C ds now p -> add C s up ts p = Some (v, p') -> reach C ds now p'
  | R_remove now s p : reach C ds now p -> reach C ds now (remove s p).

Lemma Current_nonempty C now p : Current C now p -> p_buckets p <> [].
Proof. intros (pre & tl & Hm & _) E. unfold tss in Hm. rewrite E in Hm. destruct pre; discriminate. Qed.

Lemma Inv_part0 ds now : Inv ds (part0 now).
Proof. exists 0%nat. cbn. split; [reflexivity|]. split; [reflexivity|congruence]. Qed.

(** tick keeps the three invariants (the buckets it adds are empty) *)
Lemma tick_keeps C ds now fuel p p' : StrictInc ds -> Inv ds p -> SetLike p -> tick C ds fuel now p = TOk p' ->
  Inv ds p' /\ Current C now p' /\ SetLike p'.
Proof.
  intros Hinc HI HS H. destruct (tick_spec C ds now fuel p p' Hinc HI H) as (HI' & Hc & _ & _ & _ & Hnew & _).
  split; [exact HI'|]. split; [exact Hc|]. intros b Hb. destruct (Hnew _ Hb) as [Hin|E]; [exact (HS _ Hin)|].
  rewrite E. constructor.
Qed.

(** every state is sorted, consecutive in the date stream, current for the time of the last tick and set-like *)
Theorem reach_inv C ds : StrictInc ds -> forall now p, reach C ds now p ->
  Inv ds p /\ Current C now p /\ SetLike p.
Proof.
  intros Hinc now p H. induction H as [fuel now p H|fuel now0 now p p' _ IH H|now s up ts p v p' _ IH H|now s p _ IH].
  - apply (tick_keeps C ds now fuel (part0 now) p Hinc (Inv_part0 ds now)); [intros b []|exact H].
  - destruct IH as (HI0 & Hc0 & HS0). exact (tick_keeps C ds now fuel p p' Hinc HI0 HS0 H).
  - destruct (add_inv _ _ _ _ _ _ _ H) as (i & b & _ & _ & _ & ->).
    apply rebucket_keeps; [apply upd_nth_map, bucket_add_ts| |exact IH].
    intros HS. apply upd_nth_Forall; [apply bucket_add_nodup|apply Forall_forall, HS].
  - apply (rebucket_keeps C ds now p (map (bucket_remove s) (p_buckets p))); [rewrite map_map; reflexivity| |exact IH].
    intros HS. apply Forall_map, Forall_forall. intros b Hb. apply NoDup_filter, HS, Hb.
Qed.

(** no operation on a reachable state fails: add always returns, tick never raises IndexError *)
Theorem reach_total C ds now p : StrictInc ds -> 0 <= rc_uptime C -> reach C ds now p ->
  (forall s up ts, exists v p', add C s up ts p = Some (v, p')) /\
  (forall fuel now', tick C ds fuel now' p <> TIndex) /\
  (forall fuel now', (fuel_bound C ds now' p <= fuel)%nat -> exists p', tick C ds fuel now' p = TOk p').
Proof.
  intros Hinc HD H. destruct (reach_inv C ds Hinc now p H) as (HI & Hc & _).
  pose proof (Current_nonempty _ _ _ Hc) as Hne. split; [|split].
  - intros s up ts. apply add_total. exact Hne.
  - intros fuel now'. apply tick_no_index_error; [exact HD|exact HI|left; exact Hne].
  - intros fuel now' Hf. destruct (tick C ds fuel now' p) as [p'| |] eqn:E; [eexists; reflexivity| |].
    + exfalso. exact (tick_enough_fuel C ds now' fuel p Hinc Hf E).
    + exfalso. exact (tick_no_index_error C ds now' fuel p HD HI (or_introl Hne) E).
Qed.

(** * With the source's constants *)
Lemma sched_stream C W wd0 tz d0 : reboot_tables_ok C = true -> sched_given_ok W = true ->
  StrictInc (sched_ds (eff_sched C W) wd0 tz d0) /\ GapBound (sched_ds (eff_sched C W) wd0 tz d0) 691199.
Proof.
  intros HT HW. pose proof (eff_sched_ok C W HT HW) as Hok. apply andb_prop in Hok. destruct Hok as [Hl Ht].
  split; [apply sched_ds_inc|apply sched_ds_gap]; assumption.
Qed.
