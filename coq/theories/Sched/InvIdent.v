(** C05: identities on offer and identities held never overlap, no identity is held twice ([Ident]).  Every
    scheduling cycle keeps it; together with non-negative group counts and unique group names ([IdentG]) so does
    every event of Events.v that meets the side condition [wf_op_id]. *)
From Coq Require Import ZArith QArith List Bool Lia Relations.
From RecordUpdate Require Import RecordSet.
From TM Require Import Sched.Vec Sched.Types Sched.Queue Sched.Tree Sched.Cycle Sched.Steps Sched.MapsP Sched.Events
                       Sched.EventsP Sched.InvAcct.
Import ListNotations.
Open Scope Z_scope.

Definition holds (a : app) (g i : Z) : Prop := a_group a = Some g /\ a_identity a = Some i.

Record Ident (c : cell) : Prop := {
  id_names : NoDup (map a_name (c_apps c));
  id_group_exists : forall n a g, get_app n (c_apps c) = Some a -> a_group a = Some g ->
                                  exists grp, aget g (c_groups c) = Some grp;
  id_avail_range : forall g grp i, aget g (c_groups c) = Some grp -> In i (g_avail grp) -> 0 <= i < g_count grp;
  id_avail_nodup : forall g grp, aget g (c_groups c) = Some grp -> NoDup (g_avail grp);
  id_disjoint : forall n a g i grp, get_app n (c_apps c) = Some a -> holds a g i ->
                                    aget g (c_groups c) = Some grp -> ~ In i (g_avail grp);
  id_unique : forall n1 n2 a1 a2 g i, get_app n1 (c_apps c) = Some a1 -> get_app n2 (c_apps c) = Some a2 ->
                                      holds a1 g i -> holds a2 g i -> n1 = n2;
  id_held_nonneg : forall n a g i, get_app n (c_apps c) = Some a -> holds a g i -> 0 <= i
}.

(** the invariant reads (name, group, identity) of instances and the groups *)
Definition app_eqi (a b : app) : Prop := a_name a = a_name b /\ a_group a = a_group b /\ a_identity a = a_identity b.
(** the same, or the identity dropped *)
Definition app_lei (a b : app) : Prop :=
  a_name a = a_name b /\ a_group a = a_group b /\ (a_identity b = a_identity a \/ a_identity b = None).

Lemma app_eqi_lei a b : app_eqi a b -> app_lei a b.
Proof. intros (H1 & H2 & H3). repeat split; auto. Qed.
Lemma app_eqi_refl a : app_eqi a a.
Proof. repeat split. Qed.

Lemma get_app_eqi l l' : Forall2 app_eqi l l' -> forall n,
  match get_app n l, get_app n l' with
  | Some a, Some b => app_eqi a b
  | None, None => True
  | _, _ => False
  end.
Proof. apply get_app_Forall2. intros a b H. apply H. Qed.

(** dropping identities keeps the invariant: nothing new is held *)
Lemma Ident_lei c c' :
  c_groups c' = c_groups c -> Forall2 app_lei (c_apps c) (c_apps c') -> Ident c -> Ident c'.
Proof.
  intros Hg Hf [I0 I1 I2 I3 I4 I5 I6].
  assert (Hkey : forall a b, app_lei a b -> a_name a = a_name b) by (intros a b H; apply H).
  assert (Hback : forall n b, get_app n (c_apps c') = Some b ->
            exists a, get_app n (c_apps c) = Some a /\ a_group a = a_group b /\ forall g i, holds b g i -> holds a g i).
  { intros n b Hb. pose proof (get_app_Forall2 _ _ _ Hkey Hf n) as H. rewrite Hb in H.
    destruct (get_app n (c_apps c)) as [a|]; [|contradiction]. exists a. destruct H as (_ & H2 & H3).
    split; [reflexivity|]. split; [exact H2|]. intros g i [Hh1 Hh2]. split; [congruence|]. destruct H3; congruence. }
  constructor; rewrite ?Hg; try assumption.
  - rewrite (Forall2_keys a_name _ Hkey _ _ Hf). exact I0.
  - intros n b g Hb Hgb. destruct (Hback _ _ Hb) as (a & Ha & H2 & _). eapply I1; [exact Ha|congruence].
  - intros n b g i grp Hb Hh. destruct (Hback _ _ Hb) as (a & Ha & _ & H3). eapply I4; eauto.
  - intros n1 n2 b1 b2 g i Hb1 Hb2 Hh Hk.
    destruct (Hback _ _ Hb1) as (a1 & Ha1 & _ & H13). destruct (Hback _ _ Hb2) as (a2 & Ha2 & _ & H23). eapply I5; eauto.
  - intros n b g i Hb Hh. destruct (Hback _ _ Hb) as (a & Ha & _ & H3). eapply I6; eauto.
Qed.

Lemma Ident_eqi c c' :
  c_groups c' = c_groups c -> Forall2 app_eqi (c_apps c) (c_apps c') -> Ident c -> Ident c'.
Proof. intros Hg Hf. apply Ident_lei; [exact Hg|]. induction Hf; constructor; auto using app_eqi_lei. Qed.

Lemma Forall2_eqi_refl l : Forall2 app_eqi l l.
Proof. apply Forall2_diag, app_eqi_refl. Qed.
Lemma Forall2_eqi_upd n f l : (forall x, app_eqi x (f x)) -> Forall2 app_eqi l (upd_app n f l).
Proof. apply Forall2_upd_app, app_eqi_refl. Qed.
Lemma Ident_upd_app_eqi c n f : (forall x, app_eqi x (f x)) -> Ident c -> Ident (c_upd_app n f c).
Proof. intros Hf. apply Ident_eqi; [reflexivity|apply Forall2_eqi_upd; exact Hf]. Qed.
Lemma Ident_ext c c' : c_groups c' = c_groups c -> c_apps c' = c_apps c -> Ident c -> Ident c'.
Proof. intros H1 H2. apply Ident_eqi; [exact H1|rewrite H2; apply Forall2_eqi_refl]. Qed.
Lemma Ident_same_core c c' : same_core c c' -> Ident c -> Ident c'.
Proof. intros H. apply Ident_ext; apply H. Qed.

Lemma Ident_prim_put c sn an a l : Ident c -> Ident (prim_put c sn an a l).
Proof. apply Ident_eqi; [reflexivity|]. apply Forall2_eqi_upd. intros x. destruct (a_expiry x); repeat split. Qed.
Lemma Ident_prim_remove c sn an a : Ident c -> Ident (prim_remove c sn an a).
Proof. apply Ident_eqi; [reflexivity|]. apply Forall2_eqi_upd. intros x. repeat split. Qed.


Lemma group_of_Some c a g grp : group_of c a = Some (g, grp) -> a_group a = Some g /\ aget g (c_groups c) = Some grp.
Proof.
  unfold group_of. destruct (a_group a) as [g0|]; [|discriminate].
  destruct (aget g0 (c_groups c)) as [grp0|] eqn:E; [|discriminate]. intros [= <- <-]. auto.
Qed.

(** ** one group replaced, the instances as they are: what the new group offers is in range, without repetition
    and held by nobody *)
Lemma Ident_aset c g grp' :
  NoDup (g_avail grp') ->
  (forall j, In j (g_avail grp') -> 0 <= j < g_count grp' /\ forall n a, get_app n (c_apps c) = Some a -> ~ holds a g j) ->
  Ident c -> Ident (c <| c_groups ::= aset g grp' |>).
Proof.
  intros Hnd Hav [I0 I1 I2 I3 I4 I5 I6].
  assert (Hget : forall g1 grp1, aget g1 (aset g grp' (c_groups c)) = Some grp1 ->
                                 (g1 = g /\ grp1 = grp') \/ aget g1 (c_groups c) = Some grp1).
  { intros g1 grp1 H. destruct (Z.eq_dec g1 g) as [->|Hne].
    - rewrite ag_as_same in H. left. split; congruence.
    - rewrite ag_as_other in H by exact Hne. right. exact H. }
  constructor; cbn [c_apps c_groups set]; try assumption.
  - intros n a g1 Ha Hg1. destruct (Z.eq_dec g1 g) as [->|Hne]; [exists grp'; apply ag_as_same|].
    rewrite ag_as_other by exact Hne. eapply I1; eassumption.
  - intros g1 grp1 i H Hi. destruct (Hget _ _ H) as [[-> ->]|H']; [apply Hav; exact Hi|eapply I2; eassumption].
  - intros g1 grp1 H. destruct (Hget _ _ H) as [[-> ->]|H']; [exact Hnd|eapply I3; eassumption].
  - intros n a g1 i grp1 Ha Hh H Hi. destruct (Hget _ _ H) as [[-> ->]|H']; [|eapply I4; eassumption].
    eapply (proj2 (Hav i Hi)); eassumption.
Qed.

(** ** one instance's identity overwritten, the groups as they are: a new identity is non-negative, not on offer
    in the instance's group and held by no other instance of it *)
Lemma Ident_set_identity c an oi :
  (forall i a, oi = Some i -> get_app an (c_apps c) = Some a ->
     0 <= i /\ (forall g grp, a_group a = Some g -> aget g (c_groups c) = Some grp -> ~ In i (g_avail grp)) /\
     forall n b, n <> an -> get_app n (c_apps c) = Some b -> a_group b = a_group a -> a_identity b <> Some i) ->
  Ident c -> Ident (c_upd_app an (fun x => x <| a_identity := oi |>) c).
Proof.
  intros Hoi [I0 I1 I2 I3 I4 I5 I6].
  set (fa := fun x : app => x <| a_identity := oi |>).
  assert (Hfa : forall x, a_name (fa x) = a_name x) by reflexivity.
  (* an instance of the new list is an old one, or the overwritten one *)
  assert (Hget : forall n b, get_app n (upd_app an fa (c_apps c)) = Some b ->
            (n <> an /\ get_app n (c_apps c) = Some b) \/ (n = an /\ exists a, get_app an (c_apps c) = Some a /\ b = fa a)).
  { intros n b Hb. destruct (get_upd_app_inv _ _ _ _ _ Hfa Hb); auto. }
  constructor; cbn [c_upd_app c_apps c_groups set]; fold fa; try assumption.
  - rewrite upd_app_names by exact Hfa. exact I0.
  - intros n b g Hb Hg. destruct (Hget _ _ Hb) as [[_ Hb']|(_ & a & Ha & ->)]; eapply I1; eassumption.
  - intros n b g i grp Hb [Hh1 Hh2] Hg. destruct (Hget _ _ Hb) as [[_ Hb']|(_ & a & Ha & ->)].
    + eapply I4; [exact Hb'|split; eassumption|exact Hg].
    + cbn in Hh1, Hh2. destruct (Hoi i a Hh2 Ha) as (_ & H & _). exact (H g grp Hh1 Hg).
  - intros n1 n2 b1 b2 g i Hb1 Hb2 [Hh1 Hh2] [Hk1 Hk2].
    destruct (Hget _ _ Hb1) as [[N1 Hb1']|(-> & a1 & Ha1 & ->)], (Hget _ _ Hb2) as [[N2 Hb2']|(-> & a2 & Ha2 & ->)].
    + eapply I5; [exact Hb1'|exact Hb2'|split; eassumption|split; eassumption].
    + cbn in Hk1, Hk2. destruct (Hoi i a2 Hk2 Ha2) as (_ & _ & H). destruct (H n1 b1 N1 Hb1'); congruence.
    + cbn in Hh1, Hh2. destruct (Hoi i a1 Hh2 Ha1) as (_ & _ & H). destruct (H n2 b2 N2 Hb2'); congruence.
    + reflexivity.
  - intros n b g i Hb [Hh1 Hh2]. destruct (Hget _ _ Hb) as [[_ Hb']|(_ & a & Ha & ->)].
    + eapply I6; [exact Hb'|split; eassumption].
    + cbn in Hh2. apply (Hoi i a Hh2 Ha).
Qed.

(** dropping an identity without giving it back (count shrunk below it) *)
Lemma Ident_forget c an : Ident c -> Ident (c_upd_app an (fun x => x <| a_identity := None |>) c).
Proof. apply Ident_set_identity. discriminate. Qed.

(** ** release: the identity is dropped, then offered again *)
Lemma Ident_release c an : Ident c -> Ident (release_identity c an).
Proof.
  intros HI. unfold release_identity.
  destruct (get_app an (c_apps c)) as [a|] eqn:Ea; [|exact HI].
  destruct (group_of c a) as [[g grp]|] eqn:Eg; [|exact HI]. apply group_of_Some in Eg as [Egr Egg].
  destruct (a_identity a) as [i|] eqn:Ei; [|exact HI].
  pose proof (Ident_forget c an HI) as HI1.
  set (c1 := c_upd_app an (fun x => x <| a_identity := None |>) c) in *.
  apply (Ident_aset c1); [| |exact HI1].
  - destruct (Z.ltb i (g_count grp)); [apply zadd_set_NoDup|]; apply (id_avail_nodup _ HI _ _ Egg).
  - intros j Hj.
    assert (Hj' : (j = i /\ i < g_count grp) \/ In j (g_avail grp)).
    { destruct (Z.ltb_spec i (g_count grp)); [|auto]. cbn in Hj. apply zadd_set_In in Hj as [->|Hj]; auto. }
    assert (Hc : g_count (if Z.ltb i (g_count grp) then mkGroup (g_count grp) (zadd_set i (g_avail grp)) else grp) = g_count grp)
      by (destruct (Z.ltb i (g_count grp)); reflexivity).
    rewrite Hc. split.
    + destruct Hj' as [[-> Hlt]|Hj']; [|apply (id_avail_range _ HI _ _ _ Egg Hj')].
      split; [apply (id_held_nonneg _ HI _ _ _ _ Ea (conj Egr Ei))|exact Hlt].
    + intros n b Hb Hh. apply get_upd_app_inv in Hb as [(-> & a0 & _ & ->)|[Hne Hb']]; [| |reflexivity].
      * destruct Hh as [_ Hh]. discriminate Hh.
      * destruct Hj' as [[-> _]|Hj'].
        -- apply Hne. exact (id_unique _ HI _ _ _ _ _ _ Hb' Ea Hh (conj Egr Ei)).
        -- exact (id_disjoint _ HI _ _ _ _ _ Hb' Hh Egg Hj').
Qed.

(** taking an identity off the offer of the instance's group and giving it to the instance *)
Lemma Ident_take c an a g grp i :
  get_app an (c_apps c) = Some a -> a_group a = Some g -> aget g (c_groups c) = Some grp -> 0 <= i ->
  (forall n b, n <> an -> get_app n (c_apps c) = Some b -> ~ holds b g i) ->
  Ident c ->
  Ident (c_upd_app an (fun x => x <| a_identity := Some i |>)
                   (c <| c_groups ::= aset g (mkGroup (g_count grp) (zremove i (g_avail grp))) |>)).
Proof.
  intros Ea Egr Egg Hi0 Hoth HI. pose proof (id_avail_nodup _ HI _ _ Egg) as Hnd.
  apply Ident_set_identity.
  - cbn [c_apps c_groups set]. intros i' a' [= <-] Ha'. rewrite Ea in Ha'. injection Ha' as <-. split; [exact Hi0|]. split.
    + intros g' grp' Hg' Hgrp'. rewrite Egr in Hg'. injection Hg' as <-. rewrite ag_as_same in Hgrp'.
      injection Hgrp' as <-. apply zremove_not_in. exact Hnd.
    + intros n b Hne Hb Hgb Hib. apply (Hoth n b Hne Hb). split; congruence.
  - apply Ident_aset; [apply zremove_NoDup; exact Hnd| |exact HI].
    intros j Hj. cbn in Hj |- *. apply zremove_In in Hj. split; [apply (id_avail_range _ HI _ _ _ Egg Hj)|].
    intros n b Hb Hh. exact (id_disjoint _ HI _ _ _ _ _ Hb Hh Egg Hj).
Qed.

(** ** acquire *)
Lemma Ident_acquire c an ch : Ident c -> Ident (fst (acquire_identity c an ch)).
Proof.
  intros HI. unfold acquire_identity.
  destruct (get_app an (c_apps c)) as [a|] eqn:Ea; [|exact HI].
  destruct (group_of c a) as [[g grp]|] eqn:Eg; [|exact HI]. apply group_of_Some in Eg as [Egr Egg].
  destruct (a_identity a) as [i0|] eqn:Ei; [exact HI|].
  destruct (g_avail grp) as [|first rest] eqn:Eav; [exact HI|]. cbn [fst]. rewrite <- Eav.
  set (i := match ch with Some ch0 => if zmem ch0 (g_avail grp) then ch0 else first | None => first end).
  assert (Hin : In i (g_avail grp)).
  { subst i. destruct ch as [ch0|]; [destruct (zmem ch0 (g_avail grp)) eqn:Em; [apply zmem_In; exact Em|]|]; rewrite Eav; left; reflexivity. }
  apply (Ident_take c an a g grp i Ea Egr Egg); [apply (id_avail_range _ HI _ _ _ Egg Hin)| |exact HI].
  intros n b _ Hb Hh. exact (id_disjoint _ HI _ _ _ _ _ Hb Hh Egg Hin).
Qed.

Lemma soft_eqi f : soft f -> forall x, app_eqi x (f x).
Proof.
  intros Hf x. repeat split; symmetry; apply (Hf x).
Qed.

Theorem Ident_pstep c c' : pstep c c' -> Ident c -> Ident c'.
Proof.
  intros Hs. destruct Hs.
  - apply Ident_same_core; assumption.
  - apply Ident_prim_put.
  - apply Ident_prim_remove.
  - apply Ident_upd_app_eqi. apply soft_eqi. assumption.
  - apply Ident_upd_app_eqi. intros x. repeat split.
  - apply Ident_release.
  - apply Ident_acquire.
  - apply Ident_forget.
Qed.
Theorem Ident_psteps c c' : psteps c c' -> Ident c -> Ident c'.
Proof. induction 1; [apply Ident_pstep; assumption|tauto|tauto]. Qed.
Theorem Ident_schedule c ch : Ident c -> Ident (fst (fst (schedule c ch))).
Proof. apply Ident_psteps. apply schedule_ps. Qed.

(** ** the events between cycles *)
Lemma zrange_In lo hi x : In x (zrange lo hi) <-> lo <= x < hi.
Proof.
  unfold zrange. rewrite in_map_iff. split.
  - intros (k & <- & Hk). apply in_seq in Hk. lia.
  - intros H. exists (Z.to_nat (x - lo)). split; [lia|]. apply in_seq. lia.
Qed.
Lemma zrange_NoDup lo hi : NoDup (zrange lo hi).
Proof.
  unfold zrange. apply FinFun.Injective_map_NoDup; [intros a b H; lia|apply seq_NoDup].
Qed.
Lemma sym_diff_In a b x : In x (sym_diff a b) -> In x a \/ In x b.
Proof. unfold sym_diff. rewrite in_app_iff, !filter_In. tauto. Qed.
Lemma sym_diff_NoDup a b : NoDup a -> NoDup b -> NoDup (sym_diff a b).
Proof.
  intros Ha Hb. apply NoDup_app_intro; [apply NoDup_filter, Ha|apply NoDup_filter, Hb|].
  intros x H1 H2. apply filter_In in H1 as [H1 _]. apply filter_In in H2 as [_ H2].
  apply negb_true_iff, zmem_false in H2. exact (H2 H1).
Qed.

Lemma group_adjust_spec grp count :
  (forall i, In i (g_avail grp) -> 0 <= i < g_count grp) -> NoDup (g_avail grp) -> 0 <= g_count grp ->
  g_count (group_adjust grp count) = count /\
  NoDup (g_avail (group_adjust grp count)) /\
  (forall i, In i (g_avail (group_adjust grp count)) -> 0 <= i < count).
Proof.
  intros Hr Hn Hc. unfold group_adjust. destruct (Z.geb_spec count (g_count grp)); cbn.
  - split; [reflexivity|]. split; [apply sym_diff_NoDup; [exact Hn|apply zrange_NoDup]|].
    intros i Hi. apply sym_diff_In in Hi as [Hi|Hi]; [specialize (Hr i Hi); lia|apply zrange_In in Hi; lia].
  - split; [reflexivity|]. split; [apply NoDup_filter; exact Hn|].
    intros i Hi. apply filter_In in Hi as [Hi Hf]. specialize (Hr i Hi).
    apply negb_true_iff in Hf. apply andb_false_iff in Hf as [Hf|Hf]; [apply Z.leb_gt in Hf; lia|apply Z.ltb_ge in Hf; lia].
Qed.

Definition held_of (c : cell) (g : Z) : list Z :=
  flat_map (fun a => match a_group a, a_identity a with
                     | Some g', Some i => if Z.eqb g' g then [i] else []
                     | _, _ => []
                     end) (c_apps c).
Lemma held_of_In c g n a i : get_app n (c_apps c) = Some a -> holds a g i -> In i (held_of c g).
Proof.
  intros Ha [H1 H2]. unfold held_of. apply in_flat_map. exists a. split; [eapply get_app_In; exact Ha|].
  rewrite H1, H2, Z.eqb_refl. left. reflexivity.
Qed.

Record GroupsOk (c : cell) : Prop := {
  go_count : forall g grp, aget g (c_groups c) = Some grp -> 0 <= g_count grp;
  go_keys : NoDup (map fst (c_groups c))
}.

Lemma Ident_config_group c g count : 0 <= count -> GroupsOk c -> Ident c -> Ident (config_group c g count).
Proof.
  intros Hc0 [Hgo _] HI. unfold config_group. destruct (aget g (c_groups c)) as [grp|] eqn:Eg.
  - destruct (group_adjust_spec grp count (fun i => id_avail_range _ HI g grp i Eg) (id_avail_nodup _ HI _ _ Eg) (Hgo _ _ Eg))
      as (Hcnt & Hnd & Hrg).
    fold (held_of c g). apply Ident_aset; [apply NoDup_filter; exact Hnd| |exact HI].
    intros j Hj. cbn in Hj |- *. apply filter_In in Hj as [Hj Hf]. split; [rewrite Hcnt; apply Hrg; exact Hj|].
    intros n a Ha Hh. apply negb_true_iff, zmem_false in Hf. apply Hf. eapply held_of_In; eassumption.
  - apply Ident_aset; [apply zrange_NoDup| |exact HI].
    intros j Hj. cbn in Hj |- *. apply zrange_In in Hj. split; [exact Hj|].
    (* an instance of a group that did not exist: impossible *)
    intros n a Ha [Hh _]. destruct (id_group_exists _ HI _ _ _ Ha Hh) as (grp0 & Hg0). congruence.
Qed.

Lemma GroupsOk_ext c c' : c_groups c' = c_groups c -> GroupsOk c -> GroupsOk c'.
Proof. intros H [G K]. constructor; rewrite H; assumption. Qed.
Lemma GroupsOk_aset c c' g grp' :
  c_groups c' = aset g grp' (c_groups c) -> 0 <= g_count grp' -> GroupsOk c -> GroupsOk c'.
Proof.
  intros H Hc [G K]. constructor; rewrite H; [|apply NoDup_keys_aset; exact K].
  intros g1 grp1 H1. destruct (Z.eq_dec g1 g) as [->|Hne].
  - rewrite ag_as_same in H1. inversion H1; subst. exact Hc.
  - rewrite ag_as_other in H1 by assumption. eapply G; exact H1.
Qed.
Lemma GroupsOk_release c an : GroupsOk c -> GroupsOk (release_identity c an).
Proof.
  intros HG. unfold release_identity. destruct (get_app an (c_apps c)) as [a|]; [|exact HG].
  destruct (group_of c a) as [[g grp]|] eqn:Eg; [|exact HG]. destruct (a_identity a) as [i|]; [|exact HG].
  apply group_of_Some in Eg as [_ Eg]. eapply GroupsOk_aset; [reflexivity| |exact HG].
  destruct (Z.ltb i (g_count grp)); apply (go_count _ HG _ _ Eg).
Qed.
Lemma GroupsOk_acquire c an ch : GroupsOk c -> GroupsOk (fst (acquire_identity c an ch)).
Proof.
  intros HG. unfold acquire_identity. destruct (get_app an (c_apps c)) as [a|]; [|exact HG].
  destruct (group_of c a) as [[g grp]|] eqn:Eg; [|exact HG]. destruct (a_identity a); [exact HG|].
  destruct (g_avail grp); [exact HG|]. apply group_of_Some in Eg as [_ Eg].
  eapply GroupsOk_aset; [reflexivity|apply (go_count _ HG _ _ Eg)|exact HG].
Qed.
Theorem GroupsOk_pstep c c' : pstep c c' -> GroupsOk c -> GroupsOk c'.
Proof.
  intros Hs. destruct Hs; try (apply GroupsOk_ext; reflexivity).
  - apply GroupsOk_ext, H.
  - apply GroupsOk_release.
  - apply GroupsOk_acquire.
Qed.
Theorem GroupsOk_psteps c c' : psteps c c' -> GroupsOk c -> GroupsOk c'.
Proof. induction 1; [apply GroupsOk_pstep; assumption|tauto|tauto]. Qed.

(** ** Loader.restore_placement: the placement part leaves groups and identities alone, then the recorded identity is forced *)
Lemma srv_put_lease_eqi c sn an l c' : srv_put_lease c sn an l = Some c' ->
  c_groups c' = c_groups c /\ Forall2 app_eqi (c_apps c) (c_apps c').
Proof.
  unfold srv_put_lease. destruct (get_srv sn (c_servers c)) as [s|]; [|discriminate].
  destruct (get_app an (c_apps c)) as [a|]; [|discriminate]. destruct (put_guard c s a l); [|discriminate].
  intros [= <-].
  pose proof (same_core_trans _ _ _ (bump_from_sc (prim_put c sn an a l) (s_parent s) [(a_aff a, 1)] 1)
                (adjust_down_from_sc _ (s_parent s) (Some (s_free s)))) as (_ & _ & _ & H4 & _ & H6 & _).
  rewrite H4, H6. split; [reflexivity|].
  apply Forall2_eqi_upd. intros x. destruct (a_expiry x); repeat split.
Qed.
Lemma app_eqi_trans a b c : app_eqi a b -> app_eqi b c -> app_eqi a c.
Proof. intros (A1 & A2 & A3) (B1 & B2 & B3). repeat split; congruence. Qed.
Lemma restore_put_eqi c sn an vb ex :
  c_groups (fst (restore_put c sn an vb ex)) = c_groups c /\ Forall2 app_eqi (c_apps c) (c_apps (fst (restore_put c sn an vb ex))).
Proof.
  assert (Hrefl : c_groups c = c_groups c /\ Forall2 app_eqi (c_apps c) (c_apps c)) by (split; [reflexivity|apply Forall2_eqi_refl]).
  unfold restore_put. destruct vb.
  - unfold srv_restore. destruct (get_app an (c_apps c)) as [a|]; [|exact Hrefl].
    destruct (srv_put_lease c sn an 0) as [c'|] eqn:E; cbn [fst c_upd_app c_apps c_groups set].
    + destruct (srv_put_lease_eqi _ _ _ _ _ E) as [Hg Hf]. split; [exact Hg|].
      eapply (Forall2_rel_trans _ app_eqi_trans); [exact Hf|]. apply Forall2_eqi_upd. intros x; repeat split.
    + split; [reflexivity|]. apply Forall2_eqi_upd. intros x; repeat split.
  - destruct (get_app an (c_apps c)) as [a|]; [|exact Hrefl]. destruct (a_once a); [exact Hrefl|].
    unfold srv_put. destruct (get_app an (c_apps c)) as [a2|]; [|exact Hrefl].
    destruct (srv_put_lease c sn an (a_lease a2)) as [c'|] eqn:E; [|exact Hrefl].
    exact (srv_put_lease_eqi _ _ _ _ _ E).
Qed.

Definition force_ok (c : cell) (an i : Z) : Prop :=
  forall a, get_app an (c_apps c) = Some a ->
    0 <= i /\ exists g, a_group a = Some g /\
      forall n2 b, n2 <> an -> get_app n2 (c_apps c) = Some b -> ~ holds b g i.

Lemma force_ok_eqi c c' an i : Forall2 app_eqi (c_apps c) (c_apps c') -> force_ok c an i -> force_ok c' an i.
Proof.
  intros Hf H a' Ha'. pose proof (get_app_eqi _ _ Hf an) as Hq. rewrite Ha' in Hq.
  destruct (get_app an (c_apps c)) as [a|] eqn:Ea; [|contradiction]. destruct Hq as (_ & Q2 & _).
  destruct (H a Ea) as (H0 & g & Hg & Hoth). split; [exact H0|]. exists g. split; [congruence|].
  intros n2 b' Hne Hb' [Hh1 Hh2]. pose proof (get_app_eqi _ _ Hf n2) as Hq2. rewrite Hb' in Hq2.
  destruct (get_app n2 (c_apps c)) as [b|] eqn:Eb; [|contradiction]. destruct Hq2 as (_ & R2 & R3).
  apply (Hoth n2 b Hne Eb). split; congruence.
Qed.

Lemma Ident_force c an i : force_ok c an i -> Ident c -> Ident (force_identity c an (Some i)).
Proof.
  intros Hok HI. unfold force_identity.
  destruct (get_app an (c_apps c)) as [a|] eqn:Ea; [|exact HI].
  destruct (group_of c a) as [[g grp]|] eqn:Eg; [|exact HI]. apply group_of_Some in Eg as [Egr Egg].
  destruct (Hok a Ea) as (Hi0 & g' & Hg' & Hoth). rewrite Egr in Hg'. injection Hg' as <-.
  exact (Ident_take c an a g grp i Ea Egr Egg Hi0 Hoth HI).
Qed.
Lemma GroupsOk_force c an i : GroupsOk c -> GroupsOk (force_identity c an i).
Proof.
  intros HG. unfold force_identity. destruct i as [i|]; [|exact HG]. destruct (get_app an (c_apps c)) as [a|]; [|exact HG].
  destruct (group_of c a) as [[g grp]|] eqn:Eg; [|exact HG]. apply group_of_Some in Eg as [_ Eg].
  eapply GroupsOk_aset; [reflexivity|apply (go_count _ HG _ _ Eg)|exact HG].
Qed.

(** ** step and run
    The clause of [ORestore] without a recorded identity is not used in this file: it is what keeps [IdRec]
    (InvIdRec.v) when the instance is put back on a server. *)
Definition wf_op_id (c : cell) (o : op) : Prop :=
  match o with
  | ORestore sname aname verbatim expires ident =>
      (* a recorded identity is one nobody else of the group holds (the store recorded a state of this invariant) *)
      match ident with
      | Some i => force_ok c aname i
      | None => forall a, get_app aname (c_apps c) = Some a -> a_group a = None \/ a_identity a <> None
      end
  | OAddApp label path a => get_app (a_name a) (c_apps c) = None -> a_identity a = None
  | OConfigGroup g count => 0 <= count
  | _ => True
  end.

Lemma Ident_ensure_group c g : Ident c -> Ident (ensure_group c g).
Proof.
  unfold ensure_group. destruct g as [n|]; [|tauto]. destruct (aget n (c_groups c)); [tauto|].
  apply Ident_aset; [constructor|intros j []].
Qed.
Lemma GroupsOk_ensure_group c g : GroupsOk c -> GroupsOk (ensure_group c g).
Proof.
  unfold ensure_group. destruct g as [n|]; [|tauto]. destruct (aget n (c_groups c)) eqn:E; [tauto|].
  intros HG. eapply GroupsOk_aset; [reflexivity|cbn; lia|exact HG].
Qed.
Lemma ensure_group_exists c g : exists grp, aget g (c_groups (ensure_group c (Some g))) = Some grp.
Proof.
  unfold ensure_group. destruct (aget g (c_groups c)) eqn:E; [eexists; exact E|]. cbn. eexists. apply ag_as_same.
Qed.

Lemma Ident_upd_alloc c label path f : Ident c -> Ident (upd_alloc c label path f).
Proof. apply Ident_ext; apply upd_alloc_frame. Qed.
Lemma GroupsOk_upd_alloc c label path f : GroupsOk c -> GroupsOk (upd_alloc c label path f).
Proof. apply GroupsOk_ext, upd_alloc_frame. Qed.

Lemma Ident_add_app c a :
  get_app (a_name a) (c_apps c) = None -> a_identity a = None ->
  (forall g, a_group a = Some g -> exists grp, aget g (c_groups c) = Some grp) ->
  Ident c -> Ident (c <| c_apps ::= (fun l => l ++ [a]) |>).
Proof.
  intros Hn Hid Hgr [I0 I1 I2 I3 I4 I5 I6].
  assert (Hget : forall n b, get_app n (c_apps c ++ [a]) = Some b -> get_app n (c_apps c) = Some b \/ b = a).
  { intros n b Hb. rewrite get_app_snoc in Hb. destruct (get_app n (c_apps c)); [left; exact Hb|].
    destruct (Z.eqb (a_name a) n); inversion Hb. right; reflexivity. }
  assert (Hno : forall g i, ~ holds a g i) by (intros g i [_ H]; congruence).
  constructor; cbn [c_apps c_groups set]; try assumption.
  - apply NoDup_map_snoc; [exact I0|apply get_app_none_notin; exact Hn].
  - intros n b g Hb Hg. destruct (Hget _ _ Hb) as [Hb'| ->]; [eapply I1; eassumption|apply Hgr; exact Hg].
  - intros n b g i grp Hb Hh. destruct (Hget _ _ Hb) as [Hb'| ->]; [eapply I4; eassumption|destruct (Hno _ _ Hh)].
  - intros n1 n2 b1 b2 g i Hb1 Hb2 Hh Hk.
    destruct (Hget _ _ Hb1) as [Hb1'| ->]; [|destruct (Hno _ _ Hh)]. destruct (Hget _ _ Hb2) as [Hb2'| ->]; [|destruct (Hno _ _ Hk)].
    eapply I5; eassumption.
  - intros n b g i Hb Hh. destruct (Hget _ _ Hb) as [Hb'| ->]; [eapply I6; eassumption|destruct (Hno _ _ Hh)].
Qed.

Lemma Ident_del_app c n : Ident c -> Ident (c <| c_apps ::= del_app n |>).
Proof.
  intros [I0 I1 I2 I3 I4 I5 I6].
  assert (Hget : forall m b, get_app m (del_app n (c_apps c)) = Some b -> get_app m (c_apps c) = Some b).
  { intros m b Hb. rewrite get_app_del in Hb by exact I0. destruct (Z.eqb m n); [discriminate|exact Hb]. }
  constructor; cbn [c_apps c_groups set]; try assumption; eauto.
  apply del_app_names_NoDup. exact I0.
Qed.

Lemma Ident_remove_group c g : GroupsOk c -> Ident c -> Ident (remove_group c g).
Proof.
  intros [G K] HI. unfold remove_group. destruct (aget g (c_groups c)) as [grp|] eqn:Eg; [|exact HI].
  destruct (existsb _ (c_apps c)) eqn:Ex.
  - (* in use: adjust(0), which offers nothing *)
    destruct (group_adjust_spec grp 0 (fun i => id_avail_range _ HI g grp i Eg) (id_avail_nodup _ HI _ _ Eg) (G _ _ Eg)) as (_ & Hnd & Hrg).
    apply Ident_aset; [exact Hnd| |exact HI]. intros j Hj. specialize (Hrg j Hj). lia.
  - (* unused: deleted *)
    destruct HI as [I0 I1 I2 I3 I4 I5 I6].
    assert (Hget : forall g1 grp1, aget g1 (adel g (c_groups c)) = Some grp1 -> aget g1 (c_groups c) = Some grp1).
    { intros g1 grp1 H. rewrite aget_adel in H by exact K. destruct (Z.eqb g1 g); [discriminate|exact H]. }
    constructor; cbn [c_apps c_groups set]; try assumption; eauto.
    intros n a g1 Ha Hg1. rewrite aget_adel by exact K. destruct (Z.eqb_spec g1 g) as [->|Hne]; [|eapply I1; eassumption].
    rewrite (proj2 (existsb_exists _ _)) in Ex; [discriminate|].
    exists a. split; [eapply get_app_In; exact Ha|rewrite Hg1; apply Z.eqb_refl].
Qed.
Lemma GroupsOk_remove_group c g : GroupsOk c -> GroupsOk (remove_group c g).
Proof.
  intros HG. unfold remove_group. destruct (aget g (c_groups c)) as [grp|] eqn:Eg; [|exact HG].
  destruct (existsb _ (c_apps c)).
  - eapply GroupsOk_aset; [reflexivity| |exact HG]. unfold group_adjust. destruct (Z.geb 0 (g_count grp)); cbn; lia.
  - destruct HG as [G K]. constructor; cbn [c_groups set]; [|apply adel_keys_NoDup; exact K].
    intros g1 grp1 H1. rewrite aget_adel in H1 by exact K. destruct (Z.eqb g1 g); [discriminate|]. eapply G; exact H1.
Qed.
Lemma GroupsOk_config_group c g count : 0 <= count -> GroupsOk c -> GroupsOk (config_group c g count).
Proof.
  intros Hc HG. unfold config_group. destruct (aget g (c_groups c)) as [grp|].
  - eapply GroupsOk_aset; [reflexivity| |exact HG]. cbn. unfold group_adjust. destruct (Z.geb count (g_count grp)); cbn; lia.
  - eapply GroupsOk_aset; [reflexivity|cbn; lia|exact HG].
Qed.

Definition IdentG (c : cell) : Prop := Ident c /\ GroupsOk c.
Lemma IdentG_ext c c' : c_groups c' = c_groups c -> c_apps c' = c_apps c -> IdentG c -> IdentG c'.
Proof. intros H1 H2 [HI HG]. split; [eapply Ident_ext; eassumption|eapply GroupsOk_ext; eassumption]. Qed.
Lemma IdentG_psteps c c' : psteps c c' -> IdentG c -> IdentG c'.
Proof. intros Hp [HI HG]. split; [eapply Ident_psteps; eassumption|eapply GroupsOk_psteps; eassumption]. Qed.
Lemma IdentG_upd_app_eqi c n f : (forall x, app_eqi x (f x)) -> IdentG c -> IdentG (c_upd_app n f c).
Proof. intros Hf [HI HG]. split; [apply Ident_upd_app_eqi; assumption|revert HG; apply GroupsOk_ext; reflexivity]. Qed.
Lemma IdentG_upd_alloc c label path f : IdentG c -> IdentG (upd_alloc c label path f).
Proof. intros [HI HG]. split; [apply Ident_upd_alloc|apply GroupsOk_upd_alloc]; assumption. Qed.
Lemma IdentG_ensure_group c g : IdentG c -> IdentG (ensure_group c g).
Proof. intros [HI HG]. split; [apply Ident_ensure_group|apply GroupsOk_ensure_group]; assumption. Qed.

Lemma IdentG_release c n : IdentG c -> IdentG (release_identity c n).
Proof. intros [HI HG]. split; [apply Ident_release|apply GroupsOk_release]; assumption. Qed.
Lemma IdentG_del_app c n : IdentG c -> IdentG (c <| c_apps ::= del_app n |>).
Proof. intros [HI HG]. split; [apply Ident_del_app; exact HI|revert HG; apply GroupsOk_ext; reflexivity]. Qed.

Lemma IdentG_remove_app c n : IdentG c -> IdentG (remove_app c n).
Proof.
  intros H. unfold remove_app. destruct (get_app n (c_apps c)) as [a|]; [|exact H].
  apply IdentG_del_app, IdentG_release.
  destruct (a_alloc a) as [[l0 p0]|]; [apply IdentG_upd_alloc|];
    (destruct (a_server a) as [sn|]; [destruct (is_member c sn); [apply (IdentG_psteps _ _ (srv_remove_ps c sn n))|]|]; exact H).
Qed.

Lemma IdentG_add_app_op c label path a : wf_op_id c (OAddApp label path a) -> IdentG c -> IdentG (add_app c label path a).
Proof.
  intros Hwf H. unfold add_app. destruct (get_app (a_name a) (c_apps c)) as [old|] eqn:Eo.
  - apply IdentG_ensure_group, IdentG_upd_app_eqi; [intros x; repeat split|].
    apply IdentG_upd_alloc. destruct (a_alloc old) as [[l0 p0]|]; [apply IdentG_upd_alloc|]; exact H.
  - specialize (Hwf Eo).
    set (c1 := upd_alloc c label path (alloc_add_app (a_name a))).
    assert (E1 : c_apps c1 = c_apps c) by apply upd_alloc_frame.
    (* create the group first (commutes with appending the instance), then add the instance *)
    set (a' := a <| a_alloc := Some (label, path) |>).
    assert (Hcomm : ensure_group (c1 <| c_apps ::= (fun l => l ++ [a']) |>) (a_group a)
                    = (ensure_group c1 (a_group a)) <| c_apps ::= (fun l => l ++ [a']) |>).
    { unfold ensure_group. destruct (a_group a) as [g|]; [|reflexivity]. cbn [c_groups set].
      destruct (aget g (c_groups c1)); reflexivity. }
    rewrite Hcomm.
    assert (Eg1 : c_apps (ensure_group c1 (a_group a)) = c_apps c1).
    { unfold ensure_group. destruct (a_group a) as [g|]; [|reflexivity]. destruct (aget g (c_groups c1)); reflexivity. }
    destruct (IdentG_ensure_group _ (a_group a) (IdentG_upd_alloc c label path (alloc_add_app (a_name a)) H)) as [HI1 HG1].
    fold c1 in HI1, HG1. split; [|revert HG1; apply GroupsOk_ext; reflexivity].
    apply Ident_add_app; [rewrite Eg1, E1; exact Eo|exact Hwf| |exact HI1].
    intros g Hg. change (a_group a = Some g) in Hg. rewrite Hg. apply ensure_group_exists.
Qed.

Theorem IdentG_step c o : wf_op_id c o -> IdentG c -> IdentG (step c o).
Proof.
  intros Hwf H. destruct (srv_event o) eqn:Ev.
  { destruct (srv_event_quiet c o Ev) as (E1 & _ & E3). apply (IdentG_ext (srv_event_pre c o)); [exact E3|exact E1|].
    exact (IdentG_psteps _ _ (srv_event_pre_ps c o) H). }
  destruct (attr_event o) as [[n f]|] eqn:Ea.
  { destruct (attr_event_step c o n f Ea) as [-> Hf]. apply IdentG_upd_app_eqi; [|exact H].
    intros x. repeat split; symmetry; apply (Hf x). }
  destruct o; try discriminate Ev; try discriminate Ea; cbn [step].
  - apply IdentG_add_app_op; assumption.
  - apply IdentG_remove_app; exact H.
  - apply IdentG_upd_alloc; exact H.
  - destruct H as [HI HG]. split; [apply Ident_config_group; assumption|apply GroupsOk_config_group; assumption].
  - destruct H as [HI HG]. split; [apply Ident_remove_group; assumption|apply GroupsOk_remove_group; assumption].
  - exact (IdentG_psteps _ _ (step_schedule_ps c choices) H).
  - (* ORestore *)
    unfold restore_op. destruct (get_app aname (c_apps c)) as [a|]; [|exact H].
    pose proof (IdentG_psteps _ _ (restore_put_ps c sname aname verbatim expires) H) as H1.
    pose proof (restore_put_eqi c sname aname verbatim expires) as [_ Hq].
    destruct (restore_put c sname aname verbatim expires) as [c1 ok]. cbn [fst] in H1, Hq.
    destruct ok; [|destruct (a_once a); [apply IdentG_remove_app|]; exact H1].
    destruct H1 as [HI HG]. split; [|apply GroupsOk_force; exact HG].
    destruct ident as [i|]; [|exact HI]. apply Ident_force; [|exact HI]. eapply force_ok_eqi; [exact Hq|exact Hwf].
Qed.

Fixpoint wf_ops_id (c : cell) (ops : list op) : Prop :=
  match ops with [] => True | o :: r => wf_op_id c o /\ wf_ops_id (step c o) r end.
Theorem IdentG_run ops : forall c, wf_ops_id c ops -> IdentG c -> IdentG (run c ops).
Proof. exact (run_inv IdentG wf_op_id IdentG_step ops). Qed.
Lemma IdentG_init dim root level : IdentG (init_cell dim root level).
Proof.
  split; constructor; cbn; try (constructor; fail); intros; discriminate.
Qed.
