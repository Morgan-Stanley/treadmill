(** Well-formedness of the allocation trees (Cell.partitions / Allocation.sub_allocations / Allocation.apps)
    against the instance records (Application.allocation): every name queued in the allocation at
    (partition label, path) belongs to a live instance whose record points back to exactly that position,
    every live instance is queued at the position its record names, no name is queued twice, and the
    dict-like association lists (partitions, sub-allocations) have unique keys.

    The invariant holds in the initial cell and is preserved by EVERY event of the alphabet of Events.v,
    without any side condition on the event ([wf_op_alloc] is [True]).  Consequences: [parts_wf] (the premise of
    the cycle-level theorems of CycleP.v) and "every live instance is queued in some partition". *)
From Coq Require Import ZArith List.
From RecordUpdate Require Import RecordSet.
From TM Require Import Sched.Vec Sched.Types Sched.Queue Sched.QueueP Sched.Tree Sched.Cycle Sched.Steps Sched.MapsP
                       Sched.Events Sched.EventsP Sched.InvAcct Sched.TurnP Sched.CycleP.
Import ListNotations.
Open Scope Z_scope.

(** ** positions in an allocation tree *)

(** a projection of the allocation found at [p] below [al] (empty when there is none) *)
Definition sel_at {A} (g : alloc -> list A) (al : alloc) (p : list Z) : list A :=
  match alloc_at al p with Some s => g s | None => [] end.
(** the names queued in the allocation at path [p] below [al] *)
Definition apps_at : alloc -> list Z -> list Z := sel_at al_apps.
(** the names of the sub-allocations of the allocation at path [p] below [al] *)
Definition keys_at : alloc -> list Z -> list Z := sel_at (fun s => map fst (al_subs s)).

(** the names queued at (label, path) of a partition table *)
Definition listed_in (ps : list (Z * alloc)) (l : Z) (p : list Z) : list Z :=
  match aget l ps with Some top => apps_at top p | None => [] end.
Definition subkeys_in (ps : list (Z * alloc)) (l : Z) (p : list Z) : list Z :=
  match aget l ps with Some top => keys_at top p | None => [] end.
Definition listed (c : cell) : Z -> list Z -> list Z := listed_in (c_parts c).

(** membership as a relation: [x] occurs in the apps list of the allocation at path [p] below [al] *)
Inductive occurs : alloc -> list Z -> Z -> Prop :=
| occ_here al x : In x (al_apps al) -> occurs al [] x
| occ_sub al k s r x : aget k (al_subs al) = Some s -> occurs s r x -> occurs al (k :: r) x.

Lemma alloc_at_cons al k r :
  alloc_at al (k :: r) = match aget k (al_subs al) with Some s => alloc_at s r | None => None end.
Proof. reflexivity. Qed.

Lemma occurs_iff : forall p al x, occurs al p x <-> In x (apps_at al p).
Proof.
  induction p as [|k r IH]; intros al x.
  - split; [intros H; inversion H; subst; assumption|intros H; constructor; exact H].
  - unfold apps_at, sel_at. rewrite alloc_at_cons. split.
    + intros H. inversion H as [|? ? s ? ? Hs Ho]; subst. rewrite Hs. apply IH. exact Ho.
    + destruct (aget k (al_subs al)) as [s|] eqn:E; [|intros []]. intros H. eapply occ_sub; [exact E|apply IH; exact H].
Qed.

(** The partition table is one more level of the tree: a root without queue whose sub-allocations are the partitions,
    so that (label, path) is the path [label :: path] below the root. *)
Definition root_of (ps : list (Z * alloc)) : alloc := Alloc [] 0 0 0 None [] ps.

Lemma root_at ps l p :
  apps_at (root_of ps) (l :: p) = listed_in ps l p /\ keys_at (root_of ps) (l :: p) = subkeys_in ps l p.
Proof.
  unfold apps_at, keys_at, sel_at, listed_in, subkeys_in. rewrite alloc_at_cons. cbn [root_of al_subs].
  destruct (aget l ps); auto.
Qed.

(** ** the invariant *)
Record AllocWf (c : cell) : Prop := {
  (* Cell.partitions is a dict: labels are unique *)
  aw_labels : NoDup (map fst (c_parts c));
  (* Allocation.sub_allocations is a dict at every node of every tree *)
  aw_subkeys : forall l p, NoDup (subkeys_in (c_parts c) l p);
  (* no name is queued twice in one allocation *)
  aw_nodup : forall l p, NoDup (listed c l p);
  (* a queued name is a live instance whose record names exactly this allocation *)
  aw_owner : forall l p x, In x (listed c l p) -> exists a, app_of c x = Some a /\ a_alloc a = Some (l, p);
  (* every live instance has an allocation and is queued there *)
  aw_listed : forall x a, app_of c x = Some a -> exists l p, a_alloc a = Some (l, p) /\ In x (listed c l p);
  (* Cell.apps is a dict: instance names are unique *)
  aw_names : NoDup (map a_name (c_apps c))
}.

Lemma listed_occurs c l p x : In x (listed c l p) <-> exists top, aget l (c_parts c) = Some top /\ occurs top p x.
Proof.
  unfold listed, listed_in. destruct (aget l (c_parts c)) as [top|].
  - rewrite <- occurs_iff. split; [intros H; exists top; auto|intros (t & E & H); inversion E; subst; exact H].
  - split; [intros []|intros (t & E & _); discriminate].
Qed.

(** ** the invariant reads (name, allocation) of the instance records and the partition table *)
Definition adir (l : list app) : list (Z * option (Z * list Z)) := map (fun a => (a_name a, a_alloc a)) l.

Lemma adir_get l x : aget x (adir l) = option_map a_alloc (get_app x l).
Proof. induction l as [|a t IH]; cbn; [reflexivity|]. destruct (Z.eqb (a_name a) x); [reflexivity|exact IH]. Qed.
Lemma adir_names l : map a_name l = map fst (adir l).
Proof. unfold adir. rewrite map_map. reflexivity. Qed.

Lemma adir_back l l' x b : adir l' = adir l -> get_app x l' = Some b ->
  exists a, get_app x l = Some a /\ a_alloc a = a_alloc b.
Proof.
  intros Hd Hb. pose proof (adir_get l x) as H1. pose proof (adir_get l' x) as H2. rewrite Hd, H1, Hb in H2.
  destruct (get_app x l) as [a|]; [|discriminate]. cbn in H2. inversion H2. exists a. auto.
Qed.

Lemma AllocWf_ext c c' : adir (c_apps c') = adir (c_apps c) -> c_parts c' = c_parts c -> AllocWf c -> AllocWf c'.
Proof.
  intros Hd Hp [W1 W2 W3 W4 W5 W6]. unfold listed, app_of in *.
  constructor; unfold listed, app_of; rewrite ?Hp; try assumption.
  - intros l p x Hin. destruct (W4 l p x Hin) as (a & Ha & Hal).
    destruct (adir_back _ _ x a (eq_sym Hd) Ha) as (b & Hb & E). exists b. split; [exact Hb|congruence].
  - intros x b Hb. destruct (adir_back _ _ x b Hd Hb) as (a & Ha & E). rewrite <- E. apply W5. exact Ha.
  - rewrite adir_names, Hd, <- adir_names. exact W6.
Qed.

Lemma adir_upd_app n f l : (forall x, a_name (f x) = a_name x /\ a_alloc (f x) = a_alloc x) ->
  adir (upd_app n f l) = adir l.
Proof.
  intros Hf. unfold adir. induction l as [|x t IH]; cbn [upd_app map]; [reflexivity|].
  destruct (Z.eqb (a_name x) n); cbn [map]; [destruct (Hf x) as [-> ->]; reflexivity|rewrite IH; reflexivity].
Qed.

Lemma AllocWf_upd_app c n f : (forall x, a_name (f x) = a_name x /\ a_alloc (f x) = a_alloc x) ->
  AllocWf c -> AllocWf (c_upd_app n f c).
Proof. intros Hf. apply AllocWf_ext; [apply adir_upd_app; exact Hf|reflexivity]. Qed.

(** ** a scheduling cycle changes neither the trees nor any instance's (name, allocation) *)
Lemma release_adir c n : adir (c_apps (release_identity c n)) = adir (c_apps c) /\ c_parts (release_identity c n) = c_parts c.
Proof.
  split; [|apply release_identity_frame]. unfold release_identity. destruct (get_app n (c_apps c)) as [a|]; [|reflexivity].
  destruct (group_of c a) as [[g grp]|]; [|reflexivity]. destruct (a_identity a); [|reflexivity].
  apply adir_upd_app. intros x; split; reflexivity.
Qed.
Lemma acquire_adir c n ch :
  adir (c_apps (fst (acquire_identity c n ch))) = adir (c_apps c) /\ c_parts (fst (acquire_identity c n ch)) = c_parts c.
Proof.
  split; [|apply acquire_identity_frame]. unfold acquire_identity. destruct (get_app n (c_apps c)) as [a|]; [|reflexivity].
  destruct (group_of c a) as [[g grp]|]; [|reflexivity]. destruct (a_identity a); [reflexivity|]. destruct (g_avail grp); [reflexivity|].
  apply adir_upd_app. intros x; split; reflexivity.
Qed.

Lemma pstep_adir c c' : pstep c c' -> adir (c_apps c') = adir (c_apps c) /\ c_parts c' = c_parts c.
Proof.
  intros Hs. destruct Hs.
  - destruct H as (_ & _ & _ & H4 & H5 & _). rewrite H4. auto.
  - split; [|reflexivity]. unfold prim_put. cbn [c_upd_app c_upd_srv c_apps set]. apply adir_upd_app.
    intros x. destruct (a_expiry x); split; reflexivity.
  - split; [|reflexivity]. unfold prim_remove. cbn [c_upd_app c_upd_srv c_apps set]. apply adir_upd_app.
    intros x. split; reflexivity.
  - split; [|reflexivity]. cbn [c_upd_app c_apps set]. apply adir_upd_app. intros x.
    split; apply (H x).
  - split; [|reflexivity]. cbn [c_upd_app c_apps set]. apply adir_upd_app. intros x. split; reflexivity.
  - apply release_adir.
  - apply acquire_adir.
  - split; [|reflexivity]. cbn [c_upd_app c_apps set]. apply adir_upd_app. intros x. split; reflexivity.
Qed.
Lemma psteps_adir c c' : psteps c c' -> adir (c_apps c') = adir (c_apps c) /\ c_parts c' = c_parts c.
Proof.
  induction 1 as [c c' Hs|c|a b c _ [H1 H2] _ [H3 H4]]; [apply pstep_adir; exact Hs|auto|split; congruence].
Qed.
Theorem AllocWf_psteps c c' : psteps c c' -> AllocWf c -> AllocWf c'.
Proof. intros Hp. destruct (psteps_adir _ _ Hp) as [H1 H2]. apply AllocWf_ext; assumption. Qed.
Theorem AllocWf_schedule c ch : AllocWf c -> AllocWf (fst (fst (schedule c ch))).
Proof. apply AllocWf_psteps, schedule_ps. Qed.

(** ** [alloc_update]: what an update at path [p] does to every position *)

(** the update functions used by the events keep the sub-allocations *)
Definition sp (f : alloc -> alloc) : Prop := forall s, al_subs (f s) = al_subs s.

Definition at_or_empty (dim : nat) (al : alloc) (p : list Z) : alloc :=
  match alloc_at al p with Some s => s | None => empty_alloc dim end.

(** the sub-allocation [k] that [alloc_update] descends into: created on demand, like get_sub_alloc *)
Definition sub_or (dim : nat) (al : alloc) (k : Z) : alloc :=
  match aget k (al_subs al) with Some s => s | None => empty_alloc dim end.

Lemma alloc_at_empty dim p :
  alloc_at (empty_alloc dim) p = match p with [] => Some (empty_alloc dim) | _ :: _ => None end.
Proof. destruct p; reflexivity. Qed.

Lemma sel_at_empty {A} (g : alloc -> list A) dim p : g (empty_alloc dim) = [] -> sel_at g (empty_alloc dim) p = [].
Proof. intros Hg. unfold sel_at. rewrite alloc_at_empty. destruct p; [exact Hg|reflexivity]. Qed.

(** so for these projections a missing sub-allocation may be read as an empty one *)
Lemma sel_at_sub {A} (g : alloc -> list A) dim al k r : g (empty_alloc dim) = [] ->
  sel_at g (sub_or dim al k) r = sel_at g al (k :: r).
Proof.
  intros Hg. pose proof (sel_at_empty g dim r Hg) as He. unfold sel_at, sub_or in *. rewrite alloc_at_cons.
  destruct (aget k (al_subs al)); [reflexivity|exact He].
Qed.

Lemma alloc_update_cons dim al k r f :
  alloc_update dim al (k :: r) f =
  Alloc (al_reserved al) (al_rank al) (al_adj al) (al_traits al) (al_maxutil al) (al_apps al)
        (aset k (alloc_update dim (sub_or dim al k) r f) (al_subs al)).
Proof. destruct al; reflexivity. Qed.

(** one step of the descent, seen from a position below the node *)
Lemma sel_at_update_cons {A} (g : alloc -> list A) dim al k r f k' r' :
  sel_at g (alloc_update dim al (k :: r) f) (k' :: r') =
  if Z.eq_dec k' k then sel_at g (alloc_update dim (sub_or dim al k) r f) r' else sel_at g al (k' :: r').
Proof.
  rewrite alloc_update_cons. unfold sel_at. rewrite !alloc_at_cons. cbn [al_subs].
  destruct (Z.eq_dec k' k) as [->|Hk]; [rewrite ag_as_same|rewrite ag_as_other by exact Hk]; reflexivity.
Qed.

Lemma alloc_at_update_same dim f : forall p al,
  alloc_at (alloc_update dim al p f) p = Some (f (at_or_empty dim al p)).
Proof.
  induction p as [|k r IH]; intros al; [reflexivity|].
  rewrite alloc_update_cons, alloc_at_cons. cbn [al_subs]. rewrite ag_as_same, IH.
  unfold at_or_empty, sub_or. rewrite alloc_at_cons. destruct (aget k (al_subs al)) as [s|]; [reflexivity|].
  rewrite alloc_at_empty. destruct r; reflexivity.
Qed.

Lemma al_apps_at_or_empty dim al p : al_apps (at_or_empty dim al p) = apps_at al p.
Proof. unfold at_or_empty, apps_at, sel_at. destruct (alloc_at al p); reflexivity. Qed.

Lemma apps_at_update_same dim f p al : apps_at (alloc_update dim al p f) p = al_apps (f (at_or_empty dim al p)).
Proof. unfold apps_at, sel_at. rewrite alloc_at_update_same. reflexivity. Qed.

Lemma apps_at_update_other dim f : sp f -> forall p al p', p' <> p ->
  apps_at (alloc_update dim al p f) p' = apps_at al p'.
Proof.
  intros Hf. unfold apps_at. induction p as [|k r IH]; intros al [|k' r'] Hne; try congruence.
  - unfold sel_at. cbn [alloc_update]. rewrite !alloc_at_cons, Hf. reflexivity.
  - rewrite alloc_update_cons. reflexivity.
  - rewrite sel_at_update_cons. destruct (Z.eq_dec k' k) as [->|]; [|reflexivity].
    rewrite IH by congruence. apply sel_at_sub. reflexivity.
Qed.

Lemma keys_at_update dim f : sp f -> forall p al,
  (forall q, NoDup (keys_at al q)) -> forall q, NoDup (keys_at (alloc_update dim al p f) q).
Proof.
  intros Hf. unfold keys_at. induction p as [|k r IH]; intros al H [|k' r'].
  - unfold sel_at. cbn [alloc_update alloc_at]. rewrite Hf. exact (H []).
  - specialize (H (k' :: r')). unfold sel_at in *. cbn [alloc_update]. rewrite alloc_at_cons in *. rewrite Hf. exact H.
  - rewrite alloc_update_cons. unfold sel_at. cbn [alloc_at al_subs]. apply NoDup_keys_aset. exact (H []).
  - rewrite sel_at_update_cons. destruct (Z.eq_dec k' k) as [->|]; [|apply H].
    apply IH. intros q. rewrite sel_at_sub by reflexivity. apply H.
Qed.

(** the three update functions *)
Lemma sp_add n : sp (alloc_add_app n).
Proof. intros [res rank adj traits maxu names subs]. cbn. destruct (zmem n names); reflexivity. Qed.
Lemma sp_del n : sp (alloc_del_app n).
Proof. intros [res rank adj traits maxu names subs]. reflexivity. Qed.
Lemma al_apps_add n s : al_apps (alloc_add_app n s) = zadd_set n (al_apps s).
Proof. destruct s as [res rank adj traits maxu names subs]. cbn. unfold zadd_set. destruct (zmem n names); reflexivity. Qed.
Lemma al_apps_del n s : al_apps (alloc_del_app n s) = zremove n (al_apps s).
Proof. destruct s as [res rank adj traits maxu names subs]. reflexivity. Qed.

(** ** [upd_alloc] on the cell: [alloc_update] at the root *)
Lemma root_upd_alloc c l p f :
  root_of (c_parts (upd_alloc c l p f)) = alloc_update (c_dim c) (root_of (c_parts c)) (l :: p) f.
Proof.
  rewrite alloc_update_cons. unfold upd_alloc, ensure_part, sub_or, root_of. cbn [al_subs].
  destruct (aget l (c_parts c)) as [top|] eqn:E; cbn [c_parts set].
  - rewrite E. reflexivity.
  - rewrite ag_as_same, aset_aset. reflexivity.
Qed.
Lemma apps_upd_alloc c l p f : c_apps (upd_alloc c l p f) = c_apps c.
Proof. apply upd_alloc_frame. Qed.
Lemma dim_upd_alloc c l p f : c_dim (upd_alloc c l p f) = c_dim c.
Proof. apply upd_alloc_frame. Qed.

Definition pos_eq_dec (a b : Z * list Z) : {a = b} + {a <> b}.
Proof. decide equality; [apply (list_eq_dec Z.eq_dec)|apply Z.eq_dec]. Defined.

(** the queues after an update at (l1, p1) that acts as [g] on the queue and keeps the sub-allocations *)
Lemma listed_upd c l1 p1 f g l p : sp f -> (forall s, al_apps (f s) = g (al_apps s)) ->
  listed (upd_alloc c l1 p1 f) l p = if pos_eq_dec (l, p) (l1, p1) then g (listed c l p) else listed c l p.
Proof.
  intros Hf Hg. unfold listed. rewrite <- (proj1 (root_at (c_parts c) l p)), <- (proj1 (root_at _ l p)), root_upd_alloc.
  destruct (pos_eq_dec (l, p) (l1, p1)) as [E|E].
  - inversion E; subst. rewrite apps_at_update_same, Hg, al_apps_at_or_empty. reflexivity.
  - apply apps_at_update_other; [exact Hf|congruence].
Qed.

Lemma keys_upd c l p f : sp f -> NoDup (map fst (c_parts c)) -> (forall l' q, NoDup (subkeys_in (c_parts c) l' q)) ->
  NoDup (map fst (c_parts (upd_alloc c l p f))) /\ forall l' q, NoDup (subkeys_in (c_parts (upd_alloc c l p f)) l' q).
Proof.
  intros Hf Hl Hs. assert (K : forall q, NoDup (keys_at (root_of (c_parts (upd_alloc c l p f))) q)).
  { rewrite root_upd_alloc. apply keys_at_update; [exact Hf|].
    intros [|l' q]; [exact Hl|]. rewrite (proj2 (root_at _ l' q)). apply Hs. }
  split; [exact (K [])|]. intros l' q. rewrite <- (proj2 (root_at _ l' q)). apply K.
Qed.

(** ** the events that touch the trees *)

(** a name is queued only at the position its record names *)
Lemma owner_pos c n a l0 p0 l p : AllocWf c -> app_of c n = Some a -> a_alloc a = Some (l0, p0) ->
  In n (listed c l p) -> (l, p) = (l0, p0).
Proof.
  intros W Ha Hal Hin. destruct (aw_owner c W l p n Hin) as (a' & Ha' & Hal'). congruence.
Qed.

Lemma listed_del c n a l0 p0 : AllocWf c -> app_of c n = Some a -> a_alloc a = Some (l0, p0) ->
  forall l p, NoDup (listed (upd_alloc c l0 p0 (alloc_del_app n)) l p) /\
              forall x, In x (listed (upd_alloc c l0 p0 (alloc_del_app n)) l p) <-> x <> n /\ In x (listed c l p).
Proof.
  intros W Ha Hal l p. rewrite (listed_upd c l0 p0 _ _ l p (sp_del n) (al_apps_del n)).
  pose proof (aw_nodup c W l p) as Hnd. destruct (pos_eq_dec (l, p) (l0, p0)) as [E|E].
  - split; [apply zremove_NoDup, Hnd|]. intros x. apply zremove_In_iff, Hnd.
  - split; [exact Hnd|].
    intros x. split; [|tauto]. intros Hin. split; [|exact Hin]. intros ->. apply E. eapply owner_pos; eassumption.
Qed.

Lemma listed_add c n l1 p1 : (forall l p, NoDup (listed c l p)) ->
  forall l p, NoDup (listed (upd_alloc c l1 p1 (alloc_add_app n)) l p) /\
              forall x, In x (listed (upd_alloc c l1 p1 (alloc_add_app n)) l p) <->
                        ((l, p) = (l1, p1) /\ x = n) \/ In x (listed c l p).
Proof.
  intros Hnd l p. rewrite (listed_upd c l1 p1 _ _ l p (sp_add n) (al_apps_add n)).
  destruct (pos_eq_dec (l, p) (l1, p1)) as [E|E].
  - split; [apply zadd_set_NoDup, Hnd|]. intros x. rewrite zadd_set_In. tauto.
  - split; [apply Hnd|]. intros x. tauto.
Qed.

(** One name [n] changes: afterwards it is queued exactly at the positions [P], which are those its record names, and the
    queues and records of the other names are as before. *)
Lemma AllocWf_change c c' n (P : Z -> list Z -> Prop) : AllocWf c ->
  NoDup (map fst (c_parts c')) /\ (forall l q, NoDup (subkeys_in (c_parts c') l q)) ->
  (forall l p, NoDup (listed_in (c_parts c') l p) /\
               forall x, In x (listed_in (c_parts c') l p) <-> (P l p /\ x = n) \/ (x <> n /\ In x (listed c l p))) ->
  NoDup (map a_name (c_apps c')) ->
  (forall x, x <> n -> app_of c' x = app_of c x) ->
  (forall l p, P l p -> exists a, app_of c' n = Some a /\ a_alloc a = Some (l, p)) ->
  (forall b, app_of c' n = Some b -> exists l p, a_alloc b = Some (l, p) /\ P l p) ->
  AllocWf c'.
Proof.
  intros W [K1 K2] Hl Hnames Hoth Hn Hrec. constructor; try assumption.
  - intros l p. apply Hl.
  - intros l p x Hin. apply Hl in Hin as [[HP ->]|[Hne Hin]]; [exact (Hn l p HP)|].
    rewrite (Hoth x Hne). apply (aw_owner c W). exact Hin.
  - intros x b Hb. destruct (Z.eq_dec x n) as [->|Hne].
    + destruct (Hrec b Hb) as (l & p & Hal & HP). exists l, p. split; [exact Hal|]. apply Hl. left. auto.
    + rewrite (Hoth x Hne) in Hb. destruct (aw_listed c W x b Hb) as (l & p & Hal & Hin).
      exists l, p. split; [exact Hal|]. apply Hl. right. auto.
Qed.

(** Cell.add_app of a new instance *)
Lemma AllocWf_add_new c label path a : AllocWf c -> app_of c (a_name a) = None ->
  AllocWf ((upd_alloc c label path (alloc_add_app (a_name a)))
             <| c_apps ::= (fun l => l ++ [a <| a_alloc := Some (label, path) |>]) |>).
Proof.
  intros W Hnew. set (n := a_name a) in *. set (a' := a <| a_alloc := Some (label, path) |>).
  pose proof (listed_add c n label path (aw_nodup c W)) as Hl. unfold app_of in Hnew.
  assert (Hn : get_app n (c_apps c ++ [a']) = Some a').
  { rewrite get_app_snoc, Hnew. change (a_name a') with n. rewrite Z.eqb_refl. reflexivity. }
  apply (AllocWf_change c _ n (fun l p => (l, p) = (label, path)) W); unfold app_of; cbn [c_apps c_parts set];
    rewrite ?apps_upd_alloc.
  - apply (keys_upd c label path _ (sp_add n) (aw_labels c W) (aw_subkeys c W)).
  - intros l p. split; [apply Hl|]. intros x. etransitivity; [apply Hl|]. apply or_iff_compat_l.
    split; [|intros [_ H]; exact H]. intros Hin. split; [|exact Hin].
    (* a name queued in [c] is live there, so it is not [n] *)
    intros ->. destruct (aw_owner c W l p n Hin) as (b & Hb & _). unfold app_of in Hb. congruence.
  - apply NoDup_map_snoc; [apply (aw_names c W)|]. apply get_app_none_notin. exact Hnew.
  - intros x Hne. rewrite get_app_snoc. destruct (get_app x (c_apps c)); [reflexivity|].
    destruct (Z.eqb_spec (a_name a') x) as [E|]; [destruct Hne; symmetry; exact E|reflexivity].
  - intros l p [= -> ->]. exists a'. auto.
  - intros b Hb. rewrite Hn in Hb. injection Hb as <-. exists label, path. auto.
Qed.

(** Cell.add_app of an existing instance: it moves from its allocation to (label, path) *)
Lemma AllocWf_add_old c label path n old l0 p0 : AllocWf c -> app_of c n = Some old -> a_alloc old = Some (l0, p0) ->
  AllocWf (c_upd_app n (fun x => x <| a_alloc := Some (label, path) |>)
             (upd_alloc (upd_alloc c l0 p0 (alloc_del_app n)) label path (alloc_add_app n))).
Proof.
  intros W Ho Hal. set (fa := fun x : app => x <| a_alloc := Some (label, path) |>).
  assert (Hfa : forall x, a_name (fa x) = a_name x) by reflexivity.
  pose proof (listed_del c n old l0 p0 W Ho Hal) as Hd.
  pose proof (listed_add _ n label path (fun l p => proj1 (Hd l p))) as Hl.
  destruct (keys_upd c l0 p0 _ (sp_del n) (aw_labels c W) (aw_subkeys c W)) as [K1 K2].
  pose proof (get_upd_app_same n fa _ old Hfa Ho) as Hn.
  apply (AllocWf_change c _ n (fun l p => (l, p) = (label, path)) W); unfold app_of; cbn [c_upd_app c_apps c_parts set];
    rewrite ?apps_upd_alloc.
  - apply (keys_upd _ label path _ (sp_add n) K1 K2).
  - intros l p. split; [apply Hl|]. intros x. etransitivity; [apply Hl|apply or_iff_compat_l, Hd].
  - rewrite upd_app_names by exact Hfa. apply (aw_names c W).
  - intros x Hne. apply get_upd_app_other; assumption.
  - intros l p [= -> ->]. exists (fa old). auto.
  - intros b Hb. rewrite Hn in Hb. injection Hb as <-. exists label, path. auto.
Qed.

(** Cell.remove_app: the instance leaves its queue and its record is dropped *)
Lemma AllocWf_del c n a l0 p0 : AllocWf c -> app_of c n = Some a -> a_alloc a = Some (l0, p0) ->
  AllocWf ((upd_alloc c l0 p0 (alloc_del_app n)) <| c_apps ::= del_app n |>).
Proof.
  intros W Ha Hal. pose proof (listed_del c n a l0 p0 W Ha Hal) as Hd. pose proof (aw_names c W) as Hnd.
  apply (AllocWf_change c _ n (fun _ _ => False) W); unfold app_of; cbn [c_apps c_parts set]; rewrite ?apps_upd_alloc.
  - apply (keys_upd c l0 p0 _ (sp_del n) (aw_labels c W) (aw_subkeys c W)).
  - intros l p. split; [apply Hd|]. intros x. etransitivity; [apply Hd|]. split; [auto|intros [[[] _]|H]; exact H].
  - apply del_app_names_NoDup. exact Hnd.
  - intros x Hne. apply get_del_app_other. exact Hne.
  - intros l p [].
  - intros b Hb. rewrite get_app_del, Z.eqb_refl in Hb by exact Hnd. discriminate.
Qed.

(** Allocation.update of the attributes of an allocation (created on demand, like get_sub_alloc) *)
Lemma AllocWf_upd_attrs c l1 p1 f : sp f -> (forall s, al_apps (f s) = al_apps s) ->
  AllocWf c -> AllocWf (upd_alloc c l1 p1 f).
Proof.
  intros Hsp Hap W.
  assert (Hl : forall l p, listed (upd_alloc c l1 p1 f) l p = listed c l p).
  { intros l p. rewrite (listed_upd c l1 p1 f (fun x => x) l p Hsp Hap). destruct (pos_eq_dec (l, p) (l1, p1)); reflexivity. }
  constructor; unfold app_of; rewrite ?apps_upd_alloc; try (intros l p; rewrite Hl).
  - apply (keys_upd c l1 p1 f Hsp (aw_labels c W) (aw_subkeys c W)).
  - apply (keys_upd c l1 p1 f Hsp (aw_labels c W) (aw_subkeys c W)).
  - apply (aw_nodup c W).
  - apply (aw_owner c W).
  - intros x a Ha. destruct (aw_listed c W x a Ha) as (l & p & Hal & Hin). exists l, p. rewrite Hl. auto.
  - apply (aw_names c W).
Qed.

Lemma AllocWf_ensure_group c g : AllocWf c -> AllocWf (ensure_group c g).
Proof.
  unfold ensure_group. destruct g as [n|]; [|tauto]. destruct (aget n (c_groups c)); [tauto|].
  apply AllocWf_ext; reflexivity.
Qed.

Lemma AllocWf_add_app c label path a : AllocWf c -> AllocWf (add_app c label path a).
Proof.
  intros W. unfold add_app. destruct (get_app (a_name a) (c_apps c)) as [old|] eqn:Eo.
  - destruct (aw_listed c W _ old Eo) as (l0 & p0 & Hal & _). rewrite Hal.
    apply AllocWf_ensure_group. apply (AllocWf_add_old c label path (a_name a) old l0 p0 W Eo Hal).
  - apply AllocWf_ensure_group. apply AllocWf_add_new; assumption.
Qed.

Lemma adir_del_app n l : adir (del_app n l) = adel n (adir l).
Proof.
  unfold adir. induction l as [|x t IH]; cbn [del_app map adel]; [reflexivity|].
  destruct (Z.eqb (a_name x) n); [reflexivity|]. cbn [map]. rewrite IH. reflexivity.
Qed.

Lemma AllocWf_remove_app c n : AllocWf c -> AllocWf (remove_app c n).
Proof.
  intros W. unfold remove_app. destruct (get_app n (c_apps c)) as [a|] eqn:Ea; [|exact W].
  destruct (aw_listed c W n a Ea) as (l0 & p0 & Hal & _). rewrite Hal.
  set (c1 := match a_server a with
             | Some sn => if is_member c sn then srv_remove c sn n else c
             | None => c
             end).
  assert (Hps : psteps c c1).
  { subst c1. destruct (a_server a) as [sn|]; [|apply ps_refl]. destruct (is_member c sn); [apply srv_remove_ps|apply ps_refl]. }
  pose proof (AllocWf_psteps _ _ Hps W) as W1. destruct (psteps_adir _ _ Hps) as [Hd _].
  destruct (adir_back (c_apps c1) (c_apps c) n a (eq_sym Hd) Ea) as (a1 & Ea1 & E1).
  set (c2 := upd_alloc c1 l0 p0 (alloc_del_app n)).
  apply (AllocWf_ext (c2 <| c_apps ::= del_app n |>)).
  - cbn [c_apps set]. rewrite !adir_del_app. rewrite (proj1 (release_adir c2 n)). reflexivity.
  - cbn [c_parts set]. apply release_adir.
  - apply (AllocWf_del c1 n a1 l0 p0 W1 Ea1). congruence.
Qed.

(** ** every event preserves the invariant *)

(** The side condition on events.  NONE is needed:
    - OAddApp label path a, new name: the record's own [a_alloc] is overwritten with (label, path) and the name is
      appended to that queue (the allocations along the path are created on demand); the name cannot be queued
      anywhere yet because queued names are live ([aw_owner]);
    - OAddApp label path a, existing name: the record's current allocation is the one whose queue holds the name
      ([aw_listed]), so leaving it and joining (label, path) keeps both directions; every live record has an
      allocation, so the [None] branch of [add_app] is dead;
    - ORemoveApp: the record's allocation is the one whose queue holds the name, and the record goes away with it;
    - OUpdateAlloc changes attributes only; the server, group and clock events and the scheduling cycle touch
      neither the trees nor any record's (name, allocation). *)
Definition wf_op_alloc (c : cell) (o : op) : Prop := True.

Lemma AllocWf_force_identity c an i : AllocWf c -> AllocWf (force_identity c an i).
Proof.
  unfold force_identity. destruct i as [i|]; [|tauto]. destruct (get_app an (c_apps c)) as [a|]; [|tauto].
  destruct (group_of c a) as [[g grp]|]; [|tauto].
  intros H. apply AllocWf_upd_app; [intros x; split; reflexivity|]. revert H. apply AllocWf_ext; reflexivity.
Qed.

Theorem AllocWf_step_any c o : AllocWf c -> AllocWf (step c o).
Proof.
  intros H. destruct (srv_event o) eqn:Ev.
  { destruct (srv_event_quiet c o Ev) as (E1 & E2 & _). apply (AllocWf_ext (srv_event_pre c o)); [rewrite E1; reflexivity|exact E2|].
    exact (AllocWf_psteps _ _ (srv_event_pre_ps c o) H). }
  destruct (attr_event o) as [[n f]|] eqn:Ea.
  { destruct (attr_event_step c o n f Ea) as [-> Hf]. apply AllocWf_upd_app; [|exact H].
    intros x. split; apply (Hf x). }
  destruct o; try discriminate Ev; try discriminate Ea; cbn [step].
  - apply AllocWf_add_app. exact H.
  - apply AllocWf_remove_app. exact H.
  - (* OUpdateAlloc *)
    apply AllocWf_upd_attrs; [intros [? ? ? ? ? ? ?]; reflexivity|intros [? ? ? ? ? ? ?]; reflexivity|exact H].
  - revert H. unfold config_group. destruct (aget name (c_groups c)); apply AllocWf_ext; reflexivity.
  - revert H. unfold remove_group. destruct (aget name (c_groups c)); [|tauto].
    destruct (existsb _ (c_apps c)); apply AllocWf_ext; reflexivity.
  - exact (AllocWf_psteps _ _ (step_schedule_ps c choices) H).
  - (* ORestore *)
    unfold restore_op. destruct (get_app aname (c_apps c)) as [a|]; [|exact H].
    pose proof (AllocWf_psteps _ _ (restore_put_ps c sname aname verbatim expires) H) as H1.
    destruct (restore_put c sname aname verbatim expires) as [c1 ok]. cbn [fst] in H1.
    destruct ok; [apply AllocWf_force_identity; exact H1|]. destruct (a_once a); [apply AllocWf_remove_app|]; exact H1.
Qed.

Lemma AllocWf_step c o : AllocWf c -> wf_op_alloc c o -> AllocWf (step c o).
Proof. intros H _. apply AllocWf_step_any. exact H. Qed.

Fixpoint wf_ops_alloc (c : cell) (ops : list op) : Prop :=
  match ops with [] => True | o :: r => wf_op_alloc c o /\ wf_ops_alloc (step c o) r end.

Theorem AllocWf_run_any : forall ops c, AllocWf c -> AllocWf (run c ops).
Proof.
  induction ops as [|o r IH]; intros c H; cbn [run fold_left]; [exact H|]. apply (IH (step c o)), AllocWf_step_any, H.
Qed.
Theorem AllocWf_run : forall ops c, wf_ops_alloc c ops -> AllocWf c -> AllocWf (run c ops).
Proof. intros ops c _. apply AllocWf_run_any. Qed.

Lemma AllocWf_init dim root level : AllocWf (init_cell dim root level).
Proof.
  constructor; unfold listed, listed_in, subkeys_in, app_of; cbn; try (constructor; fail); intros; try contradiction; discriminate.
Qed.

(** ** consequences: the flattened trees *)
(** flattening a dict whose values have pairwise disjoint duplicate-free contents *)
Lemma NoDup_flat_keys {A} (g : A -> list Z) (m : list (Z * A)) :
  NoDup (map fst m) -> (forall q, In q m -> NoDup (g (snd q))) ->
  (forall q q' x, In q m -> In q' m -> In x (g (snd q)) -> In x (g (snd q')) -> fst q = fst q') ->
  NoDup (flat_map (fun q => g (snd q)) m).
Proof.
  induction m as [|q r IH]; intros Hk Hn Hx; cbn [flat_map]; [constructor|].
  cbn [map] in Hk. inversion Hk as [|? ? Hni Hkr]; subst.
  apply NoDup_app_intro.
  - apply Hn. left; reflexivity.
  - apply IH; [exact Hkr|intros q0 H0; apply Hn; right; exact H0|intros q1 q2 x H1 H2; apply Hx; right; assumption].
  - intros x H1 H2. apply in_flat_map in H2 as (q' & Hq' & Hin'). apply Hni.
    rewrite (Hx q q' x); [apply in_map; exact Hq'|left; reflexivity|right; exact Hq'|exact H1|exact Hin'].
Qed.

Lemma all_apps_flat al : all_apps al = al_apps al ++ flat_map (fun q => all_apps (snd q)) (al_subs al).
Proof. destruct al as [res rank adj traits maxu names subs]. rewrite all_apps_eq, flat_map_concat_map. reflexivity. Qed.

Lemma occ_all_apps : forall p al x, In x (apps_at al p) -> In x (all_apps al).
Proof.
  induction p as [|k r IH]; intros al x Hin; rewrite all_apps_flat; apply in_or_app.
  - left. exact Hin.
  - right. unfold apps_at, sel_at in Hin. rewrite alloc_at_cons in Hin.
    destruct (aget k (al_subs al)) as [s|] eqn:E; [|destruct Hin].
    apply in_flat_map. exists (k, s). split; [apply aget_In; exact E|]. apply IH. exact Hin.
Qed.

Lemma sub_at al k s r : aget k (al_subs al) = Some s ->
  apps_at al (k :: r) = apps_at s r /\ keys_at al (k :: r) = keys_at s r.
Proof. intros E. unfold apps_at, keys_at, sel_at. rewrite alloc_at_cons, E. auto. Qed.

(** dict-like sub-allocations, duplicate-free queues, and no name in two queues, below [al] *)
Definition queues_ok (al : alloc) : Prop :=
  (forall q, NoDup (keys_at al q)) /\ (forall q, NoDup (apps_at al q)) /\
  (forall q q' x, In x (apps_at al q) -> In x (apps_at al q') -> q = q').

Lemma queues_ok_sub al k s : queues_ok al -> aget k (al_subs al) = Some s -> queues_ok s.
Proof.
  intros (K & N & U) E. pose proof (fun r => proj1 (sub_at al k s r E)) as Ea. split; [|split].
  - intros q. rewrite <- (proj2 (sub_at al k s q E)). apply K.
  - intros q. rewrite <- Ea. apply N.
  - intros q q' x H1 H2. rewrite <- Ea in H1, H2. specialize (U _ _ _ H1 H2). congruence.
Qed.

Lemma all_apps_occ : forall al, (forall q, NoDup (keys_at al q)) ->
  forall x, In x (all_apps al) -> exists p, In x (apps_at al p).
Proof.
  induction al as [res rank adj traits maxu names subs IH] using alloc_rect'. intros Hk x Hin.
  set (al := Alloc res rank adj traits maxu names subs) in *.
  rewrite all_apps_flat in Hin. apply in_app_or in Hin as [Hin|Hin]; [exists []; exact Hin|].
  apply in_flat_map in Hin as (q & Hq & Hin). rewrite Forall_forall in IH.
  pose proof (fun r => sub_at al _ _ r (aget_nodup subs (Hk []) q Hq)) as E.
  assert (Hk' : forall r, NoDup (keys_at (snd q) r)) by (intros r; rewrite <- (proj2 (E r)); apply Hk).
  destruct (IH q Hq Hk' x Hin) as (r & Hr). exists (fst q :: r). rewrite (proj1 (E r)). exact Hr.
Qed.

Lemma all_apps_NoDup : forall al, queues_ok al -> NoDup (all_apps al).
Proof.
  induction al as [res rank adj traits maxu names subs IH] using alloc_rect'. intros W.
  set (al := Alloc res rank adj traits maxu names subs) in *. pose proof W as (K & N & U).
  pose proof (aget_nodup subs (K [])) as Hget. rewrite Forall_forall in IH.
  (* a name below the sub-allocation [q] is queued at a path through [fst q] *)
  assert (Hocc : forall q x, In q subs -> In x (all_apps (snd q)) -> exists r, In x (apps_at al (fst q :: r))).
  { intros q x Hq Hx. apply all_apps_occ in Hx as (r & Hx); [|exact (proj1 (queues_ok_sub al _ _ W (Hget q Hq)))].
    exists r. rewrite (proj1 (sub_at al _ _ r (Hget q Hq))). exact Hx. }
  rewrite all_apps_flat. apply NoDup_app_intro; [exact (N [])|apply NoDup_flat_keys; [exact (K [])| |]|].
  - intros q Hq. apply IH; [exact Hq|]. exact (queues_ok_sub al _ _ W (Hget q Hq)).
  - intros q q' x Hq Hq' H1 H2. destruct (Hocc q x Hq H1) as (r & H1'), (Hocc q' x Hq' H2) as (r' & H2').
    specialize (U _ _ _ H1' H2'). congruence.
  - intros x H1 H2. apply in_flat_map in H2 as (q & Hq & H2). destruct (Hocc q x Hq H2) as (r & H2').
    discriminate (U [] _ x H1 H2').
Qed.

Lemma root_all ps : all_apps (root_of ps) = part_apps ps.
Proof. exact (all_apps_flat (root_of ps)). Qed.

(** [aw_labels], [aw_subkeys], [aw_nodup] and [aw_owner] in terms of the root *)
Lemma AllocWf_root c : AllocWf c -> queues_ok (root_of (c_parts c)).
Proof.
  intros W. split; [|split].
  - intros [|l q]; [exact (aw_labels c W)|]. rewrite (proj2 (root_at _ l q)). apply (aw_subkeys c W).
  - intros [|l q]; [constructor|]. rewrite (proj1 (root_at _ l q)). apply (aw_nodup c W).
  - intros [|l q] [|l' q'] x H1 H2; try contradiction.
    rewrite (proj1 (root_at _ _ _)) in H1. rewrite (proj1 (root_at _ _ _)) in H2.
    destruct (aw_owner c W _ _ _ H1) as (a1 & Ha1 & E1), (aw_owner c W _ _ _ H2) as (a2 & Ha2 & E2). congruence.
Qed.

(** the premise of the cycle-level theorems of CycleP.v *)
Theorem AllocWf_parts_wf c : AllocWf c -> parts_wf c.
Proof.
  intros W. split; [apply (aw_labels c W)|]. rewrite <- root_all. apply all_apps_NoDup, AllocWf_root, W.
Qed.

Theorem AllocWf_listed c : AllocWf c -> forall x a, app_of c x = Some a -> In x (part_apps (c_parts c)).
Proof.
  intros W x a Ha. destruct (aw_listed c W x a Ha) as (l & p & _ & Hin).
  rewrite <- root_all. apply (occ_all_apps (l :: p)). rewrite (proj1 (root_at _ l p)). exact Hin.
Qed.
Theorem AllocWf_queued_live c : AllocWf c -> forall x, In x (part_apps (c_parts c)) -> exists a, app_of c x = Some a.
Proof.
  intros W x Hin. rewrite <- root_all in Hin. apply all_apps_occ in Hin as ([|l p] & Hin); [destruct Hin| |apply AllocWf_root, W].
  rewrite (proj1 (root_at _ l p)) in Hin. destruct (aw_owner c W l p x Hin) as (a & Ha & _). exists a. exact Ha.
Qed.

(** ** non-vacuity: a concrete history *)
Module Example.
  Definition inst (n : Z) : app :=
    mkApp n 1 [1] 7 [] 0 0 None None false n None None None None false false false false 0.

  (** two partitions (1, 2), nested sub-allocations 1/[10;11], 1/[10], 2/[20;21]; instance 100 moves from 1/[10;11]
      to 2/[20;21], instance 103 is re-added where it already is, instance 101 is removed, a cycle runs, and 103 moves
      to a top allocation *)
  Definition ops : list op :=
    [ OAddApp 1 [10; 11] (inst 100);
      OAddApp 1 [10] (inst 101);
      OAddApp 2 [] (inst 102);
      OUpdateAlloc 2 [20] [5] 50 0 None 0;
      OAddApp 2 [20; 21] (inst 103);
      OAddApp 2 [20; 21] (inst 100);
      OAddApp 2 [20; 21] (inst 103);
      ORemoveApp 101;
      OSchedule [];
      OAddApp 1 [] (inst 103) ].
  Definition c0 : cell := init_cell 1 0 0.

  Example ops_wf : wf_ops_alloc c0 ops.
  Proof. cbn [wf_ops_alloc ops]. unfold wf_op_alloc. repeat split. Qed.

  Example final_wf : AllocWf (run c0 ops).
  Proof. apply AllocWf_run; [exact ops_wf|apply AllocWf_init]. Qed.

  (** what the final state looks like: the flattened trees and the (name, allocation) directory *)
  Example final_parts : part_apps (c_parts (run c0 ops)) = [103; 102; 100].
  Proof. vm_compute. reflexivity. Qed.
  Example final_dir : adir (c_apps (run c0 ops)) =
    [(100, Some (2, [20; 21])); (102, Some (2, [])); (103, Some (1, []))].
  Proof. vm_compute. reflexivity. Qed.
  Example final_queues :
    listed (run c0 ops) 1 [] = [103] /\ listed (run c0 ops) 1 [10; 11] = [] /\ listed (run c0 ops) 1 [10] = [] /\
    listed (run c0 ops) 2 [] = [102] /\ listed (run c0 ops) 2 [20; 21] = [100] /\
    subkeys_in (c_parts (run c0 ops)) 1 [] = [10] /\ subkeys_in (c_parts (run c0 ops)) 2 [20] = [21].
  Proof. vm_compute. repeat split. Qed.
  (** mid-history, before the removal: 100 has left 1/[10;11] for 2/[20;21] *)
  Example mid_queues :
    listed (run c0 (firstn 7 ops)) 2 [20; 21] = [100; 103] /\ listed (run c0 (firstn 7 ops)) 1 [10; 11] = [] /\
    listed (run c0 (firstn 7 ops)) 1 [10] = [101].
  Proof. vm_compute. repeat split. Qed.
End Example.

Print Assumptions AllocWf_init.
Print Assumptions AllocWf_step.
Print Assumptions AllocWf_run.
Print Assumptions AllocWf_parts_wf.
Print Assumptions AllocWf_listed.
Print Assumptions AllocWf_queued_live.
Print Assumptions Example.final_wf.
