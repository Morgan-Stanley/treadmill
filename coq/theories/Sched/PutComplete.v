(** C02: completeness of the placement walk (Bucket.put from the root).
    In a well-formed tree whose stored aggregates never hide an up server ([TreeWf], [AggSound]), the walk places an
    instance whenever some up server reachable from the root accepts it and every bucket on the way down leaves
    affinity head-room.  Boolean checkers for the two premises and a non-vacuity example are at the end.
    The invariance of the premises is in InvAgg.v. *)
From Coq Require Import ZArith QArith List Bool Lia.
From RecordUpdate Require Import RecordSet.
From TM Require Import Sched.Vec Sched.Types Sched.Tree Sched.Steps Sched.MapsP Sched.FrameP Sched.Events
                       Sched.InvAcct. Import ListNotations. Open Scope Z_scope.

(** bucket maps related pointwise *)
Definition bkts_rel (R : bucket -> bucket -> Prop) (l l' : list bucket) : Prop :=
  forall m, match get_bkt m l, get_bkt m l' with
            | Some b, Some b' => R b b'
            | None, None => True
            | _, _ => False
            end.
Lemma bkts_rel_fwd R l l' m b : bkts_rel R l l' -> get_bkt m l = Some b -> exists b', get_bkt m l' = Some b' /\ R b b'.
Proof. intros H Hb. specialize (H m). rewrite Hb in H. destruct (get_bkt m l'); [eauto|contradiction]. Qed.
Lemma bkts_rel_bwd R l l' m b' : bkts_rel R l l' -> get_bkt m l' = Some b' -> exists b, get_bkt m l = Some b /\ R b b'.
Proof. intros H Hb. specialize (H m). rewrite Hb in H. destruct (get_bkt m l); [eauto|contradiction]. Qed.
Lemma bkts_rel_none R l l' m : bkts_rel R l l' -> get_bkt m l = None -> get_bkt m l' = None.
Proof. intros H Hb. specialize (H m). rewrite Hb in H. destruct (get_bkt m l'); [contradiction|reflexivity]. Qed.
Lemma get_bkt_rel (R : bucket -> bucket -> Prop) (Rname : forall b b', R b b' -> b_name b' = b_name b) l l' :
  Forall2 R l l' -> bkts_rel R l l'.
Proof. intros H m. apply (kget_Forall2 b_name R); [|exact H]. intros a b Hab. symmetry. exact (Rname a b Hab). Qed.

(** ** vectors and trait masks *)
Definition vle (a b : vec) : Prop := Forall2 Z.le a b.

Lemma vle_any_gt d : forall a b, vle a b -> any_gt d a = false -> any_gt d b = false.
Proof.
  induction d as [|x d IH]; intros a b Hab; [destruct b; reflexivity|].
  destruct Hab as [|y z a b Hyz Hab]; cbn; [reflexivity|].
  intros H. apply orb_false_iff in H as [H1 H2]. apply orb_false_iff. split; [|eapply IH; eassumption].
  unfold Z.gtb in *. destruct (x ?= y) eqn:E1; try discriminate; destruct (x ?= z) eqn:E2; try reflexivity;
    rewrite ?Z.compare_eq_iff, ?Z.compare_lt_iff, ?Z.compare_gt_iff in *; lia.
Qed.

Lemma has_traits_refl t : has_traits t t = true.
Proof. unfold has_traits. rewrite Z.land_diag. apply Z.eqb_refl. Qed.
Lemma has_traits_trans a b c : has_traits a b = true -> has_traits b c = true -> has_traits a c = true.
Proof.
  unfold has_traits. rewrite !Z.eqb_eq. intros H1 H2.
  rewrite <- H2. rewrite Z.land_assoc, H1. reflexivity.
Qed.

(** ** the topology *)

(** the parent chain of bucket [n] ends (at a bucket without parent) within [fuel] steps *)
Fixpoint up_ok (fuel : nat) (c : cell) (n : Z) : bool :=
  match fuel with
  | O => false
  | S f => match get_bkt n (c_buckets c) with
           | None => false
           | Some b => match b_parent b with None => true | Some p => up_ok f c p end
           end
  end.

Record TreeWf (c : cell) : Prop := {
  tw_bnames : NoDup (map b_name (c_buckets c));
  (* no name is both a server and a bucket *)
  tw_disj : forall n s, get_srv n (c_servers c) = Some s -> get_bkt n (c_buckets c) = None;
  (* a listed child exists and names the bucket as its parent *)
  tw_child : forall p b m, get_bkt p (c_buckets c) = Some b -> In (Some m) (b_children b) ->
      (exists s, get_srv m (c_servers c) = Some s /\ s_parent s = Some p) \/
      (exists b', get_bkt m (c_buckets c) = Some b' /\ b_parent b' = Some p);
  (* the parent of a node exists and lists the node *)
  tw_sparent : forall n s p, get_srv n (c_servers c) = Some s -> s_parent s = Some p ->
      exists b, get_bkt p (c_buckets c) = Some b /\ In (Some n) (b_children b);
  tw_bparent : forall n b' p, get_bkt n (c_buckets c) = Some b' -> b_parent b' = Some p ->
      exists b, get_bkt p (c_buckets c) = Some b /\ In (Some n) (b_children b);
  (* no cycles: every parent chain ends within as many steps as there are buckets *)
  tw_depth : forall n b, get_bkt n (c_buckets c) = Some b -> up_ok (length (c_buckets c)) c n = true
}.

(** the buckets above a node whose parent pointer is [start] *)
Inductive anc (c : cell) : option Z -> bucket -> Prop :=
| anc_here p b : get_bkt p (c_buckets c) = Some b -> anc c (Some p) b
| anc_up p b0 b : get_bkt p (c_buckets c) = Some b0 -> anc c (b_parent b0) b -> anc c (Some p) b.

(** no stored aggregate hides an up server *)
Definition AggSound (c : cell) : Prop :=
  forall n s b, get_srv n (c_servers c) = Some s -> s_state s = Up -> anc c (s_parent s) b ->
    vle (s_free s) (b_free b) /\ In (s_label s) (b_labels b) /\ has_traits (bkt_traits b) (s_traits s) = true.

(** the path from bucket [n] down to the server [sn]: [rest] are the buckets strictly below [n] *)
Fixpoint down_path (c : cell) (n : Z) (rest : list Z) (sn : Z) : Prop :=
  match rest with
  | [] => exists b, get_bkt n (c_buckets c) = Some b /\ In (Some sn) (b_children b)
  | m :: r => (exists b, get_bkt n (c_buckets c) = Some b /\ In (Some m) (b_children b)) /\
              get_srv m (c_servers c) = None /\ down_path c m r sn
  end.

Lemma down_path_head c rest n sn : down_path c n rest sn ->
  exists b, get_bkt n (c_buckets c) = Some b /\ In (Some (hd sn rest)) (b_children b).
Proof. destruct rest; cbn; [intros H; exact H|intros (H & _); exact H]. Qed.

Lemma anc_extend c start b0 n b :
  anc c start b0 -> b_parent b0 = Some n -> get_bkt n (c_buckets c) = Some b -> anc c start b.
Proof.
  intros H Hp Hn. induction H as [p b0 Hg|p b1 b0 Hg Ha IH].
  - eapply anc_up; [exact Hg|]. rewrite Hp. apply anc_here. exact Hn.
  - eapply anc_up; [exact Hg|]. apply IH; assumption.
Qed.

Lemma down_path_anc c s : TreeWf c -> get_srv (s_name s) (c_servers c) = Some s ->
  forall rest n, down_path c n rest (s_name s) ->
  forall m b, In m (n :: rest) -> get_bkt m (c_buckets c) = Some b -> anc c (s_parent s) b.
Proof.
  intros W Hs. induction rest as [|m0 r IH]; intros n Hp m b Hin Hb.
  - destruct Hin as [<-|[]]. destruct Hp as (b0 & Hb0 & Hch). rewrite Hb in Hb0. inversion Hb0; subst b0.
    destruct (tw_child _ W _ _ _ Hb Hch) as [(s' & Hs' & Hpar)|(b' & Hb' & _)].
    + rewrite Hs in Hs'. inversion Hs'; subst s'. rewrite Hpar. apply anc_here. exact Hb.
    + rewrite (tw_disj _ W _ _ Hs) in Hb'. discriminate.
  - destruct Hp as ((b0 & Hb0 & Hch) & Hns & Hp).
    destruct Hin as [<-|Hin]; [|eapply IH; eassumption].
    rewrite Hb in Hb0. inversion Hb0; subst b0.
    destruct (down_path_head _ _ _ _ Hp) as (bm & Hbm & _).
    destruct (tw_child _ W _ _ _ Hb Hch) as [(s' & Hs' & _)|(b' & Hb' & Hpar)]; [congruence|].
    rewrite Hbm in Hb'. inversion Hb'; subst b'.
    eapply anc_extend; [|exact Hpar|exact Hb].
    eapply IH; [exact Hp|left; reflexivity|exact Hbm].
Qed.

Fixpoint plast (n : Z) (rest : list Z) : Z := match rest with [] => n | m :: r => plast m r end.

Lemma down_path_depth c : TreeWf c -> forall rest n sn, down_path c n rest sn ->
  forall k, up_ok k c (plast n rest) = true -> up_ok (k - length rest) c n = true.
Proof.
  intros W. induction rest as [|m r IH]; intros n sn Hp k Hk; cbn [plast length] in *.
  - rewrite Nat.sub_0_r. exact Hk.
  - destruct Hp as ((b & Hb & Hch) & Hns & Hp). specialize (IH _ _ Hp _ Hk).
    destruct (tw_child _ W _ _ _ Hb Hch) as [(s' & Hs' & _)|(b' & Hb' & Hpar)]; [congruence|].
    destruct (k - length r)%nat as [|j] eqn:Ej; [discriminate|].
    cbn [up_ok] in IH. rewrite Hb', Hpar in IH.
    replace (k - S (length r))%nat with j by lia. exact IH.
Qed.
Lemma down_path_last c : forall rest n sn, down_path c n rest sn -> exists b, get_bkt (plast n rest) (c_buckets c) = Some b.
Proof.
  induction rest as [|m r IH]; intros n sn Hp; cbn [plast].
  - destruct Hp as (b & Hb & _). eauto.
  - destruct Hp as (_ & _ & Hp). eapply IH; exact Hp.
Qed.
(** the path is no longer than the tree is deep: the parent chain of its last bucket runs back through all of it *)
Lemma down_path_short c rest n sn : TreeWf c -> down_path c n rest sn -> (length rest < length (c_buckets c))%nat.
Proof.
  intros W Hp. destruct (down_path_last _ _ _ _ Hp) as (b & Hb).
  pose proof (down_path_depth c W _ _ _ Hp _ (tw_depth _ W _ _ Hb)) as H.
  destruct (length (c_buckets c) - length rest)%nat eqn:E; [discriminate|lia].
Qed.

(** ** cells that differ in spread cursors only *)
Definition bcur_eq (b b' : bucket) : Prop :=
  b_name b' = b_name b /\ b_parent b' = b_parent b /\ b_level b' = b_level b /\ b_children b' = b_children b /\
  b_free b' = b_free b /\ b_self_traits b' = b_self_traits b /\ b_child_traits b' = b_child_traits b /\
  b_labels b' = b_labels b /\ b_counters b' = b_counters b.
Definition cur_eq (c c' : cell) : Prop := same_core c c' /\ Forall2 bcur_eq (c_buckets c) (c_buckets c').

Lemma bcur_eq_name b b' : bcur_eq b b' -> b_name b' = b_name b.
Proof. intros H; apply H. Qed.
Lemma bcur_eq_refl b : bcur_eq b b.
Proof. repeat split. Qed.
Lemma bcur_eq_trans a b c : bcur_eq a b -> bcur_eq b c -> bcur_eq a c.
Proof. unfold bcur_eq. intuition congruence. Qed.

Lemma cur_eq_refl c : cur_eq c c.
Proof. split; [apply same_core_refl|apply Forall2_diag, bcur_eq_refl]. Qed.
Lemma cur_eq_trans a b c : cur_eq a b -> cur_eq b c -> cur_eq a c.
Proof.
  intros [H1 H2] [H3 H4]. split; [eapply same_core_trans; eassumption|].
  eapply Forall2_rel_trans; [apply bcur_eq_trans|exact H2|exact H4].
Qed.
Lemma cur_eq_set_cursor c b aff i : cur_eq c (set_cursor c b aff i).
Proof.
  split; [apply set_cursor_sc|]. unfold set_cursor, c_upd_bkt. cbn [c_buckets set].
  apply (Forall2_kupd b_name); [apply bcur_eq_refl|]. intros x. repeat split.
Qed.
Lemma cur_eq_get c c' : cur_eq c c' -> bkts_rel bcur_eq (c_buckets c) (c_buckets c').
Proof. intros [_ H]. exact (get_bkt_rel bcur_eq bcur_eq_name _ _ H). Qed.

(** a failed attempt moves cursors only *)
Lemma try_children_fail_cur put_bkt bn aff x p0 :
  (forall c n, snd (put_bkt c n) = false -> cur_eq c (fst (put_bkt c n))) ->
  forall l c, snd (try_children put_bkt bn aff x p0 l c) = false ->
              cur_eq c (fst (try_children put_bkt bn aff x p0 l c)).
Proof.
  intros Hp. induction l as [|[p n] r IHl]; intros c; cbn [try_children].
  - intros _. cbn [fst]. apply cur_eq_set_cursor.
  - set (c1 := set_cursor c bn aff (S p)).
    assert (H1 : cur_eq c c1) by apply cur_eq_set_cursor.
    assert (Hrest : snd (try_children put_bkt bn aff x p0 r c1) = false ->
                    cur_eq c (fst (try_children put_bkt bn aff x p0 r c1)))
      by (intros H; eapply cur_eq_trans; [exact H1|apply IHl; exact H]).
    destruct (get_srv n (c_servers c1)) as [s|].
    + destruct (s_state s); try exact Hrest. destruct (srv_put c1 n x) as [c2|]; [cbn [snd]; discriminate|exact Hrest].
    + specialize (Hp c1 n). destruct (put_bkt c1 n) as [c2 ok]. cbn [fst snd] in Hp.
      destruct ok; [cbn [snd]; discriminate|].
      intros H. eapply cur_eq_trans; [exact H1|]. eapply cur_eq_trans; [apply Hp; reflexivity|apply IHl; exact H].
Qed.
Lemma bucket_put_fail_cur fuel : forall c b x,
  snd (bucket_put fuel c b x) = false -> cur_eq c (fst (bucket_put fuel c b x)).
Proof.
  induction fuel as [|f IH]; intros c b x; cbn [bucket_put]; [intros _; apply cur_eq_refl|].
  destruct (get_bkt b (c_buckets c)) as [bk|]; [|intros _; apply cur_eq_refl].
  destruct (get_app x (c_apps c)) as [a|]; [|intros _; apply cur_eq_refl].
  destruct (check_constraints c a (b_labels bk) (bkt_traits bk) (b_counters bk) (b_level bk) (b_free bk));
    [|intros _; apply cur_eq_refl].
  destruct (live_positions (b_children bk) (cursor_of bk (a_aff a))) as [|[p0 n0] rest].
  - intros _. cbn [fst]. apply cur_eq_set_cursor.
  - apply try_children_fail_cur. intros c' n. apply IH.
Qed.

(** ** the cursor walk visits every live child *)
Lemma rotated_positions_all n idx p : (p < n)%nat -> In p (rotated_positions n idx).
Proof.
  intros Hp. unfold rotated_positions. set (i := if Nat.eqb idx n then 0%nat else idx).
  apply in_or_app. destruct (le_lt_dec i p); [left|right]; apply in_seq; lia.
Qed.
Lemma live_positions_all ch idx t : In (Some t) ch -> In t (map snd (live_positions ch idx)).
Proof.
  intros Hin. apply In_nth_error in Hin as (p & Hp).
  assert (Hlt : (p < length ch)%nat) by (apply nth_error_Some; congruence).
  apply in_map_iff. exists (p, t). split; [reflexivity|].
  unfold live_positions. apply in_flat_map. exists p. split; [apply rotated_positions_all; exact Hlt|].
  rewrite Hp. left. reflexivity.
Qed.

(** the walk succeeds when one of the children it is given does *)
Lemma try_children_complete put_bkt bn aff x p0 (t : Z) (Q : cell -> Prop) :
  (forall c c', cur_eq c c' -> Q c -> Q c') ->
  (forall c n, snd (put_bkt c n) = false -> cur_eq c (fst (put_bkt c n))) ->
  (forall c, Q c -> match get_srv t (c_servers c) with
                     | Some s => s_state s = Up /\ exists c', srv_put c t x = Some c'
                     | None => snd (put_bkt c t) = true
                     end) ->
  forall l c, Q c -> In t (map snd l) -> snd (try_children put_bkt bn aff x p0 l c) = true.
Proof.
  intros HQ Hfail Ht. induction l as [|[p n] r IHl]; intros c Hc Hin; cbn [try_children]; [destruct Hin|].
  set (c1 := set_cursor c bn aff (S p)).
  assert (H1 : Q c1) by (eapply HQ; [apply cur_eq_set_cursor|exact Hc]).
  destruct (Z.eq_dec n t) as [->|Hne].
  - specialize (Ht c1 H1). destruct (get_srv t (c_servers c1)) as [s|].
    + destruct Ht as (Hup & c' & Hput). rewrite Hup, Hput. reflexivity.
    + destruct (put_bkt c1 t) as [c2 ok]. cbn [snd] in Ht. subst ok. reflexivity.
  - assert (Hin' : In t (map snd r)) by (destruct Hin as [E|E]; [cbn in E; congruence|exact E]).
    destruct (get_srv n (c_servers c1)) as [s|].
    + destruct (s_state s); try (apply IHl; assumption).
      destruct (srv_put c1 n x); [reflexivity|apply IHl; assumption].
    + specialize (Hfail c1 n). destruct (put_bkt c1 n) as [c2 ok]. cbn [fst snd] in Hfail.
      destruct ok; [reflexivity|]. apply IHl; [|exact Hin']. eapply HQ; [apply Hfail; reflexivity|exact H1].
Qed.

(** ** what the walk needs on the way down *)
Definition fits (c : cell) (x : Z) (a : app) (n : Z) (rest : list Z) (s : server) : Prop :=
  get_app x (c_apps c) = Some a /\
  get_srv (s_name s) (c_servers c) = Some s /\ s_state s = Up /\ put_guard c s a (a_lease a) = true /\
  down_path c n rest (s_name s) /\
  (forall m b, In m (n :: rest) -> get_bkt m (c_buckets c) = Some b ->
     check_constraints c a (b_labels b) (bkt_traits b) (b_counters b) (b_level b) (b_free b) = true).

Lemma put_guard_sc c c' s a l : same_core c c' -> put_guard c' s a l = put_guard c s a l.
Proof.
  intros (_ & _ & _ & _ & Hp & _ & Hn).
  unfold put_guard, check_lifetime, check_constraints, app_traits, app_alloc. rewrite Hp, Hn. reflexivity.
Qed.
Lemma check_constraints_sc c c' a ls tr cn lv fr :
  same_core c c' -> check_constraints c' a ls tr cn lv fr = check_constraints c a ls tr cn lv fr.
Proof.
  intros (_ & _ & _ & _ & Hp & _ & _). unfold check_constraints, app_traits, app_alloc. rewrite Hp. reflexivity.
Qed.

Lemma down_path_cur c c' : cur_eq c c' -> forall rest n sn, down_path c n rest sn -> down_path c' n rest sn.
Proof.
  intros Hc. assert (Hs : c_servers c' = c_servers c) by apply Hc.
  induction rest as [|m r IH]; intros n sn Hp; cbn [down_path] in *.
  - destruct Hp as (b & Hb & Hch). destruct (bkts_rel_fwd _ _ _ _ _ (cur_eq_get _ _ Hc) Hb) as (b' & Hb' & E).
    exists b'. split; [exact Hb'|]. destruct E as (_ & _ & _ & E & _). rewrite E. exact Hch.
  - destruct Hp as ((b & Hb & Hch) & Hns & Hp). destruct (bkts_rel_fwd _ _ _ _ _ (cur_eq_get _ _ Hc) Hb) as (b' & Hb' & E).
    split; [|split; [rewrite Hs; exact Hns|apply IH; exact Hp]].
    exists b'. split; [exact Hb'|]. destruct E as (_ & _ & _ & E & _). rewrite E. exact Hch.
Qed.

Lemma fits_cur c c' x a n rest s : cur_eq c c' -> fits c x a n rest s -> fits c' x a n rest s.
Proof.
  intros Hc (Ha & Hs & Hup & Hg & Hp & Hck).
  pose proof Hc as [Hsc _]. pose proof Hsc as (_ & _ & Es & Ea & _).
  split; [rewrite Ea; exact Ha|]. split; [rewrite Es; exact Hs|]. split; [exact Hup|].
  split; [rewrite (put_guard_sc _ _ _ _ _ Hsc); exact Hg|]. split; [eapply down_path_cur; eassumption|].
  intros m b' Hin Hb'. destruct (bkts_rel_bwd _ _ _ _ _ (cur_eq_get _ _ Hc) Hb') as (b & Hb & E).
  rewrite (check_constraints_sc _ _ _ _ _ _ _ _ Hsc). specialize (Hck m b Hin Hb).
  destruct E as (_ & _ & E3 & _ & E5 & E6 & E7 & E8 & E9).
  unfold bkt_traits. rewrite E3, E5, E6, E7, E8, E9. exact Hck.
Qed.

Theorem bucket_put_complete fuel : forall c n rest x a s,
  fits c x a n rest s -> (length rest < fuel)%nat -> snd (bucket_put fuel c n x) = true.
Proof.
  induction fuel as [|f IH]; intros c n rest x a s Hfit Hlen; [lia|].
  cbn [bucket_put]. pose proof Hfit as (Ha & Hs & Hup & Hg & Hp & Hck).
  destruct (down_path_head _ _ _ _ Hp) as (b & Hb & Hch). rewrite Hb, Ha.
  rewrite (Hck n b (or_introl eq_refl) Hb).
  set (t := hd (s_name s) rest) in *.
  pose proof (live_positions_all _ (cursor_of b (a_aff a)) _ Hch) as Hlive.
  destruct (live_positions (b_children b) (cursor_of b (a_aff a))) as [|[p0 n0] order] eqn:El; [destruct Hlive|].
  apply (try_children_complete _ _ _ _ _ t (fun c' => fits c' x a n rest s)); [| | |exact Hfit|exact Hlive].
  - intros c1 c2 H12 H. eapply fits_cur; eassumption.
  - intros c1 m. apply bucket_put_fail_cur.
  - intros c1 (Ha1 & Hs1 & Hup1 & Hg1 & Hp1 & Hck1). subst t. destruct rest as [|m r]; cbn [hd].
    + rewrite Hs1. split; [exact Hup1|]. unfold srv_put. rewrite Ha1. unfold srv_put_lease. rewrite Hs1, Ha1, Hg1. eauto.
    + cbn [down_path] in Hp1. destruct Hp1 as (_ & Hns & Hp1). rewrite Hns.
      apply (IH c1 m r x a s); [|cbn [length] in Hlen; lia].
      split; [exact Ha1|]. split; [exact Hs1|]. split; [exact Hup1|]. split; [exact Hg1|]. split; [exact Hp1|].
      intros m' b' Hin Hb'. apply (Hck1 m' b'); [right; exact Hin|exact Hb'].
Qed.

(** ** the completeness theorem *)
Lemma agg_check c a s b :
  AggSound c -> get_srv (s_name s) (c_servers c) = Some s -> s_state s = Up -> anc c (s_parent s) b ->
  put_guard c s a (a_lease a) = true ->
  under_limit (cget (a_aff a) (b_counters b)) (aff_limit a (b_level b)) = true ->
  check_constraints c a (b_labels b) (bkt_traits b) (b_counters b) (b_level b) (b_free b) = true.
Proof.
  intros HA Hs Hup Hanc Hg Hlim.
  destruct (HA _ _ _ Hs Hup Hanc) as (Hfree & Hlab & Htr).
  destruct (put_guard_spec _ _ _ _ Hg) as (Gl & Gt & _ & _ & Gf & _).
  unfold check_constraints. rewrite Hlim. rewrite (vle_any_gt _ _ _ Hfree Gf). cbn [negb]. rewrite !andb_true_r.
  apply andb_true_iff. split.
  - destruct (app_label a) as [l|]; [|reflexivity]. rewrite (Gl l eq_refl). apply zmem_In. exact Hlab.
  - destruct Gt as [Gt|Gt]; [rewrite Gt; reflexivity|].
    apply orb_true_iff. right. eapply has_traits_trans; eassumption.
Qed.

Theorem cell_put_complete c x a s rest :
  TreeWf c -> AggSound c ->
  get_app x (c_apps c) = Some a ->
  get_srv (s_name s) (c_servers c) = Some s -> s_state s = Up ->
  put_guard c s a (a_lease a) = true ->
  down_path c (c_root c) rest (s_name s) ->
  (forall m b, In m (c_root c :: rest) -> get_bkt m (c_buckets c) = Some b ->
               under_limit (cget (a_aff a) (b_counters b)) (aff_limit a (b_level b)) = true) ->
  snd (cell_put c x) = true.
Proof.
  intros W HA Ha Hs Hup Hg Hp Hlim. unfold cell_put.
  apply (bucket_put_complete _ c (c_root c) rest x a s).
  - split; [exact Ha|]. split; [exact Hs|]. split; [exact Hup|]. split; [exact Hg|]. split; [exact Hp|].
    intros m b Hin Hb.
    apply (agg_check c a s b HA Hs Hup); [|exact Hg|exact (Hlim m b Hin Hb)].
    eapply down_path_anc; eassumption.
  - pose proof (down_path_short _ _ _ _ W Hp). unfold depth_fuel. lia.
Qed.

Print Assumptions cell_put_complete.

(** ** executable checkers for the two premises *)
Fixpoint znodupb (l : list Z) : bool :=
  match l with [] => true | x :: r => negb (zmem x r) && znodupb r end.
Lemma znodupb_sound l : znodupb l = true -> NoDup l.
Proof.
  induction l as [|x r IH]; cbn; [constructor|]. intros H. apply andb_true_iff in H as [H1 H2].
  constructor; [apply zmem_false; apply negb_true_iff; exact H1|apply IH; exact H2].
Qed.

Definition optz_is (o : option Z) (n : Z) : bool := match o with Some m => Z.eqb m n | None => false end.
Lemma optz_is_spec o n : optz_is o n = true <-> o = Some n.
Proof.
  destruct o as [m|]; cbn; [rewrite Z.eqb_eq|]; split; intros H; try discriminate; [subst|inversion H]; reflexivity.
Qed.

Definition child_okb (c : cell) (p : Z) (o : option Z) : bool :=
  match o with
  | None => true
  | Some m => match get_srv m (c_servers c) with
              | Some s => optz_is (s_parent s) p
              | None => match get_bkt m (c_buckets c) with
                        | Some b' => optz_is (b_parent b') p
                        | None => false
                        end
              end
  end.
Definition listed_inb (c : cell) (parent : option Z) (n : Z) : bool :=
  match parent with
  | None => true
  | Some p => match get_bkt p (c_buckets c) with
              | Some b => existsb (fun o => optz_is o n) (b_children b)
              | None => false
              end
  end.

Definition tree_wfb (c : cell) : bool :=
  znodupb (map b_name (c_buckets c))
  && forallb (fun s => match get_bkt (s_name s) (c_buckets c) with None => true | Some _ => false end) (c_servers c)
  && forallb (fun b => forallb (child_okb c (b_name b)) (b_children b)) (c_buckets c)
  && forallb (fun s => listed_inb c (s_parent s) (s_name s)) (c_servers c)
  && forallb (fun b => listed_inb c (b_parent b) (b_name b)) (c_buckets c)
  && forallb (fun b => up_ok (length (c_buckets c)) c (b_name b)) (c_buckets c).

Lemma listed_inb_sound c p n : listed_inb c (Some p) n = true ->
  exists b, get_bkt p (c_buckets c) = Some b /\ In (Some n) (b_children b).
Proof.
  cbn. destruct (get_bkt p (c_buckets c)) as [b|]; [|discriminate]. intros H.
  apply existsb_exists in H as (o & Hin & Ho). apply optz_is_spec in Ho. subst o. eauto.
Qed.

Theorem tree_wfb_sound c : tree_wfb c = true -> TreeWf c.
Proof.
  unfold tree_wfb. intros H. repeat (apply andb_true_iff in H as [H ?]).
  rename H into F1. rename H4 into F2. rename H3 into F3. rename H2 into F4. rename H1 into F5. rename H0 into F6.
  rewrite forallb_forall in F2, F3, F4, F5, F6.
  constructor.
  - apply znodupb_sound. exact F1.
  - intros n s Hs. specialize (F2 s (get_srv_In _ _ _ Hs)). rewrite (get_srv_name _ _ _ Hs) in F2.
    destruct (get_bkt n (c_buckets c)); [discriminate|reflexivity].
  - intros p b m Hb Hin. specialize (F3 b (get_bkt_In _ _ _ Hb)). rewrite forallb_forall in F3.
    specialize (F3 _ Hin). rewrite (get_bkt_name _ _ _ Hb) in F3. cbn in F3.
    destruct (get_srv m (c_servers c)) as [s|].
    + left. exists s. split; [reflexivity|apply optz_is_spec; exact F3].
    + destruct (get_bkt m (c_buckets c)) as [b'|]; [|discriminate].
      right. exists b'. split; [reflexivity|apply optz_is_spec; exact F3].
  - intros n s p Hs Hp. specialize (F4 s (get_srv_In _ _ _ Hs)). rewrite Hp, (get_srv_name _ _ _ Hs) in F4.
    apply listed_inb_sound. exact F4.
  - intros n b' p Hb Hp. specialize (F5 b' (get_bkt_In _ _ _ Hb)). rewrite Hp, (get_bkt_name _ _ _ Hb) in F5.
    apply listed_inb_sound. exact F5.
  - intros n b Hb. specialize (F6 b (get_bkt_In _ _ _ Hb)). rewrite (get_bkt_name _ _ _ Hb) in F6. exact F6.
Qed.

(** a predicate on every bucket above a node *)
Fixpoint anc_all (fuel : nat) (c : cell) (start : option Z) (P : bucket -> bool) : bool :=
  match start with
  | None => true
  | Some p =>
      match fuel with
      | O => false
      | S f => match get_bkt p (c_buckets c) with
               | None => true
               | Some b => P b && anc_all f c (b_parent b) P
               end
      end
  end.
Lemma anc_all_sound c P start b : anc c start b -> forall fuel, anc_all fuel c start P = true -> P b = true.
Proof.
  induction 1 as [p b Hg|p b0 b Hg Ha IH]; intros [|f]; cbn; try discriminate; rewrite Hg; intros H;
    apply andb_true_iff in H as [H1 H2]; [exact H1|eapply IH; exact H2].
Qed.

Fixpoint vleb (a b : vec) : bool :=
  match a, b with
  | [], [] => true
  | x :: a', y :: b' => Z.leb x y && vleb a' b'
  | _, _ => false
  end.
Lemma vleb_sound : forall a b, vleb a b = true -> vle a b.
Proof.
  induction a as [|x a IH]; intros [|y b]; cbn; try discriminate; [constructor|].
  intros H. apply andb_true_iff in H as [H1 H2]. constructor; [apply Z.leb_le; exact H1|apply IH; exact H2].
Qed.

Definition agg_soundb (c : cell) : bool :=
  forallb (fun s => match s_state s with
                    | Up => anc_all (depth_fuel c) c (s_parent s)
                              (fun b => vleb (s_free s) (b_free b) && zmem (s_label s) (b_labels b)
                                        && has_traits (bkt_traits b) (s_traits s))
                    | _ => true
                    end) (c_servers c).

Theorem agg_soundb_sound c : agg_soundb c = true -> AggSound c.
Proof.
  unfold agg_soundb. rewrite forallb_forall. intros H n s b Hs Hup Hanc.
  specialize (H s (get_srv_In _ _ _ Hs)). rewrite Hup in H.
  pose proof (anc_all_sound _ _ _ _ Hanc _ H) as Hb. cbn beta in Hb.
  apply andb_true_iff in Hb as [Hb H3]. apply andb_true_iff in Hb as [H1 H2].
  split; [apply vleb_sound; exact H1|]. split; [apply zmem_In; exact H2|exact H3].
Qed.

(** the remaining premises of [cell_put_complete], as a boolean *)
Fixpoint down_pathb (c : cell) (n : Z) (rest : list Z) (sn : Z) : bool :=
  match get_bkt n (c_buckets c) with
  | None => false
  | Some b =>
      match rest with
      | [] => existsb (fun o => optz_is o sn) (b_children b)
      | m :: r => existsb (fun o => optz_is o m) (b_children b)
                  && (match get_srv m (c_servers c) with None => true | Some _ => false end)
                  && down_pathb c m r sn
      end
  end.
Lemma down_pathb_sound c : forall rest n sn, down_pathb c n rest sn = true -> down_path c n rest sn.
Proof.
  induction rest as [|m r IH]; intros n sn; cbn [down_pathb down_path];
    destruct (get_bkt n (c_buckets c)) as [b|]; try discriminate; intros H.
  - apply existsb_exists in H as (o & Hin & Ho). apply optz_is_spec in Ho. subst o. eauto.
  - apply andb_true_iff in H as [H H3]. apply andb_true_iff in H as [H1 H2].
    apply existsb_exists in H1 as (o & Hin & Ho). apply optz_is_spec in Ho. subst o.
    split; [eauto|]. split; [destruct (get_srv m (c_servers c)); [discriminate|reflexivity]|apply IH; exact H3].
Qed.

Definition headroomb (c : cell) (a : app) (path : list Z) : bool :=
  forallb (fun m => match get_bkt m (c_buckets c) with
                    | Some b => under_limit (cget (a_aff a) (b_counters b)) (aff_limit a (b_level b))
                    | None => true
                    end) path.

Definition fits_serverb (c : cell) (x sn : Z) (rest : list Z) : bool :=
  match get_app x (c_apps c), get_srv sn (c_servers c) with
  | Some a, Some s =>
      sstate_eqb (s_state s) Up && put_guard c s a (a_lease a) && down_pathb c (c_root c) rest sn
      && headroomb c a (c_root c :: rest)
  | _, _ => false
  end.

(** the form the harness uses: every premise by evaluation *)
Theorem cell_put_complete_b c x sn rest :
  tree_wfb c = true -> agg_soundb c = true -> fits_serverb c x sn rest = true -> snd (cell_put c x) = true.
Proof.
  intros HW HA H. unfold fits_serverb in H.
  destruct (get_app x (c_apps c)) as [a|] eqn:Ea; [|discriminate].
  destruct (get_srv sn (c_servers c)) as [s|] eqn:Es; [|discriminate].
  apply andb_true_iff in H as [H Hroom]. apply andb_true_iff in H as [H Hpath]. apply andb_true_iff in H as [Hup Hg].
  assert (Hn : s_name s = sn) by (eapply get_srv_name; exact Es).
  apply (cell_put_complete c x a s rest); [apply tree_wfb_sound; exact HW|apply agg_soundb_sound; exact HA|exact Ea| | |exact Hg| |].
  - rewrite Hn. exact Es.
  - destruct (s_state s); [reflexivity|discriminate|discriminate].
  - rewrite Hn. apply down_pathb_sound. exact Hpath.
  - intros m b Hin Hb. unfold headroomb in Hroom. rewrite forallb_forall in Hroom. specialize (Hroom m Hin).
    rewrite Hb in Hroom. exact Hroom.
Qed.
Print Assumptions cell_put_complete_b.

(** ** non-vacuity: cell 2000 > racks 2001, 2002 > servers 1000, 1001 (rack 2001) and 1002 (rack 2002, trait 1) *)
Definition nv_app (n prio order traits aff : Z) (demand : vec) : app :=
  mkApp n prio demand aff [(0, 1); (2, 2)] traits 0 None None false order None None None None false false false false (-1).
Definition nv_ops : list op :=
  [ OAddBucket 2001 2 2000; OAddBucket 2002 2 2000;
    OAddServer 1000 2001 [10;10] 4000 0 0; OAddServer 1001 2001 [10;10] 4000 0 0;
    OAddServer 1002 2002 [20;20] 4000 1 0;
    OAddApp 4000 [] (nv_app 1 5 1 0 3000 [8;8]); OAddApp 4000 [] (nv_app 2 5 2 0 3000 [8;8]);
    OSchedule [];                                     (* 1 and 2 are placed (one per server: server-level limit 1) *)
    OSetState 1001 Down 5; OSetState 1001 Up 6;       (* aggregates go down and up again *)
    OAddApp 4000 [] (nv_app 3 1 3 1 3001 [11;11]) ].  (* the probe: needs trait 1 and 11 units: only 1002 fits *)
Definition nv_cell : cell := run (init_cell 2 2000 3) nv_ops.

Example nv_wf_ops : wf_opsb (init_cell 2 2000 3) nv_ops = true.
Proof. vm_compute. reflexivity. Qed.
Example nv_tree_wf : tree_wfb nv_cell = true.
Proof. vm_compute. reflexivity. Qed.
Example nv_agg_sound : agg_soundb nv_cell = true.
Proof. vm_compute. reflexivity. Qed.
Example nv_fits : fits_serverb nv_cell 3 1002 [2002] = true.
Proof. vm_compute. reflexivity. Qed.
(** the earlier instances are where the cycle put them, so the state is not an empty cell *)
Example nv_placed :
  map (fun a => (a_name a, a_server a)) (c_apps nv_cell) = [(1, Some 1000); (2, Some 1002); (3, None)].
Proof. vm_compute. reflexivity. Qed.
(** the theorem applies, and the evaluation of the walk agrees *)
Theorem nv_complete : snd (cell_put nv_cell 3) = true.
Proof. apply (cell_put_complete_b nv_cell 3 1002 [2002]); [exact nv_tree_wf|exact nv_agg_sound|exact nv_fits]. Qed.
Example nv_complete_eval : snd (cell_put nv_cell 3) = true.
Proof. vm_compute. reflexivity. Qed.
