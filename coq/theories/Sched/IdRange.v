(** C05: after a cycle every held identity is below the current size of its group. *)
From Coq Require Import ZArith QArith List Bool.
From RecordUpdate Require Import RecordSet.
From TM Require Import Sched.Vec Sched.Types Sched.Cycle Sched.Steps Sched.MapsP Sched.InvIdent Sched.TurnP Sched.CycleP Sched.KeepP.
Import ListNotations.
Open Scope Z_scope.

Definition InRange (c : cell) : Prop :=
  forall x a g i k, app_of c x = Some a -> holds a g i -> gcount c g = Some k -> i < k.

(** a primitive transition keeps identities, drops them, or hands out one that the group had on offer, which
    Ident puts below the size of the group *)
Lemma pstep_InRange c c' : pstep c c' -> Ident c -> InRange c -> InRange c'.
Proof.
  intros Hs HI H x a' g i k Ha' [Hg Hi] Hk. rewrite (pstep_counts _ _ Hs) in Hk. unfold app_of in Ha'.
  destruct (pstep_shape _ _ Hs) as (_ & _ & _ & [E|(y & f & E & Hf & Hid)]); rewrite E in Ha';
    [exact (H x a' g i k Ha' (conj Hg Hi) Hk)|].
  rewrite get_app_upd in Ha' by (intros z; apply (Hf z)).
  destruct (Z.eq_dec x y) as [->|_]; [|exact (H x a' g i k Ha' (conj Hg Hi) Hk)].
  destruct (get_app y (c_apps c)) as [a|] eqn:Ea; [|discriminate]. inversion Ha'; subst a'.
  rewrite (stat_group _ _ (proj1 (Hf a))) in Hg.
  destruct (Hid a eq_refl) as [Ei|[Ei|(g0 & grp & j & Eg0 & Egr & Hin & Ei)]]; rewrite Ei in Hi.
  - exact (H y a g i k Ea (conj Hg Hi) Hk).
  - discriminate.
  - inversion Hi; subst j. assert (g0 = g) by congruence. subst g0.
    unfold gcount in Hk. rewrite Egr in Hk. inversion Hk; subst k. exact (proj2 (id_avail_range _ HI _ _ _ Egr Hin)).
Qed.
Lemma psteps_InRange c c' : psteps c c' -> Ident c -> InRange c -> InRange c'.
Proof.
  induction 1 as [c c' Hs|c|a b c' H1 IH1 H2 IH2]; intros HI H; [eapply pstep_InRange; eassumption|exact H|].
  apply IH2; [eapply Ident_psteps; eassumption|apply IH1; assumption].
Qed.

(** ** _fix_invalid_identities establishes the range *)
Lemma phase4_step_own acc a0 : forall b g i k,
  app_of (phase4_step acc a0) (a_name a0) = Some b -> holds b g i -> gcount (phase4_step acc a0) g = Some k -> i < k.
Proof.
  intros b' g i k Hb' [Hg Hi] Hk. rewrite (psteps_counts _ _ (proj1 (phase4_step_only acc a0))) in Hk. unfold phase4_step in Hb'.
  destruct (get_app (a_name a0) (c_apps acc)) as [b|] eqn:Eb; [|unfold app_of in Hb'; congruence].
  pose proof (get_app_name _ _ _ Eb) as Hn. rewrite <- Hn in *.
  destruct (a_identity b) as [i0|] eqn:Ei; [|unfold app_of in Hb'; congruence].
  destruct (group_of acc b) as [[g0 grp]|] eqn:Egr.
  2:{ (* no such group: nothing to compare with *)
      assert (b' = b) by (unfold app_of in Hb'; congruence). subst b'. unfold group_of in Egr. rewrite Hg in Egr.
      unfold gcount in Hk. destruct (aget g (c_groups acc)); discriminate. }
  destruct (Z.geb i0 (g_count grp)) eqn:Ege.
  - (* dropped, and a removal keeps it dropped *)
    exfalso. set (fi := fun z : app => z <| a_identity := None |>) in Hb'.
    pose proof (upd_app_self acc (a_name b) fi b (fun z => eq_refl) Eb) as H1.
    destruct (a_server b) as [m|]; [|rewrite H1 in Hb'; inversion Hb'; subst b'; discriminate Hi].
    destruct (srv_remove_cases _ _ _ _ Hb') as (b1 & Hb1 & [->| ->]); rewrite H1 in Hb1; inversion Hb1; subst b1; discriminate Hi.
  - assert (b' = b) by (unfold app_of in Hb'; congruence). subst b'.
    unfold group_of in Egr. rewrite Hg in Egr. destruct (aget g (c_groups acc)) as [grp0|] eqn:Eg0; [|discriminate].
    inversion Egr; subst g0 grp0. unfold gcount in Hk. rewrite Eg0 in Hk. cbn in Hk. inversion Hk; subst k.
    rewrite Ei in Hi. inversion Hi; subst i0. rewrite Z.geb_leb in Ege. apply Z.leb_gt in Ege. exact Ege.
Qed.

Theorem phase4_in_range c : InRange (fix_invalid_identities c).
Proof.
  intros x b g i k Hb.
  assert (Hin : In x (map a_name (c_apps c)))
    by (rewrite <- (psteps_names _ _ (fix_invalid_identities_ps c)); exact (app_of_In _ _ _ Hb)).
  revert b g i k Hb. change (fix_invalid_identities c) with (fold_left phase4_step (c_apps c) c).
  apply (fold_apps_each phase4_step (fun _ => True)
           (fun c x => forall b g i k, app_of c x = Some b -> holds b g i -> gcount c g = Some k -> i < k));
    [auto|intros c0 a0 _; apply phase4_step_own| |exact I|exact Hin].
  intros c0 a0 y _ Hne H b g i k Hb Hh Hk. destruct (phase4_step_only c0 a0) as [Hp F].
  rewrite F in Hb by exact Hne. rewrite (psteps_counts _ _ Hp) in Hk. exact (H b g i k Hb Hh Hk).
Qed.

Theorem schedule_in_range c ch : Ident c -> InRange (fst (fst (schedule c ch))).
Proof.
  intros HI. rewrite schedule_fst.
  apply (psteps_InRange (pre_phases c)); [apply sched_fold_ps|exact (Ident_psteps _ _ (pre_phases_ps c) HI)|].
  unfold pre_phases. apply phase4_in_range.
Qed.
