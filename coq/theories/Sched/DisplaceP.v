(** C07 at the level of the placement loop: an instance running on an up server whose placement is still admissible
    for its allocation is displaced only if an instance strictly ahead of it in the queue gained a placement. *)
From Coq Require Import ZArith QArith List Bool Lia.
From RecordUpdate Require Import RecordSet.
From TM Require Import Sched.Vec Sched.Types Sched.Queue Sched.Tree Sched.Cycle Sched.Steps Sched.MapsP Sched.FrameP
                       Sched.InvAcct Sched.InvAff Sched.InvIdent Sched.MergeOrderP Sched.QueueP Sched.TurnP Sched.CycleP Sched.KeepP.
Import ListNotations.
Open Scope Z_scope.

(** ** instances whose turn has not come: as they were, or evicted and remembered *)
Definition waiting (c : cell) (st : loopst) (z : Z) : Prop :=
  forall az, app_of c z = Some az ->
    (app_of (l_cell st) z = Some az /\ aget z (l_evicted st) = None) \/
    (exists sn, a_server az = Some sn /\ app_of (l_cell st) z = Some (removed az) /\
                aget z (l_evicted st) = Some (sn, a_expiry az)).

Lemma waiting_step c rq st y z : Acct (l_cell st) -> z <> y -> waiting c st z -> waiting c (place_one rq st y) z.
Proof. intros HA Hne Hw az Haz. exact (pending_step rq st y z az HA Hne (Hw az Haz)). Qed.

(** the loop over a stretch of the queue: whoever is neither done nor in the stretch is still waiting *)
Lemma waiting_fold c rq : forall l st (D : Z -> Prop),
  Acct c -> psteps c (l_cell st) -> (forall z, ~ D z -> waiting c st z) ->
  psteps c (l_cell (fold_left (place_one rq) l st)) /\
  forall z, ~ D z -> ~ In z l -> waiting c (fold_left (place_one rq) l st) z.
Proof.
  induction l as [|y r IH]; intros st D HA Hps Hw; cbn [fold_left]; [split; [exact Hps|intros z Hz _; exact (Hw z Hz)]|].
  assert (HA1 : Acct (l_cell st)) by (eapply Acct_psteps; eassumption).
  destruct (IH (place_one rq st y) (fun z => D z \/ z = y) HA) as [H1 H2].
  - eapply ps_trans; [exact Hps|apply place_one_ps].
  - intros z Hz. apply waiting_step; [exact HA1|intros E; apply Hz; right; exact E|]. apply Hw. intros Hd. apply Hz. left. exact Hd.
  - split; [exact H1|]. intros z Hz Hni. apply H2; [intros [Hd|E]; [exact (Hz Hd)|apply Hni; left; congruence]|].
    intros Hin. apply Hni. right. exact Hin.
Qed.

(** an instance whose turn is over is not touched by the turns of instances behind it *)
Lemma done_fold c q pre0 : forall l st z, NoDup q -> (exists mid, q = pre0 ++ mid ++ l) -> In z pre0 ->
  Acct c -> psteps c (l_cell st) ->
  app_of (l_cell (fold_left (place_one (rev q)) l st)) z = app_of (l_cell st) z.
Proof.
  induction l as [|y r IH]; intros st z Hnd (mid & Hq) Hz HA Hps; cbn [fold_left]; [reflexivity|].
  assert (Hq' : q = (pre0 ++ mid) ++ y :: r) by (rewrite Hq, app_assoc; reflexivity).
  assert (Hz' : In z (pre0 ++ mid)) by (apply in_or_app; left; exact Hz).
  pose proof Hnd as Hd. rewrite Hq' in Hd. apply NoDup_app_inv in Hd as (_ & _ & Hd).
  rewrite (IH (place_one (rev q) st y) z Hnd); [|exists (mid ++ [y]); rewrite <- app_assoc; exact Hq|exact Hz|exact HA|eapply ps_trans; [exact Hps|apply place_one_ps]].
  apply (place_one_ahead q _ y r st z Hq' Hnd (Acct_psteps _ _ Hps HA));
    [intros ->; exact (Hd y Hz' (or_introl eq_refl))|intros H; exact (Hd z Hz' (or_intror H))].
Qed.

(** ** vectors, sums over sub-lists *)
Definition vle (a b : vec) : Prop := Forall2 Z.le a b.
Lemma vle_any_gt : forall d f, vle d f -> any_gt d f = false.
Proof. induction 1 as [|x y d f Hxy _ IH]; cbn; [reflexivity|]. rewrite IH. destruct (Z.gtb_spec x y); [lia|reflexivity]. Qed.
Lemma vle_refl a : vle a a.
Proof. induction a; constructor; [lia|assumption]. Qed.
Lemma vle_vadd_nonneg : forall a b, length a = length b -> nonneg b -> vle a (vadd b a).
Proof.
  induction a as [|x a IH]; intros [|y b] Hl Hb; cbn in *; try discriminate; [constructor|].
  inversion Hb; subst. constructor; [lia|apply IH; [lia|assumption]].
Qed.
Lemma vle_vadd_mono : forall d a b, vle a b -> length d = length a -> vle (vadd d a) (vadd d b).
Proof.
  induction d as [|x d IH]; intros a b H Hl; inversion H; subst; cbn in *; try discriminate; constructor; [lia|].
  apply IH; [assumption|lia].
Qed.
Lemma vle_length a b : vle a b -> length a = length b.
Proof. induction 1; cbn; congruence. Qed.

(* f3 + t3 = f + t, d + t3 <= t, f >= 0  ==>  d <= f3 *)
Lemma room_back : forall (f3 t3 f t d : vec),
  vadd f3 t3 = vadd f t -> vle (vadd d t3) t -> nonneg f ->
  length f3 = length d -> length t3 = length d -> length f = length d -> length t = length d -> vle d f3.
Proof.
  induction f3 as [|a f3 IH]; intros t3 f t [|h d] E L N H1 H2 H3 H4; try discriminate; [constructor|].
  destruct t3 as [|b t3]; [discriminate|]. destruct f as [|e f]; [discriminate|]. destruct t as [|g t]; [discriminate|].
  injection E as E0 E. inversion L as [|? ? ? ? L0 L']; subst. inversion N as [|? ? N0 N']; subst.
  injection H1 as H1. injection H2 as H2. injection H3 as H3. injection H4 as H4.
  constructor; [lia|exact (IH t3 f t d E L' N' H1 H2 H3 H4)].
Qed.

Lemma total_incl apps dim : forall l1 l2,
  (forall n a, get_app n apps = Some a -> length (a_demand a) = dim /\ nonneg (a_demand a)) ->
  NoDup l1 -> NoDup l2 -> incl l1 l2 -> vle (total apps dim l1) (total apps dim l2).
Proof.
  intros l1 l2 Hd. assert (Hlen : forall n a, get_app n apps = Some a -> length (a_demand a) = dim) by (intros n a H; apply (Hd n a H)).
  assert (Hnn : forall l, nonneg (total apps dim l)).
  { induction l as [|m r IH]; cbn [total]; [unfold vzero; apply Forall_forall; intros z Hz; apply repeat_spec in Hz; lia|].
    apply nonneg_vadd; [|exact IH]. unfold demand_of. destruct (get_app m apps) as [a|] eqn:E; [apply (Hd m a E)|].
    unfold vzero. apply Forall_forall. intros z Hz. apply repeat_spec in Hz. lia. }
  revert l2. induction l1 as [|m r IH]; intros l2 Hn1 Hn2 Hi; cbn [total].
  - pose proof (total_length apps dim l2 Hlen) as Hl. pose proof (Hnn l2) as Hn. revert Hl Hn. generalize (total apps dim l2). clear.
    induction dim as [|d IHd]; intros [|y v] Hl Hn; cbn in *; try discriminate; constructor; [inversion Hn; lia|].
    apply IHd; [lia|inversion Hn; assumption].
  - inversion Hn1 as [|? ? Hni Hnr]; subst.
    assert (Hm : In m l2) by (apply Hi; left; reflexivity).
    rewrite (total_zremove apps dim m l2 Hlen Hm).
    apply vle_vadd_mono.
    + apply IH; [exact Hnr|apply zremove_NoDup; exact Hn2|].
      intros z Hz. apply zremove_keep; [intros ->; contradiction|apply Hi; right; exact Hz].
    + unfold demand_of. rewrite (total_length apps dim r Hlen). destruct (get_app m apps) as [a|] eqn:E; [apply (Hlen m a E)|apply repeat_length].
Qed.

Lemma filter_incl_length {A} (f : A -> bool) l1 l2 : NoDup l1 -> incl l1 l2 -> (length (filter f l1) <= length (filter f l2))%nat.
Proof.
  intros Hn Hi. apply NoDup_incl_length; [apply NoDup_filter; exact Hn|].
  intros z Hz. apply filter_In in Hz as [H1 H2]. apply filter_In. split; [apply Hi; exact H1|exact H2].
Qed.

Lemma psteps_demand c c' z : psteps c c' -> demand_of (c_apps c') (c_dim c) z = demand_of (c_apps c) (c_dim c) z.
Proof.
  intros Hp. unfold demand_of. destruct (get_app z (c_apps c)) as [a|] eqn:Ea.
  - destruct (psteps_stat _ _ Hp z a Ea) as (a' & Ha' & (_ & _ & Hd & _)). unfold app_of in Ha'. rewrite Ha'. exact Hd.
  - pose proof (psteps_none _ _ z Hp Ea) as E. unfold app_of in E. rewrite E. reflexivity.
Qed.
Lemma psteps_has_aff c c' aff z : psteps c c' -> has_aff (c_apps c') aff z = has_aff (c_apps c) aff z.
Proof.
  intros Hp. unfold has_aff. destruct (get_app z (c_apps c)) as [a|] eqn:Ea.
  - destruct (psteps_stat _ _ Hp z a Ea) as (a' & Ha' & (_ & _ & _ & Hf & _)). unfold app_of in Ha'. rewrite Ha', Hf. reflexivity.
  - pose proof (psteps_none _ _ z Hp Ea) as E. unfold app_of in E. rewrite E. reflexivity.
Qed.

Lemma total_ext apps apps' dim l : (forall z, demand_of apps' dim z = demand_of apps dim z) -> total apps' dim l = total apps dim l.
Proof. intros H. induction l as [|m r IH]; cbn [total]; [reflexivity|]. rewrite H, IH. reflexivity. Qed.

(** ** the crux: if nobody new sits on the server, an instance that was on it can be restored onto it *)
Lemma restore_guard c c3 x a a3 n s s3 :
  Acct c -> Aff c -> psteps c c3 ->
  app_of c x = Some a -> a_server a = Some n -> get_srv n (c_servers c) = Some s ->
  (forall l, app_label a = Some l -> l = s_label s) ->
  (app_traits c a = 0 \/ has_traits (s_traits s) (app_traits c a) = true) ->
  app_of c3 x = Some a3 -> stat_eq a a3 -> a_server a3 = None ->
  get_srv n (c_servers c3) = Some s3 -> incl (s_apps s3) (s_apps s) ->
  put_guard c3 s3 a3 0 = true.
Proof.
  intros HA HF Hp Ha Hsv Hs Hlab Htr Ha3 Hst Hsv3 Hs3 Hincl.
  assert (HA3 : Acct c3) by (eapply Acct_psteps; eassumption).
  assert (HF3 : Aff c3) by (eapply Aff_psteps; eassumption).
  pose proof (psteps_static _ _ Hp) as (Hnow & Hparts & Hdim & Hsrv).
  destruct (Hsrv _ _ Hs3) as (s0 & Hs0 & (Sn & Sst & Slab & Str & Svu & Ssince & Scap)).
  rewrite Hs in Hs0. inversion Hs0; subst s0.
  pose proof (get_app_name _ _ _ Ha) as Hnx.
  pose proof Hst as (Enm & _ & Edem & Eaff & Elim & _ & _ & _ & _ & _ & _ & Eal & _).
  assert (Hnx3 : a_name a3 = x) by congruence.
  assert (Hni : ~ In x (s_apps s3)).
  { intros Hin. destruct (ac_listed _ HA3 _ _ _ Hs3 Hin) as (b & Hb & Hsb). unfold app_of in Ha3. rewrite Ha3 in Hb. inversion Hb; subst b. congruence. }
  assert (Hxs : In x (s_apps s)) by (eapply (ac_placed _ HA); eassumption).
  assert (Hnd : NoDup (x :: s_apps s3)) by (constructor; [exact Hni|exact (ac_nodup _ HA3 _ _ Hs3)]).
  assert (Hinc : incl (x :: s_apps s3) (s_apps s)) by (intros z [<-|Hz]; [exact Hxs|apply Hincl; exact Hz]).
  unfold put_guard. rewrite Hnx3, Hsv3.
  apply andb_true_intro. split; [apply andb_true_intro; split; [apply andb_true_intro; split|]|].
  - apply negb_true_iff. apply zmem_false. exact Hni.
  - reflexivity.
  - unfold check_lifetime. reflexivity.
  - unfold check_constraints.
    apply andb_true_intro. split; [apply andb_true_intro; split; [apply andb_true_intro; split|]|].
    + (* partition label *)
      assert (El : app_label a3 = app_label a) by (unfold app_label; rewrite Eal; reflexivity).
      rewrite El. destruct (app_label a) as [l|] eqn:E; [|reflexivity].
      rewrite (Hlab l eq_refl), Slab. cbn [zmem]. rewrite Z.eqb_refl. reflexivity.
    + (* traits *)
      rewrite (app_traits_static c c3 a a3 Hparts Hst), Str.
      destruct Htr as [E|E]; [rewrite E; reflexivity|rewrite E; apply orb_true_r].
    + (* affinity head-room at server level *)
      unfold aff_limit. rewrite Elim, Eaff. fold (aff_limit a LEVEL_SERVER).
      destruct (aff_limit a LEVEL_SERVER) as [L|] eqn:EL; [|reflexivity]. cbn [under_limit]. apply Z.ltb_lt.
      rewrite (af_exact _ HF3 _ _ (a_aff a) Hs3).
      assert (E3 : count_aff (c_apps c3) (a_aff a) (s_apps s3) = count_aff (c_apps c) (a_aff a) (s_apps s3)).
      { unfold count_aff. f_equal. f_equal. apply filter_ext. intros z. apply psteps_has_aff. exact Hp. }
      rewrite E3.
      pose proof (af_limit _ HF _ _ _ _ _ Hs Hxs Ha EL) as Hlim. rewrite (af_exact _ HF _ _ (a_aff a) Hs) in Hlim.
      pose proof (filter_incl_length (has_aff (c_apps c) (a_aff a)) _ _ Hnd Hinc) as Hlen.
      cbn [filter] in Hlen. assert (Hx1 : has_aff (c_apps c) (a_aff a) x = true) by (unfold has_aff; unfold app_of in Ha; rewrite Ha; apply Z.eqb_refl).
      rewrite Hx1 in Hlen. cbn [length] in Hlen. unfold count_aff in *. lia.
    + (* room *)
      apply negb_true_iff. apply vle_any_gt.
      destruct (ac_srv_dims _ HA _ _ Hs) as (_ & Lf & Nf). destruct (ac_srv_dims _ HA3 _ _ Hs3) as (_ & Lf3 & _).
      destruct (ac_app_dims _ HA _ _ Ha) as (Ld & _).
      assert (Hlen : forall m b, get_app m (c_apps c) = Some b -> length (a_demand b) = c_dim c) by (intros m b Hb; apply (ac_app_dims _ HA _ _ Hb)).
      assert (Ht3 : total (c_apps c3) (c_dim c3) (s_apps s3) = total (c_apps c) (c_dim c) (s_apps s3)).
      { rewrite Hdim. apply total_ext. intros z. apply psteps_demand. exact Hp. }
      pose proof (ac_acct _ HA3 _ _ Hs3) as E3. rewrite Ht3, Scap in E3.
      pose proof (ac_acct _ HA _ _ Hs) as E0.
      apply (room_back (s_free s3) (total (c_apps c) (c_dim c) (s_apps s3)) (s_free s) (total (c_apps c) (c_dim c) (s_apps s)) (a_demand a3)).
      * congruence.
      * rewrite Edem. replace (a_demand a) with (demand_of (c_apps c) (c_dim c) x) by (unfold demand_of; unfold app_of in Ha; rewrite Ha; reflexivity).
        change (vle (total (c_apps c) (c_dim c) (x :: s_apps s3)) (total (c_apps c) (c_dim c) (s_apps s))).
        apply total_incl; [intros m b Hb; apply (ac_app_dims _ HA _ _ Hb)|exact Hnd|exact (ac_nodup _ HA _ _ Hs)|exact Hinc].
      * exact Nf.
      * rewrite Edem, Lf3, Ld. congruence.
      * rewrite Edem, Ld. apply total_length. exact Hlen.
      * rewrite Edem, Ld. exact Lf.
      * rewrite Edem, Ld. apply total_length. exact Hlen.
Qed.

(** ** the turn of an evicted instance whose old server takes it back *)
Lemma acquire_has c x ch a : Ident c -> app_of c x = Some a -> has_id a -> acquire_identity c x ch = (c, true).
Proof.
  intros HI Ha Hh. unfold acquire_identity. unfold app_of in Ha. rewrite Ha.
  destruct (group_of c a) as [[g grp]|] eqn:Eg; [|reflexivity].
  destruct (a_identity a) eqn:Ei; [reflexivity|]. exfalso.
  destruct Hh as [Hg|Hn]; [|congruence]. unfold group_of in Eg. rewrite Hg in Eg. discriminate.
Qed.

Lemma place_one_restores rq st x ar sn ex :
  Ident (l_cell st) -> app_of (l_cell st) x = Some ar ->
  a_blacklisted ar = false -> a_rank ar <> UNPLACED_RANK -> a_renew ar = false -> a_server ar = None -> has_id ar ->
  aget x (l_evicted st) = Some (sn, ex) ->
  srv_put_lease (c_upd_app x (fun z => z <| a_renew := false |>) (l_cell st)) sn x 0 <> None ->
  exists a', app_of (l_cell (place_one rq st x)) x = Some a' /\ a_server a' = Some sn.
Proof.
  intros HI Ha Hbl Hrank Hren Hsv Hh Hev Hput. unfold place_one.
  assert (Ha' : get_app x (c_apps (l_cell st)) = Some ar) by exact Ha. rewrite Ha', Hbl.
  destruct (Z.eqb_spec (a_rank ar) UNPLACED_RANK) as [E|_]; [contradiction|]. rewrite Hren.
  set (c2 := c_upd_app x (fun z => z <| a_renew := false |>) (l_cell st)) in *.
  set (a2 := ar <| a_renew := false |>).
  assert (Ha2 : app_of c2 x = Some a2) by (apply upd_app_self; [reflexivity|exact Ha]).
  assert (Ha2' : get_app x (c_apps c2) = Some a2) by exact Ha2. rewrite Ha2'.
  change (a_server a2) with (a_server ar). rewrite Hsv.
  assert (HI2 : Ident c2) by (eapply Ident_psteps; [apply ps_one, PS_soft, soft_renew|exact HI]).
  rewrite (acquire_has c2 x (aget x (l_choices st)) a2 HI2 Ha2) by (destruct Hh as [H|H]; [left|right]; exact H).
  cbn [negb]. rewrite Hev.
  destruct (srv_restore_self c2 sn x ex a2 Ha2) as (a4 & Ha4 & Hd4 & Hsv4).
  assert (Hok : snd (srv_restore c2 sn x ex) = true).
  { unfold srv_restore. rewrite Ha2'. destruct (srv_put_lease c2 sn x 0); [reflexivity|contradiction]. }
  destruct (srv_restore c2 sn x ex) as [c4 ok4]. cbn [fst snd] in *. subst ok4. cbn [l_cell set].
  eexists. split; [apply upd_app_self; [reflexivity|exact Ha4]|]. exact Hsv4.
Qed.

(** ** C07 for the placement loop
    [c0] is the state the accounting refers to (the start of the cycle), [c] the state at the start of this loop. *)
Section Displace.
  Variables (c0 c : cell) (q pre0 post0 : list Z) (ch : list (Z * Z)) (x : Z) (a0 a : app) (n : Z) (s0 : server).
  Hypothesis Hq : q = pre0 ++ x :: post0.
  Hypothesis Hnd : NoDup q.
  Hypothesis Hp0 : psteps c0 c.
  Hypothesis HA0 : Acct c0.
  Hypothesis HF0 : Aff c0.
  Hypothesis HI0 : Ident c0.
  Hypothesis Ha0 : app_of c0 x = Some a0.
  Hypothesis Hsv0 : a_server a0 = Some n.
  Hypothesis Hs0 : get_srv n (c_servers c0) = Some s0.
  Hypothesis Ha : app_of c x = Some a.
  Hypothesis Hk : keeps_r a0 a.
  Hypothesis Hbl : a_blacklisted a0 = false.
  Hypothesis Hren : a_renew a = false.
  Hypothesis Hrank : a_rank a <> UNPLACED_RANK.
  Hypothesis Hid : has_id a0.
  Hypothesis Hlab : forall l, app_label a0 = Some l -> l = s_label s0.
  Hypothesis Htr : app_traits c0 a0 = 0 \/ has_traits (s_traits s0) (app_traits c0 a0) = true.

  Theorem find_placements_displaced :
    (exists a', app_of (find_placements c q ch) x = Some a' /\ a_server a' = Some n) \/
    (exists z az0 bz, z <> x /\ app_of c0 z = Some az0 /\ a_server az0 <> Some n /\ a_server bz = Some n /\
                      ((In z pre0 /\ app_of (find_placements c q ch) z = Some bz) \/
                       (~ In z pre0 /\ app_of c z = Some bz))).
  Proof.
    pose proof Hk as (Kd & Ksv & Kex & Kev & Kun & Krn).
    assert (HA : Acct c) by (eapply Acct_psteps; eassumption).
    assert (HI : Ident c) by (eapply Ident_psteps; eassumption).
    assert (Hsv : a_server a = Some n) by congruence.
    assert (Hbla : a_blacklisted a = false) by (pose proof (stat_bl _ _ (dyn_stat _ _ Kd)) as Hb; congruence).
    assert (Hida : has_id a) by (eapply has_id_dyn; eassumption).
    unfold find_placements. set (rq := rev q). set (st0 := mkLoop c [] [] ch).
    rewrite Hq, fold_left_app. cbn [fold_left]. fold rq.
    set (st1 := fold_left (place_one rq) pre0 st0).
    assert (Hx_pre : ~ In x pre0) by (rewrite Hq in Hnd; apply NoDup_remove_2 in Hnd; intros H; apply Hnd, in_or_app; left; exact H).
    destruct (waiting_fold c rq pre0 st0 (fun _ => False) HA (ps_refl c)) as [Hp1 Hw1].
    { intros z _ az Haz. left. split; [exact Haz|reflexivity]. }
    fold st1 in Hp1, Hw1.
    assert (HA1 : Acct (l_cell st1)) by (eapply Acct_psteps; eassumption).
    assert (HI1 : Ident (l_cell st1)) by (eapply Ident_psteps; eassumption).
    (* what the turns of instances behind x leave alone *)
    assert (Hdone_x : forall st2, psteps c (l_cell st2) ->
              app_of (l_cell (fold_left (place_one rq) post0 st2)) x = app_of (l_cell st2) x).
    { intros st2 Hp2. unfold rq. apply (done_fold c q (pre0 ++ [x]) post0 st2 x Hnd); [exists []; rewrite <- app_assoc; exact Hq|apply in_or_app; right; left; reflexivity|exact HA|exact Hp2]. }
    destruct (Hw1 x (fun f => f) Hx_pre a Ha) as [[Hcur Hev]|(sn & Hsn & Hcur & Hev)].
    - (* never evicted: passed over in its own turn *)
      left. destruct (place_one_stays rq st1 x a n Hcur Hsv Hbla Hren Hrank) as (a2 & Ha2 & (_ & Ks & _)).
      exists a2. split; [|congruence]. rewrite Hdone_x; [exact Ha2|eapply ps_trans; [exact Hp1|apply place_one_ps]].
    - (* evicted by somebody ahead *)
      rewrite Hsv in Hsn. inversion Hsn; subst sn.
      set (c2 := c_upd_app x (fun z => z <| a_renew := false |>) (l_cell st1)).
      assert (Hp2 : psteps c c2) by (eapply ps_trans; [exact Hp1|apply ps_one, PS_soft, soft_renew]).
      assert (Hp02 : psteps c0 c2) by (eapply ps_trans; eassumption).
      destruct (psteps_srv_exists _ _ _ _ Hp02 Hs0) as (s2 & Hs2).
      assert (Ha2 : app_of c2 x = Some (removed a <| a_renew := false |>)) by (apply upd_app_self; [reflexivity|exact Hcur]).
      destruct (Forall_Exists_dec (fun z => In z (s_apps s0)) (fun z => in_dec Z.eq_dec z (s_apps s0)) (s_apps s2)) as [Hincl|Hnincl].
      + (* nobody new on the server: restored *)
        left.
        assert (Hg : put_guard c2 s2 (removed a <| a_renew := false |>) 0 = true).
        { apply (restore_guard c0 c2 x a0 _ n s0 s2 HA0 HF0 Hp02 Ha0 Hsv0 Hs0 Hlab Htr Ha2); [|reflexivity|exact Hs2|exact (proj1 (Forall_forall _ _) Hincl)].
          exact (dyn_stat _ _ (dyn_eq_trans _ _ _ Kd (dyn_eq_trans _ _ _ (removed_dyn a) (dyn_set_renew _ false)))). }
        assert (Hh : has_id (removed a)) by (destruct Hida as [H|H]; [left|right]; exact H).
        assert (Hput : srv_put_lease c2 n x 0 <> None).
        { unfold srv_put_lease. rewrite Hs2. unfold app_of in Ha2. rewrite Ha2, Hg. discriminate. }
        destruct (place_one_restores rq st1 x (removed a) n (a_expiry a) HI1 Hcur Hbla Hrank Hren eq_refl Hh Hev Hput) as (a3 & Ha3 & Hsv3).
        exists a3. split; [|exact Hsv3]. rewrite Hdone_x; [exact Ha3|eapply ps_trans; [exact Hp1|apply place_one_ps]].
      + (* somebody took the room *)
        right. apply Exists_exists in Hnincl as (z & Hz2 & Hz0).
        assert (HA2 : Acct c2) by (eapply Acct_psteps; eassumption).
        destruct (ac_listed _ HA2 _ _ _ Hs2 Hz2) as (bz & Hbz & Hsbz).
        assert (Hzx : z <> x).
        { intros ->. unfold app_of in Ha2. rewrite Ha2 in Hbz. injection Hbz as <-. discriminate Hsbz. }
        assert (Hbz1 : app_of (l_cell st1) z = Some bz).
        { assert (E : app_of c2 z = app_of (l_cell st1) z) by (apply upd_app_other; [reflexivity|exact Hzx]). rewrite <- E. exact Hbz. }
        destruct (app_of c0 z) as [az0|] eqn:Eaz0.
        2:{ rewrite (psteps_none _ _ z (ps_trans _ _ _ Hp0 Hp1) Eaz0) in Hbz1. discriminate. }
        assert (Hnaz : a_server az0 <> Some n) by (intros E; apply Hz0; eapply (ac_placed _ HA0); eassumption).
        exists z, az0, bz. split; [exact Hzx|]. split; [exact Eaz0|]. split; [exact Hnaz|]. split; [exact Hsbz|].
        destruct (in_dec Z.eq_dec z pre0) as [Hzpre|Hzpre].
        * left. split; [exact Hzpre|].
          change (app_of (l_cell (fold_left (place_one rq) (x :: post0) st1)) z = Some bz).
          unfold rq. rewrite (done_fold c q pre0 (x :: post0) st1 z Hnd); [exact Hbz1|exists []; exact Hq|exact Hzpre|exact HA|exact Hp1].
        * right. split; [exact Hzpre|].
          destruct (app_of c z) as [az|] eqn:Eaz.
          2:{ rewrite (psteps_none _ _ z Hp1 Eaz) in Hbz1. discriminate. }
          destruct (Hw1 z (fun f => f) Hzpre az Eaz) as [[E _]|(sn & _ & E & _)]; rewrite Hbz1 in E; inversion E; subst bz; [reflexivity|cbn in Hsbz; discriminate].
  Qed.
End Displace.
