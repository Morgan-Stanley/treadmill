(** "A placed instance of an identity group holds an identity" ([IdRec]) as an invariant of every history (C05). *)
From Coq Require Import ZArith QArith List Bool Lia.
From RecordUpdate Require Import RecordSet.
From TM Require Import Sched.Vec Sched.Types Sched.Queue Sched.Tree Sched.Cycle Sched.Events Sched.EventsP Sched.Steps Sched.MapsP
                       Sched.FrameP Sched.InvAcct Sched.InvIdent Sched.TurnP Sched.CycleP.
Import ListNotations.
Open Scope Z_scope.

Definition IdRec (c : cell) : Prop := forall x a, app_of c x = Some a -> id_rec a.

Lemma IdRec_ext c c' : c_apps c' = c_apps c -> IdRec c -> IdRec c'.
Proof. intros E H x a Ha. unfold app_of in Ha. rewrite E in Ha. exact (H x a Ha). Qed.

(** transitions that only take placements away (or leave the record's placement and identity alone) *)
Lemma IdRec_touched c c' : all_touched c c' -> (forall x, app_of c x = None -> app_of c' x = None) -> IdRec c -> IdRec c'.
Proof.
  intros Ht Hn H x a' Ha'. destruct (app_of c x) as [a|] eqn:Ea; [|rewrite (Hn x Ea) in Ha'; discriminate].
  destruct (Ht x a Ea) as (a2 & Ha2 & T). rewrite Ha' in Ha2. inversion Ha2; subst a2.
  eapply id_rec_touched; [exact T|exact (H x a Ea)].
Qed.

Lemma IdRec_srv_remove c sn v : IdRec c -> IdRec (srv_remove c sn v).
Proof. apply IdRec_touched; [apply at_srv_remove|intros x; apply psteps_none, srv_remove_ps]. Qed.

Lemma IdRec_upd_app c n f : (forall z, a_name (f z) = a_name z /\ a_server (f z) = a_server z /\ a_group (f z) = a_group z /\
                                        a_identity (f z) = a_identity z) -> IdRec c -> IdRec (c_upd_app n f c).
Proof.
  intros Hf H x a' Ha'. destruct (Z.eq_dec x n) as [->|Hne].
  - destruct (app_of c n) as [a|] eqn:Ea.
    + rewrite (upd_app_self c n f a (fun z => proj1 (Hf z)) Ea) in Ha'. inversion Ha'; subst a'.
      destruct (Hf a) as (_ & F1 & F2 & F3). unfold id_rec, has_id. intros Hs. rewrite F1 in Hs. destruct (H n a Ea Hs) as [G|G]; [left|right]; congruence.
    + unfold app_of in *. cbn [c_upd_app c_apps set] in Ha'. rewrite get_upd_app_none in Ha' by exact Ea. rewrite Ea in Ha'. discriminate.
  - rewrite upd_app_other in Ha' by (try exact Hne; intros z; apply (proj1 (Hf z))). exact (H x a' Ha').
Qed.

Lemma IdRec_upd_alloc c label path f : IdRec c -> IdRec (upd_alloc c label path f).
Proof. apply IdRec_ext, upd_alloc_frame. Qed.
Lemma IdRec_ensure_group c g : IdRec c -> IdRec (ensure_group c g).
Proof. unfold ensure_group. destruct g as [n|]; [|tauto]. destruct (aget n (c_groups c)); [tauto|]. apply IdRec_ext. reflexivity. Qed.

Lemma IdRec_srv_remove_all c sn : IdRec c -> IdRec (srv_remove_all c sn).
Proof.
  unfold srv_remove_all. destruct (get_srv sn (c_servers c)) as [s|]; [|tauto].
  generalize (s_apps s) as l. intros l. revert c. induction l as [|x r IH]; intros c H; cbn [fold_left]; [exact H|].
  apply IH, IdRec_srv_remove, H.
Qed.

Lemma IdRec_remove_app c n : Ident c -> IdRec c -> IdRec (remove_app c n).
Proof.
  intros HI H. unfold remove_app. destruct (get_app n (c_apps c)) as [a|] eqn:Ea; [|exact H].
  set (c1 := match a_server a with Some sn => if is_member c sn then srv_remove c sn n else c | None => c end).
  assert (H1 : IdRec c1 /\ Ident c1).
  { subst c1. destruct (a_server a) as [sn|]; [|split; assumption]. destruct (is_member c sn); [|split; assumption].
    split; [apply IdRec_srv_remove; assumption|eapply Ident_psteps; [apply srv_remove_ps|exact HI]]. }
  destruct H1 as [H1 HI1].
  set (c2 := match a_alloc a with Some (l0, p0) => upd_alloc c1 l0 p0 (alloc_del_app n) | None => c1 end).
  assert (H2 : IdRec c2 /\ Ident c2).
  { subst c2. destruct (a_alloc a) as [[l0 p0]|]; [split; [apply IdRec_upd_alloc; exact H1|apply Ident_upd_alloc; exact HI1]|split; assumption]. }
  destruct H2 as [H2 HI2].
  assert (HI3 : Ident (release_identity c2 n)) by (apply Ident_release; exact HI2).
  intros x a' Ha'. unfold app_of in Ha'. cbn [c_apps set] in Ha'.
  rewrite get_app_del in Ha' by (apply (id_names _ HI3)).
  destruct (Z.eqb_spec x n) as [->|Hne]; [discriminate|].
  change (app_of (release_identity c2 n) x = Some a') in Ha'. rewrite release_app in Ha' by exact Hne. exact (H2 x a' Ha').
Qed.

Lemma IdRec_add_app c label path a :
  (get_app (a_name a) (c_apps c) = None -> a_server a = None) -> IdRec c -> IdRec (add_app c label path a).
Proof.
  intros Hwf H. unfold add_app. destruct (get_app (a_name a) (c_apps c)) as [old|] eqn:Eo.
  - apply IdRec_ensure_group. apply IdRec_upd_app; [intros z; repeat split|].
    apply IdRec_upd_alloc. destruct (a_alloc old) as [[l0 p0]|]; [apply IdRec_upd_alloc|]; exact H.
  - apply IdRec_ensure_group. specialize (Hwf eq_refl).
    set (c1 := upd_alloc c label path (alloc_add_app (a_name a))).
    assert (E1 : c_apps c1 = c_apps c) by apply upd_alloc_frame.
    intros x a' Ha'. unfold app_of in Ha'. cbn [c_apps set] in Ha'. rewrite E1 in Ha'.
    rewrite get_app_snoc in Ha'. destruct (get_app x (c_apps c)) as [b|] eqn:Eb.
    + inversion Ha'; subst a'. exact (H x b Eb).
    + destruct (Z.eqb (a_name (a <| a_alloc := Some (label, path) |>)) x); [|discriminate].
      inversion Ha'; subst a'. intros Hs. cbn in Hs. congruence.
Qed.

(** the cycle: instances of the partition trees by [schedule_final], the others by [schedule_outside] *)
Lemma IdRec_schedule c ch : Acct c -> Ident c -> parts_wf c -> IdRec c -> IdRec (fst (fst (schedule c ch))).
Proof.
  intros HA HI Hwf H x a' Ha'.
  destruct (app_of c x) as [a|] eqn:Ea.
  2:{ rewrite (psteps_none _ _ x (schedule_ps c ch) Ea) in Ha'. discriminate. }
  destruct (in_dec Z.eq_dec x (part_apps (c_parts c))) as [Hin|Hout].
  - destruct (schedule_final c ch HA HI Hwf x a Hin Ea (H x a Ea)) as (a2 & Ha2 & (_ & _ & F & _)).
    rewrite Ha' in Ha2. inversion Ha2; subst a2. exact F.
  - destruct (schedule_outside c ch HA HI Hwf x a Hout Ea) as (a0 & a2 & Ha2 & T & (Hd & Hs & _)).
    rewrite Ha' in Ha2. inversion Ha2; subst a2.
    pose proof (id_rec_touched _ _ T (H x a Ea)) as H0. intros Hne. rewrite Hs in Hne. eapply has_id_dyn; [exact Hd|exact (H0 Hne)].
Qed.

(** Loader.restore_placement for one recorded instance *)
Lemma restore_put_other c sn an vb ex x : x <> an -> app_of (fst (restore_put c sn an vb ex)) x = app_of c x.
Proof.
  intros Hne. unfold restore_put. destruct vb; [apply srv_restore_app; exact Hne|].
  destruct (get_app an (c_apps c)) as [a|]; [|reflexivity]. destruct (a_once a); [reflexivity|].
  destruct (srv_put c sn an) as [c'|] eqn:E; [|reflexivity]. cbn [fst].
  destruct (srv_put_frame _ _ _ _ E) as [_ Hf]. apply Hf. exact Hne.
Qed.
Lemma restore_put_fail c sn an vb ex : snd (restore_put c sn an vb ex) = false -> IdRec c -> IdRec (fst (restore_put c sn an vb ex)).
Proof.
  unfold restore_put. destruct vb.
  - unfold srv_restore. destruct (get_app an (c_apps c)) as [a|]; [|tauto].
    destruct (srv_put_lease c sn an 0); cbn [fst snd]; [discriminate|]. intros _. apply IdRec_upd_app. intros z; repeat split.
  - destruct (get_app an (c_apps c)) as [a|]; [|tauto]. destruct (a_once a); [tauto|].
    destruct (srv_put c sn an); cbn [fst snd]; [discriminate|tauto].
Qed.
Lemma force_other c an i x : x <> an -> app_of (force_identity c an i) x = app_of c x.
Proof.
  intros Hne. unfold force_identity. destruct i as [i|]; [|reflexivity]. destruct (get_app an (c_apps c)) as [a|]; [|reflexivity].
  destruct (group_of c a) as [[g grp]|]; [|reflexivity]. unfold app_of. cbn [c_upd_app c_apps c_groups set].
  apply get_upd_app_other; [reflexivity|exact Hne].
Qed.

Lemma IdRec_restore_op c sn an vb ex ident :
  wf_op_id c (ORestore sn an vb ex ident) -> Ident c -> IdRec c -> IdRec (restore_op c sn an vb ex ident).
Proof.
  intros Hwf HI H. unfold restore_op. destruct (get_app an (c_apps c)) as [a|] eqn:Ea; [|exact H].
  pose proof (Ident_psteps _ _ (restore_put_ps c sn an vb ex) HI) as HI1.
  pose proof (restore_put_eqi c sn an vb ex) as [_ Hq].
  pose proof (restore_put_fail c sn an vb ex) as Hfail.
  pose proof (fun x => restore_put_other c sn an vb ex x) as Hoth.
  destruct (restore_put c sn an vb ex) as [c1 ok]. cbn [fst snd] in *.
  destruct ok.
  - intros x a2 Ha2. destruct (Z.eq_dec x an) as [->|Hne].
    2:{ rewrite force_other in Ha2 by exact Hne. rewrite Hoth in Ha2 by exact Hne. exact (H x a2 Ha2). }
    intros _. pose proof (get_app_eqi _ _ Hq an) as Q. rewrite Ea in Q.
    destruct (get_app an (c_apps c1)) as [a1|] eqn:Ea1; [|contradiction]. destruct Q as (_ & Q2 & Q3).
    cbn [wf_op_id] in Hwf. unfold force_identity in Ha2. destruct ident as [i|].
    + destruct (Hwf a Ea) as (_ & g & Hg & _). rewrite Ea1 in Ha2.
      assert (Hgo : exists grp, group_of c1 a1 = Some (g, grp)).
      { unfold group_of. rewrite <- Q2, Hg. destruct (id_group_exists _ HI1 an a1 g Ea1 (eq_trans (eq_sym Q2) Hg)) as (grp & Hgrp).
        rewrite Hgrp. eexists; reflexivity. }
      destruct Hgo as (grp & Hgo). rewrite Hgo in Ha2. unfold app_of in Ha2. cbn [c_upd_app c_apps c_groups set] in Ha2.
      erewrite get_upd_app_same in Ha2; [|intros z; reflexivity|exact Ea1]. inversion Ha2; subst a2. right. cbn. discriminate.
    + unfold app_of in Ha2. rewrite Ea1 in Ha2. inversion Ha2; subst a2.
      destruct (Hwf a Ea) as [G|G]; [left|right]; congruence.
  - specialize (Hfail eq_refl H). destruct (a_once a); [apply IdRec_remove_app; assumption|exact Hfail].
Qed.

Theorem IdRec_step c o : wf_op c o -> wf_op_id c o -> (forall ch, o = OSchedule ch -> parts_wf c) ->
  Acct c -> Ident c -> IdRec c -> IdRec (step c o).
Proof.
  intros Hwf Hwi Hpw HA HI H. destruct (srv_event o) eqn:Ev.
  { apply (IdRec_ext (srv_event_pre c o)); [apply (srv_event_quiet c o Ev)|].
    destruct o; try exact H. destruct raw; [exact H|apply IdRec_srv_remove_all; assumption]. }
  destruct (attr_event o) as [[n f]|] eqn:Ea.
  { destruct (attr_event_step c o n f Ea) as [-> Hf]. apply IdRec_upd_app; [|exact H].
    intros z. repeat split; apply (Hf z). }
  destruct o; try discriminate Ev; try discriminate Ea; cbn [step].
  - apply IdRec_add_app; [intros E; exact (proj1 (Hwf E))|exact H].
  - apply IdRec_remove_app; assumption.
  - apply IdRec_upd_alloc; exact H.
  - revert H. unfold config_group. destruct (aget name (c_groups c)); apply IdRec_ext; reflexivity.
  - revert H. unfold remove_group. destruct (aget name (c_groups c)); [|tauto].
    destruct (existsb _ (c_apps c)); apply IdRec_ext; reflexivity.
  - pose proof (IdRec_schedule c choices HA HI (Hpw choices eq_refl) H) as H1.
    destruct (schedule c choices) as [[c' qs] pl]. exact H1.
  - apply IdRec_restore_op; assumption.
Qed.
