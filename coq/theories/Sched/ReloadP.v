(** Loader.reload_server in terms of the operation alphabet: the server is taken out together with its instances
    (Loader.remove_server), declared again (Loader.load_server) and the placements recorded under it are put back
    (Loader.restore_placement with restore_identity=False).  The side conditions of [reachable] for this sequence of
    operations follow from the call site: the new record has vectors of the cell's dimension, and the recorded
    placements are those of instances that were on the server (what is published is what the model holds, C09).
    Hence the invariants of every reachable state hold after a reload (C01 accounting, C05 identities, ...). *)
From Coq Require Import ZArith QArith List Bool Lia.
From RecordUpdate Require Import RecordSet.
From TM Require Import Sched.Vec Sched.Types Sched.Queue Sched.Tree Sched.Cycle Sched.Events Sched.EventsP Sched.Steps Sched.MapsP
                       Sched.FrameP Sched.InvAcct Sched.InvIdent Sched.TurnP Sched.CycleP Sched.InvAlloc Sched.InvIdRec
                       Sched.KeepP Sched.Reach.
Import ListNotations.
Open Scope Z_scope.

(** ** Server.remove on the instance records *)
Lemma srv_remove_rec c sn v m a' : app_of (srv_remove c sn v) m = Some a' ->
  exists a, app_of c m = Some a /\ a_group a' = a_group a /\ a_identity a' = a_identity a /\
            (a_server a' = a_server a \/ a_server a' = None).
Proof.
  intros H. destruct (Z.eq_dec m v) as [->|Hne].
  - unfold srv_remove in H. destruct (get_srv sn (c_servers c)) as [s|] eqn:Es; [|exists a'; auto].
    destruct (app_of c v) as [a|] eqn:Ea.
    2:{ unfold app_of in Ea. rewrite Ea in H. unfold app_of in H. rewrite Ea in H. discriminate. }
    unfold app_of in Ea. rewrite Ea in H. destruct (zmem v (s_apps s)) eqn:Em; cbn [negb] in H.
    + apply zmem_In in Em. pose proof (srv_remove_self c sn v s a Es Ea Em) as Hr.
      unfold srv_remove in Hr. rewrite Es, Ea in Hr. apply zmem_In in Em. rewrite Em in Hr. cbn [negb] in Hr.
      rewrite Hr in H. inversion H; subst a'. exists a. cbn. auto.
    + unfold app_of in H. rewrite Ea in H. inversion H; subst a'. exists a. auto.
  - destruct (srv_remove_frame c sn v) as [_ Hf]. unfold app_of in *. rewrite Hf in H by exact Hne. exists a'. auto.
Qed.

Lemma fold_remove_rec sn l : forall c m a', app_of (fold_left (fun acc n => srv_remove acc sn n) l c) m = Some a' ->
  exists a, app_of c m = Some a /\ a_group a' = a_group a /\ a_identity a' = a_identity a /\
            (a_server a' = a_server a \/ a_server a' = None).
Proof.
  induction l as [|x r IH]; intros c m a' H; cbn [fold_left] in H; [exists a'; auto|].
  destruct (IH _ _ _ H) as (a1 & H1 & G1 & I1 & S1). destruct (srv_remove_rec _ _ _ _ _ H1) as (a & H0 & G0 & I0 & S0).
  exists a. split; [exact H0|]. split; [congruence|]. split; [congruence|].
  destruct S1 as [S1|S1]; [|right; exact S1]. destruct S0 as [S0|S0]; [left|right]; congruence.
Qed.

Lemma srv_remove_unplaced c sn x b : Acct c -> get_srv sn (c_servers c) <> None ->
  app_of (srv_remove c sn x) x = Some b -> a_server b <> Some sn.
Proof.
  intros HA Hex Hb Hsv. destruct (srv_remove_rec _ _ _ _ _ Hb) as (a & Ha & _ & _ & [S|S]); [|congruence].
  destruct (get_srv sn (c_servers c)) as [s|] eqn:Es; [|contradiction].
  destruct (srv_remove_server_none c sn x a s HA Ha (eq_trans (eq_sym S) Hsv) Es) as (a' & Ha' & Hn).
  unfold app_of in Hb. congruence.
Qed.

(** after Server.remove_all nobody names the server *)
Lemma fold_remove_none sn l : forall c, Acct c -> get_srv sn (c_servers c) <> None ->
  (forall m a, app_of c m = Some a -> a_server a = Some sn -> In m l) ->
  forall m a', app_of (fold_left (fun acc n => srv_remove acc sn n) l c) m = Some a' -> a_server a' <> Some sn.
Proof.
  induction l as [|x r IH]; intros c HA Hex Hin m a' H; cbn [fold_left] in H.
  - intros E. exact (Hin m a' H E).
  - eapply (IH (srv_remove c sn x)); [apply Acct_srv_remove; exact HA| | |exact H].
    + destruct (get_srv sn (c_servers c)) as [s|] eqn:Es; [|contradiction].
      destruct (psteps_srv_exists _ _ _ _ (srv_remove_ps c sn x) Es) as (s' & Hs'). rewrite Hs'. discriminate.
    + intros k b Hb Hsv. destruct (Z.eq_dec k x) as [->|Hne]; [destruct (srv_remove_unplaced c sn x b HA Hex Hb Hsv)|].
      destruct (srv_remove_frame c sn x) as [_ Hf]. unfold app_of in Hb. rewrite Hf in Hb by exact Hne.
      destruct (Hin k b Hb Hsv) as [E|Hr]; [congruence|exact Hr].
Qed.

Lemma srv_remove_all_none c sn : Acct c -> get_srv sn (c_servers c) <> None ->
  forall m a', app_of (srv_remove_all c sn) m = Some a' -> a_server a' <> Some sn.
Proof.
  intros HA Hex m a' H. unfold srv_remove_all in H. destruct (get_srv sn (c_servers c)) as [s|] eqn:Es.
  - apply (fold_remove_none sn (s_apps s) c HA) with (m := m); [rewrite Es; discriminate| |exact H].
    intros k b Hb Hsv. eapply (ac_placed _ HA); eassumption.
  - contradiction.
Qed.

Lemma srv_remove_all_rec c sn m a' : app_of (srv_remove_all c sn) m = Some a' ->
  exists a, app_of c m = Some a /\ a_group a' = a_group a /\ a_identity a' = a_identity a /\
            (a_server a' = a_server a \/ a_server a' = None).
Proof.
  unfold srv_remove_all. destruct (get_srv sn (c_servers c)) as [s|]; [apply fold_remove_rec|].
  intros H. exists a'. auto.
Qed.

(** ** the records after Loader.remove_server + Loader.load_server *)
Lemma detach_apps c n : c_apps (detach_server c n) = c_apps c.
Proof.
  unfold detach_server. destruct (get_srv n (c_servers c)) as [s|]; [|reflexivity].
  destruct (s_parent s) as [p|]; [|reflexivity].
  destruct (unhook_server_sc (c <| c_servers ::= del_srv n |>) p s) as (_ & _ & _ & H4 & _). rewrite H4. reflexivity.
Qed.
Lemma detach_gone c n : NoDup (map s_name (c_servers c)) -> get_srv n (c_servers (detach_server c n)) = None.
Proof.
  intros Hnd. unfold detach_server. destruct (get_srv n (c_servers c)) as [s|] eqn:Es; [|exact Es].
  assert (E : get_srv n (c_servers (c <| c_servers ::= del_srv n |>)) = None).
  { cbn [c_servers set]. rewrite get_srv_del by exact Hnd. rewrite Z.eqb_refl. reflexivity. }
  destruct (s_parent s) as [p|]; [|exact E].
  destruct (unhook_server_sc (c <| c_servers ::= del_srv n |>) p s) as (_ & _ & H3 & _). rewrite H3. exact E.
Qed.
Lemma detach_dim c n : c_dim (detach_server c n) = c_dim c.
Proof.
  unfold detach_server. destruct (get_srv n (c_servers c)) as [s|]; [|reflexivity].
  destruct (s_parent s) as [p|]; [|reflexivity].
  destruct (unhook_server_sc (c <| c_servers ::= del_srv n |>) p s) as (H1 & _). rewrite H1. reflexivity.
Qed.
Lemma add_server_apps c s : c_apps (add_server c s) = c_apps c.
Proof.
  unfold add_server. destruct (s_parent s) as [p|]; [|reflexivity].
  destruct (attach_common_sc (c <| c_servers ::= (fun l => l ++ [s]) |>) p (s_name s) (s_traits s) (s_counters s) [s_label s] (s_free s))
    as (_ & _ & _ & H4 & _). rewrite H4. reflexivity.
Qed.
Lemma add_server_there c s : get_srv (s_name s) (c_servers (add_server c s)) <> None.
Proof.
  assert (E : get_srv (s_name s) (c_servers (c <| c_servers ::= (fun l => l ++ [s]) |>)) <> None).
  { cbn [c_servers set]. rewrite get_srv_snoc. destruct (get_srv (s_name s) (c_servers c)); [discriminate|].
    rewrite Z.eqb_refl. discriminate. }
  unfold add_server. destruct (s_parent s) as [p|]; [|exact E].
  destruct (attach_common_sc (c <| c_servers ::= (fun l => l ++ [s]) |>) p (s_name s) (s_traits s) (s_counters s) [s_label s] (s_free s))
    as (_ & _ & H3 & _). rewrite H3. exact E.
Qed.

(** ** Cell.remove_app on the other records and on the servers' names *)
Lemma remove_app_other c n y : y <> n -> app_of (remove_app c n) y = app_of c y.
Proof.
  intros Hne. unfold remove_app. destruct (get_app n (c_apps c)) as [a|]; [|reflexivity].
  set (c1 := match a_server a with Some sn => if is_member c sn then srv_remove c sn n else c | None => c end).
  assert (H1 : app_of c1 y = app_of c y).
  { subst c1. destruct (a_server a) as [sn|]; [|reflexivity]. destruct (is_member c sn); [apply srv_remove_app; exact Hne|reflexivity]. }
  set (c2 := match a_alloc a with Some (l0, p0) => upd_alloc c1 l0 p0 (alloc_del_app n) | None => c1 end).
  assert (H2 : app_of c2 y = app_of c1 y).
  { subst c2. destruct (a_alloc a) as [[l0 p0]|]; [|reflexivity]. unfold app_of. rewrite apps_upd_alloc. reflexivity. }
  unfold app_of. cbn [c_apps set]. rewrite get_del_app_other by exact Hne.
  change (app_of (release_identity c2 n) y = app_of c y). rewrite release_app by exact Hne. congruence.
Qed.
Lemma remove_app_srv_exists c n k : get_srv k (c_servers c) <> None -> get_srv k (c_servers (remove_app c n)) <> None.
Proof.
  intros Hex. unfold remove_app. destruct (get_app n (c_apps c)) as [a|]; [|exact Hex].
  set (c1 := match a_server a with Some sn => if is_member c sn then srv_remove c sn n else c | None => c end).
  assert (H1 : get_srv k (c_servers c1) <> None).
  { subst c1. destruct (a_server a) as [sn|]; [|exact Hex]. destruct (is_member c sn); [|exact Hex].
    destruct (get_srv k (c_servers c)) as [s|] eqn:Es; [|contradiction].
    destruct (psteps_srv_exists _ _ _ _ (srv_remove_ps c sn n) Es) as (s' & Hs'). rewrite Hs'. discriminate. }
  cbn [c_servers set]. rewrite (proj1 (proj2 (release_identity_frame _ n))).
  destruct (a_alloc a) as [[l0 p0]|]; [rewrite (proj1 (proj2 (upd_alloc_frame _ l0 p0 _)))|]; exact H1.
Qed.

(** ** the restores of a reload, one recorded instance after the other *)
Definition pend (name : Z) (c : cell) (xs : list Z) : Prop :=
  get_srv name (c_servers c) <> None /\
  forall x, In x xs -> forall a, app_of c x = Some a -> a_server a = None /\ has_id a.

Definition reload_restore (name : Z) (vb : Z -> bool) (ex : Z -> Z) (x : Z) : op := ORestore name x (vb x) (ex x) None.

Lemma restore_op_other c sn x vb ex y : y <> x -> app_of (restore_op c sn x vb ex None) y = app_of c y.
Proof.
  intros Hne. unfold restore_op. destruct (get_app x (c_apps c)) as [a|]; [|reflexivity].
  pose proof (restore_put_other c sn x vb ex y Hne) as H1.
  destruct (restore_put c sn x vb ex) as [c1 ok]. cbn [fst] in H1.
  destruct ok; [cbn [force_identity]; exact H1|]. destruct (a_once a); [rewrite remove_app_other by exact Hne|]; exact H1.
Qed.
Lemma restore_op_srv_exists c sn x vb ex k : get_srv k (c_servers c) <> None ->
  get_srv k (c_servers (restore_op c sn x vb ex None)) <> None.
Proof.
  intros Hex. unfold restore_op. destruct (get_app x (c_apps c)) as [a|]; [|exact Hex].
  assert (H1 : get_srv k (c_servers (fst (restore_put c sn x vb ex))) <> None).
  { destruct (get_srv k (c_servers c)) as [s|] eqn:Es; [|contradiction].
    destruct (psteps_srv_exists _ _ _ _ (restore_put_ps c sn x vb ex) Es) as (s' & Hs'). rewrite Hs'. discriminate. }
  destruct (restore_put c sn x vb ex) as [c1 ok]. cbn [fst] in H1.
  destruct ok; [cbn [force_identity]; exact H1|]. destruct (a_once a); [apply remove_app_srv_exists|]; exact H1.
Qed.

Lemma pend_step name vb ex c x xs : ~ In x xs -> pend name c (x :: xs) ->
  pend name (step c (reload_restore name vb ex x)) xs.
Proof.
  intros Hni [Hex Hp]. unfold reload_restore. cbn [step]. split; [apply restore_op_srv_exists; exact Hex|].
  intros y Hy a Ha. assert (Hne : y <> x) by (intros ->; contradiction).
  rewrite restore_op_other in Ha by exact Hne. apply (Hp y (or_intror Hy) a Ha).
Qed.

Lemma pend_wf name vb ex c x xs : pend name c (x :: xs) -> wf_op_all c (reload_restore name vb ex x).
Proof.
  intros [Hex Hp]. unfold reload_restore. split; [split; [exact Hex|]|].
  - intros a Ha. apply (Hp x (or_introl eq_refl) a Ha).
  - cbn [wf_op_id]. intros a Ha. apply (Hp x (or_introl eq_refl) a Ha).
Qed.

Theorem restores_wf name vb ex xs : NoDup xs -> forall c, Good c -> pend name c xs ->
  wf_ops_all c (map (reload_restore name vb ex) xs).
Proof.
  induction 1 as [|x xs Hni Hnd IH]; intros c HG HP; cbn [map wf_ops_all]; [exact I|].
  pose proof (pend_wf name vb ex c x xs HP) as W. split; [exact W|].
  apply IH; [apply Good_step; assumption|apply pend_step; assumption].
Qed.

(** ** Loader.reload_server as a whole *)
Definition reload_ops (name parent : Z) (cap : vec) (label traits vu : Z) (vb : Z -> bool) (ex : Z -> Z) (xs : list Z)
  : list op :=
  ORemoveServer name false :: OAddServer name parent cap label traits vu :: map (reload_restore name vb ex) xs.

(** after the server was taken out and declared again, the instances recorded under it are unplaced
    and still hold the identities they had *)
Lemma pend_reloaded c c1 name s xs : IdRec c -> s_name s = name ->
  c_apps c1 = c_apps (srv_remove_all c name) ->
  (forall m a', app_of c1 m = Some a' -> a_server a' <> Some name) ->
  (forall x a, In x xs -> app_of c x = Some a -> a_server a = Some name) ->
  pend name (add_server c1 s) xs.
Proof.
  intros HR <- E1 Hnone Hrec. split; [apply add_server_there|].
  intros x Hx a2 Ha2. unfold app_of in Ha2. rewrite add_server_apps in Ha2.
  pose proof (Hnone x a2 Ha2) as Hn. rewrite E1 in Ha2.
  destruct (srv_remove_all_rec c _ x a2 Ha2) as (a & Ha & Gg & Gi & Gs).
  pose proof (Hrec x a Hx Ha) as Hsv. split.
  - destruct Gs as [Gs|Gs]; [congruence|exact Gs].
  - unfold has_id. rewrite Gg, Gi. apply (HR x a Ha). rewrite Hsv. discriminate.
Qed.

Theorem reload_wf c name parent cap label traits vu vb ex xs :
  Good c -> get_srv name (c_servers c) <> None ->
  length cap = c_dim c -> nonneg cap -> NoDup xs ->
  (* the recorded placements of the server are those of instances the model holds there *)
  (forall x a, In x xs -> app_of c x = Some a -> a_server a = Some name) ->
  wf_ops_all c (reload_ops name parent cap label traits vu vb ex xs).
Proof.
  intros HG Hex Hlen Hnn Hnd Hrec. split; [split; exact I|].
  pose proof (Good_step c (ORemoveServer name false) (conj I I) HG) as HG1.
  destruct HG as (HA & _ & _ & HR).
  assert (E1 : c_apps (step c (ORemoveServer name false)) = c_apps (srv_remove_all c name)) by apply detach_apps.
  assert (Hgone : get_srv name (c_servers (step c (ORemoveServer name false))) = None)
    by apply detach_gone, (ac_srv_names _ (Acct_srv_remove_all c name HA)).
  assert (Hdim : c_dim (step c (ORemoveServer name false)) = c_dim c).
  { cbn [step]. rewrite detach_dim. apply (psteps_static _ _ (srv_remove_all_ps c name)). }
  revert HG1 E1 Hgone Hdim. generalize (step c (ORemoveServer name false)). intros c1 HG1 E1 Hgone Hdim.
  assert (Hnone : forall m a', app_of c1 m = Some a' -> a_server a' <> Some name).
  { intros m a' H. unfold app_of in H. rewrite E1 in H. eapply srv_remove_all_none; eassumption. }
  assert (W2 : wf_op_all c1 (OAddServer name parent cap label traits vu)).
  { split; [|exact I]. split; [exact Hgone|]. split; [congruence|]. split; [exact Hnn|exact Hnone]. }
  split; [exact W2|].
  apply restores_wf; [exact Hnd|apply Good_step; assumption|].
  apply (pend_reloaded c); auto.
Qed.
