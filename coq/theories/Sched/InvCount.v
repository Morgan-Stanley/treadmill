(** C04 (levels above the server): the affinity counters kept by every bucket (rack, pod, ..., the cell root)
    equal the number of placed instances on the servers below it ([CountExact], over the well-formed node graph
    [TreeWf]), after every scheduling cycle and every event that meets [wf_op_cnt].  The links from a parent to its
    children are not part of [TreeWf]: the counter bookkeeping (Python and model) follows parent pointers only. *)
From Coq Require Import ZArith List Bool Lia Relations.
From RecordUpdate Require Import RecordSet.
From TM Require Import Sched.Vec Sched.Types Sched.Queue Sched.Tree Sched.Cycle Sched.Steps Sched.MapsP
                       Sched.Events Sched.EventsP Sched.InvAcct Sched.InvAff Sched.InvAgg.
Import ListNotations.
Open Scope Z_scope.

(** ** sums *)
Fixpoint zsum {A} (f : A -> Z) (l : list A) : Z :=
  match l with [] => 0 | x :: r => f x + zsum f r end.

Lemma zsum_app {A} (f : A -> Z) l1 l2 : zsum f (l1 ++ l2) = zsum f l1 + zsum f l2.
Proof. induction l1 as [|x r IH]; cbn [zsum List.app]; [reflexivity|]. rewrite IH. lia. Qed.
Lemma zsum_ext {A} (f g : A -> Z) l : (forall x, In x l -> f x = g x) -> zsum f l = zsum g l.
Proof.
  induction l as [|x r IH]; intros H; cbn [zsum]; [reflexivity|].
  rewrite (H x (or_introl eq_refl)), IH; [reflexivity|]. intros y Hy. apply H. right. exact Hy.
Qed.
Lemma zsum_map {A B} (h : A -> B) (f : B -> Z) l : zsum f (map h l) = zsum (fun x => f (h x)) l.
Proof. induction l as [|x r IH]; cbn [zsum map]; [reflexivity|]. rewrite IH. reflexivity. Qed.
Lemma zsum_zero {A} (f : A -> Z) l : (forall x, In x l -> f x = 0) -> zsum f l = 0.
Proof.
  induction l as [|x r IH]; intros H; cbn [zsum]; [reflexivity|].
  rewrite (H x (or_introl eq_refl)), IH; [reflexivity|]. intros y Hy. apply H. right. exact Hy.
Qed.

(** ** counters as dictionaries *)
Definition csum (k : Z) (ds : list (Z * Z)) : Z := zsum (fun kv => if Z.eqb (fst kv) k then snd kv else 0) ds.

Lemma csum_nil aff : csum aff [] = 0.
Proof. reflexivity. Qed.
Lemma cget_cadd_all k ds sg : forall m, cget k (cadd_all ds sg m) = cget k m + sg * csum k ds.
Proof.
  induction ds as [|[k' d] r IH]; intros m; cbn [cadd_all]; unfold csum in *; cbn [zsum fst snd]; [lia|].
  rewrite IH, cget_cadd. destruct (Z.eqb_spec k k'), (Z.eqb_spec k' k); try congruence; lia.
Qed.
Lemma csum_notin k ds : ~ In k (map fst ds) -> csum k ds = 0.
Proof.
  intros H. unfold csum. apply zsum_zero. intros [k' d] Hin. cbn [fst snd].
  destruct (Z.eqb_spec k' k); [|reflexivity]. exfalso. apply H. subst. change k with (fst (k, d)). apply in_map. exact Hin.
Qed.
Lemma csum_cget k ds : NoDup (map fst ds) -> csum k ds = cget k ds.
Proof.
  induction ds as [|[k' d] r IH]; cbn [map fst]; intros Hnd; [reflexivity|].
  inversion Hnd as [|? ? Hni Hr]; subst. unfold cget. cbn [aget]. change (csum k ((k', d) :: r)) with ((if Z.eqb k' k then d else 0) + csum k r).
  destruct (Z.eqb_spec k' k) as [->|Hne].
  - rewrite csum_notin by exact Hni. lia.
  - rewrite IH by exact Hr. unfold cget. lia.
Qed.

(** ** buckets by name *)
(** the part of a bucket the parent walks read, and the part the invariant reads *)
Definition bnp (b : bucket) : Z * option Z := (b_name b, b_parent b).
Definition bsig (b : bucket) : Z * option Z * list (Z * Z) := (b_name b, b_parent b, b_counters b).
Definition ssig (s : server) : Z * option Z * list (Z * Z) := (s_name s, s_parent s, s_counters s).

Lemma bsig_bnp l l' : map bsig l' = map bsig l -> map bnp l' = map bnp l.
Proof.
  intros H. change bnp with (fun b => fst (bsig b)). rewrite <- !(map_map bsig fst), H. reflexivity.
Qed.
Lemma bnp_names l l' : map bnp l' = map bnp l -> map b_name l' = map b_name l.
Proof.
  intros H. change b_name with (fun b => fst (bnp b)). rewrite <- !(map_map bnp fst), H. reflexivity.
Qed.
Lemma bnp_length l l' : map bnp l' = map bnp l -> length l' = length l.
Proof. intros H. rewrite <- (map_length bnp l'), H. apply map_length. Qed.

Lemma get_bkt_bnp bs bs' : map bnp bs' = map bnp bs -> forall n,
  match get_bkt n bs, get_bkt n bs' with Some b, Some b' => bnp b' = bnp b | None, None => True | _, _ => False end.
Proof. apply get_bkt_map_eq. intros a b E. exact (f_equal fst E). Qed.

(** ** the parent chain *)
(** the bucket names visited by an upward walk that starts at [p] (exactly the buckets [bump_affinity] touches) *)
Fixpoint chain (fuel : nat) (bs : list bucket) (p : option Z) : list Z :=
  match fuel with
  | O => []
  | S f => match p with
           | None => []
           | Some n => match get_bkt n bs with
                       | Some b => n :: chain f bs (b_parent b)
                       | None => []
                       end
           end
  end.
(** the walk from [p] reaches a root (a bucket without parent) through existing buckets in at most [fuel] steps *)
Fixpoint closedb (fuel : nat) (bs : list bucket) (p : option Z) : bool :=
  match p with
  | None => true
  | Some n => match fuel with
              | O => false
              | S f => match get_bkt n bs with
                       | Some b => closedb f bs (b_parent b)
                       | None => false
                       end
              end
  end.
Lemma closedb_none f bs : closedb f bs None = true.
Proof. destruct f; reflexivity. Qed.
Lemma chain_none f bs : chain f bs None = [].
Proof. destruct f; reflexivity. Qed.

Lemma chain_bnp bs bs' : map bnp bs' = map bnp bs -> forall f p,
  chain f bs' p = chain f bs p /\ closedb f bs' p = closedb f bs p.
Proof.
  intros H. induction f as [|f IH]; intros [n|]; cbn [chain closedb]; try (split; reflexivity).
  pose proof (get_bkt_bnp _ _ H n) as Hg.
  destruct (get_bkt n bs) as [b|], (get_bkt n bs') as [b'|]; try contradiction; [|split; reflexivity].
  injection Hg as _ ->. destruct (IH (b_parent b)) as [-> ->]. split; reflexivity.
Qed.

Lemma closed_mono bs : forall f p, closedb f bs p = true -> forall f', (f <= f')%nat ->
  closedb f' bs p = true /\ chain f' bs p = chain f bs p.
Proof.
  induction f as [|f IH]; intros [n|] Hc f' Hle; cbn [closedb] in Hc; try discriminate.
  - destruct f'; split; reflexivity.
  - destruct f' as [|f']; [lia|]. cbn [closedb chain].
    destruct (get_bkt n bs) as [b|]; [|discriminate].
    destruct (IH _ Hc f' ltac:(lia)) as [-> ->]. split; reflexivity.
  - destruct f'; split; reflexivity.
Qed.

Lemma chain_exists bs : forall f p m, In m (chain f bs p) -> exists b, get_bkt m bs = Some b.
Proof.
  induction f as [|f IH]; intros [n|] m; cbn [chain In]; try tauto.
  destruct (get_bkt n bs) as [b|] eqn:E; [|intros []].
  intros [<-|Hin]; [exists b; exact E|eapply IH; exact Hin].
Qed.

(** the chain from a bucket on the chain is a suffix *)
Lemma chain_suffix bs : forall f p m, closedb f bs p = true -> In m (chain f bs p) ->
  closedb f bs (Some m) = true /\ exists pre, chain f bs p = pre ++ chain f bs (Some m).
Proof.
  induction f as [|f IH]; intros p m Hc Hin; [destruct p; destruct Hin|].
  destruct p as [n|]; [|destruct Hin]. cbn [closedb] in Hc. cbn [chain In] in Hin.
  destruct (get_bkt n bs) as [b|] eqn:E; [|discriminate].
  destruct Hin as [<-|Hin].
  - split; [cbn [closedb]; rewrite E; exact Hc|]. exists []. reflexivity.
  - destruct (IH _ _ Hc Hin) as (Hcm & pre & Hpre).
    destruct (closed_mono bs f (Some m) Hcm (S f) ltac:(lia)) as [Hc' Hch'].
    split; [exact Hc'|]. exists (n :: pre). rewrite Hch'. cbn [chain]. rewrite E. cbn [List.app]. rewrite <- Hpre. reflexivity.
Qed.

Lemma chain_nodup bs : forall f p, closedb f bs p = true -> NoDup (chain f bs p).
Proof.
  induction f as [|f IH]; intros [n|] Hc; cbn [chain]; try constructor.
  cbn [closedb] in Hc. destruct (get_bkt n bs) as [b|] eqn:E; [|constructor].
  constructor; [|apply IH; exact Hc].
  intros Hin. destruct (chain_suffix bs f _ n Hc Hin) as (Hcn & pre & Hpre).
  destruct f as [|f']; [destruct Hin|].
  cbn [closedb] in Hcn. rewrite E in Hcn.
  destruct (closed_mono bs f' _ Hcn (S f') ltac:(lia)) as [_ Hch].
  assert (Hx : chain (S f') bs (Some n) = n :: chain f' bs (b_parent b)) by (cbn [chain]; rewrite E; reflexivity).
  rewrite Hx, <- Hch in Hpre.
  apply (f_equal (@length Z)) in Hpre. rewrite app_length in Hpre. cbn [length] in Hpre. lia.
Qed.

(** a new bucket at the end of the map does not change a walk that stays inside the old buckets *)
Lemma closed_snoc bs nb : forall f p, closedb f bs p = true ->
  closedb f (bs ++ [nb]) p = true /\ chain f (bs ++ [nb]) p = chain f bs p.
Proof.
  induction f as [|f IH]; intros [n|] Hc; cbn [closedb] in Hc; try discriminate; cbn [closedb chain];
    try (split; reflexivity).
  rewrite get_bkt_snoc. destruct (get_bkt n bs) as [b|]; [|discriminate].
  destruct (IH _ Hc) as [-> ->]. split; reflexivity.
Qed.

(** ** the statement *)
Definition ancestors (c : cell) (p : option Z) : list Z := chain (depth_fuel c) (c_buckets c) p.
(** server [s] is below bucket [bname]: its parent chain passes through [bname] *)
Definition below (c : cell) (bname : Z) (s : server) : Prop := In bname (ancestors c (s_parent s)).
Definition belowb (c : cell) (bname : Z) (s : server) : bool := zmem bname (ancestors c (s_parent s)).
Lemma belowb_below c n s : belowb c n s = true <-> below c n s.
Proof. apply zmem_In. Qed.

Definition cnt_in (f : nat) (bs : list bucket) (ss : list server) (n aff : Z) : Z :=
  zsum (fun s => if zmem n (chain f bs (s_parent s)) then cget aff (s_counters s) else 0) ss.
(** the sum of the counters for [aff] of the servers below bucket [n] *)
Definition srv_count (c : cell) (n aff : Z) : Z := cnt_in (depth_fuel c) (c_buckets c) (c_servers c) n aff.
Lemma srv_count_below c n aff :
  srv_count c n aff = zsum (fun s => if belowb c n s then cget aff (s_counters s) else 0) (c_servers c).
Proof. reflexivity. Qed.

Record TreeWf (c : cell) : Prop := {
  (* bucket names are unique *)
  tw_bnames : NoDup (map b_name (c_buckets c));
  (* from every bucket the parent names lead, through existing buckets, to a root in at most |buckets| steps
     (so the graph is acyclic and the fuel [depth_fuel c] of the model's upward walks is never exhausted) *)
  tw_closed : forall n b, get_bkt n (c_buckets c) = Some b ->
                          closedb (length (c_buckets c)) (c_buckets c) (Some n) = true;
  (* the parent of a server, if any, is an existing bucket *)
  tw_sparent : forall s, In s (c_servers c) -> closedb (length (c_buckets c)) (c_buckets c) (s_parent s) = true;
  (* the counters of a server are a dictionary *)
  tw_ckeys : forall s, In s (c_servers c) -> NoDup (map fst (s_counters s))
}.

Definition CountExact (c : cell) : Prop :=
  forall n b aff, get_bkt n (c_buckets c) = Some b -> cget aff (b_counters b) = srv_count c n aff.

Lemma ancestors_bnp c c' p : map bnp (c_buckets c') = map bnp (c_buckets c) -> ancestors c' p = ancestors c p.
Proof. intros H. unfold ancestors, depth_fuel. rewrite (bnp_length _ _ H). apply chain_bnp. exact H. Qed.

(** a walk that closes within |buckets| steps visits no bucket twice (so the fuel [depth_fuel c] is not exhausted) *)
Lemma closed_nodup c p : closedb (length (c_buckets c)) (c_buckets c) p = true -> NoDup (ancestors c p).
Proof.
  intros Hc. apply chain_nodup. exact (proj1 (closed_mono _ _ _ Hc (S (length (c_buckets c))) ltac:(lia))).
Qed.
Lemma tw_bkt_closed c n b : TreeWf c -> get_bkt n (c_buckets c) = Some b ->
  closedb (length (c_buckets c)) (c_buckets c) (Some n) = true.
Proof. intros T. apply (tw_closed _ T). Qed.
Lemma tw_server c s : TreeWf c -> In s (c_servers c) ->
  closedb (length (c_buckets c)) (c_buckets c) (s_parent s) = true /\ NoDup (map fst (s_counters s)).
Proof. intros T Hin. split; [apply (tw_sparent _ T)|apply (tw_ckeys _ T)]; exact Hin. Qed.

(** ** how bucket counters move *)
(** same names and parents; the counter of bucket [n] for [aff] moved by [D n aff] *)
Definition bdelta (bs bs' : list bucket) (D : Z -> Z -> Z) : Prop :=
  map bnp bs' = map bnp bs /\
  forall n b, get_bkt n bs = Some b ->
              exists b', get_bkt n bs' = Some b' /\ forall aff, cget aff (b_counters b') = cget aff (b_counters b) + D n aff.

Definition D0 : Z -> Z -> Z := fun _ _ => 0.
Lemma bdelta_sig bs bs' : map bsig bs' = map bsig bs -> bdelta bs bs' D0.
Proof.
  intros H. split; [apply bsig_bnp; exact H|]. intros n b Hb.
  pose proof (get_bkt_map_eq bsig bs bs' (fun a b E => f_equal (fun x => fst (fst x)) E) H n) as Hg. rewrite Hb in Hg.
  destruct (get_bkt n bs') as [b'|]; [|contradiction]. exists b'. split; [reflexivity|]. intros aff.
  injection Hg as _ _ ->. unfold D0. lia.
Qed.
Lemma bdelta_refl bs : bdelta bs bs D0.
Proof. apply bdelta_sig. reflexivity. Qed.
Lemma bdelta_trans bs1 bs2 bs3 D1 D2 :
  bdelta bs1 bs2 D1 -> bdelta bs2 bs3 D2 -> bdelta bs1 bs3 (fun n aff => D1 n aff + D2 n aff).
Proof.
  intros [H1 G1] [H2 G2]. split; [congruence|]. intros n b Hb.
  destruct (G1 _ _ Hb) as (b2 & Hb2 & E2). destruct (G2 _ _ Hb2) as (b3 & Hb3 & E3).
  exists b3. split; [exact Hb3|]. intros aff. rewrite E3, E2. lia.
Qed.
Lemma bdelta_ext bs bs' D D' : (forall n aff, D n aff = D' n aff) -> bdelta bs bs' D -> bdelta bs bs' D'.
Proof.
  intros HD [H G]. split; [exact H|]. intros n b Hb. destruct (G _ _ Hb) as (b' & Hb' & E). exists b'. split; [exact Hb'|].
  intros aff. rewrite E, HD. reflexivity.
Qed.

(** ** cells that agree on what the invariant reads *)
(** servers and buckets agree on name, parent and counters *)
Definition sig_eq (c c' : cell) : Prop :=
  map ssig (c_servers c') = map ssig (c_servers c) /\ map bsig (c_buckets c') = map bsig (c_buckets c).
Lemma sig_eq_refl c : sig_eq c c.
Proof. split; reflexivity. Qed.
Lemma sig_eq_trans a b c : sig_eq a b -> sig_eq b c -> sig_eq a c.
Proof. intros [H1 H2] [H3 H4]. split; congruence. Qed.
Lemma sig_eq_upd_bkt n f c : (forall b, bsig (f b) = bsig b) -> sig_eq c (c_upd_bkt n f c).
Proof. intros Hf. split; [reflexivity|apply (map_kupd b_name); exact Hf]. Qed.
Lemma sig_eq_upd_srv n f c : (forall s, ssig (f s) = ssig s) -> sig_eq c (c_upd_srv n f c).
Proof. intros Hf. split; [apply (map_kupd s_name); exact Hf|reflexivity]. Qed.
Lemma sig_eq_ext c c' : c_servers c' = c_servers c -> c_buckets c' = c_buckets c -> sig_eq c c'.
Proof. intros H1 H2. split; rewrite ?H1, ?H2; reflexivity. Qed.
Lemma sig_eq_bnp c c' : sig_eq c c' -> map bnp (c_buckets c') = map bnp (c_buckets c).
Proof. intros [_ H]. apply bsig_bnp. exact H. Qed.
Lemma sig_eq_bdelta c c' : sig_eq c c' -> bdelta (c_buckets c) (c_buckets c') D0.
Proof. intros [_ H]. apply bdelta_sig. exact H. Qed.
Lemma sig_eq_In c c' s' : sig_eq c c' -> In s' (c_servers c') -> exists s, In s (c_servers c) /\ ssig s = ssig s'.
Proof.
  intros [Hs _] Hin. apply (in_map ssig) in Hin. rewrite Hs in Hin. apply in_map_iff in Hin as (s & E & Hin).
  exists s. split; assumption.
Qed.

(** servers and buckets agree on name and parent *)
Definition snp (s : server) : Z * option Z := (s_name s, s_parent s).
Definition shape_eq (c c' : cell) : Prop :=
  map snp (c_servers c') = map snp (c_servers c) /\ map bnp (c_buckets c') = map bnp (c_buckets c).
Lemma shape_eq_refl c : shape_eq c c.
Proof. split; reflexivity. Qed.
Lemma shape_eq_trans a b c : shape_eq a b -> shape_eq b c -> shape_eq a c.
Proof. intros [H1 H2] [H3 H4]. split; congruence. Qed.
Lemma sig_eq_shape c c' : sig_eq c c' -> shape_eq c c'.
Proof.
  intros [Hs Hb]. split; [|apply bsig_bnp; exact Hb].
  change snp with (fun s => fst (ssig s)). rewrite <- !(map_map ssig fst), Hs. reflexivity.
Qed.

(** the upward walks other than the counter walk change buckets only, in a field [bsig] does not read *)
Lemma sig_eq_walk c c' : same_core c c' -> bkts_same bsig c c' -> sig_eq c c'.
Proof. intros Hc Hb. split; [rewrite (sc_servers _ _ Hc); reflexivity|apply bkts_same_map; exact Hb]. Qed.
Lemma sig_eq_core3 c c' : core3 c c' -> sig_eq c c'.
Proof. intros (_ & Hs & Hb). exact (sig_eq_ext c c' Hs Hb). Qed.

Lemma propagate_traits_se fuel : forall c b, sig_eq c (propagate_traits fuel c b).
Proof. intros c b. apply sig_eq_walk; [apply propagate_traits_sc|apply propagate_traits_same; reflexivity]. Qed.
Lemma add_labels_se fuel : forall c b ls, sig_eq c (add_labels fuel c b ls).
Proof. intros c b ls. apply sig_eq_walk; [apply add_labels_sc|apply add_labels_same; reflexivity]. Qed.
Lemma adjust_up_se fuel : forall c b v, sig_eq c (adjust_up fuel c b v).
Proof. intros c b v. apply sig_eq_walk; [apply adjust_up_sc|apply adjust_up_same; reflexivity]. Qed.
Lemma adjust_up_from_se c p v : sig_eq c (adjust_up_from c p v).
Proof. unfold adjust_up_from. destruct p; [apply adjust_up_se|apply sig_eq_refl]. Qed.
Lemma adjust_down_se fuel : forall c b pv, sig_eq c (adjust_down fuel c b pv).
Proof. intros c b pv. apply sig_eq_walk; [apply adjust_down_sc|apply adjust_down_same; reflexivity]. Qed.
Lemma adjust_down_from_se c p pv : sig_eq c (adjust_down_from c p pv).
Proof. unfold adjust_down_from. destruct p; [apply adjust_down_se|apply sig_eq_refl]. Qed.
Lemma set_cursor_se c b a i : sig_eq c (set_cursor c b a i).
Proof. apply sig_eq_upd_bkt. reflexivity. Qed.

(** ** the counter walk *)
(** every bucket on the chain moves by [sg * csum aff ds], nothing else moves *)
Definition Dchain (ch : list Z) (v : Z -> Z) : Z -> Z -> Z := fun n aff => if zmem n ch then v aff else 0.
Lemma Dchain_nil v n aff : Dchain [] v n aff = 0.
Proof. reflexivity. Qed.

Lemma bump_affinity_delta ds sg : forall fuel c p, NoDup (chain fuel (c_buckets c) (Some p)) ->
  bdelta (c_buckets c) (c_buckets (bump_affinity fuel c p ds sg))
         (Dchain (chain fuel (c_buckets c) (Some p)) (fun aff => sg * csum aff ds)).
Proof.
  induction fuel as [|f IH]; intros c p Hnd; cbn [bump_affinity chain] in *; [apply bdelta_refl|].
  destruct (get_bkt p (c_buckets c)) as [bp|] eqn:Ep; [|apply bdelta_refl].
  set (F := fun x : bucket => x <| b_counters ::= cadd_all ds sg |>).
  set (c' := c_upd_bkt p F c).
  assert (Hbnp : map bnp (c_buckets c') = map bnp (c_buckets c)) by (apply (map_kupd b_name); reflexivity).
  (* one step *)
  assert (H1 : bdelta (c_buckets c) (c_buckets c') (Dchain [p] (fun aff => sg * csum aff ds))).
  { split; [exact Hbnp|]. intros n b Hb. cbn [c' c_upd_bkt c_buckets set]. unfold Dchain. cbn [zmem].
    destruct (Z.eqb_spec p n) as [->|Hne]; cbn [orb].
    - exists (F b). split; [apply get_upd_bkt_same; [reflexivity|exact Hb]|]. intros aff. apply cget_cadd_all.
    - exists b. split; [rewrite get_upd_bkt_other by (try reflexivity; congruence); exact Hb|]. intros aff. lia. }
  inversion Hnd as [|? ? Hni Hnd']; subst. apply zmem_false in Hni.
  destruct (b_parent bp) as [q|] eqn:Eq.
  - destruct (chain_bnp _ _ Hbnp f (Some q)) as [Hch _]. specialize (IH c' q). rewrite Hch in IH.
    eapply bdelta_ext; [|eapply bdelta_trans; [exact H1|exact (IH Hnd')]].
    intros n aff. unfold Dchain. cbn [zmem]. destruct (Z.eqb_spec p n) as [->|Hne]; cbn [orb].
    + rewrite Hni. lia.
    + destruct (zmem n (chain f (c_buckets c) (Some q))); lia.
  - eapply bdelta_ext; [|exact H1]. intros n aff. unfold Dchain. rewrite chain_none. reflexivity.
Qed.
Lemma bump_from_delta c p ds sg : NoDup (ancestors c p) ->
  bdelta (c_buckets c) (c_buckets (bump_from c p ds sg)) (Dchain (ancestors c p) (fun aff => sg * csum aff ds)).
Proof.
  unfold bump_from, ancestors. destruct p as [p|]; [apply bump_affinity_delta|].
  intros _. rewrite chain_none. apply bdelta_refl.
Qed.
Lemma bump_affinity_bnp ds sg : forall f c p, map bnp (c_buckets (bump_affinity f c p ds sg)) = map bnp (c_buckets c).
Proof. intros f c p. apply bkts_same_map, bump_affinity_same. reflexivity. Qed.
(** without counters to add the walk changes nothing the invariant reads *)
Lemma bump_affinity_nil_se sg : forall f c p, sig_eq c (bump_affinity f c p [] sg).
Proof.
  induction f as [|f IH]; intros c p; cbn [bump_affinity]; [apply sig_eq_refl|].
  destruct (get_bkt p (c_buckets c)) as [bk|]; [|apply sig_eq_refl].
  destruct (b_parent bk) as [q|]; [(eapply sig_eq_trans; [apply sig_eq_upd_bkt|apply IH]); reflexivity|apply sig_eq_upd_bkt; reflexivity].
Qed.

(** [Server.put], [Server.remove], [Bucket.add_node] and [remove_node] all end in the same way: the counters [ds],
    with sign [sg], are walked up from a bucket [p], and capacity, traits and labels are refreshed along the way.
    [bumped c c' p ds sg]: [c'] is [c] after such a walk. *)
Definition bumped (c c' : cell) (p : option Z) (ds : list (Z * Z)) (sg : Z) : Prop :=
  c_servers c' = c_servers c /\ exists c1, sig_eq c c1 /\ sig_eq (bump_from c1 p ds sg) c'.

Lemma bumped_delta c c' p ds sg : bumped c c' p ds sg -> NoDup (ancestors c p) ->
  bdelta (c_buckets c) (c_buckets c') (Dchain (ancestors c p) (fun aff => sg * csum aff ds)).
Proof.
  intros (_ & c1 & H1 & H2). rewrite <- (ancestors_bnp c c1 p (sig_eq_bnp _ _ H1)). intros Hnd.
  pose proof (bdelta_trans _ _ _ _ _ (bdelta_trans _ _ _ _ _ (sig_eq_bdelta _ _ H1) (bump_from_delta c1 p ds sg Hnd))
                (sig_eq_bdelta _ _ H2)) as Hd.
  revert Hd. apply bdelta_ext. intros n aff. unfold D0. lia.
Qed.
Lemma bumped_shape c c' p ds sg : bumped c c' p ds sg -> shape_eq c c'.
Proof.
  intros (Hs & c1 & H1 & H2). split; [rewrite Hs; reflexivity|].
  rewrite (sig_eq_bnp _ _ H2). unfold bump_from. destruct p; [rewrite bump_affinity_bnp|]; apply (sig_eq_bnp _ _ H1).
Qed.
Lemma bumped_nil c c' p sg : bumped c c' p [] sg -> sig_eq c c'.
Proof.
  intros (_ & c1 & H1 & H2). apply (sig_eq_trans _ _ _ H1). refine (sig_eq_trans _ _ _ _ H2).
  unfold bump_from. destruct p; [apply bump_affinity_nil_se|apply sig_eq_refl].
Qed.
Lemma bumped_intro c c' p ds sg :
  same_core (bump_from c p ds sg) c' -> sig_eq (bump_from c p ds sg) c' -> bumped c c' p ds sg.
Proof.
  intros Hc Hs. split; [|exists c; split; [apply sig_eq_refl|exact Hs]].
  transitivity (c_servers (bump_from c p ds sg)); [apply Hc|apply bump_from_sc].
Qed.

Lemma srv_put_lease_bumped c sn an lease c' : srv_put_lease c sn an lease = Some c' ->
  exists s a, get_srv sn (c_servers c) = Some s /\ get_app an (c_apps c) = Some a /\
              bumped (prim_put c sn an a lease) c' (s_parent s) [(a_aff a, 1)] 1.
Proof.
  unfold srv_put_lease. destruct (get_srv sn (c_servers c)) as [s|]; [|discriminate].
  destruct (get_app an (c_apps c)) as [a|]; [|discriminate].
  destruct (put_guard c s a lease); [|discriminate]. intros [= <-]. exists s, a. split; [reflexivity|]. split; [reflexivity|].
  apply bumped_intro; [apply adjust_down_from_sc|apply adjust_down_from_se].
Qed.
Lemma srv_remove_bumped c sn an : srv_remove c sn an = c \/
  exists s a, get_srv sn (c_servers c) = Some s /\ get_app an (c_apps c) = Some a /\
              bumped (prim_remove c sn an a) (srv_remove c sn an) (s_parent s) [(a_aff a, 1)] (-1).
Proof.
  unfold srv_remove. destruct (get_srv sn (c_servers c)) as [s|]; [|left; reflexivity].
  destruct (get_app an (c_apps c)) as [a|]; [|left; reflexivity].
  destruct (negb (zmem an (s_apps s))); [left; reflexivity|right]. exists s, a. split; [reflexivity|]. split; [reflexivity|].
  apply bumped_intro; [apply adjust_up_from_sc|apply adjust_up_from_se].
Qed.
(** Bucket.add_node: the child's counters are added along the chain of the new parent *)
Lemma attach_common_bumped c p child tr cnts lbls fr : bumped c (attach_common c p child tr cnts lbls fr) (Some p) cnts 1.
Proof.
  split; [apply (attach_common_sc c p child tr cnts lbls fr)|]. unfold attach_common. cbv zeta.
  set (c1 := c_upd_bkt p _ c). exists (propagate_traits (depth_fuel c1) c1 p). split.
  - eapply sig_eq_trans; [|apply propagate_traits_se]. apply sig_eq_upd_bkt. reflexivity.
  - eapply sig_eq_trans; [apply add_labels_se|apply adjust_up_se].
Qed.
(** parent.remove_node(server), bucket part, for a server with or without parent: the server's counters are
    subtracted along the chain of the old parent *)
Lemma leave_parent_bumped c s :
  bumped c (match s_parent s with None => c | Some p => unhook_server c p s end) (s_parent s) (s_counters s) (-1).
Proof.
  destruct (s_parent s) as [p|]; [|split; [reflexivity|exists c; split; apply sig_eq_refl]].
  split; [apply (unhook_server_sc c p s)|]. unfold unhook_server. cbv zeta.
  set (c1 := c_upd_bkt p _ c). exists (propagate_traits (depth_fuel c1) c1 p). split.
  - eapply sig_eq_trans; [|apply propagate_traits_se]. apply sig_eq_upd_bkt. reflexivity.
  - apply adjust_down_se.
Qed.

(** ** the sum over the servers *)
Lemma cnt_in_ssig f bs ss ss' n aff : map ssig ss' = map ssig ss -> cnt_in f bs ss' n aff = cnt_in f bs ss n aff.
Proof.
  intros H. unfold cnt_in.
  set (g := fun x : Z * option Z * list (Z * Z) => if zmem n (chain f bs (snd (fst x))) then cget aff (snd x) else 0).
  transitivity (zsum g (map ssig ss')); [rewrite zsum_map; reflexivity|]. rewrite H, zsum_map. reflexivity.
Qed.
Lemma srv_count_bnp c c' n aff : map bnp (c_buckets c') = map bnp (c_buckets c) ->
  srv_count c' n aff = cnt_in (depth_fuel c) (c_buckets c) (c_servers c') n aff.
Proof.
  intros H. unfold srv_count, depth_fuel, cnt_in. rewrite (bnp_length _ _ H). apply zsum_ext. intros s _.
  destruct (chain_bnp _ _ H (S (length (c_buckets c))) (s_parent s)) as [-> _]. reflexivity.
Qed.
Lemma zsum_upd_srv (g : server -> Z) n f l :
  zsum g (upd_srv n f l) = zsum g l + match get_srv n l with Some s => g (f s) - g s | None => 0 end.
Proof.
  induction l as [|x t IH]; cbn [upd_srv get_srv zsum]; [lia|].
  destruct (Z.eqb (s_name x) n); cbn [zsum]; [lia|rewrite IH; lia].
Qed.
Lemma zsum_del_srv (g : server -> Z) n l :
  zsum g (del_srv n l) = zsum g l - match get_srv n l with Some s => g s | None => 0 end.
Proof.
  induction l as [|x t IH]; cbn [del_srv get_srv zsum]; [lia|].
  destruct (Z.eqb (s_name x) n); cbn [zsum]; [lia|rewrite IH; lia].
Qed.

(** ** transfer lemmas *)
Definition Inv (c : cell) : Prop := TreeWf c /\ CountExact c.

(** the buckets keep names and parents and their counters move by [D]; the new servers hang under old buckets and
    their sum moves by [D] too *)
Lemma Inv_delta c c' D :
  Inv c -> bdelta (c_buckets c) (c_buckets c') D ->
  (forall s', In s' (c_servers c') ->
              closedb (length (c_buckets c)) (c_buckets c) (s_parent s') = true /\ NoDup (map fst (s_counters s'))) ->
  (forall n aff, cnt_in (depth_fuel c) (c_buckets c) (c_servers c') n aff = srv_count c n aff + D n aff) ->
  Inv c'.
Proof.
  intros [[T1 T2 T3 T4] C] [Hb G] Hs Hc.
  assert (Hold : forall n b', get_bkt n (c_buckets c') = Some b' -> exists b, get_bkt n (c_buckets c) = Some b).
  { intros n b' Hb'. pose proof (get_bkt_bnp _ _ Hb n) as Hg. rewrite Hb' in Hg.
    destruct (get_bkt n (c_buckets c)) as [b|]; [exists b; reflexivity|contradiction]. }
  assert (Hcl : forall p, closedb (length (c_buckets c')) (c_buckets c') p = closedb (length (c_buckets c)) (c_buckets c) p).
  { intros p. rewrite (bnp_length _ _ Hb). apply chain_bnp. exact Hb. }
  split; [constructor|].
  - rewrite (bnp_names _ _ Hb). exact T1.
  - intros n b' Hb'. destruct (Hold _ _ Hb') as (b & E). rewrite Hcl. eapply T2; exact E.
  - intros s' Hin. rewrite Hcl. apply Hs. exact Hin.
  - intros s' Hin. apply Hs. exact Hin.
  - intros n b' aff Hb'. destruct (Hold _ _ Hb') as (b & E). destruct (G _ _ E) as (b2 & Hb2 & E2).
    rewrite Hb' in Hb2. injection Hb2 as <-.
    rewrite E2, (C _ _ aff E), (srv_count_bnp c c' n aff Hb), Hc. reflexivity.
Qed.

Theorem Inv_sig_eq c c' : sig_eq c c' -> Inv c -> Inv c'.
Proof.
  intros Hse HI. apply (Inv_delta c c' D0 HI (sig_eq_bdelta _ _ Hse)).
  - intros s' Hin. destruct HI as [T _]. destruct (sig_eq_In _ _ _ Hse Hin) as (s & Hs0 & E). injection E as _ <- <-.
    exact (tw_server c s T Hs0).
  - intros n aff. rewrite (cnt_in_ssig _ _ _ _ _ _ (proj1 Hse)). unfold srv_count, D0. lia.
Qed.

(** server [sn] becomes [f s] while the bucket counters move by [D], the change of what [sn] adds to each bucket *)
Lemma Inv_upd_srv c c' sn s f D :
  Inv c -> get_srv sn (c_servers c) = Some s -> c_servers c' = upd_srv sn f (c_servers c) ->
  bdelta (c_buckets c) (c_buckets c') D ->
  closedb (length (c_buckets c)) (c_buckets c) (s_parent (f s)) = true -> NoDup (map fst (s_counters (f s))) ->
  (forall n aff, D n aff = (if zmem n (ancestors c (s_parent (f s))) then cget aff (s_counters (f s)) else 0)
                           - (if zmem n (ancestors c (s_parent s)) then cget aff (s_counters s) else 0)) ->
  Inv c'.
Proof.
  intros HI Hs Es Hd Hp Hk HD. apply (Inv_delta c c' D HI Hd); rewrite Es.
  - intros s' Hin. apply In_upd_srv_first in Hin as [Hin|(x & Hx & ->)].
    + exact (tw_server c s' (proj1 HI) Hin).
    + rewrite Hs in Hx. injection Hx as <-. split; assumption.
  - intros n aff. unfold srv_count, cnt_in. rewrite zsum_upd_srv, Hs, HD. reflexivity.
Qed.

Lemma csum_single k aff : csum aff [(k, 1)] = if Z.eqb aff k then 1 else 0.
Proof. unfold csum. cbn [zsum fst snd]. rewrite Z.eqb_sym. destruct (Z.eqb aff k); lia. Qed.

(** a server's counter for [k] moves by [sg] and the change is walked up from its parent (Server.put / Server.remove) *)
Lemma Inv_srv_bump c c1 c' sn s fs k sg :
  get_srv sn (c_servers c) = Some s -> c_servers c1 = upd_srv sn fs (c_servers c) -> c_buckets c1 = c_buckets c ->
  s_parent (fs s) = s_parent s -> s_counters (fs s) = cadd k sg (s_counters s) ->
  bumped c1 c' (s_parent s) [(k, 1)] sg -> Inv c -> Inv c'.
Proof.
  intros Hs Es Eb Hp Hc Hb HI. pose proof HI as [T _].
  pose proof (get_srv_In _ _ _ Hs) as Hin. pose proof (tw_sparent _ T _ Hin) as Hcl.
  assert (Ea : ancestors c1 (s_parent s) = ancestors c (s_parent s)) by (apply ancestors_bnp; rewrite Eb; reflexivity).
  pose proof (bumped_delta _ _ _ _ _ Hb) as Hd. rewrite Ea, Eb in Hd. specialize (Hd (closed_nodup c _ Hcl)).
  apply (Inv_upd_srv c c' sn s fs _ HI Hs (eq_trans (proj1 Hb) Es) Hd); rewrite ?Hp, ?Hc.
  - exact Hcl.
  - apply NoDup_keys_aset, (tw_ckeys _ T _ Hin).
  - intros n aff. unfold Dchain. rewrite cget_cadd, csum_single. destruct (zmem n (ancestors c (s_parent s))), (Z.eqb aff k); lia.
Qed.

Theorem Inv_srv_put_lease c sn an lease c' : srv_put_lease c sn an lease = Some c' -> Inv c -> Inv c'.
Proof.
  intros H. destruct (srv_put_lease_bumped _ _ _ _ _ H) as (s & a & Hs & _ & Hb).
  revert Hb. eapply (Inv_srv_bump c _ c' sn s _ (a_aff a) 1 Hs); reflexivity.
Qed.
Theorem Inv_srv_remove c sn an : Inv c -> Inv (srv_remove c sn an).
Proof.
  destruct (srv_remove_bumped c sn an) as [->|(s & a & Hs & _ & Hb)]; [tauto|].
  revert Hb. eapply (Inv_srv_bump c _ _ sn s _ (a_aff a) (-1) Hs); reflexivity.
Qed.

(** ** a scheduling cycle, refined: every state change of a cycle is one of
    - a change that leaves name, parent and counters of every server and bucket alone (cursors, free capacity
      aggregates, every update of instances, identity groups, ...),
    - a concrete [Server.put] ([srv_put_lease]),
    - a concrete [Server.remove] ([srv_remove]).
    [Steps.pstep] lumps every bucket change into [PS_bkt], which is too coarse for counters; this relation keeps
    the two functions that move counters. *)
Inductive cstep : cell -> cell -> Prop :=
| CS_frame c c' : sig_eq c c' -> cstep c c'
| CS_put c sn an l c' : srv_put_lease c sn an l = Some c' -> cstep c c'
| CS_remove c sn an : cstep c (srv_remove c sn an).
Definition csteps := clos_refl_trans cell cstep.

Lemma cs_refl c : csteps c c. Proof. apply rt_refl. Qed.
Lemma cs_one c c' : cstep c c' -> csteps c c'. Proof. apply rt_step. Qed.
Lemma cs_trans a b c : csteps a b -> csteps b c -> csteps a c. Proof. apply rt_trans. Qed.
Lemma cs_se c c' : sig_eq c c' -> csteps c c'. Proof. intros; apply cs_one, CS_frame; assumption. Qed.

Theorem Inv_cstep c c' : cstep c c' -> Inv c -> Inv c'.
Proof.
  intros H. destruct H.
  - apply Inv_sig_eq; assumption.
  - eapply Inv_srv_put_lease; eassumption.
  - apply Inv_srv_remove.
Qed.
Theorem Inv_csteps c c' : csteps c c' -> Inv c -> Inv c'.
Proof. induction 1; [apply Inv_cstep; assumption|tauto|tauto]. Qed.

(** the steps of [Steps.astep], for which the traversal of a cycle is proved, are such steps *)
Lemma astep_csteps c c' : astep c c' -> csteps c c'.
Proof.
  intros [c0 b aff i|c0 sn an l c0' H|c0 sn an|c0 c0' _ _ Hs Hb].
  - apply cs_se, set_cursor_se.
  - eapply cs_one, CS_put. exact H.
  - apply cs_one, CS_remove.
  - apply cs_se, sig_eq_ext; assumption.
Qed.
Lemma asteps_csteps c c' : asteps c c' -> csteps c c'.
Proof. induction 1; [apply astep_csteps; assumption|apply cs_refl|eapply cs_trans; eassumption]. Qed.
Theorem schedule_cs c ch : csteps c (fst (fst (schedule c ch))).
Proof. apply asteps_csteps, schedule_as. Qed.

Theorem Inv_schedule c ch : Inv c -> Inv (fst (fst (schedule c ch))).
Proof. apply Inv_csteps, schedule_cs. Qed.

(** ** topology *)
Lemma attach_common_empty_se c p child tr lbls fr : sig_eq c (attach_common c p child tr [] lbls fr).
Proof. exact (bumped_nil _ _ _ _ (attach_common_bumped c p child tr [] lbls fr)). Qed.

Lemma chain_not_fresh f bs p n : get_bkt n bs = None -> zmem n (chain f bs p) = false.
Proof.
  intros Hn. apply zmem_false. intros Hin. destruct (chain_exists _ _ _ _ Hin) as (b & Hb). congruence.
Qed.

(** walks of the old cell after a bucket was appended *)
Lemma snoc_walk c nb q : closedb (length (c_buckets c)) (c_buckets c) q = true ->
  let c1 := c <| c_buckets ::= (fun l => l ++ [nb]) |> in
  closedb (length (c_buckets c1)) (c_buckets c1) q = true /\ ancestors c1 q = ancestors c q.
Proof.
  intros Hq c1.
  assert (Eb : c_buckets c1 = c_buckets c ++ [nb]) by reflexivity.
  unfold ancestors, depth_fuel. rewrite Eb, app_length. cbn [length].
  replace (length (c_buckets c) + 1)%nat with (S (length (c_buckets c))) by lia.
  destruct (closed_mono _ _ _ Hq (S (length (c_buckets c))) ltac:(lia)) as [Hq1 Hc1].
  destruct (closed_mono _ _ _ Hq (S (S (length (c_buckets c)))) ltac:(lia)) as [Hq2 Hc2].
  destruct (closed_snoc _ nb _ _ Hq1) as [Hq1' _]. destruct (closed_snoc _ nb _ _ Hq2) as [_ Hc2'].
  split; [exact Hq1'|]. rewrite Hc2', Hc2, Hc1. reflexivity.
Qed.

Theorem Inv_add_bucket c name level parent :
  get_bkt name (c_buckets c) = None -> get_bkt parent (c_buckets c) <> None ->
  Inv c -> Inv (add_bucket c name level (Some parent)).
Proof.
  intros Hfresh Hpar [T C]. unfold add_bucket.
  eapply Inv_sig_eq; [apply attach_common_empty_se|].
  set (nb := mkBucket name (Some parent) level [] (vzero (c_dim c)) 0 [] [] [] []).
  pose proof (snoc_walk c nb) as Hold. cbv zeta in Hold.
  set (c1 := c <| c_buckets ::= (fun l => l ++ [nb]) |>) in *.
  assert (Eb : c_buckets c1 = c_buckets c ++ [nb]) by reflexivity.
  assert (Es : c_servers c1 = c_servers c) by reflexivity.
  destruct (get_bkt parent (c_buckets c)) as [pb|] eqn:Ep; [clear Hpar|congruence].
  split.
  - constructor.
    + rewrite Eb, map_app. cbn [map b_name nb]. apply NoDup_snoc; [apply (tw_bnames _ T)|apply get_bkt_none_notin; exact Hfresh].
    + intros n b Hb. rewrite Eb, get_bkt_snoc in Hb. destruct (get_bkt n (c_buckets c)) as [b0|] eqn:E.
      * apply Hold. eapply (tw_closed _ T); exact E.
      * destruct (Z.eqb_spec (b_name nb) n) as [En|]; [|discriminate]. cbn [b_name nb] in En. subst n.
        (* the new bucket: one step to its parent, whose walk is closed *)
        rewrite Eb at 1. rewrite app_length, Nat.add_comm. cbn [length Nat.add closedb].
        rewrite Eb, get_bkt_snoc, Hfresh. cbn [b_name nb]. rewrite Z.eqb_refl. cbn [b_parent nb].
        apply (closed_snoc _ nb _ _ (tw_closed _ T _ _ Ep)).
    + intros s Hin. rewrite Es in Hin. apply Hold. apply (tw_sparent _ T). exact Hin.
    + intros s Hin. rewrite Es in Hin. apply (tw_ckeys _ T). exact Hin.
  - intros n b aff Hb. rewrite Eb, get_bkt_snoc in Hb.
    assert (Hcnt : srv_count c1 n aff = srv_count c n aff).
    { unfold srv_count, cnt_in. rewrite Es. apply zsum_ext. intros s Hin.
      destruct (Hold _ (tw_sparent _ T _ Hin)) as [_ Ha]. unfold ancestors in Ha. rewrite Ha. reflexivity. }
    rewrite Hcnt. destruct (get_bkt n (c_buckets c)) as [b0|] eqn:E.
    + inversion Hb; subst b0. eapply C; exact E.
    + destruct (Z.eqb_spec (b_name nb) n) as [En|]; [|discriminate]. inversion Hb; subst b. cbn [b_counters nb].
      unfold srv_count, cnt_in. symmetry. apply zsum_zero. intros s _. rewrite chain_not_fresh by exact E. reflexivity.
Qed.

Theorem Inv_add_server c s :
  s_counters s = [] -> (forall p, s_parent s = Some p -> get_bkt p (c_buckets c) <> None) ->
  Inv c -> Inv (add_server c s).
Proof.
  intros Hcnt Hpar HI. pose proof HI as [T _]. unfold add_server.
  set (c1 := c <| c_servers ::= (fun l => l ++ [s]) |>).
  assert (H1 : Inv c1).
  { apply (Inv_delta c c1 D0 HI (bdelta_refl _)); cbn [c1 c_servers set].
    - intros s' Hin. apply in_app_or in Hin as [Hin|[<-|[]]].
      + exact (tw_server c s' T Hin).
      + rewrite Hcnt. split; [|constructor]. destruct (s_parent s) as [p|] eqn:Ep; [|apply closedb_none].
        specialize (Hpar p eq_refl). destruct (get_bkt p (c_buckets c)) as [pb|] eqn:Epb; [|congruence].
        eapply (tw_closed _ T); exact Epb.
    - intros n aff. unfold srv_count, cnt_in. rewrite zsum_app. cbn [zsum]. rewrite Hcnt.
      change (cget aff []) with 0. unfold D0. destruct (zmem n (chain (depth_fuel c) (c_buckets c) (s_parent s))); lia. }
  destruct (s_parent s) as [p|]; [|exact H1].
  rewrite Hcnt. eapply Inv_sig_eq; [apply attach_common_empty_se|exact H1].
Qed.

Theorem Inv_detach_server c sname : Inv c -> Inv (detach_server c sname).
Proof.
  intros HI. pose proof HI as [T _]. unfold detach_server.
  destruct (get_srv sname (c_servers c)) as [s|] eqn:Es; [|exact HI].
  pose proof (get_srv_In _ _ _ Es) as Hin.
  set (c0 := c <| c_servers ::= del_srv sname |>).
  pose proof (leave_parent_bumped c0 s) as Hb.
  set (c' := match s_parent s with None => c0 | Some p => unhook_server c0 p s end) in *.
  pose proof (bumped_delta _ _ _ _ _ Hb (closed_nodup c _ (tw_sparent _ T _ Hin))) as Hd.
  apply (Inv_delta c c' _ HI Hd); rewrite (proj1 Hb); cbn [c0 c_servers set].
  - intros s' Hin'. exact (tw_server c s' T (In_kdel s_name _ _ _ Hin')).
  - intros n aff. unfold srv_count, cnt_in. rewrite zsum_del_srv, Es.
    unfold Dchain. rewrite (csum_cget aff _ (tw_ckeys _ T _ Hin)).
    change (ancestors c0 (s_parent s)) with (chain (depth_fuel c) (c_buckets c) (s_parent s)).
    destruct (zmem n (chain (depth_fuel c) (c_buckets c) (s_parent s))); lia.
Qed.

Theorem Inv_move_server c sname np :
  (get_srv sname (c_servers c) <> None -> get_bkt np (c_buckets c) <> None) ->
  Inv c -> Inv (move_server c sname np).
Proof.
  intros Hnp HI. pose proof HI as [T _]. unfold move_server.
  destruct (get_srv sname (c_servers c)) as [s|] eqn:Es; [|exact HI].
  pose proof (get_srv_In _ _ _ Es) as Hin.
  destruct (get_bkt np (c_buckets c)) as [nb|] eqn:Enb; [clear Hnp|exfalso; apply Hnp; congruence].
  pose proof (tw_closed _ T _ _ Enb) as Hcl.
  pose proof (leave_parent_bumped c s) as Hb0.
  set (c0 := match s_parent s with None => c | Some p => unhook_server c p s end) in *.
  pose proof (bumped_delta _ _ _ _ _ Hb0 (closed_nodup c _ (tw_sparent _ T _ Hin))) as Hd0.
  set (fp := fun x : server => x <| s_parent := Some np |>).
  set (c1 := c_upd_srv sname fp c0).
  pose proof (attach_common_bumped c1 np sname (s_traits s) (s_counters s) [s_label s] (s_free s)) as Hb1.
  pose proof (bumped_delta _ _ _ _ _ Hb1) as Hd1.
  rewrite (ancestors_bnp c c1 _ (proj1 Hd0)) in Hd1. specialize (Hd1 (closed_nodup c _ Hcl)).
  apply (Inv_upd_srv c _ sname s fp _ HI Es (eq_trans (proj1 Hb1) (f_equal (upd_srv sname fp) (proj1 Hb0)))
           (bdelta_trans _ _ _ _ _ Hd0 Hd1) Hcl (tw_ckeys _ T _ Hin)).
  intros n aff. cbn [fp s_parent s_counters set]. unfold Dchain. rewrite (csum_cget aff _ (tw_ckeys _ T _ Hin)).
  destruct (zmem n (ancestors c (s_parent s))), (zmem n (ancestors c (Some np))); lia.
Qed.

(** ** every event *)
Lemma srv_remove_all_cs c sn : csteps c (srv_remove_all c sn).
Proof. apply asteps_csteps, srv_remove_all_as. Qed.
Lemma srv_set_state_se c n st since : sig_eq c (srv_set_state c n st since).
Proof.
  unfold srv_set_state. destruct (get_srv n (c_servers c)) as [s|]; [|apply sig_eq_refl].
  destruct (sstate_eqb (s_state s) st); [apply sig_eq_refl|].
  set (c1 := c_upd_srv n _ c). apply (sig_eq_trans c c1); [apply sig_eq_upd_srv; reflexivity|].
  destruct st; [apply adjust_up_from_se|apply adjust_down_from_se|apply adjust_down_from_se].
Qed.

(** the events that change the tree; every other event is a sequence of the steps of a cycle *)
Definition topology_op (o : op) : bool :=
  match o with
  | OAddBucket _ _ _ | OAddServer _ _ _ _ _ _ | ORemoveServer _ _ | OMoveServer _ _ => true
  | _ => false
  end.
Theorem step_cs c o : topology_op o = false -> csteps c (step c o).
Proof.
  intros Ht. destruct (srv_event o) eqn:E.
  - destruct o; try discriminate; cbn [step]; apply cs_se.
    + apply srv_set_state_se.
    + apply sig_eq_upd_srv. reflexivity.
    + apply sig_eq_ext; reflexivity.
  - destruct (app_event_ctc c o E) as (c1 & H1 & H2).
    exact (cs_trans _ _ _ (asteps_csteps _ _ H1) (cs_se _ _ (sig_eq_core3 _ _ H2))).
Qed.

(** side conditions, true of what the real system does:
    - a new bucket has a name no bucket has, and is added under an existing bucket
      (Bucket.add_node is called on the parent object);
    - a new server is added under an existing bucket;
    - a server is moved to an existing bucket (servers are leaves, so no cycle can arise). *)
Definition wf_op_cnt (c : cell) (o : op) : Prop :=
  match o with
  | OAddBucket name level parent =>
      get_bkt name (c_buckets c) = None /\ get_bkt parent (c_buckets c) <> None
  | OAddServer name parent cap label traits vu => get_bkt parent (c_buckets c) <> None
  | OMoveServer name p => get_srv name (c_servers c) <> None -> get_bkt p (c_buckets c) <> None
  | _ => True
  end.

Theorem Inv_step c o : wf_op_cnt c o -> Inv c -> Inv (step c o).
Proof.
  intros Hwf HI. destruct (topology_op o) eqn:E; [|exact (Inv_csteps _ _ (step_cs c o E) HI)].
  destruct o; try discriminate E; cbn [step].
  - destruct Hwf as [H1 H2]. apply Inv_add_bucket; assumption.
  - apply Inv_add_server; [reflexivity| |exact HI]. cbn [new_server s_parent]. intros p Hp. inversion Hp; subst. exact Hwf.
  - apply Inv_detach_server. destruct raw; [exact HI|exact (Inv_csteps _ _ (srv_remove_all_cs c name) HI)].
  - apply Inv_move_server; assumption.
Qed.

Fixpoint wf_ops_cnt (c : cell) (ops : list op) : Prop :=
  match ops with [] => True | o :: r => wf_op_cnt c o /\ wf_ops_cnt (step c o) r end.

Theorem Inv_run ops : forall c, wf_ops_cnt c ops -> Inv c -> Inv (run c ops).
Proof. exact (run_inv Inv wf_op_cnt Inv_step ops). Qed.

Lemma Inv_init dim root level : Inv (init_cell dim root level).
Proof.
  split.
  - constructor; cbn [init_cell c_buckets c_servers map b_name length].
    + constructor; [intros []|constructor].
    + intros n b Hb. cbn [get_bkt b_name] in Hb. cbn [closedb get_bkt b_name].
      destruct (Z.eqb root n); [reflexivity|discriminate].
    + intros s [].
    + intros s [].
  - intros n b aff Hb. cbn [init_cell c_buckets get_bkt b_name] in Hb.
    destruct (Z.eqb root n); [|discriminate]. inversion Hb; subst b. reflexivity.
Qed.

(** ** [TreeWf] and [CountExact] separately *)
Theorem TreeWf_step c o : wf_op_cnt c o -> TreeWf c -> CountExact c -> TreeWf (step c o).
Proof. intros Hwf T C. exact (proj1 (Inv_step c o Hwf (conj T C))). Qed.
(** the accounting and server-level invariants [AA] are not needed for the preservation of the counters *)
Theorem CountExact_step c o : wf_op_cnt c o -> TreeWf c -> CountExact c -> CountExact (step c o).
Proof. intros Hwf T C. exact (proj2 (Inv_step c o Hwf (conj T C))). Qed.
Theorem CountExact_run ops c : wf_ops_cnt c ops -> TreeWf c -> CountExact c -> TreeWf (run c ops) /\ CountExact (run c ops).
Proof. intros Hwf T C. exact (Inv_run ops c Hwf (conj T C)). Qed.
Theorem CountExact_init dim root level : TreeWf (init_cell dim root level) /\ CountExact (init_cell dim root level).
Proof. apply Inv_init. Qed.
Theorem CountExact_schedule c ch : TreeWf c -> CountExact c ->
  TreeWf (fst (fst (schedule c ch))) /\ CountExact (fst (fst (schedule c ch))).
Proof. intros T C. exact (Inv_schedule c ch (conj T C)). Qed.

(** boolean side conditions for concrete histories *)
Definition is_some {A} (o : option A) : bool := match o with Some _ => true | None => false end.
Definition wf_op_cntb (c : cell) (o : op) : bool :=
  match o with
  | OAddBucket name level parent => negb (is_some (get_bkt name (c_buckets c))) && is_some (get_bkt parent (c_buckets c))
  | OAddServer name parent cap label traits vu => is_some (get_bkt parent (c_buckets c))
  | OMoveServer name p => negb (is_some (get_srv name (c_servers c))) || is_some (get_bkt p (c_buckets c))
  | _ => true
  end.
Lemma wf_op_cntb_sound c o : wf_op_cntb c o = true -> wf_op_cnt c o.
Proof.
  destruct o; cbn [wf_op_cntb wf_op_cnt]; try (intros; exact I).
  - intros H. apply andb_true_iff in H as [H1 H2]. destruct (get_bkt name (c_buckets c)); [discriminate|].
    destruct (get_bkt parent (c_buckets c)); [|discriminate]. split; [reflexivity|discriminate].
  - intros H. destruct (get_bkt parent (c_buckets c)); [discriminate|discriminate].
  - intros H Hs. destruct (get_srv name (c_servers c)); [|congruence]. destruct (get_bkt newparent (c_buckets c)); [discriminate|discriminate].
Qed.
Fixpoint wf_ops_cntb (c : cell) (ops : list op) : bool :=
  match ops with [] => true | o :: r => wf_op_cntb c o && wf_ops_cntb (step c o) r end.
Lemma wf_ops_cntb_sound ops : forall c, wf_ops_cntb c ops = true -> wf_ops_cnt c ops.
Proof. exact (wf_runb_sound wf_op_cnt wf_op_cntb wf_op_cntb_sound ops). Qed.

(** ** the counters against the instances *)
(** the number of instances of affinity [aff] listed by the servers below bucket [n] *)
Definition listed_below (c : cell) (n aff : Z) : Z :=
  zsum (fun s => if belowb c n s then count_aff (c_apps c) aff (s_apps s) else 0) (c_servers c).

Theorem bucket_counts_listed c b aff : AA c -> TreeWf c -> CountExact c -> In b (c_buckets c) ->
  cget aff (b_counters b) = listed_below c (b_name b) aff.
Proof.
  intros [HA HF] T C Hin. rewrite (C _ _ aff (In_get_bkt _ _ (tw_bnames _ T) Hin)).
  unfold srv_count, cnt_in, listed_below. apply zsum_ext. intros s Hs. unfold belowb, ancestors.
  rewrite (af_exact _ HF _ _ aff (In_get_srv _ _ (ac_srv_names _ HA) Hs)). reflexivity.
Qed.

(** the number of instances of the cell that have affinity [aff] and are placed on a server below bucket [n] *)
Definition on_below (c : cell) (n : Z) (a : app) : bool :=
  match a_server a with
  | Some sn => match get_srv sn (c_servers c) with Some s => belowb c n s | None => false end
  | None => false
  end.
Definition placed_below (c : cell) (n aff : Z) : Z :=
  Z.of_nat (length (filter (fun a => Z.eqb (a_aff a) aff && on_below c n a) (c_apps c))).

Definition ind (b : bool) : Z := if b then 1 else 0.
Lemma len_filter_zsum {A} (p : A -> bool) l : Z.of_nat (length (filter p l)) = zsum (fun x => ind (p x)) l.
Proof.
  induction l as [|x r IH]; cbn [filter zsum]; [reflexivity|]. unfold ind at 1.
  destruct (p x); cbn [length]; rewrite ?Nat2Z.inj_succ, IH; lia.
Qed.
Lemma zsum_add {A} (f g : A -> Z) l : zsum (fun x => f x + g x) l = zsum f l + zsum g l.
Proof. induction l as [|x r IH]; cbn [zsum]; [reflexivity|]. rewrite IH. lia. Qed.
Lemma zsum_swap {A B} (h : A -> B -> Z) l1 l2 :
  zsum (fun x => zsum (fun y => h x y) l2) l1 = zsum (fun y => zsum (fun x => h x y) l1) l2.
Proof.
  induction l1 as [|x r IH]; cbn [zsum].
  - symmetry. apply zsum_zero. reflexivity.
  - rewrite IH, <- zsum_add. reflexivity.
Qed.
Lemma zsum_scale {A} (k : Z) (f : A -> Z) l : zsum (fun x => k * f x) l = k * zsum f l.
Proof. induction l as [|x r IH]; cbn [zsum]; [lia|]. rewrite IH. lia. Qed.
Lemma zsum_pick (g : server -> Z) sn l : NoDup (map s_name l) ->
  zsum (fun s => if Z.eqb (s_name s) sn then g s else 0) l = match get_srv sn l with Some s => g s | None => 0 end.
Proof.
  induction l as [|x t IH]; cbn [map zsum get_srv]; intros Hnd; [reflexivity|].
  inversion Hnd as [|? ? Hni Hnt]; subst. destruct (Z.eqb_spec (s_name x) sn) as [E|E].
  - rewrite zsum_zero; [lia|]. intros y Hy. destruct (Z.eqb_spec (s_name y) sn); [|reflexivity].
    exfalso. apply Hni. rewrite E. replace sn with (s_name y). apply in_map. exact Hy.
  - rewrite IH by exact Hnt. lia.
Qed.

(** the instances a server lists are the instances that name it *)
Lemma count_aff_server c s aff : Acct c -> In s (c_servers c) ->
  count_aff (c_apps c) aff (s_apps s)
  = zsum (fun a => ind (Z.eqb (a_aff a) aff && opt_eqb (a_server a) (Some (s_name s)))) (c_apps c).
Proof.
  intros HA Hin. rewrite <- len_filter_zsum. unfold count_aff. f_equal.
  pose proof (In_get_srv _ _ (ac_srv_names _ HA) Hin) as Hg.
  set (P := fun a => Z.eqb (a_aff a) aff && opt_eqb (a_server a) (Some (s_name s))).
  rewrite <- (map_length a_name (filter P (c_apps c))).
  apply Nat.le_antisymm; apply NoDup_incl_length.
  - apply NoDup_filter. eapply (ac_nodup _ HA); exact Hg.
  - intros m Hm. apply filter_In in Hm as [Hm Haff].
    destruct (ac_listed _ HA _ _ _ Hg Hm) as (a & Ha & Hsv). unfold has_aff in Haff. rewrite Ha in Haff.
    apply in_map_iff. exists a. split; [eapply get_app_name; exact Ha|]. apply filter_In. split; [eapply get_app_In; exact Ha|].
    unfold P. rewrite Haff, Hsv. cbn [opt_eqb andb]. apply Z.eqb_refl.
  - apply NoDup_map_filter. exact (ac_app_names _ HA).
  - intros m Hm. apply in_map_iff in Hm as (a & <- & Ha). apply filter_In in Ha as [Ha HP].
    unfold P in HP. apply andb_true_iff in HP as [Haff Hsv].
    pose proof (In_get_app _ _ (ac_app_names _ HA) Ha) as Hga.
    assert (Hsv' : a_server a = Some (s_name s)).
    { destruct (a_server a) as [k|]; [|discriminate]. cbn [opt_eqb] in Hsv. apply Z.eqb_eq in Hsv. congruence. }
    apply filter_In. split; [eapply (ac_placed _ HA); eassumption|]. unfold has_aff. rewrite Hga. exact Haff.
Qed.

Lemma listed_placed c n aff : Acct c -> listed_below c n aff = placed_below c n aff.
Proof.
  intros HA. unfold listed_below, placed_below. rewrite len_filter_zsum.
  transitivity (zsum (fun s => zsum (fun a => ind (belowb c n s) * ind (Z.eqb (a_aff a) aff && opt_eqb (a_server a) (Some (s_name s))))
                                    (c_apps c)) (c_servers c)).
  { apply zsum_ext. intros s Hs. rewrite zsum_scale, <- (count_aff_server c s aff HA Hs). unfold ind. destruct (belowb c n s); lia. }
  rewrite zsum_swap. apply zsum_ext. intros a _. unfold on_below.
  destruct (Z.eqb (a_aff a) aff); cbn [andb].
  2:{ apply zsum_zero. intros; unfold ind; lia. }
  destruct (a_server a) as [sn|]; cbn [opt_eqb].
  2:{ apply zsum_zero. intros; unfold ind; lia. }
  rewrite (zsum_ext _ (fun s => if Z.eqb (s_name s) sn then ind (belowb c n s) else 0)).
  - rewrite (zsum_pick _ sn _ (ac_srv_names _ HA)). destruct (get_srv sn (c_servers c)); reflexivity.
  - intros s _. rewrite (Z.eqb_sym sn). unfold ind. destruct (Z.eqb (s_name s) sn), (belowb c n s); lia.
Qed.

(** C04, second sentence, above the servers: in every state reachable by events and scheduling cycles, the counter
    a bucket keeps for an affinity is the number of instances of that affinity placed on the servers below it *)
Theorem bucket_counts_exact c b aff : AA c -> TreeWf c -> CountExact c -> In b (c_buckets c) ->
  cget aff (b_counters b) = placed_below c (b_name b) aff.
Proof.
  intros HAA T C Hin. rewrite (bucket_counts_listed c b aff HAA T C Hin). apply listed_placed. exact (proj1 HAA).
Qed.

Theorem bucket_counts_reachable dim root level ops :
  wf_ops_aff (init_cell dim root level) ops -> wf_ops_cnt (init_cell dim root level) ops ->
  let c := run (init_cell dim root level) ops in
  forall b aff, In b (c_buckets c) ->
    cget aff (b_counters b) = placed_below c (b_name b) aff
    /\ cget aff (b_counters b) = srv_count c (b_name b) aff.
Proof.
  intros Ha Hc c b aff Hin.
  pose proof (AA_run ops _ Ha (AA_init dim root level)) as HAA.
  destruct (Inv_run ops _ Hc (Inv_init dim root level)) as [T C]. fold c in HAA, T, C.
  split; [apply bucket_counts_exact; assumption|].
  apply (C _ _ aff). exact (In_get_bkt _ _ (tw_bnames _ T) Hin).
Qed.

(** ** the cell level: every bucket and every server is below the root bucket *)
Lemma srv_bump_shape c c1 c' sn fs p ds sg :
  c_servers c1 = upd_srv sn fs (c_servers c) -> c_buckets c1 = c_buckets c -> (forall x, snp (fs x) = snp x) ->
  bumped c1 c' p ds sg -> shape_eq c c'.
Proof.
  intros Es Eb Hf Hb. apply (shape_eq_trans _ c1); [|exact (bumped_shape _ _ _ _ _ Hb)].
  split; [rewrite Es; apply (map_kupd s_name); exact Hf|rewrite Eb; reflexivity].
Qed.
Lemma cstep_shape c c' : cstep c c' -> shape_eq c c'.
Proof.
  intros [c0 c0' H|c0 sn an l c0' H|c0 sn an].
  - apply sig_eq_shape; exact H.
  - destruct (srv_put_lease_bumped _ _ _ _ _ H) as (s & a & _ & _ & Hb). revert Hb. eapply srv_bump_shape; reflexivity.
  - destruct (srv_remove_bumped c0 sn an) as [->|(s & a & _ & _ & Hb)]; [apply shape_eq_refl|].
    revert Hb. eapply srv_bump_shape; reflexivity.
Qed.
Lemma csteps_shape c c' : csteps c c' -> shape_eq c c'.
Proof. induction 1; [apply cstep_shape; assumption|apply shape_eq_refl|eapply shape_eq_trans; eassumption]. Qed.
(** a scheduling cycle never changes the topology *)
Theorem schedule_shape c ch : shape_eq c (fst (fst (schedule c ch))).
Proof. apply csteps_shape, schedule_cs. Qed.

Record RootedAt (r : Z) (c : cell) : Prop := {
  ra_root : get_bkt r (c_buckets c) <> None;
  ra_bkt : forall n b, get_bkt n (c_buckets c) = Some b -> In r (ancestors c (Some n));
  ra_srv : forall s, In s (c_servers c) -> s_parent s <> None
}.

Lemma RootedAt_shape r c c' : shape_eq c c' -> RootedAt r c -> RootedAt r c'.
Proof.
  intros [Hs Hb] [R1 R2 R3]. constructor.
  - pose proof (get_bkt_bnp _ _ Hb r) as Hg. destruct (get_bkt r (c_buckets c)); [|congruence].
    destruct (get_bkt r (c_buckets c')); [discriminate|contradiction].
  - intros n b' Hb'. pose proof (get_bkt_bnp _ _ Hb n) as Hg. rewrite Hb' in Hg.
    destruct (get_bkt n (c_buckets c)) as [b|] eqn:E; [|contradiction].
    rewrite (ancestors_bnp c c' _ Hb). eapply R2; exact E.
  - intros s' Hin. apply (in_map snp) in Hin. rewrite Hs in Hin. apply in_map_iff in Hin as (s & E & Hin).
    unfold snp in E. injection E as _ Ep. rewrite <- Ep. apply R3. exact Hin.
Qed.
(** the same buckets, and every server still has a parent *)
Lemma RootedAt_servers r c c' : c_buckets c' = c_buckets c ->
  (forall s, In s (c_servers c') -> In s (c_servers c) \/ s_parent s <> None) -> RootedAt r c -> RootedAt r c'.
Proof.
  intros Eb Hs [R1 R2 R3]. constructor; unfold ancestors, depth_fuel; rewrite ?Eb; [exact R1|exact R2|].
  intros s Hin. destruct (Hs s Hin) as [H|H]; [apply R3|]; exact H.
Qed.

Lemma Rooted_add_bucket r c name level parent :
  TreeWf c -> get_bkt name (c_buckets c) = None -> get_bkt parent (c_buckets c) <> None ->
  RootedAt r c -> RootedAt r (add_bucket c name level (Some parent)).
Proof.
  intros T Hfresh Hpar [R1 R2 R3]. unfold add_bucket.
  eapply RootedAt_shape; [apply sig_eq_shape, attach_common_empty_se|].
  set (nb := mkBucket name (Some parent) level [] (vzero (c_dim c)) 0 [] [] [] []).
  set (c1 := c <| c_buckets ::= (fun l => l ++ [nb]) |>).
  assert (Eb : c_buckets c1 = c_buckets c ++ [nb]) by reflexivity.
  destruct (get_bkt parent (c_buckets c)) as [pb|] eqn:Ep; [clear Hpar|congruence].
  constructor.
  - rewrite Eb, get_bkt_snoc. destruct (get_bkt r (c_buckets c)); [discriminate|congruence].
  - intros n b Hb. rewrite Eb, get_bkt_snoc in Hb. destruct (get_bkt n (c_buckets c)) as [b0|] eqn:E.
    + destruct (snoc_walk c nb (Some n) (tw_closed _ T _ _ E)) as [_ Ha]. fold c1 in Ha. rewrite Ha. eapply R2; exact E.
    + destruct (Z.eqb_spec (b_name nb) n) as [En|]; [|discriminate]. cbn [b_name nb] in En. subst n.
      destruct (snoc_walk c nb (Some parent) (tw_closed _ T _ _ Ep)) as [Hc Ha]. fold c1 in Hc, Ha.
      specialize (R2 _ _ Ep). rewrite <- Ha in R2.
      (* the chain of the new bucket is itself followed by the chain of its parent *)
      assert (Hg : get_bkt name (c_buckets c1) = Some nb)
        by (rewrite Eb, get_bkt_snoc, Hfresh; cbn [b_name nb]; rewrite Z.eqb_refl; reflexivity).
      unfold ancestors, depth_fuel in *. cbn [chain]. rewrite Hg. cbn [b_parent nb]. right.
      destruct (closed_mono _ _ _ Hc (S (length (c_buckets c1))) ltac:(lia)) as [_ Hm]. rewrite Hm in R2.
      exact R2.
  - exact R3.
Qed.

Lemma Rooted_step r c o : wf_op_cnt c o -> TreeWf c -> RootedAt r c -> RootedAt r (step c o).
Proof.
  intros Hwf T R. destruct (topology_op o) eqn:E; [|exact (RootedAt_shape _ _ _ (csteps_shape _ _ (step_cs c o E)) R)].
  destruct o; try discriminate E; cbn [step].
  - destruct Hwf as [H1 H2]. apply Rooted_add_bucket; assumption.
  - eapply RootedAt_shape; [exact (bumped_shape _ _ _ _ _ (attach_common_bumped _ _ _ _ _ _ _))|].
    revert R. apply RootedAt_servers; [reflexivity|]. intros s Hin.
    apply in_app_or in Hin as [Hin|[<-|[]]]; [left; exact Hin|right; discriminate].
  - assert (R0 : RootedAt r (if raw then c else srv_remove_all c name)).
    { destruct raw; [exact R|exact (RootedAt_shape _ _ _ (csteps_shape _ _ (srv_remove_all_cs c name)) R)]. }
    revert R0. generalize (if raw then c else srv_remove_all c name). intros c0 R0.
    unfold detach_server. destruct (get_srv name (c_servers c0)) as [s|]; [|exact R0].
    eapply RootedAt_shape; [exact (bumped_shape _ _ _ _ _ (leave_parent_bumped _ s))|].
    revert R0. apply RootedAt_servers; [reflexivity|]. intros s' Hin. left. exact (In_kdel s_name _ _ _ Hin).
  - unfold move_server. destruct (get_srv name (c_servers c)) as [s|]; [|exact R].
    eapply RootedAt_shape; [exact (bumped_shape _ _ _ _ _ (attach_common_bumped _ _ _ _ _ _ _))|].
    apply (RootedAt_shape _ _ _ (bumped_shape _ _ _ _ _ (leave_parent_bumped c s))) in R.
    revert R. apply RootedAt_servers; [reflexivity|]. intros s' Hin.
    apply In_upd_srv_first in Hin as [Hin|(x & _ & ->)]; [left; exact Hin|right; discriminate].
Qed.

Theorem Rooted_run r ops : forall c, wf_ops_cnt c ops -> Inv c -> RootedAt r c -> Inv (run c ops) /\ RootedAt r (run c ops).
Proof.
  intros c Hwf HI R. apply (run_inv (fun c => Inv c /\ RootedAt r c) wf_op_cnt); [|exact Hwf|split; assumption].
  intros c0 o W [I0 R0]. split; [apply Inv_step; assumption|apply Rooted_step; [exact W|exact (proj1 I0)|exact R0]].
Qed.
Lemma Rooted_init dim root level : RootedAt root (init_cell dim root level).
Proof.
  constructor; unfold init_cell; cbn [c_buckets c_servers].
  - cbn [get_bkt b_name]. rewrite Z.eqb_refl. discriminate.
  - intros n b Hb. cbn [get_bkt b_name] in Hb. destruct (Z.eqb_spec root n) as [<-|]; [|discriminate].
    unfold ancestors, depth_fuel. cbn [c_buckets length chain get_bkt b_name]. rewrite Z.eqb_refl. left. reflexivity.
  - intros s [].
Qed.

(** every server of the cell is below the root *)
Lemma rooted_below r c s : TreeWf c -> RootedAt r c -> In s (c_servers c) -> belowb c r s = true.
Proof.
  intros T R Hin. pose proof (ra_srv _ _ R _ Hin) as Hp. pose proof (tw_sparent _ T _ Hin) as Hc.
  unfold belowb. apply zmem_In. destruct (s_parent s) as [p|]; [|congruence].
  destruct (length (c_buckets c)) as [|k] eqn:El; cbn [closedb] in Hc; [discriminate|].
  destruct (get_bkt p (c_buckets c)) as [pb|] eqn:Ep; [|discriminate]. eapply (ra_bkt _ _ R); exact Ep.
Qed.

(** the number of instances of affinity [aff] placed on a server that is a member of the cell *)
Definition placed_in_cell (c : cell) (aff : Z) : Z :=
  Z.of_nat (length (filter (fun a => Z.eqb (a_aff a) aff && match a_server a with Some sn => is_member c sn | None => false end)
                           (c_apps c))).
Lemma placed_below_root r c aff : TreeWf c -> RootedAt r c -> placed_below c r aff = placed_in_cell c aff.
Proof.
  intros T R. unfold placed_below, placed_in_cell. f_equal. f_equal. apply filter_ext. intros a. f_equal.
  unfold on_below, is_member. destruct (a_server a) as [sn|]; [|reflexivity].
  destruct (get_srv sn (c_servers c)) as [s|] eqn:Es; [|reflexivity].
  apply (rooted_below r c s T R). eapply get_srv_In; exact Es.
Qed.

(** the cell: the counter of the root bucket is the number of instances placed on the servers of the cell *)
Theorem root_counts_reachable dim root level ops :
  wf_ops_aff (init_cell dim root level) ops -> wf_ops_cnt (init_cell dim root level) ops ->
  let c := run (init_cell dim root level) ops in
  exists b, get_bkt root (c_buckets c) = Some b /\ forall aff, cget aff (b_counters b) = placed_in_cell c aff.
Proof.
  intros Ha Hc c.
  pose proof (AA_run ops _ Ha (AA_init dim root level)) as HAA.
  destruct (Rooted_run root ops _ Hc (Inv_init dim root level) (Rooted_init dim root level)) as [[T C] R].
  fold c in HAA, T, C, R.
  destruct (get_bkt root (c_buckets c)) as [b|] eqn:Eb; [|exfalso; exact (ra_root _ _ R Eb)].
  exists b. split; [reflexivity|]. intros aff.
  rewrite (bucket_counts_exact c b aff HAA T C (get_bkt_In _ _ _ Eb)), (get_bkt_name _ _ _ Eb).
  apply placed_below_root; assumption.
Qed.

(** ** non-vacuity: two racks (2001, 2002) under the cell root 2000, three servers, seven instances of two affinities
    (3000, 3001) placed by a cycle, then server 1001 moves from rack 2001 to rack 2002, then server 1000 leaves *)
Definition nv_app (n aff o : Z) : app :=
  mkApp n 5 [30;30;30] aff [] 0 0 None None false o None None None None false false false false (-1).
Definition nv_ops1 : list op :=
  [ OAddBucket 2001 3 2000; OAddBucket 2002 3 2000;
    OAddServer 1000 2001 [100;100;100] 4000 0 0; OAddServer 1001 2001 [100;100;100] 4000 0 0;
    OAddServer 1002 2002 [100;100;100] 4000 0 0;
    OAddApp 4000 [] (nv_app 1 3000 1); OAddApp 4000 [] (nv_app 2 3000 2); OAddApp 4000 [] (nv_app 3 3001 3);
    OAddApp 4000 [] (nv_app 4 3000 4); OAddApp 4000 [] (nv_app 5 3001 5); OAddApp 4000 [] (nv_app 6 3001 6);
    OAddApp 4000 [] (nv_app 7 3000 7);
    OSchedule [] ].
Definition nv_ops2 : list op := nv_ops1 ++ [OMoveServer 1001 2002].
Definition nv_ops3 : list op := nv_ops2 ++ [ORemoveServer 1000 true].
Definition nv_init : cell := init_cell 3 2000 1.
(** per bucket: name, stored counters for 3000 and 3001, the sums over the servers below, the instance counts *)
Definition nv_view (c : cell) :=
  (map (fun b => (b_name b, (cget 3000 (b_counters b), cget 3001 (b_counters b)),
                  (srv_count c (b_name b) 3000, srv_count c (b_name b) 3001),
                  (placed_below c (b_name b) 3000, placed_below c (b_name b) 3001))) (c_buckets c),
   map (fun s => (s_name s, s_parent s, s_apps s)) (c_servers c)).

Example nv_side_conditions : wf_ops_affb nv_init nv_ops3 = true.
Proof. vm_compute. reflexivity. Qed.
Example nv_side_conditions_cnt : wf_ops_cntb nv_init nv_ops3 = true.
Proof. vm_compute. reflexivity. Qed.
Example nv_after_cycle :
  nv_view (run nv_init nv_ops1)
  = ([(2000, (4, 3), (4, 3), (4, 3)); (2001, (2, 2), (2, 2), (2, 2)); (2002, (2, 1), (2, 1), (2, 1))],
     [(1000, Some 2001, [1; 3]); (1001, Some 2001, [4; 6]); (1002, Some 2002, [2; 5; 7])]).
Proof. vm_compute. reflexivity. Qed.
Example nv_after_move :
  nv_view (run nv_init nv_ops2)
  = ([(2000, (4, 3), (4, 3), (4, 3)); (2001, (1, 1), (1, 1), (1, 1)); (2002, (3, 2), (3, 2), (3, 2))],
     [(1000, Some 2001, [1; 3]); (1001, Some 2002, [4; 6]); (1002, Some 2002, [2; 5; 7])]).
Proof. vm_compute. reflexivity. Qed.
Example nv_after_remove :
  nv_view (run nv_init nv_ops3)
  = ([(2000, (3, 2), (3, 2), (3, 2)); (2001, (0, 0), (0, 0), (0, 0)); (2002, (3, 2), (3, 2), (3, 2))],
     [(1001, Some 2002, [4; 6]); (1002, Some 2002, [2; 5; 7])]).
Proof. vm_compute. reflexivity. Qed.
(** and the theorem applies to this history *)
Example nv_theorem_applies : forall b aff, In b (c_buckets (run nv_init nv_ops3)) ->
  cget aff (b_counters b) = placed_below (run nv_init nv_ops3) (b_name b) aff.
Proof.
  intros b aff Hin.
  apply (bucket_counts_reachable 3 2000 1 nv_ops3 (wf_ops_affb_sound _ _ nv_side_conditions)
           (wf_ops_cntb_sound _ _ nv_side_conditions_cnt) b aff Hin).
Qed.

Print Assumptions bucket_counts_reachable.
Print Assumptions root_counts_reachable.
Print Assumptions schedule_shape.
Print Assumptions bucket_counts_exact.
Print Assumptions CountExact_run.
Print Assumptions CountExact_step.
Print Assumptions TreeWf_step.
Print Assumptions CountExact_schedule.
Print Assumptions schedule_cs.
Print Assumptions nv_theorem_applies.
Example nv_root_applies :
  exists b, get_bkt 2000 (c_buckets (run nv_init nv_ops3)) = Some b /\
            forall aff, cget aff (b_counters b) = placed_in_cell (run nv_init nv_ops3) aff.
Proof.
  exact (root_counts_reachable 3 2000 1 nv_ops3 (wf_ops_affb_sound _ _ nv_side_conditions)
           (wf_ops_cntb_sound _ _ nv_side_conditions_cnt)).
Qed.
Example nv_root_values :
  (placed_in_cell (run nv_init nv_ops1) 3000, placed_in_cell (run nv_init nv_ops1) 3001,
   placed_in_cell (run nv_init nv_ops3) 3000, placed_in_cell (run nv_init nv_ops3) 3001) = (4, 3, 3, 2).
Proof. vm_compute. reflexivity. Qed.
