(** C02: the premises of the completeness theorem (PutComplete.v) are invariants.
    [AggLocal] is the edge-by-edge form of [AggSound] (every node is covered by its parent bucket); together with
    [TreeWf] and the accounting invariant it is preserved by every operation, and it implies [AggSound]. *)
From Coq Require Import ZArith QArith List Bool Lia.
From RecordUpdate Require Import RecordSet.
From TM Require Import Sched.Vec Sched.Types Sched.Queue Sched.Tree Sched.Cycle Sched.Steps Sched.MapsP Sched.FrameP
                       Sched.Events Sched.EventsP Sched.InvAcct Sched.PutComplete.
Import ListNotations.
Open Scope Z_scope.

(** ** vectors *)
Lemma vle_refl a : vle a a.
Proof. apply Forall2_diag, Z.le_refl. Qed.
Lemma vle_trans a b : vle a b -> forall c, vle b c -> vle a c.
Proof. apply Forall2_rel_trans, Z.le_trans. Qed.
Lemma vle_length a b : vle a b -> length a = length b.
Proof. induction 1; cbn; congruence. Qed.
Lemma vmax_length a b : length b = length a -> length (vmax a b) = length a.
Proof. apply vmap2_length. Qed.
Lemma vle_vmax_l : forall a b, length b = length a -> vle a (vmax a b).
Proof. induction a as [|x a IH]; intros [|y b] H; cbn in *; try discriminate; constructor; [lia|apply IH; lia]. Qed.
Lemma vle_vmax_r : forall a b, length b = length a -> vle b (vmax a b).
Proof. induction a as [|x a IH]; intros [|y b] H; cbn in *; try discriminate; constructor; [lia|apply IH; lia]. Qed.
Lemma vle_vmax_lub : forall a b c, vle a c -> vle b c -> vle (vmax a b) c.
Proof.
  unfold vle. induction a as [|x a IH]; intros b c Ha Hb; inversion Ha; subst; inversion Hb; subst; cbn; constructor.
  - lia.
  - apply IH; assumption.
Qed.
Lemma nonneg_vmax_l : forall a b, nonneg a -> nonneg (vmax a b).
Proof.
  induction a as [|x a IH]; intros [|y b] H; cbn; try constructor; inversion H; subst; [lia|apply IH; assumption].
Qed.
Lemma nonneg_vzero n : nonneg (vzero n).
Proof. unfold vzero. induction n; cbn; constructor; [lia|assumption]. Qed.
Lemma vle_vzero : forall v n, length v = n -> nonneg v -> vle (vzero n) v.
Proof.
  induction v as [|x v IH]; intros n Hl Hn; subst n; cbn; constructor; inversion Hn; subst; [lia|apply IH; auto].
Qed.
Lemma vle_vsub : forall f d, length d = length f -> nonneg d -> vle (vsub f d) f.
Proof.
  induction f as [|x f IH]; intros [|y d] Hl Hn; cbn in *; try discriminate; constructor; inversion Hn; subst;
    [lia|apply IH; [lia|assumption]].
Qed.

(** ** trait masks *)
Lemma has_traits_lor_l a w t : has_traits a t = true -> has_traits (Z.lor a w) t = true.
Proof.
  unfold has_traits. rewrite !Z.eqb_eq. intros H. apply Z.bits_inj'. intros i Hi.
  pose proof (f_equal (fun z => Z.testbit z i) H) as Hb. cbn beta in Hb. rewrite Z.land_spec in Hb.
  rewrite Z.land_spec, Z.lor_spec.
  destruct (Z.testbit a i), (Z.testbit t i), (Z.testbit w i); cbn in *; congruence.
Qed.
Lemma has_traits_lor_r a v : has_traits (Z.lor a v) v = true.
Proof.
  unfold has_traits. rewrite Z.eqb_eq. apply Z.bits_inj'. intros i Hi. rewrite Z.land_spec, Z.lor_spec.
  destruct (Z.testbit a i), (Z.testbit v i); reflexivity.
Qed.
Lemma fold_traits_mono m : forall init t, has_traits init t = true ->
  has_traits (fold_left (fun acc (kv : Z * Z) => Z.lor acc (snd kv)) m init) t = true.
Proof. induction m as [|kv r IH]; intros init t H; cbn; [exact H|]. apply IH. apply has_traits_lor_l. exact H. Qed.
Lemma fold_traits_entry m : forall init n t, aget n m = Some t ->
  has_traits (fold_left (fun acc (kv : Z * Z) => Z.lor acc (snd kv)) m init) t = true.
Proof.
  induction m as [|[k v] r IH]; intros init n t; cbn; [discriminate|].
  destruct (Z.eqb k n).
  - intros H; inversion H; subst. apply fold_traits_mono. apply has_traits_lor_r.
  - apply IH.
Qed.
Lemma bkt_traits_entry b n t : aget n (b_child_traits b) = Some t -> has_traits (bkt_traits b) t = true.
Proof. apply fold_traits_entry. Qed.

(** ** labels *)
Lemma zadd_set_incl l acc : incl acc (zadd_set l acc) /\ In l (zadd_set l acc).
Proof.
  unfold zadd_set. destruct (zmem l acc) eqn:E.
  - split; [apply incl_refl|apply zmem_In; exact E].
  - split; [apply incl_appl, incl_refl|apply in_or_app; right; left; reflexivity].
Qed.
Lemma union_labels_incl add : forall have, incl have (union_labels have add) /\ incl add (union_labels have add).
Proof.
  unfold union_labels. induction add as [|l r IH]; intros have; cbn.
  - split; [apply incl_refl|intros x []].
  - destruct (IH (zadd_set l have)) as [H1 H2]. destruct (zadd_set_incl l have) as [H3 H4]. split.
    + eapply incl_tran; eassumption.
    + intros x [<-|Hx]; [apply H1; exact H4|apply H2; exact Hx].
Qed.

(** ** buckets that agree on a projection *)
Definition same_on {T} (proj : bucket -> T) (b b' : bucket) : Prop := b_name b' = b_name b /\ proj b' = proj b.
Lemma same_on_name {T} (proj : bucket -> T) b b' : same_on proj b b' -> b_name b' = b_name b.
Proof. intros H; apply H. Qed.
Lemma same_on_refl {T} (proj : bucket -> T) b : same_on proj b b.
Proof. split; reflexivity. Qed.
Lemma same_on_trans {T} (proj : bucket -> T) a b c : same_on proj a b -> same_on proj b c -> same_on proj a c.
Proof. intros [H1 H2] [H3 H4]. split; congruence. Qed.

Definition bkts_same {T} (proj : bucket -> T) (c c' : cell) : Prop :=
  Forall2 (same_on proj) (c_buckets c) (c_buckets c').
Lemma bkts_same_refl {T} (proj : bucket -> T) c : bkts_same proj c c.
Proof. apply Forall2_diag, same_on_refl. Qed.
Lemma bkts_same_eq {T} (proj : bucket -> T) c c' : c_buckets c' = c_buckets c -> bkts_same proj c c'.
Proof. intros E. unfold bkts_same. rewrite E. apply Forall2_diag, same_on_refl. Qed.
Lemma bkts_same_trans {T} (proj : bucket -> T) a b c : bkts_same proj a b -> bkts_same proj b c -> bkts_same proj a c.
Proof. intros H1 H2. eapply Forall2_rel_trans; [apply same_on_trans|exact H1|exact H2]. Qed.
Lemma bkts_same_upd {T} (proj : bucket -> T) n f c :
  (forall x, b_name (f x) = b_name x) -> (forall x, proj (f x) = proj x) -> bkts_same proj c (c_upd_bkt n f c).
Proof.
  intros H1 H2. unfold bkts_same, c_upd_bkt. cbn [c_buckets set].
  apply (Forall2_kupd b_name); [apply same_on_refl|]. intros x. split; auto.
Qed.
Lemma bkts_same_get {T} (proj : bucket -> T) c c' : bkts_same proj c c' ->
  bkts_rel (same_on proj) (c_buckets c) (c_buckets c').
Proof. apply get_bkt_rel, same_on_name. Qed.
Lemma bkts_same_fwd {T} (proj : bucket -> T) c c' m b : bkts_same proj c c' -> get_bkt m (c_buckets c) = Some b ->
  exists b', get_bkt m (c_buckets c') = Some b' /\ proj b' = proj b.
Proof. intros H Hb. destruct (bkts_rel_fwd _ _ _ _ _ (bkts_same_get proj c c' H) Hb) as (b' & Hb' & _ & E). eauto. Qed.
Lemma bkts_same_bwd {T} (proj : bucket -> T) c c' m b' : bkts_same proj c c' -> get_bkt m (c_buckets c') = Some b' ->
  exists b, get_bkt m (c_buckets c) = Some b /\ proj b' = proj b.
Proof. intros H Hb. destruct (bkts_rel_bwd _ _ _ _ _ (bkts_same_get proj c c' H) Hb) as (b & Hb0 & _ & E). eauto. Qed.
Lemma bkts_same_none {T} (proj : bucket -> T) c c' m : bkts_same proj c c' ->
  get_bkt m (c_buckets c) = None -> get_bkt m (c_buckets c') = None.
Proof. intros H. exact (bkts_rel_none _ _ _ m (bkts_same_get proj c c' H)). Qed.
Lemma bkts_same_length {T} (proj : bucket -> T) c c' : bkts_same proj c c' -> length (c_buckets c') = length (c_buckets c).
Proof. unfold bkts_same. induction 1; cbn; congruence. Qed.
Lemma bkts_same_map {T} (proj : bucket -> T) c c' : bkts_same proj c c' -> map proj (c_buckets c') = map proj (c_buckets c).
Proof. unfold bkts_same. induction 1 as [|a b l l' [_ H] _ IH]; cbn [map]; [|rewrite IH, H]; reflexivity. Qed.
Lemma bkts_same_weaken {T U} (proj : bucket -> T) (g : T -> U) c c' :
  bkts_same proj c c' -> bkts_same (fun b => g (proj b)) c c'.
Proof.
  unfold bkts_same. induction 1 as [|a b l l' [H1 H2] Hl IH]; constructor; [|exact IH].
  split; [exact H1|]. rewrite H2. reflexivity.
Qed.

(** what each upward walk leaves alone *)
Section Walks.
  Context {T : Type} (proj : bucket -> T).

  Lemma propagate_traits_same : (forall x v, proj (x <| b_child_traits := v |>) = proj x) ->
    forall fuel c n, bkts_same proj c (propagate_traits fuel c n).
  Proof.
    intros Hp. induction fuel as [|f IH]; intros c n; cbn [propagate_traits]; [apply bkts_same_refl|].
    destruct (get_bkt n (c_buckets c)) as [b|]; [|apply bkts_same_refl].
    destruct (b_parent b) as [p|]; [|apply bkts_same_refl].
    eapply bkts_same_trans; [|apply IH]. apply bkts_same_upd; [reflexivity|]. intros x. apply Hp.
  Qed.
  Lemma add_labels_same : (forall x v, proj (x <| b_labels := v |>) = proj x) ->
    forall fuel c n ls, bkts_same proj c (add_labels fuel c n ls).
  Proof.
    intros Hp. induction fuel as [|f IH]; intros c n ls; cbn [add_labels]; [apply bkts_same_refl|].
    destruct (get_bkt n (c_buckets c)) as [b|]; [|apply bkts_same_refl].
    (* one bucket is updated; with a parent, the walk goes on from the updated cell *)
    destruct (b_parent b) as [p|]; [eapply bkts_same_trans; [|apply IH]|]; apply bkts_same_upd; auto.
  Qed.
  Lemma bump_affinity_same : (forall x v, proj (x <| b_counters := v |>) = proj x) ->
    forall fuel c n ds sg, bkts_same proj c (bump_affinity fuel c n ds sg).
  Proof.
    intros Hp. induction fuel as [|f IH]; intros c n ds sg; cbn [bump_affinity]; [apply bkts_same_refl|].
    destruct (get_bkt n (c_buckets c)) as [b|]; [|apply bkts_same_refl].
    destruct (b_parent b) as [p|]; [eapply bkts_same_trans; [|apply IH]|]; apply bkts_same_upd;
      (reflexivity || intros x; apply Hp).
  Qed.
  Lemma bump_from_same : (forall x v, proj (x <| b_counters := v |>) = proj x) ->
    forall c p ds sg, bkts_same proj c (bump_from c p ds sg).
  Proof. intros Hp c [p|] ds sg; cbn [bump_from]; [apply bump_affinity_same; exact Hp|apply bkts_same_refl]. Qed.
  Lemma adjust_up_same : (forall x v, proj (x <| b_free := v |>) = proj x) ->
    forall fuel c n v, bkts_same proj c (adjust_up fuel c n v).
  Proof.
    intros Hp. induction fuel as [|f IH]; intros c n v; cbn [adjust_up]; [apply bkts_same_refl|].
    destruct (get_bkt n (c_buckets c)) as [b|]; [|apply bkts_same_refl].
    destruct (b_parent b) as [p|]; [eapply bkts_same_trans; [|apply IH]|]; apply bkts_same_upd; auto.
  Qed.
  Lemma adjust_down_same : (forall x v, proj (x <| b_free := v |>) = proj x) ->
    forall fuel c n pv, bkts_same proj c (adjust_down fuel c n pv).
  Proof.
    intros Hp. induction fuel as [|f IH]; intros c n pv; cbn [adjust_down]; [apply bkts_same_refl|].
    destruct (get_bkt n (c_buckets c)) as [b|]; [|apply bkts_same_refl].
    destruct (live_children (b_children b)) as [|k ks].
    - destruct (b_parent b) as [p|]; [eapply bkts_same_trans; [|apply IH]|]; apply bkts_same_upd; auto.
    - destruct (match pv with Some v => all_lt v (b_free b) | None => false end); [apply bkts_same_refl|].
      destruct (any_lt _ _); [|apply bkts_same_refl].
      destruct (b_parent b) as [p|]; [eapply bkts_same_trans; [|apply IH]|]; apply bkts_same_upd; auto.
  Qed.
  Lemma set_cursor_same : (forall x v, proj (x <| b_cursors := v |>) = proj x) ->
    forall c n aff i, bkts_same proj c (set_cursor c n aff i).
  Proof. intros Hp c n aff i. apply bkts_same_upd; [reflexivity|intros x; apply Hp]. Qed.
End Walks.

(** ** projections *)
Definition pskel (b : bucket) := (b_parent b, b_children b).
Definition pfree (b : bucket) := (b_parent b, b_free b).
Definition plab (b : bucket) := (b_parent b, b_labels b).
Definition ptr (b : bucket) := (b_parent b, b_self_traits b, b_child_traits b).

Lemma bkts_same_names {T} (proj : bucket -> T) c c' : bkts_same proj c c' -> map b_name (c_buckets c') = map b_name (c_buckets c).
Proof. apply (Forall2_keys b_name). intros a b H. symmetry. apply H. Qed.

(** ** parent chains *)
Lemma up_ok_same c c' : bkts_same pskel c c' -> forall k n, up_ok k c' n = up_ok k c n.
Proof.
  intros H. induction k as [|k IH]; intros n; cbn [up_ok]; [reflexivity|].
  pose proof (bkts_same_get pskel c c' H n) as G.
  destruct (get_bkt n (c_buckets c)) as [b|], (get_bkt n (c_buckets c')) as [b'|]; try contradiction; [|reflexivity].
  destruct G as [_ G]. inversion G as [[G1 G2]]. rewrite G1. destruct (b_parent b); [apply IH|reflexivity].
Qed.
Lemma up_ok_mono c : forall k n, up_ok k c n = true -> up_ok (S k) c n = true.
Proof.
  induction k as [|k IH]; intros n; [discriminate|]. cbn [up_ok] in *.
  destruct (get_bkt n (c_buckets c)) as [b|]; [|discriminate]. destruct (b_parent b) as [p|]; [|reflexivity].
  intros H. apply IH in H. exact H.
Qed.
Lemma up_ok_no_self c : forall k n b, up_ok k c n = true -> get_bkt n (c_buckets c) = Some b -> b_parent b <> Some n.
Proof.
  induction k as [|k IH]; intros n b; [discriminate|]. cbn [up_ok]. intros H Hb Hp. rewrite Hb, Hp in H.
  exact (IH n b H Hb Hp).
Qed.
Lemma up_ok_parent c k n b p : up_ok (S k) c n = true -> get_bkt n (c_buckets c) = Some b -> b_parent b = Some p ->
  up_ok k c p = true.
Proof. cbn [up_ok]. intros H Hb Hp. rewrite Hb, Hp in H. exact H. Qed.
Lemma up_ok_bkt c k n : up_ok k c n = true -> exists b, get_bkt n (c_buckets c) = Some b.
Proof. destruct k; cbn; [discriminate|]. destruct (get_bkt n (c_buckets c)); [eauto|discriminate]. Qed.

Lemma TreeWf_fuel c n b : TreeWf c -> get_bkt n (c_buckets c) = Some b -> up_ok (depth_fuel c) c n = true.
Proof. intros W Hb. unfold depth_fuel. apply up_ok_mono. eapply tw_depth; eassumption. Qed.
Lemma TreeWf_no_self c n b : TreeWf c -> get_bkt n (c_buckets c) = Some b -> b_parent b <> Some n.
Proof. intros W Hb. eapply up_ok_no_self; [eapply tw_depth; eassumption|exact Hb]. Qed.

(** ** the tree only reads names, parents and children *)
Definition srv_skel (c c' : cell) : Prop :=
  forall m, match get_srv m (c_servers c), get_srv m (c_servers c') with
            | Some s, Some s' => s_parent s' = s_parent s
            | None, None => True
            | _, _ => False
            end.
Lemma srv_skel_eq c c' : c_servers c' = c_servers c -> srv_skel c c'.
Proof. intros E m. rewrite E. destruct (get_srv m (c_servers c)); reflexivity. Qed.
Lemma srv_skel_upd c n f : (forall x, s_name (f x) = s_name x) -> (forall x, s_parent (f x) = s_parent x) ->
  srv_skel c (c_upd_srv n f c).
Proof.
  intros H1 H2 m. unfold c_upd_srv. cbn [c_servers set]. destruct (Z.eq_dec m n) as [->|Hne].
  - destruct (get_srv n (c_servers c)) as [s|] eqn:E.
    + rewrite (get_upd_srv_same _ _ _ _ H1 E). apply H2.
    + rewrite (kupd_none s_name _ _ _ E), E. exact I.
  - rewrite get_upd_srv_other by assumption. destruct (get_srv m (c_servers c)); reflexivity.
Qed.
Lemma srv_skel_fwd c c' m s : srv_skel c c' -> get_srv m (c_servers c) = Some s ->
  exists s', get_srv m (c_servers c') = Some s' /\ s_parent s' = s_parent s.
Proof. intros H Hs. specialize (H m). rewrite Hs in H. destruct (get_srv m (c_servers c')); [eauto|contradiction]. Qed.
Lemma srv_skel_bwd c c' m s' : srv_skel c c' -> get_srv m (c_servers c') = Some s' ->
  exists s, get_srv m (c_servers c) = Some s /\ s_parent s' = s_parent s.
Proof. intros H Hs. specialize (H m). rewrite Hs in H. destruct (get_srv m (c_servers c)); [eauto|contradiction]. Qed.
Lemma srv_skel_none c c' m : srv_skel c c' -> get_srv m (c_servers c) = None -> get_srv m (c_servers c') = None.
Proof. intros H Hs. specialize (H m). rewrite Hs in H. destruct (get_srv m (c_servers c')); [contradiction|reflexivity]. Qed.

Lemma TreeWf_skel c c' : srv_skel c c' -> bkts_same pskel c c' -> TreeWf c -> TreeWf c'.
Proof.
  intros HS HB W. constructor.
  - rewrite (bkts_same_names _ _ _ HB). apply (tw_bnames _ W).
  - intros n s' Hs'. destruct (srv_skel_bwd _ _ _ _ HS Hs') as (s & Hs & _).
    eapply bkts_same_none; [exact HB|]. eapply tw_disj; eassumption.
  - intros p b' m Hb' Hin. destruct (bkts_same_bwd _ _ _ _ _ HB Hb') as (b & Hb & E). inversion E as [[E1 E2]].
    rewrite E2 in Hin. destruct (tw_child _ W _ _ _ Hb Hin) as [(s & Hs & Hp)|(b0 & Hb0 & Hp)].
    + left. destruct (srv_skel_fwd _ _ _ _ HS Hs) as (s' & Hs' & Ep). exists s'. split; [exact Hs'|congruence].
    + right. destruct (bkts_same_fwd _ _ _ _ _ HB Hb0) as (b0' & Hb0' & E0). inversion E0 as [[E3 E4]].
      exists b0'. split; [exact Hb0'|congruence].
  - intros n s' p Hs' Hp. destruct (srv_skel_bwd _ _ _ _ HS Hs') as (s & Hs & Ep). rewrite Ep in Hp.
    destruct (tw_sparent _ W _ _ _ Hs Hp) as (b & Hb & Hin).
    destruct (bkts_same_fwd _ _ _ _ _ HB Hb) as (b' & Hb' & E). inversion E as [[E1 E2]].
    exists b'. split; [exact Hb'|rewrite E2; exact Hin].
  - intros n b0' p Hb0' Hp. destruct (bkts_same_bwd _ _ _ _ _ HB Hb0') as (b0 & Hb0 & E0). inversion E0 as [[E3 E4]].
    rewrite E3 in Hp. destruct (tw_bparent _ W _ _ _ Hb0 Hp) as (b & Hb & Hin).
    destruct (bkts_same_fwd _ _ _ _ _ HB Hb) as (b' & Hb' & E). inversion E as [[E1 E2]].
    exists b'. split; [exact Hb'|rewrite E2; exact Hin].
  - intros n b' Hb'. destruct (bkts_same_bwd _ _ _ _ _ HB Hb') as (b & Hb & _).
    rewrite (bkts_same_length _ _ _ HB), (up_ok_same _ _ HB). eapply tw_depth; eassumption.
Qed.

(** ** what a node shows to its parent *)
Record nview := mkView { nv_parent : option Z; nv_free : option vec; nv_labels : list Z; nv_traits : Z }.
Definition bview (b : bucket) : nview := mkView (b_parent b) (Some (b_free b)) (b_labels b) (bkt_traits b).
Definition sview (s : server) : nview :=
  mkView (s_parent s) (match s_state s with Up => Some (s_free s) | _ => None end) [s_label s] (s_traits s).
Definition view (c : cell) (m : Z) : option nview :=
  match get_srv m (c_servers c) with
  | Some s => Some (sview s)
  | None => option_map bview (get_bkt m (c_buckets c))
  end.

Definition SDims (c : cell) : Prop := forall n s, get_srv n (c_servers c) = Some s -> length (s_free s) = c_dim c.
Definition BDims (c : cell) : Prop :=
  forall n b, get_bkt n (c_buckets c) = Some b -> length (b_free b) = c_dim c /\ nonneg (b_free b).

(** the optional argument names a bucket whose own update is still pending *)
Definition FreeEdges (c : cell) (exc : option (Z * vec)) : Prop :=
  forall m w p b f, view c m = Some w -> nv_parent w = Some p -> get_bkt p (c_buckets c) = Some b ->
    nv_free w = Some f ->
    vle f (match exc with
           | Some (n, v) => if Z.eqb p n then vmax (b_free b) v else b_free b
           | None => b_free b
           end).
Definition LabelEdges (c : cell) (exc : option (Z * list Z)) : Prop :=
  forall m w p b, view c m = Some w -> nv_parent w = Some p -> get_bkt p (c_buckets c) = Some b ->
    incl (nv_labels w) (match exc with
                        | Some (n, L) => if Z.eqb p n then union_labels (b_labels b) L else b_labels b
                        | None => b_labels b
                        end).
(** here the exception is the child whose entry in its parent is stale *)
Definition TraitEdges (c : cell) (exc : option Z) : Prop :=
  forall m w p b, view c m = Some w -> nv_parent w = Some p -> get_bkt p (c_buckets c) = Some b ->
    exc <> Some m ->
    exists t, aget m (b_child_traits b) = Some t /\ has_traits t (nv_traits w) = true.

Definition AggLocal (c : cell) : Prop :=
  BDims c /\ FreeEdges c None /\ LabelEdges c None /\ TraitEdges c None.

(** ** the local form implies the statement about whole chains *)
Lemma view_srv c n s : get_srv n (c_servers c) = Some s -> view c n = Some (sview s).
Proof. unfold view. intros ->. reflexivity. Qed.
Lemma view_bkt c n b : TreeWf c -> get_bkt n (c_buckets c) = Some b -> view c n = Some (bview b).
Proof.
  intros W Hb. unfold view. destruct (get_srv n (c_servers c)) as [s|] eqn:Es; [|rewrite Hb; reflexivity].
  rewrite (tw_disj _ W _ _ Es) in Hb. discriminate.
Qed.
Lemma view_inv c m w : view c m = Some w ->
  (exists s, get_srv m (c_servers c) = Some s /\ w = sview s) \/
  (get_srv m (c_servers c) = None /\ exists b, get_bkt m (c_buckets c) = Some b /\ w = bview b).
Proof.
  unfold view. destruct (get_srv m (c_servers c)) as [s|].
  - intros H; inversion H. left. eauto.
  - destruct (get_bkt m (c_buckets c)) as [b|]; cbn; [|discriminate]. intros H; inversion H. right. eauto.
Qed.

(** every bucket above a node covers what the node shows: one edge, then the chain by transitivity *)
Lemma anc_cover c : TreeWf c -> AggLocal c -> forall start b, anc c start b ->
  forall m w, view c m = Some w -> nv_parent w = start ->
    (forall f, nv_free w = Some f -> vle f (b_free b)) /\ incl (nv_labels w) (b_labels b) /\
    has_traits (bkt_traits b) (nv_traits w) = true.
Proof.
  intros W (_ & HF & HL & HT).
  assert (Hedge : forall m w p b, view c m = Some w -> nv_parent w = Some p -> get_bkt p (c_buckets c) = Some b ->
            (forall f, nv_free w = Some f -> vle f (b_free b)) /\ incl (nv_labels w) (b_labels b) /\
            has_traits (bkt_traits b) (nv_traits w) = true).
  { intros m w p b Hv Hp Hb. split; [intros f Hf; exact (HF m w p b f Hv Hp Hb Hf)|]. split; [exact (HL m w p b Hv Hp Hb)|].
    destruct (HT m w p b Hv Hp Hb) as (t & Ht & Htt); [discriminate|].
    eapply has_traits_trans; [eapply bkt_traits_entry; exact Ht|exact Htt]. }
  induction 1 as [p b Hg|p b0 b Hg Ha IH]; intros m w Hv Hp; [exact (Hedge m w p b Hv Hp Hg)|].
  destruct (Hedge m w p b0 Hv Hp Hg) as (E1 & E2 & E3).
  destruct (IH p (bview b0) (view_bkt _ _ _ W Hg) eq_refl) as (I1 & I2 & I3).
  split; [intros f Hf; eapply vle_trans; [exact (E1 f Hf)|exact (I1 _ eq_refl)]|].
  split; [eapply incl_tran; eassumption|eapply has_traits_trans; eassumption].
Qed.

Theorem AggLocal_sound c : TreeWf c -> AggLocal c -> AggSound c.
Proof.
  intros W HA n s b Hs Hup Hanc.
  destruct (anc_cover c W HA _ _ Hanc n (sview s) (view_srv _ _ _ Hs) eq_refl) as (H1 & H2 & H3).
  split; [apply H1; cbn; rewrite Hup; reflexivity|]. split; [apply H2; left; reflexivity|exact H3].
Qed.
(** ** one bucket updated *)
Lemma get_bkt_upd_same c n g b : (forall x, b_name (g x) = b_name x) -> get_bkt n (c_buckets c) = Some b ->
  get_bkt n (c_buckets (c_upd_bkt n g c)) = Some (g b).
Proof. exact (get_upd_bkt_same n g (c_buckets c) b). Qed.
Lemma get_bkt_upd_other c n g m : (forall x, b_name (g x) = b_name x) -> m <> n ->
  get_bkt m (c_buckets (c_upd_bkt n g c)) = get_bkt m (c_buckets c).
Proof. exact (get_upd_bkt_other n m g (c_buckets c)). Qed.
Lemma view_upd_other c n g m : (forall x, b_name (g x) = b_name x) -> m <> n -> view (c_upd_bkt n g c) m = view c m.
Proof. intros Hg Hne. unfold view. rewrite get_bkt_upd_other by assumption. reflexivity. Qed.
Lemma TreeWf_upd_bkt c n g : (forall x, b_name (g x) = b_name x) -> (forall x, pskel (g x) = pskel x) ->
  TreeWf c -> TreeWf (c_upd_bkt n g c).
Proof. intros H1 H2. apply TreeWf_skel; [apply srv_skel_eq; reflexivity|apply bkts_same_upd; assumption]. Qed.
Lemma BDims_upd_bkt c n g : (forall x, b_name (g x) = b_name x) -> BDims c ->
  (forall b, get_bkt n (c_buckets c) = Some b -> length (b_free (g b)) = c_dim c /\ nonneg (b_free (g b))) ->
  BDims (c_upd_bkt n g c).
Proof.
  intros Hg HD H m bm Hm.
  destruct (get_upd_bkt_inv n m g (c_buckets c) bm Hg Hm) as [(_ & b & Hb & ->)|(_ & Hm')]; [exact (H b Hb)|exact (HD _ _ Hm')].
Qed.

Lemma view_parent_bkt c m w p : TreeWf c -> view c m = Some w -> nv_parent w = Some p ->
  exists b, get_bkt p (c_buckets c) = Some b /\ In (Some m) (b_children b).
Proof.
  intros W Hv Hp. destruct (view_inv _ _ _ Hv) as [(s & Hs & ->)|(_ & b0 & Hb0 & ->)].
  - eapply tw_sparent; eassumption.
  - eapply tw_bparent; eassumption.
Qed.

Lemma listed_view c p b m : TreeWf c -> get_bkt p (c_buckets c) = Some b -> In (Some m) (b_children b) ->
  exists w, view c m = Some w /\ nv_parent w = Some p.
Proof.
  intros W Hb Hin. destruct (tw_child _ W _ _ _ Hb Hin) as [(s & Hs & Hp)|(b' & Hb' & Hp)].
  - exists (sview s). split; [apply view_srv; exact Hs|exact Hp].
  - exists (bview b'). split; [apply view_bkt; assumption|exact Hp].
Qed.

(** After bucket [n] changed in a field the tree does not read, an edge [m -> p] of the new cell is the edge above
    [n], an edge into [n], or an edge of the old cell. *)
Lemma upd_edge_cases c n g b m w p bp :
  (forall x, b_name (g x) = b_name x) -> (forall x, pskel (g x) = pskel x) -> TreeWf c ->
  get_bkt n (c_buckets c) = Some b ->
  view (c_upd_bkt n g c) m = Some w -> nv_parent w = Some p -> get_bkt p (c_buckets (c_upd_bkt n g c)) = Some bp ->
  (m = n /\ w = bview (g b) /\ p <> n /\ get_bkt p (c_buckets c) = Some bp) \/
  (m <> n /\ view c m = Some w /\ p = n /\ bp = g b) \/
  (m <> n /\ view c m = Some w /\ p <> n /\ get_bkt p (c_buckets c) = Some bp).
Proof.
  intros Hg Hsk W Hb Hv Hp Hbp. pose proof (get_bkt_upd_same c n g b Hg Hb) as Hb1.
  destruct (Z.eq_dec m n) as [->|Hmn].
  - left. rewrite (view_bkt _ _ _ (TreeWf_upd_bkt c n g Hg Hsk W) Hb1) in Hv. injection Hv as <-.
    assert (Hpn : p <> n).
    { intros ->. pose proof (Hsk b) as E. unfold pskel in E. injection E as E _. cbn [nv_parent bview] in Hp.
      rewrite E in Hp. exact (TreeWf_no_self c n b W Hb Hp). }
    rewrite get_bkt_upd_other in Hbp by assumption. auto.
  - right. rewrite view_upd_other in Hv by assumption. destruct (Z.eq_dec p n) as [->|Hpn].
    + left. rewrite Hb1 in Hbp. injection Hbp as <-. auto.
    + right. rewrite get_bkt_upd_other in Hbp by assumption. auto.
Qed.

(** ** frames: what the edges read *)
Lemma view_frame {T U} (proj : bucket -> T) (obs : nview -> U) (h : T -> U) c c' m w' :
  (forall b, obs (bview b) = h (proj b)) ->
  c_servers c' = c_servers c -> bkts_same proj c c' -> view c' m = Some w' ->
  exists w, view c m = Some w /\ obs w' = obs w.
Proof.
  intros Hobs Hs HB. unfold view. rewrite Hs. destruct (get_srv m (c_servers c)) as [s|]; [eauto|].
  destruct (get_bkt m (c_buckets c')) as [b'|] eqn:E; cbn; [|discriminate]. intros H; injection H as <-.
  destruct (bkts_same_bwd _ _ _ _ _ HB E) as (b & -> & Eq). exists (bview b). split; [reflexivity|].
  rewrite !Hobs, Eq. reflexivity.
Qed.

Lemma Free_frame c c' exc : c_dim c' = c_dim c -> c_servers c' = c_servers c -> bkts_same pfree c c' ->
  BDims c -> FreeEdges c exc -> BDims c' /\ FreeEdges c' exc.
Proof.
  intros Hd Hs HB HD HE. split.
  - intros n b' Hb'. destruct (bkts_same_bwd _ _ _ _ _ HB Hb') as (b & Hb & E). injection E as _ E.
    rewrite E, Hd. eapply HD; exact Hb.
  - intros m w' p b' f Hv Hp Hb' Hf.
    destruct (view_frame pfree (fun w => (nv_parent w, nv_free w)) (fun x => (fst x, Some (snd x))) c c' m w'
                (fun b => eq_refl) Hs HB Hv) as (w & Hw & E). injection E as E1 E2.
    destruct (bkts_same_bwd _ _ _ _ _ HB Hb') as (b & Hb & Eb). injection Eb as _ Eb. rewrite Eb.
    apply (HE m w p b f Hw); [congruence|exact Hb|congruence].
Qed.
Lemma Label_frame c c' exc : c_servers c' = c_servers c -> bkts_same plab c c' -> LabelEdges c exc -> LabelEdges c' exc.
Proof.
  intros Hs HB HE m w' p b' Hv Hp Hb'.
  destruct (view_frame plab (fun w => (nv_parent w, nv_labels w)) (fun x => x) c c' m w' (fun b => eq_refl) Hs HB Hv)
    as (w & Hw & E). injection E as E1 E2.
  destruct (bkts_same_bwd _ _ _ _ _ HB Hb') as (b & Hb & Eb). injection Eb as _ Eb. rewrite E2, Eb.
  apply (HE m w p b Hw); [congruence|exact Hb].
Qed.
Lemma Trait_frame c c' exc : c_servers c' = c_servers c -> bkts_same ptr c c' -> TraitEdges c exc -> TraitEdges c' exc.
Proof.
  intros Hs HB HE m w' p b' Hv Hp Hb' Hx.
  destruct (view_frame ptr (fun w => (nv_parent w, nv_traits w))
              (fun x => (fst (fst x), fold_left (fun acc (kv : Z * Z) => Z.lor acc (snd kv)) (snd x) (snd (fst x))))
              c c' m w' (fun b => eq_refl) Hs HB Hv) as (w & Hw & E). injection E as E1 E2.
  destruct (bkts_same_bwd _ _ _ _ _ HB Hb') as (b & Hb & Eb). injection Eb as _ _ Eb. rewrite E2, Eb.
  apply (HE m w p b Hw); [congruence|exact Hb|exact Hx].
Qed.

(** an edge that holds against the stored value holds against the value a pending update will store *)
Lemma FreeEdges_weaken c n v : BDims c -> length v = c_dim c -> FreeEdges c None -> FreeEdges c (Some (n, v)).
Proof.
  intros HD Hv HE m w p b f Hvw Hp Hb Hf. pose proof (HE m w p b f Hvw Hp Hb Hf) as H. cbv beta iota in H.
  destruct (Z.eqb p n); [|exact H]. eapply vle_trans; [exact H|]. apply vle_vmax_l. destruct (HD _ _ Hb). lia.
Qed.
Lemma LabelEdges_weaken c n L : LabelEdges c None -> LabelEdges c (Some (n, L)).
Proof.
  intros HE m w p b Hvw Hp Hb. pose proof (HE m w p b Hvw Hp Hb) as H. cbv beta iota in H.
  destruct (Z.eqb p n); [|exact H]. eapply incl_tran; [exact H|]. apply union_labels_incl.
Qed.
Lemma TraitEdges_weaken c n : TraitEdges c None -> TraitEdges c (Some n).
Proof. intros HE m w p b Hvw Hp Hb _. apply (HE m w p b Hvw Hp Hb). discriminate. Qed.

(** ** adjust_capacity_up *)
Lemma adjust_up_ok fuel : forall c n v,
  TreeWf c -> up_ok fuel c n = true -> length v = c_dim c -> BDims c -> FreeEdges c (Some (n, v)) ->
  BDims (adjust_up fuel c n v) /\ FreeEdges (adjust_up fuel c n v) None.
Proof.
  induction fuel as [|fu IH]; intros c n v W Hok Hv HD HE; [discriminate|].
  cbn [adjust_up]. destruct (up_ok_bkt _ _ _ Hok) as (b & Hb). rewrite Hb.
  set (fr := vmax (b_free b) v).
  set (g := fun x : bucket => x <| b_free := fr |>).
  set (c1 := c_upd_bkt n g c).
  destruct (HD _ _ Hb) as (Hlb & Hnb).
  assert (Hlfr : length fr = c_dim c) by (subst fr; rewrite vmax_length; lia).
  assert (D1 : BDims c1).
  { apply BDims_upd_bkt; [reflexivity|exact HD|]. intros b0 Hb0. rewrite Hb in Hb0. injection Hb0 as <-.
    split; [exact Hlfr|apply nonneg_vmax_l; exact Hnb]. }
  assert (E1 : FreeEdges c1 (option_map (fun q => (q, fr)) (b_parent b))).
  { intros m w p bp f Hvw Hp Hbp Hf.
    destruct (upd_edge_cases c n g b m w p bp (fun _ => eq_refl) (fun _ => eq_refl) W Hb Hvw Hp Hbp)
      as [(-> & -> & Hpn & Hbp0)|[(Hmn & Hw & -> & ->)|(Hmn & Hw & Hpn & Hbp0)]].
    - cbn in Hp, Hf. injection Hf as <-. rewrite Hp. cbn [option_map]. rewrite Z.eqb_refl.
      apply vle_vmax_r. destruct (HD _ _ Hbp0) as (Hl & _). lia.
    - pose proof (HE m w n b f Hw Hp Hb Hf) as H. cbv beta iota in H. rewrite Z.eqb_refl in H.
      destruct (b_parent b) as [q|] eqn:Eq; cbn [option_map]; [|exact H].
      destruct (Z.eqb_spec n q) as [<-|_]; [destruct (TreeWf_no_self c n b W Hb Eq)|exact H].
    - pose proof (HE m w p bp f Hw Hp Hbp0 Hf) as H. cbv beta iota in H. rewrite (proj2 (Z.eqb_neq p n) Hpn) in H.
      destruct (b_parent b) as [q|]; cbn [option_map]; [|exact H].
      destruct (Z.eqb p q); [|exact H]. eapply vle_trans; [exact H|]. apply vle_vmax_l.
      destruct (HD _ _ Hbp0) as (Hl & _). lia. }
  destruct (b_parent b) as [q|] eqn:Eq; cbn [option_map] in E1; [|split; assumption].
  apply IH; [apply TreeWf_upd_bkt; [reflexivity|reflexivity|exact W]| |exact Hlfr|exact D1|exact E1].
  rewrite (up_ok_same c c1) by (apply bkts_same_upd; reflexivity). eapply up_ok_parent; eassumption.
Qed.

(** ** add_labels *)
Lemma add_labels_ok fuel : forall c n L,
  TreeWf c -> up_ok fuel c n = true -> LabelEdges c (Some (n, L)) -> LabelEdges (add_labels fuel c n L) None.
Proof.
  induction fuel as [|fu IH]; intros c n L W Hok HE; [discriminate|].
  cbn [add_labels]. destruct (up_ok_bkt _ _ _ Hok) as (b & Hb). rewrite Hb.
  set (ls := union_labels (b_labels b) L).
  set (g := fun x : bucket => x <| b_labels := ls |>).
  set (c1 := c_upd_bkt n g c).
  assert (E1 : LabelEdges c1 (option_map (fun q => (q, ls)) (b_parent b))).
  { intros m w p bp Hvw Hp Hbp.
    destruct (upd_edge_cases c n g b m w p bp (fun _ => eq_refl) (fun _ => eq_refl) W Hb Hvw Hp Hbp)
      as [(-> & -> & Hpn & Hbp0)|[(Hmn & Hw & -> & ->)|(Hmn & Hw & Hpn & Hbp0)]].
    - cbn in Hp. rewrite Hp. cbn [option_map]. rewrite Z.eqb_refl. apply union_labels_incl.
    - pose proof (HE m w n b Hw Hp Hb) as H. cbv beta iota in H. rewrite Z.eqb_refl in H.
      destruct (b_parent b) as [q|] eqn:Eq; cbn [option_map]; [|exact H].
      destruct (Z.eqb_spec n q) as [<-|_]; [destruct (TreeWf_no_self c n b W Hb Eq)|exact H].
    - pose proof (HE m w p bp Hw Hp Hbp0) as H. cbv beta iota in H. rewrite (proj2 (Z.eqb_neq p n) Hpn) in H.
      destruct (b_parent b) as [q|]; cbn [option_map]; [|exact H].
      destruct (Z.eqb p q); [|exact H]. eapply incl_tran; [exact H|]. apply union_labels_incl. }
  destruct (b_parent b) as [q|] eqn:Eq; cbn [option_map] in E1; [|exact E1].
  apply IH; [apply TreeWf_upd_bkt; [reflexivity|reflexivity|exact W]| |exact E1].
  rewrite (up_ok_same c c1) by (apply bkts_same_upd; reflexivity). eapply up_ok_parent; eassumption.
Qed.

(** ** TraitSet propagation *)
Lemma propagate_traits_ok fuel : forall c n,
  TreeWf c -> up_ok fuel c n = true -> TraitEdges c (Some n) -> TraitEdges (propagate_traits fuel c n) None.
Proof.
  induction fuel as [|fu IH]; intros c n W Hok HE; [discriminate|].
  cbn [propagate_traits]. destruct (up_ok_bkt _ _ _ Hok) as (b & Hb). rewrite Hb.
  (* the one stale edge is the one above [n] *)
  assert (Hn : forall m w p, view c m = Some w -> nv_parent w = Some p -> b_parent b <> Some p -> Some n <> Some m).
  { intros m w p Hv Hp Hne [= <-]. rewrite (view_bkt _ _ _ W Hb) in Hv. injection Hv as <-. exact (Hne Hp). }
  destruct (b_parent b) as [q|] eqn:Eq.
  - destruct (tw_bparent _ W _ _ _ Hb Eq) as (bq & Hbq & _).
    set (g := fun pb : bucket => pb <| b_child_traits ::= (fun m => aset n (bkt_traits b) (adel n m)) |>).
    apply IH.
    + apply TreeWf_upd_bkt; [reflexivity|reflexivity|exact W].
    + rewrite (up_ok_same c) by (apply bkts_same_upd; reflexivity). eapply up_ok_parent; eassumption.
    + intros m w p bp Hvw Hp Hbp Hx.
      destruct (upd_edge_cases c q g bq m w p bp (fun _ => eq_refl) (fun _ => eq_refl) W Hbq Hvw Hp Hbp)
        as [(-> & _)|[(Hmq & Hw & -> & ->)|(Hmq & Hw & Hpq & Hbp0)]]; [congruence| |].
      * cbn [g b_child_traits set]. destruct (Z.eq_dec m n) as [->|Hmn].
        -- rewrite ag_as_same. rewrite (view_bkt _ _ _ W Hb) in Hw. injection Hw as <-.
           eexists. split; [reflexivity|apply has_traits_refl].
        -- rewrite ag_as_other, ag_adel_other by assumption. apply (HE m w q bq Hw Hp Hbq). congruence.
      * apply (HE m w p bp Hw Hp Hbp0). eapply Hn; [eassumption|eassumption|congruence].
  - intros m w p bp Hvw Hp Hbp _. apply (HE m w p bp Hvw Hp Hbp). eapply Hn; [eassumption|eassumption|discriminate].
Qed.

(** ** adjust_capacity_down *)
Lemma live_children_In ch m : In m (live_children ch) <-> In (Some m) ch.
Proof.
  induction ch as [|[x|] r IH]; cbn; [tauto| |].
  - rewrite IH. split; intros [H|H]; auto; left; congruence.
  - rewrite IH. split; [auto|intros [H|H]; [discriminate|exact H]].
Qed.
Lemma view_free_cfs c m w f : view c m = Some w -> nv_free w = Some f -> child_free_state c m = Some (f, Up).
Proof.
  unfold view, child_free_state. destruct (get_srv m (c_servers c)) as [s|].
  - intros H; inversion H; subst w. cbn. destruct (s_state s); intros E; inversion E; reflexivity.
  - destruct (get_bkt m (c_buckets c)) as [b|]; cbn; [|discriminate]. intros H; inversion H; subst w. cbn.
    intros E; inversion E; reflexivity.
Qed.
Lemma cfs_view c m f : child_free_state c m = Some (f, Up) -> exists w, view c m = Some w /\ nv_free w = Some f.
Proof.
  unfold view, child_free_state. destruct (get_srv m (c_servers c)) as [s|].
  - intros H; inversion H. eexists. split; [reflexivity|]. cbn. rewrite H2. reflexivity.
  - destruct (get_bkt m (c_buckets c)) as [b|]; cbn; [|discriminate]. intros H; inversion H. eexists. split; reflexivity.
Qed.

Lemma max_fold c B dim : forall kids acc,
  length acc = dim -> nonneg acc -> vle acc B ->
  (forall k f, In k kids -> child_free_state c k = Some (f, Up) -> length f = dim /\ vle f B) ->
  let r := fold_left (fun acc n => match child_free_state c n with
                                   | Some (fr, Up) => vmax acc fr
                                   | _ => acc
                                   end) kids acc in
  length r = dim /\ nonneg r /\ vle r B /\ vle acc r /\
  (forall k f, In k kids -> child_free_state c k = Some (f, Up) -> vle f r).
Proof.
  induction kids as [|k r IH]; intros acc Hl Hn Hb Hk; cbn [fold_left].
  - repeat split; try assumption; [apply vle_refl|intros k f []].
  - set (acc' := match child_free_state c k with Some (fr, Up) => vmax acc fr | _ => acc end).
    assert (Hacc : length acc' = dim /\ nonneg acc' /\ vle acc' B /\ vle acc acc' /\
                   (forall f, child_free_state c k = Some (f, Up) -> vle f acc')).
    { subst acc'. destruct (child_free_state c k) as [[fr st]|] eqn:E.
      - destruct st; try (repeat split; try assumption; [apply vle_refl|intros f Hf; discriminate]).
        destruct (Hk k fr (or_introl eq_refl) E) as (Hlf & Hfb).
        split; [rewrite vmax_length; lia|]. split; [apply nonneg_vmax_l; exact Hn|].
        split; [apply vle_vmax_lub; assumption|]. split; [apply vle_vmax_l; lia|].
        intros f Hf. inversion Hf; subst f. apply vle_vmax_r. lia.
      - repeat split; try assumption; [apply vle_refl|intros f Hf; discriminate]. }
    destruct Hacc as (A1 & A2 & A3 & A4 & A5).
    destruct (IH acc' A1 A2 A3 (fun k0 f H => Hk k0 f (or_intror H))) as (R1 & R2 & R3 & R4 & R5).
    split; [exact R1|]. split; [exact R2|]. split; [exact R3|]. split; [eapply vle_trans; eassumption|].
    intros k0 f [<-|Hin] Hf; [eapply vle_trans; [apply A5; exact Hf|exact R4]|eapply R5; eassumption].
Qed.

(** lowering the stored vector of [n] to something that still covers its children *)
Lemma lower_free_ok c n b nf :
  TreeWf c -> BDims c -> FreeEdges c None -> get_bkt n (c_buckets c) = Some b ->
  length nf = c_dim c -> nonneg nf -> vle nf (b_free b) ->
  (forall m w f, view c m = Some w -> nv_parent w = Some n -> nv_free w = Some f -> vle f nf) ->
  let c1 := c_upd_bkt n (fun x => x <| b_free := nf |>) c in
  TreeWf c1 /\ BDims c1 /\ FreeEdges c1 None.
Proof.
  intros W HD HE Hb Hl Hn Hle Hkids c1. set (g := fun x : bucket => x <| b_free := nf |>).
  split; [apply TreeWf_upd_bkt; [reflexivity|reflexivity|exact W]|]. split.
  - apply BDims_upd_bkt; [reflexivity|exact HD|]. intros b0 _. split; assumption.
  - intros m w p bp f Hvw Hp Hbp Hf.
    destruct (upd_edge_cases c n g b m w p bp (fun _ => eq_refl) (fun _ => eq_refl) W Hb Hvw Hp Hbp)
      as [(-> & -> & Hpn & Hbp0)|[(Hmn & Hw & -> & ->)|(Hmn & Hw & Hpn & Hbp0)]].
    + cbn in Hp, Hf. injection Hf as <-. eapply vle_trans; [exact Hle|].
      apply (HE n (bview b) p bp (b_free b) (view_bkt _ _ _ W Hb) Hp Hbp0 eq_refl).
    + eapply Hkids; eassumption.
    + exact (HE m w p bp f Hw Hp Hbp0 Hf).
Qed.

Lemma view_length c m w f : SDims c -> BDims c -> view c m = Some w -> nv_free w = Some f -> length f = c_dim c.
Proof.
  intros HS HD Hv Hf. destruct (view_inv _ _ _ Hv) as [(s & Hs & ->)|(_ & b & Hb & ->)]; cbn in Hf.
  - destruct (s_state s); inversion Hf; subst. eapply HS; exact Hs.
  - inversion Hf; subst. apply (HD _ _ Hb).
Qed.

(** what [max_up_children] computes for the bucket [n]: a vector below the stored one that covers every child *)
Lemma max_up_covers c n b : TreeWf c -> SDims c -> BDims c -> FreeEdges c None -> get_bkt n (c_buckets c) = Some b ->
  let nf := max_up_children c (live_children (b_children b)) in
  length nf = c_dim c /\ nonneg nf /\ vle nf (b_free b) /\
  (forall m w f, view c m = Some w -> nv_parent w = Some n -> nv_free w = Some f -> vle f nf).
Proof.
  intros W HS HD HE Hb. destruct (HD _ _ Hb) as (Hlb & Hnb).
  assert (Hkid : forall k f, In k (live_children (b_children b)) -> child_free_state c k = Some (f, Up) ->
                             length f = c_dim c /\ vle f (b_free b)).
  { intros k f Hin Hf. destruct (cfs_view _ _ _ Hf) as (w & Hv & Hfw). split; [eapply view_length; eassumption|].
    apply live_children_In in Hin. destruct (listed_view _ _ _ _ W Hb Hin) as (w' & Hv' & Hp).
    rewrite Hv in Hv'. injection Hv' as <-. exact (HE k w n b f Hv Hp Hb Hfw). }
  destruct (max_fold c (b_free b) (c_dim c) _ (vzero (c_dim c)) (vzero_length _) (nonneg_vzero _)
              (vle_vzero _ _ Hlb Hnb) Hkid) as (M1 & M2 & M3 & _ & M5).
  split; [exact M1|]. split; [exact M2|]. split; [exact M3|].
  intros m w f Hv Hp Hf. apply (M5 m f); [|eapply view_free_cfs; eassumption].
  destruct (view_parent_bkt _ _ _ _ W Hv Hp) as (b0 & Hb0 & Hin). rewrite Hb in Hb0. injection Hb0 as <-.
  apply live_children_In. exact Hin.
Qed.

Lemma adjust_down_ok fuel : forall c n prev,
  TreeWf c -> SDims c -> BDims c -> FreeEdges c None ->
  TreeWf (adjust_down fuel c n prev) /\ BDims (adjust_down fuel c n prev) /\ FreeEdges (adjust_down fuel c n prev) None.
Proof.
  induction fuel as [|fu IH]; intros c n prev W HS HD HE; [cbn; auto|].
  cbn [adjust_down]. destruct (get_bkt n (c_buckets c)) as [b|] eqn:Hb; [|auto].
  destruct (max_up_covers c n b W HS HD HE Hb) as (M1 & M2 & M3 & M4).
  (* both updates store what [max_up_children] gives, which is [vzero] when there is no child *)
  assert (Hnext : forall pv,
            let c1 := c_upd_bkt n (fun x => x <| b_free := max_up_children c (live_children (b_children b)) |>) c in
            let r := match b_parent b with Some p => adjust_down fu c1 p pv | None => c1 end in
            TreeWf r /\ BDims r /\ FreeEdges r None).
  { intros pv c1 r. destruct (lower_free_ok c n b _ W HD HE Hb M1 M2 M3 M4) as (W1 & D1 & E1). fold c1 in W1, D1, E1.
    subst r. destruct (b_parent b) as [p|]; [|auto]. apply IH; auto. }
  destruct (live_children (b_children b)) as [|k ks]; [exact (Hnext None)|].
  destruct (match prev with Some pv => all_lt pv (b_free b) | None => false end); [auto|].
  destruct (any_lt (max_up_children c (k :: ks)) (b_free b)); [exact (Hnext (Some (b_free b)))|auto].
Qed.

(** ** the three families of edges together *)
Definition Agg3 (c : cell) (ef : option (Z * vec)) (el : option (Z * list Z)) (et : option Z) : Prop :=
  BDims c /\ FreeEdges c ef /\ LabelEdges c el /\ TraitEdges c et.

Lemma sc_servers c c' : same_core c c' -> c_servers c' = c_servers c. Proof. intros H; apply H. Qed.
Lemma sc_dim c c' : same_core c c' -> c_dim c' = c_dim c. Proof. intros H; apply H. Qed.

(** a bucket-only change that keeps what the edges read *)
Lemma Agg3_frame c c' ef el et :
  same_core c c' -> bkts_same pfree c c' -> bkts_same plab c c' -> bkts_same ptr c c' ->
  Agg3 c ef el et -> Agg3 c' ef el et.
Proof.
  intros Hsc H1 H2 H3 (HD & HF & HL & HT).
  destruct (Free_frame c c' ef (sc_dim _ _ Hsc) (sc_servers _ _ Hsc) H1 HD HF) as (HD' & HF').
  split; [exact HD'|]. split; [exact HF'|].
  split; [eapply Label_frame; [apply sc_servers; exact Hsc|exact H2|exact HL]|].
  eapply Trait_frame; [apply sc_servers; exact Hsc|exact H3|exact HT].
Qed.
Lemma TreeWf_bkts c c' : same_core c c' -> bkts_same pskel c c' -> TreeWf c -> TreeWf c'.
Proof. intros Hsc HB. apply TreeWf_skel; [apply srv_skel_eq, sc_servers; exact Hsc|exact HB]. Qed.

Lemma SDims_sc c c' : same_core c c' -> SDims c -> SDims c'.
Proof. intros Hsc H n s Hs. rewrite (sc_servers _ _ Hsc) in Hs. rewrite (sc_dim _ _ Hsc). eapply H; exact Hs. Qed.

Lemma W_cursor c n aff i ef el et : TreeWf c -> Agg3 c ef el et ->
  TreeWf (set_cursor c n aff i) /\ Agg3 (set_cursor c n aff i) ef el et.
Proof.
  intros W HA. split.
  - eapply TreeWf_bkts; [apply set_cursor_sc|apply set_cursor_same; reflexivity|exact W].
  - eapply Agg3_frame; [apply set_cursor_sc| | | |exact HA]; apply set_cursor_same; reflexivity.
Qed.
Lemma W_bump fuel c n ds sg ef el et : TreeWf c -> Agg3 c ef el et ->
  TreeWf (bump_affinity fuel c n ds sg) /\ Agg3 (bump_affinity fuel c n ds sg) ef el et.
Proof.
  intros W HA. split.
  - eapply TreeWf_bkts; [apply bump_affinity_sc|apply bump_affinity_same; reflexivity|exact W].
  - eapply Agg3_frame; [apply bump_affinity_sc| | | |exact HA]; apply bump_affinity_same; reflexivity.
Qed.
Lemma W_bump_from c p ds sg ef el et : TreeWf c -> Agg3 c ef el et ->
  TreeWf (bump_from c p ds sg) /\ Agg3 (bump_from c p ds sg) ef el et.
Proof. destruct p as [p|]; cbn [bump_from]; [apply W_bump|auto]. Qed.

Lemma W_traits c n ef el : TreeWf c -> (exists b, get_bkt n (c_buckets c) = Some b) -> Agg3 c ef el (Some n) ->
  let c' := propagate_traits (depth_fuel c) c n in TreeWf c' /\ Agg3 c' ef el None.
Proof.
  intros W (b & Hb) (HD & HF & HL & HT) c'.
  assert (Hsc : same_core c c') by apply propagate_traits_sc.
  split; [eapply TreeWf_bkts; [exact Hsc|apply propagate_traits_same; reflexivity|exact W]|].
  destruct (Free_frame c c' ef (sc_dim _ _ Hsc) (sc_servers _ _ Hsc)
              (propagate_traits_same pfree (fun x v => eq_refl) _ _ _) HD HF) as (HD' & HF').
  split; [exact HD'|]. split; [exact HF'|]. split.
  - eapply Label_frame; [apply sc_servers; exact Hsc|apply propagate_traits_same; reflexivity|exact HL].
  - apply propagate_traits_ok; [exact W|eapply TreeWf_fuel; eassumption|exact HT].
Qed.
Lemma W_labels c n L ef et : TreeWf c -> (exists b, get_bkt n (c_buckets c) = Some b) -> Agg3 c ef (Some (n, L)) et ->
  let c' := add_labels (depth_fuel c) c n L in TreeWf c' /\ Agg3 c' ef None et.
Proof.
  intros W (b & Hb) (HD & HF & HL & HT) c'.
  assert (Hsc : same_core c c') by apply add_labels_sc.
  split; [eapply TreeWf_bkts; [exact Hsc|apply add_labels_same; reflexivity|exact W]|].
  destruct (Free_frame c c' ef (sc_dim _ _ Hsc) (sc_servers _ _ Hsc)
              (add_labels_same pfree (fun x v => eq_refl) _ _ _ _) HD HF) as (HD' & HF').
  split; [exact HD'|]. split; [exact HF'|]. split.
  - apply add_labels_ok; [exact W|eapply TreeWf_fuel; eassumption|exact HL].
  - eapply Trait_frame; [apply sc_servers; exact Hsc|apply add_labels_same; reflexivity|exact HT].
Qed.
Lemma W_up c n v el et : TreeWf c -> (exists b, get_bkt n (c_buckets c) = Some b) -> length v = c_dim c ->
  Agg3 c (Some (n, v)) el et ->
  let c' := adjust_up (depth_fuel c) c n v in TreeWf c' /\ Agg3 c' None el et.
Proof.
  intros W (b & Hb) Hv (HD & HF & HL & HT) c'.
  assert (Hsc : same_core c c') by apply adjust_up_sc.
  split; [eapply TreeWf_bkts; [exact Hsc|apply adjust_up_same; reflexivity|exact W]|].
  destruct (adjust_up_ok (depth_fuel c) c n v W (TreeWf_fuel _ _ _ W Hb) Hv HD HF) as (HD' & HF').
  split; [exact HD'|]. split; [exact HF'|]. split.
  - eapply Label_frame; [apply sc_servers; exact Hsc|apply adjust_up_same; reflexivity|exact HL].
  - eapply Trait_frame; [apply sc_servers; exact Hsc|apply adjust_up_same; reflexivity|exact HT].
Qed.
Lemma W_down fuel c n pv el et : TreeWf c -> SDims c -> Agg3 c None el et ->
  let c' := adjust_down fuel c n pv in TreeWf c' /\ Agg3 c' None el et.
Proof.
  intros W HS (HD & HF & HL & HT) c'.
  assert (Hsc : same_core c c') by apply adjust_down_sc.
  destruct (adjust_down_ok fuel c n pv W HS HD HF) as (W' & HD' & HF').
  split; [exact W'|]. split; [exact HD'|]. split; [exact HF'|]. split.
  - eapply Label_frame; [apply sc_servers; exact Hsc|apply adjust_down_same; reflexivity|exact HL].
  - eapply Trait_frame; [apply sc_servers; exact Hsc|apply adjust_down_same; reflexivity|exact HT].
Qed.
Lemma W_down_from c p pv el et : TreeWf c -> SDims c -> Agg3 c None el et ->
  TreeWf (adjust_down_from c p pv) /\ Agg3 (adjust_down_from c p pv) None el et.
Proof. destruct p as [p|]; cbn [adjust_down_from]; [apply W_down|auto]. Qed.

(** Bucket.add_node after the child was appended to the parent's list *)
Lemma attach_common_ok c0 p child tr cn lb fr :
  let c1 := c_upd_bkt p (fun b => b <| b_children ::= (fun l => l ++ [Some child]) |>
                                    <| b_child_traits ::= aset child tr |>) c0 in
  TreeWf c1 -> (exists b, get_bkt p (c_buckets c1) = Some b) -> length fr = c_dim c0 ->
  Agg3 c1 (Some (p, fr)) (Some (p, lb)) (Some p) ->
  TreeWf (attach_common c0 p child tr cn lb fr) /\ AggLocal (attach_common c0 p child tr cn lb fr).
Proof.
  intros c1 W1 Hp Hfr A1. unfold attach_common. fold c1.
  assert (Hex : forall c c', bkts_same pskel c c' -> (exists b, get_bkt p (c_buckets c) = Some b) ->
                             exists b, get_bkt p (c_buckets c') = Some b).
  { intros c c' HB (b & Hb). destruct (bkts_same_fwd _ _ _ _ _ HB Hb) as (b' & Hb' & _). eauto. }
  destruct (W_traits c1 p _ _ W1 Hp A1) as (W2 & A2).
  set (c2 := propagate_traits (depth_fuel c1) c1 p) in *.
  assert (P2 : exists b, get_bkt p (c_buckets c2) = Some b)
    by (eapply Hex; [apply (propagate_traits_same pskel (fun x v => eq_refl))|exact Hp]).
  destruct (W_bump (depth_fuel c2) c2 p cn 1 _ _ _ W2 A2) as (W3 & A3).
  set (c3 := bump_affinity (depth_fuel c2) c2 p cn 1) in *.
  assert (P3 : exists b, get_bkt p (c_buckets c3) = Some b)
    by (eapply Hex; [apply (bump_affinity_same pskel (fun x v => eq_refl))|exact P2]).
  destruct (W_labels c3 p lb _ _ W3 P3 A3) as (W4 & A4).
  set (c4 := add_labels (depth_fuel c3) c3 p lb) in *.
  assert (P4 : exists b, get_bkt p (c_buckets c4) = Some b)
    by (eapply Hex; [apply (add_labels_same pskel (fun x v => eq_refl))|exact P3]).
  assert (Hd : c_dim c4 = c_dim c0).
  { assert (Hsc : same_core c1 c4).
    { eapply same_core_trans; [apply (propagate_traits_sc (depth_fuel c1) c1 p)|].
      eapply same_core_trans; [apply (bump_affinity_sc (depth_fuel c2) c2 p cn 1)|apply add_labels_sc]. }
    rewrite (sc_dim _ _ Hsc). reflexivity. }
  apply (W_up c4 p fr _ _ W4 P4); [lia|exact A4].
Qed.

(** ** the predicates read servers, buckets and the dimension only *)
Lemma TreeWf_ext c c' : c_servers c' = c_servers c -> c_buckets c' = c_buckets c -> TreeWf c -> TreeWf c'.
Proof.
  intros Hs Hb. apply TreeWf_skel; [apply srv_skel_eq; exact Hs|apply bkts_same_eq; exact Hb].
Qed.
Lemma Agg3_ext c c' ef el et : c_dim c' = c_dim c -> c_servers c' = c_servers c -> c_buckets c' = c_buckets c ->
  Agg3 c ef el et -> Agg3 c' ef el et.
Proof.
  intros Hd Hs Hb. unfold Agg3, BDims, FreeEdges, LabelEdges, TraitEdges, view. rewrite Hd, Hs, Hb. tauto.
Qed.


(** ** one server updated *)
Lemma view_upd_srv c sn s f m w : get_srv sn (c_servers c) = Some s -> (forall x, s_name (f x) = s_name x) ->
  view (c_upd_srv sn f c) m = Some w -> view c m = Some w \/ (m = sn /\ w = sview (f s)).
Proof.
  intros Es Hf. unfold view, c_upd_srv. cbn [c_servers c_buckets set]. destruct (Z.eq_dec m sn) as [->|Hne].
  - rewrite (get_upd_srv_same _ _ _ _ Hf Es). intros [= <-]. auto.
  - rewrite get_upd_srv_other by assumption. auto.
Qed.

Lemma srv_upd_ok c sn s f ef el et :
  get_srv sn (c_servers c) = Some s ->
  (forall x, s_name (f x) = s_name x) -> (forall x, s_parent (f x) = s_parent x) ->
  s_label (f s) = s_label s -> s_traits (f s) = s_traits s ->
  TreeWf c -> Agg3 c ef el et ->
  (forall p bp f', s_parent s = Some p -> get_bkt p (c_buckets c) = Some bp -> nv_free (sview (f s)) = Some f' ->
     vle f' (match ef with
             | Some (n, v) => if Z.eqb p n then vmax (b_free bp) v else b_free bp
             | None => b_free bp
             end)) ->
  TreeWf (c_upd_srv sn f c) /\ Agg3 (c_upd_srv sn f c) ef el et.
Proof.
  intros Hs Hn Hp Hl Ht W (HD & HF & HL & HT) Hedge.
  split; [eapply TreeWf_skel; [apply srv_skel_upd; assumption|apply bkts_same_eq; reflexivity|exact W]|].
  pose proof (view_srv _ _ _ Hs) as Hv0.
  split; [exact HD|]. split; [|split].
  - intros m w p b f0 Hv Hpw Hb Hf0.
    destruct (view_upd_srv c sn s f m w Hs Hn Hv) as [Hv'|[-> ->]]; [exact (HF m w p b f0 Hv' Hpw Hb Hf0)|].
    cbn [nv_parent sview] in Hpw. rewrite Hp in Hpw. apply (Hedge p b f0 Hpw Hb Hf0).
  - intros m w p b Hv Hpw Hb.
    destruct (view_upd_srv c sn s f m w Hs Hn Hv) as [Hv'|[-> ->]]; [exact (HL m w p b Hv' Hpw Hb)|].
    cbn [nv_parent nv_labels sview] in *. rewrite Hp in Hpw. rewrite Hl. exact (HL sn (sview s) p b Hv0 Hpw Hb).
  - intros m w p b Hv Hpw Hb Hx.
    destruct (view_upd_srv c sn s f m w Hs Hn Hv) as [Hv'|[-> ->]]; [exact (HT m w p b Hv' Hpw Hb Hx)|].
    cbn [nv_parent nv_traits sview] in *. rewrite Hp in Hpw. rewrite Ht. exact (HT sn (sview s) p b Hv0 Hpw Hb Hx).
Qed.

Lemma Acct_SDims c : Acct c -> SDims c.
Proof. intros HA n s Hs. apply (ac_srv_dims _ HA _ _ Hs). Qed.

(** the server's record changes and what it shows of its free vector does not grow *)
Lemma srv_lower_ok c sn s f :
  get_srv sn (c_servers c) = Some s ->
  (forall x, s_name (f x) = s_name x) -> (forall x, s_parent (f x) = s_parent x) ->
  s_label (f s) = s_label s -> s_traits (f s) = s_traits s ->
  (forall x, nv_free (sview (f s)) = Some x -> exists y, nv_free (sview s) = Some y /\ vle x y) ->
  TreeWf c -> AggLocal c -> TreeWf (c_upd_srv sn f c) /\ AggLocal (c_upd_srv sn f c).
Proof.
  intros Hs Hn Hp Hl Ht Hle W HL. apply (srv_upd_ok c sn s f None None None); try assumption.
  intros p bp x Ep Hbp Hx. destruct (Hle x Hx) as (y & Hy & Hxy). eapply vle_trans; [exact Hxy|].
  destruct HL as (_ & HF & _). exact (HF sn (sview s) p bp y (view_srv _ _ _ Hs) Ep Hbp Hy).
Qed.
(** the record changes and the server shows at most [nf], which its parent has yet to be raised to *)
Lemma srv_raise_ok c sn s f nf :
  get_srv sn (c_servers c) = Some s ->
  (forall x, s_name (f x) = s_name x) -> (forall x, s_parent (f x) = s_parent x) ->
  s_label (f s) = s_label s -> s_traits (f s) = s_traits s ->
  (forall x, nv_free (sview (f s)) = Some x -> x = nf) -> length nf = c_dim c ->
  TreeWf c -> AggLocal c ->
  TreeWf (c_upd_srv sn f c) /\ Agg3 (c_upd_srv sn f c) (option_map (fun p => (p, nf)) (s_parent s)) None None.
Proof.
  intros Hs Hn Hp Hl Ht Hx Hnf W (HD & HF & HLa & HT). apply (srv_upd_ok c sn s f); try assumption.
  - split; [exact HD|]. split; [|split; assumption].
    destruct (s_parent s); [apply FreeEdges_weaken; assumption|exact HF].
  - intros p bp x Ep Hbp Hfx. rewrite Ep. cbn [option_map]. rewrite Z.eqb_refl, (Hx x Hfx).
    apply vle_vmax_r. destruct (HD _ _ Hbp). lia.
Qed.
Lemma W_up_from c par v el et : TreeWf c -> (forall p, par = Some p -> exists b, get_bkt p (c_buckets c) = Some b) ->
  length v = c_dim c -> Agg3 c (option_map (fun p => (p, v)) par) el et ->
  TreeWf (adjust_up_from c par v) /\ Agg3 (adjust_up_from c par v) None el et.
Proof. destruct par as [p|]; cbn [adjust_up_from option_map]; [intros W Hp; apply W_up; auto|auto]. Qed.

(** ** Server.put *)
Lemma srv_put_lease_ok c sn an l c' :
  Acct c -> TreeWf c -> AggLocal c -> srv_put_lease c sn an l = Some c' -> TreeWf c' /\ AggLocal c'.
Proof.
  intros HA W HL. unfold srv_put_lease.
  destruct (get_srv sn (c_servers c)) as [s|] eqn:Es; [|discriminate].
  destruct (get_app an (c_apps c)) as [a|] eqn:Ea; [|discriminate].
  destruct (put_guard c s a l) eqn:Eg; [|discriminate]. intros H; injection H as <-.
  pose proof (Acct_put c sn an s a l Es Ea Eg HA) as HA1.
  set (fs := fun x : server => x <| s_free := vsub (s_free x) (a_demand a) |>
                                  <| s_apps ::= (fun l => l ++ [an]) |> <| s_counters ::= cadd (a_aff a) 1 |>).
  destruct (ac_srv_dims _ HA _ _ Es) as (_ & Hlf & _). destruct (ac_app_dims _ HA _ _ Ea) as (Hld & Hnd).
  destruct (srv_lower_ok c sn s fs Es (fun x => eq_refl) (fun x => eq_refl) eq_refl eq_refl) as (W0 & A0); [|exact W|exact HL|].
  { cbn. intros x Hx. destruct (s_state s); [|discriminate|discriminate]. injection Hx as <-.
    eexists. split; [reflexivity|]. apply vle_vsub; [lia|exact Hnd]. }
  set (c1 := prim_put c sn an a l) in *.
  destruct (W_bump_from c1 (s_parent s) [(a_aff a, 1)] 1 None None None) as (W2 & A2);
    [eapply TreeWf_ext; [| |exact W0]; reflexivity|eapply Agg3_ext; [| | |exact A0]; reflexivity|].
  apply W_down_from; [exact W2| |exact A2].
  eapply SDims_sc; [apply bump_from_sc|apply Acct_SDims; exact HA1].
Qed.
Lemma srv_put_ok c sn an c' :
  Acct c -> TreeWf c -> AggLocal c -> srv_put c sn an = Some c' -> TreeWf c' /\ AggLocal c'.
Proof. unfold srv_put. destruct (get_app an (c_apps c)); [apply srv_put_lease_ok|discriminate]. Qed.

(** ** Server.remove *)
Lemma srv_remove_ok c sn an : Acct c -> TreeWf c -> AggLocal c ->
  TreeWf (srv_remove c sn an) /\ AggLocal (srv_remove c sn an).
Proof.
  intros HA W HL. unfold srv_remove.
  destruct (get_srv sn (c_servers c)) as [s|] eqn:Es; [|auto].
  destruct (get_app an (c_apps c)) as [a|] eqn:Ea; [|auto].
  destruct (negb (zmem an (s_apps s))); [auto|].
  set (nf := vadd (s_free s) (a_demand a)).
  set (fs := fun x : server => x <| s_free := vadd (s_free x) (a_demand a) |> <| s_apps ::= zremove an |>
                                  <| s_counters ::= cadd (a_aff a) (-1) |>).
  destruct (ac_srv_dims _ HA _ _ Es) as (_ & Hlf & _). destruct (ac_app_dims _ HA _ _ Ea) as (Hld & Hnd).
  assert (Hlnf : length nf = c_dim c) by (unfold nf, vadd; rewrite vmap2_length; lia).
  destruct (srv_raise_ok c sn s fs nf Es (fun x => eq_refl) (fun x => eq_refl) eq_refl eq_refl) as (W0 & A0);
    [cbn; unfold nf; intros x; destruct (s_state s); congruence|exact Hlnf|exact W|exact HL|].
  set (c1 := prim_remove c sn an a) in *.
  destruct (W_bump_from c1 (s_parent s) [(a_aff a, 1)] (-1) (option_map (fun p => (p, nf)) (s_parent s)) None None)
    as (W2 & A2);
    [eapply TreeWf_ext; [| |exact W0]; reflexivity|eapply Agg3_ext; [| | |exact A0]; reflexivity|].
  apply W_up_from; [exact W2| |rewrite (sc_dim _ _ (bump_from_sc _ _ _ _)); exact Hlnf|exact A2].
  intros p Ep. destruct (tw_sparent _ W _ _ p Es Ep) as (b & Hb & _).
  destruct (bkts_same_fwd _ _ _ _ _ (bump_from_same (fun _ : bucket => tt) (fun x v => eq_refl) c1 (s_parent s) [(a_aff a, 1)] (-1)) Hb)
    as (b' & Hb' & _). eauto.
Qed.

(** ** Server.set_state *)
Lemma srv_set_state_ok c sn st since : Acct c -> TreeWf c -> AggLocal c ->
  TreeWf (srv_set_state c sn st since) /\ AggLocal (srv_set_state c sn st since).
Proof.
  intros HA W HL. unfold srv_set_state.
  destruct (get_srv sn (c_servers c)) as [s|] eqn:Es; [|auto].
  destruct (sstate_eqb (s_state s) st); [auto|].
  set (fs := fun x : server => x <| s_state := st |> <| s_since := since |>).
  destruct (ac_srv_dims _ HA _ _ Es) as (_ & Hlf & _).
  set (c1 := c_upd_srv sn fs c).
  assert (Hdown : st <> Up -> TreeWf (adjust_down_from c1 (s_parent s) (Some (s_free s))) /\
                              AggLocal (adjust_down_from c1 (s_parent s) (Some (s_free s)))).
  { intros Hst. destruct (srv_lower_ok c sn s fs Es (fun x => eq_refl) (fun x => eq_refl) eq_refl eq_refl) as (W1 & A1);
      [cbn; intros x; destruct st; [contradiction|discriminate|discriminate]|exact W|exact HL|].
    apply W_down_from; [exact W1| |exact A1].
    apply Acct_SDims, Acct_upd_srv_soft; [intros x; repeat split|exact HA]. }
  destruct st; [|apply Hdown; discriminate|apply Hdown; discriminate].
  destruct (srv_raise_ok c sn s fs (s_free s) Es (fun x => eq_refl) (fun x => eq_refl) eq_refl eq_refl) as (W1 & A1);
    [cbn; congruence|exact Hlf|exact W|exact HL|].
  apply W_up_from; [exact W1| |exact Hlf|exact A1].
  intros p Ep. destruct (tw_sparent _ W _ _ p Es Ep) as (b & Hb & _). exists b. exact Hb.
Qed.
(** ** the invariant; every step of a cycle ([astep], Steps.v) keeps it *)
Definition Inv (c : cell) : Prop := Acct c /\ TreeWf c /\ AggLocal c.

Lemma Inv_astep c c' : astep c c' -> Inv c -> Inv c'.
Proof.
  intros Hs (HA & W & HL). split; [eapply Acct_psteps; [apply astep_psteps; exact Hs|exact HA]|].
  destruct Hs.
  - apply W_cursor; assumption.
  - eapply srv_put_lease_ok; eassumption.
  - apply srv_remove_ok; assumption.
  - split; [eapply TreeWf_ext; eassumption|eapply Agg3_ext; eassumption].
Qed.
Lemma Inv_asteps c c' : asteps c c' -> Inv c -> Inv c'.
Proof. induction 1; [apply Inv_astep; assumption|tauto|tauto]. Qed.

Theorem Inv_schedule c ch : Inv c -> Inv (fst (fst (schedule c ch))).
Proof. apply Inv_asteps, schedule_as. Qed.

(** ** a new leaf is hung under a bucket *)
Lemma up_ok_fwd cd c1 :
  (forall m b, get_bkt m (c_buckets cd) = Some b -> exists b', get_bkt m (c_buckets c1) = Some b' /\ b_parent b' = b_parent b) ->
  forall k m, up_ok k cd m = true -> up_ok k c1 m = true.
Proof.
  intros H. induction k as [|k IH]; intros m; cbn [up_ok]; [discriminate|].
  destruct (get_bkt m (c_buckets cd)) as [b|] eqn:Hb; [|discriminate].
  destruct (H _ _ Hb) as (b' & Hb' & Ep). rewrite Hb', Ep. destruct (b_parent b); [apply IH|reflexivity].
Qed.
Lemma up_ok_le c k k' n : (k <= k')%nat -> up_ok k c n = true -> up_ok k' c n = true.
Proof. induction 1 as [|k' _ IH]; [auto|]. intros H. apply up_ok_mono, IH, H. Qed.

Section AttachBucket.
  Variables (cd c1 : cell) (p nn : Z) (bp bp1 nb : bucket).
  Hypothesis Hbp : get_bkt p (c_buckets cd) = Some bp.
  Hypothesis Hbp1 : get_bkt p (c_buckets c1) = Some bp1.
  Hypothesis Hnbp : b_parent nb = Some p.
  Hypothesis Hbo : forall m, m <> p -> m <> nn -> get_bkt m (c_buckets c1) = get_bkt m (c_buckets cd).
  Hypothesis Hnn_b : get_bkt nn (c_buckets cd) = None.
  Lemma ab_p_ne_nn : p <> nn.
  Proof. intros ->. congruence. Qed.
End AttachBucket.

(** [c0] is [cd] with a new node [nn], seen as [wn]: a server, or a bucket without children (then [c0] has one bucket
    more). Bucket.add_node lists it last under [p] with the trait entry [tr]. *)
Section Attach.
  Variables (cd c0 : cell) (p nn : Z) (bp : bucket) (wn : nview) (tr : Z).
  Let g := fun b : bucket => b <| b_children ::= (fun l => l ++ [Some nn]) |> <| b_child_traits ::= aset nn tr |>.
  Let c1 := c_upd_bkt p g c0.
  Hypothesis W : TreeWf cd.
  Hypothesis Hbp : get_bkt p (c_buckets cd) = Some bp.
  Hypothesis Hnn_s : get_srv nn (c_servers cd) = None.
  Hypothesis Hnn_b : get_bkt nn (c_buckets cd) = None.
  Hypothesis Hso : forall m, m <> nn -> get_srv m (c_servers c0) = get_srv m (c_servers cd).
  Hypothesis Hbo : forall m, m <> nn -> get_bkt m (c_buckets c0) = get_bkt m (c_buckets cd).
  Hypothesis Hwn : view c0 nn = Some wn.
  Hypothesis Hwp : nv_parent wn = Some p.
  Hypothesis Hleaf : forall nb, get_bkt nn (c_buckets c0) = Some nb ->
    get_srv nn (c_servers c0) = None /\ b_children nb = [] /\ (length (c_buckets cd) < length (c_buckets c0))%nat.
  Hypothesis Hnd : NoDup (map b_name (c_buckets c0)).
  Hypothesis Hlen : (length (c_buckets cd) <= length (c_buckets c0))%nat.

  Lemma at_pn : p <> nn.
  Proof. intros E. rewrite E in Hbp. congruence. Qed.
  Lemma at_p : get_bkt p (c_buckets c1) = Some (g bp).
  Proof. apply get_bkt_upd_same; [reflexivity|]. rewrite Hbo by exact at_pn. exact Hbp. Qed.
  Lemma at_other m : m <> p -> get_bkt m (c_buckets c1) = get_bkt m (c_buckets c0).
  Proof. apply get_bkt_upd_other. reflexivity. Qed.
  Lemma at_names : map b_name (c_buckets c1) = map b_name (c_buckets c0).
  Proof. apply upd_bkt_names. reflexivity. Qed.

  Lemma at_bkt_fwd m b : get_bkt m (c_buckets cd) = Some b ->
    exists b', get_bkt m (c_buckets c1) = Some b' /\ b_parent b' = b_parent b /\
               (forall x, In x (b_children b) -> In x (b_children b')).
  Proof.
    intros Hb. destruct (Z.eq_dec m p) as [->|Hne].
    - rewrite Hbp in Hb. injection Hb as <-. exists (g bp). split; [exact at_p|]. split; [reflexivity|].
      intros x Hx. apply in_or_app. left. exact Hx.
    - exists b. rewrite at_other, Hbo by (assumption || (intros ->; congruence)). auto.
  Qed.
  (* a bucket other than the new one is the old one, up to the new entry in [p] *)
  Lemma at_bkt_bwd m b' : m <> nn -> get_bkt m (c_buckets c1) = Some b' ->
    exists b, get_bkt m (c_buckets cd) = Some b /\ b_parent b' = b_parent b /\ b_free b' = b_free b /\
              b_labels b' = b_labels b /\
              (forall x, In x (b_children b') -> In x (b_children b) \/ (m = p /\ x = Some nn)) /\
              (forall x, x <> nn -> aget x (b_child_traits b') = aget x (b_child_traits b)) /\
              (m <> p -> b' = b).
  Proof.
    intros Hm Hb'. destruct (Z.eq_dec m p) as [->|Hne].
    - rewrite at_p in Hb'. injection Hb' as <-. exists bp. split; [exact Hbp|]. do 3 (split; [reflexivity|]). split; [|split].
      + intros x Hx. apply in_app_or in Hx as [Hx|[<-|[]]]; auto.
      + intros x Hx. apply ag_as_other. exact Hx.
      + contradiction.
    - rewrite at_other, Hbo in Hb' by assumption. exists b'. auto 10.
  Qed.

  Lemma attach_TreeWf : TreeWf c1.
  Proof.
    assert (Hup : forall m b, get_bkt m (c_buckets cd) = Some b -> up_ok (length (c_buckets cd)) c1 m = true).
    { intros m b Hb. apply (up_ok_fwd cd c1); [|eapply tw_depth; eassumption].
      intros m0 b0 Hb0. destruct (at_bkt_fwd _ _ Hb0) as (b0' & H1 & H2 & _). eauto. }
    assert (Hin : In (Some nn) (b_children (g bp))) by (apply in_or_app; right; left; reflexivity).
    assert (Hl1 : length (c_buckets c1) = length (c_buckets c0)) by (rewrite <- !(map_length b_name), at_names; reflexivity).
    (* if the new node is a bucket, it is seen as such *)
    assert (Hnb : forall nb, get_bkt nn (c_buckets c1) = Some nb ->
              b_parent nb = Some p /\ get_srv nn (c_servers c0) = None /\ b_children nb = [] /\
              (length (c_buckets cd) < length (c_buckets c0))%nat).
    { intros nb H. rewrite at_other in H by (apply not_eq_sym, at_pn). destruct (Hleaf nb H) as (Hs & Hc & Hl).
      unfold view in Hwn. rewrite Hs, H in Hwn. injection Hwn as <-. auto. }
    constructor.
    - rewrite at_names. exact Hnd.
    - intros n s Hs. change (c_servers c1) with (c_servers c0) in Hs.
      destruct (get_bkt n (c_buckets c1)) as [b'|] eqn:E; [|reflexivity]. destruct (Z.eq_dec n nn) as [->|Hne].
      + destruct (Hnb _ E) as (_ & H & _). congruence.
      + rewrite Hso in Hs by exact Hne. destruct (at_bkt_bwd _ _ Hne E) as (b & Hb & _).
        rewrite (tw_disj _ W _ _ Hs) in Hb. discriminate.
    - intros q b' m Hb' Hm. destruct (Z.eq_dec q nn) as [->|Hqn].
      { destruct (Hnb b' Hb') as (_ & _ & E & _). rewrite E in Hm. destruct Hm. }
      destruct (at_bkt_bwd _ _ Hqn Hb') as (b & Hb & _ & _ & _ & Hc & _). destruct (Hc _ Hm) as [Hm0|[-> [= ->]]].
      + destruct (tw_child _ W _ _ _ Hb Hm0) as [(s0 & Hs0 & Hp0)|(b0 & Hb0 & Hp0)].
        * left. exists s0. change (c_servers c1) with (c_servers c0). rewrite Hso by (intros ->; congruence). auto.
        * right. destruct (at_bkt_fwd _ _ Hb0) as (b0' & Hb0' & Ep & _). exists b0'. split; [exact Hb0'|congruence].
      + destruct (view_inv _ _ _ Hwn) as [(s & Hs & ->)|(_ & nb & H & ->)]; [left; eauto|right].
        exists nb. rewrite at_other by (apply not_eq_sym, at_pn). auto.
    - intros n s q Hs Hq. change (c_servers c1) with (c_servers c0) in Hs. destruct (Z.eq_dec n nn) as [->|Hne].
      + rewrite (view_srv _ _ _ Hs) in Hwn. injection Hwn as <-. cbn in Hwp. rewrite Hq in Hwp. injection Hwp as ->.
        exists (g bp). split; [exact at_p|exact Hin].
      + rewrite Hso in Hs by exact Hne. destruct (tw_sparent _ W _ _ _ Hs Hq) as (b & Hb & Hc).
        destruct (at_bkt_fwd _ _ Hb) as (b' & Hb' & _ & Hf). exists b'. auto.
    - intros n b' q Hb' Hq. destruct (Z.eq_dec n nn) as [->|Hne].
      + destruct (Hnb _ Hb') as (E & _). rewrite E in Hq. injection Hq as <-. exists (g bp). split; [exact at_p|exact Hin].
      + destruct (at_bkt_bwd _ _ Hne Hb') as (b & Hb & Ep & _). rewrite Ep in Hq.
        destruct (tw_bparent _ W _ _ _ Hb Hq) as (b0 & Hb0 & Hc).
        destruct (at_bkt_fwd _ _ Hb0) as (b0' & Hb0' & _ & Hf). exists b0'. auto.
    - intros n b' Hb'. rewrite Hl1. destruct (Z.eq_dec n nn) as [->|Hne].
      + destruct (Hnb b' Hb') as (E & _ & _ & Hl). apply (up_ok_le _ (S (length (c_buckets cd)))); [exact Hl|].
        cbn [up_ok]. rewrite Hb', E. eapply Hup; exact Hbp.
      + destruct (at_bkt_bwd _ _ Hne Hb') as (b & Hb & _). eapply up_ok_le; [exact Hlen|]. eapply Hup; exact Hb.
  Qed.

  (** the edges after the attachment, the parent's own updates still pending *)
  Hypothesis HA : AggLocal cd.
  Hypothesis Hdim : c_dim c0 = c_dim cd.
  Variables (fr : vec) (lb : list Z).
  Hypothesis Hfr : length fr = c_dim cd.
  Hypothesis Hwf : forall f, nv_free wn = Some f -> f = fr.
  Hypothesis Hwl : nv_labels wn = lb.
  Hypothesis Hwt : has_traits tr (nv_traits wn) = true.
  Hypothesis Hnbd : forall nb, get_bkt nn (c_buckets c0) = Some nb -> length (b_free nb) = c_dim cd /\ nonneg (b_free nb).

  Lemma at_view_nn : view c1 nn = Some wn.
  Proof. unfold c1. rewrite view_upd_other; [exact Hwn|reflexivity|apply not_eq_sym, at_pn]. Qed.
  (* every old node is seen as before, up to the traits of [p] *)
  Lemma at_view_bwd m w' : m <> nn -> view c1 m = Some w' ->
    exists w, view cd m = Some w /\ nv_parent w' = nv_parent w /\ nv_free w' = nv_free w /\ nv_labels w' = nv_labels w /\
              (m <> p -> nv_traits w' = nv_traits w).
  Proof.
    intros Hne Hv. unfold view in *. change (c_servers c1) with (c_servers c0) in Hv. rewrite (Hso m Hne) in Hv.
    destruct (get_srv m (c_servers cd)) as [s|]; [exists w'; auto|].
    destruct (get_bkt m (c_buckets c1)) as [b'|] eqn:Hb'; cbn in Hv; [|discriminate]. injection Hv as <-.
    destruct (at_bkt_bwd m b' Hne Hb') as (b & Hb & E1 & E2 & E3 & _ & _ & E6). rewrite Hb. exists (bview b).
    split; [reflexivity|]. cbn. rewrite E1, E2, E3. do 3 (split; [reflexivity|]). intros Hmp. rewrite (E6 Hmp). reflexivity.
  Qed.

  Lemma attach_Agg3 : Agg3 c1 (Some (p, fr)) (Some (p, lb)) (Some p).
  Proof.
    destruct HA as (HD & HF & HL & HT). pose proof at_view_nn as Hwn1.
    (* an old node does not hang under the new name *)
    assert (Hq : forall m w q, view cd m = Some w -> nv_parent w = Some q -> q <> nn).
    { intros m w q Hv Hp ->. destruct (view_parent_bkt _ _ _ _ W Hv Hp) as (b & Hb & _). congruence. }
    assert (D1 : BDims c1).
    { intros m b' Hb'. change (c_dim c1) with (c_dim c0). rewrite Hdim. destruct (Z.eq_dec m nn) as [->|Hne].
      - rewrite at_other in Hb' by (apply not_eq_sym, at_pn). exact (Hnbd _ Hb').
      - destruct (at_bkt_bwd _ _ Hne Hb') as (b & Hb & _ & E & _). rewrite E. exact (HD _ _ Hb). }
    split; [exact D1|]. split; [|split].
    - intros m w' q b' f Hv Hp Hb' Hf. destruct (Z.eq_dec m nn) as [->|Hne].
      + rewrite Hwn1 in Hv. injection Hv as <-. rewrite Hwp in Hp. injection Hp as <-. rewrite Z.eqb_refl, (Hwf f Hf).
        apply vle_vmax_r. destruct (D1 _ _ Hb') as (Hl & _). change (c_dim c1) with (c_dim c0) in Hl. congruence.
      + destruct (at_view_bwd _ _ Hne Hv) as (w & Hw & E1 & E2 & _). rewrite E1 in Hp. rewrite E2 in Hf.
        destruct (at_bkt_bwd _ _ (Hq _ _ _ Hw Hp) Hb') as (b & Hb & _ & E & _). rewrite E.
        exact (FreeEdges_weaken cd p fr HD Hfr HF m w q b f Hw Hp Hb Hf).
    - intros m w' q b' Hv Hp Hb'. destruct (Z.eq_dec m nn) as [->|Hne].
      + rewrite Hwn1 in Hv. injection Hv as <-. rewrite Hwp in Hp. injection Hp as <-. rewrite Z.eqb_refl, Hwl.
        apply union_labels_incl.
      + destruct (at_view_bwd _ _ Hne Hv) as (w & Hw & E1 & _ & E2 & _). rewrite E1 in Hp.
        destruct (at_bkt_bwd _ _ (Hq _ _ _ Hw Hp) Hb') as (b & Hb & _ & _ & E & _). rewrite E, E2.
        exact (LabelEdges_weaken cd p lb HL m w q b Hw Hp Hb).
    - intros m w' q b' Hv Hp Hb' Hx. assert (Hmp : m <> p) by congruence. destruct (Z.eq_dec m nn) as [->|Hne].
      + rewrite Hwn1 in Hv. injection Hv as <-. rewrite Hwp in Hp. injection Hp as <-. rewrite at_p in Hb'. injection Hb' as <-.
        cbn. rewrite ag_as_same. exists tr. split; [reflexivity|exact Hwt].
      + destruct (at_view_bwd _ _ Hne Hv) as (w & Hw & E1 & _ & _ & E2). rewrite E1 in Hp. rewrite (E2 Hmp).
        destruct (at_bkt_bwd _ _ (Hq _ _ _ Hw Hp) Hb') as (b & Hb & _ & _ & _ & _ & E & _). rewrite (E m Hne).
        apply (HT m w q b Hw Hp Hb). discriminate.
  Qed.

  Theorem attach_ok cn : TreeWf (attach_common c0 p nn tr cn lb fr) /\ AggLocal (attach_common c0 p nn tr cn lb fr).
  Proof.
    apply attach_common_ok; [exact attach_TreeWf|exists (g bp); exact at_p|rewrite Hdim; exact Hfr|exact attach_Agg3].
  Qed.
End Attach.

(** ** Bucket.add_node(server) *)
Lemma add_server_ok c s p bp :
  TreeWf c -> AggLocal c ->
  s_parent s = Some p -> get_bkt p (c_buckets c) = Some bp ->
  get_srv (s_name s) (c_servers c) = None -> get_bkt (s_name s) (c_buckets c) = None ->
  length (s_free s) = c_dim c ->
  TreeWf (add_server c s) /\ AggLocal (add_server c s).
Proof.
  intros W HL Hsp Hbp Hfs Hfb Hlen. unfold add_server. rewrite Hsp.
  set (c0 := c <| c_servers ::= (fun l => l ++ [s]) |>).
  assert (Hs0 : get_srv (s_name s) (c_servers c0) = Some s).
  { unfold c0. cbn [c_servers set]. rewrite get_srv_snoc, Hfs, Z.eqb_refl. reflexivity. }
  assert (Hso : forall m, m <> s_name s -> get_srv m (c_servers c0) = get_srv m (c_servers c)).
  { intros m Hm. unfold c0. cbn [c_servers set]. rewrite get_srv_snoc.
    destruct (get_srv m (c_servers c)); [reflexivity|]. destruct (Z.eqb_spec (s_name s) m); [congruence|reflexivity]. }
  apply (attach_ok c c0 p (s_name s) bp (sview s) (s_traits s)); auto using view_srv, has_traits_refl, (tw_bnames _ W).
  - intros nb Hnb. change (c_buckets c0) with (c_buckets c) in Hnb. congruence.
  - cbn. intros f. destruct (s_state s); congruence.
  - intros nb Hnb. change (c_buckets c0) with (c_buckets c) in Hnb. congruence.
Qed.

(** ** a new, empty bucket is hung under a bucket *)
Lemma add_bucket_ok c name level p bp :
  TreeWf c -> AggLocal c -> get_bkt p (c_buckets c) = Some bp ->
  get_srv name (c_servers c) = None -> get_bkt name (c_buckets c) = None ->
  TreeWf (add_bucket c name level (Some p)) /\ AggLocal (add_bucket c name level (Some p)).
Proof.
  intros W HL Hbp Hfs Hfb. unfold add_bucket.
  set (nb := mkBucket name (Some p) level [] (vzero (c_dim c)) 0 [] [] [] []).
  set (c0 := c <| c_buckets ::= (fun l => l ++ [nb]) |>).
  assert (Hnb : get_bkt name (c_buckets c0) = Some nb).
  { unfold c0. cbn [c_buckets set]. rewrite get_bkt_snoc, Hfb. cbn [b_name nb]. rewrite Z.eqb_refl. reflexivity. }
  assert (Hbo : forall m, m <> name -> get_bkt m (c_buckets c0) = get_bkt m (c_buckets c)).
  { intros m Hm. unfold c0. cbn [c_buckets set]. rewrite get_bkt_snoc.
    destruct (get_bkt m (c_buckets c)); [reflexivity|]. cbn [b_name nb]. destruct (Z.eqb_spec name m); [congruence|reflexivity]. }
  assert (Hl : length (c_buckets c0) = S (length (c_buckets c))) by (unfold c0; cbn [c_buckets set]; rewrite app_length; cbn; lia).
  assert (Hleaf : forall b, get_bkt name (c_buckets c0) = Some b -> b = nb) by congruence.
  apply (attach_ok c c0 p name bp (bview nb) 0); auto using vzero_length, has_traits_refl; try lia.
  - unfold view. change (c_servers c0) with (c_servers c). rewrite Hfs, Hnb. reflexivity.
  - intros b Hb. rewrite (Hleaf b Hb). repeat split; [exact Hfs|lia].
  - unfold c0. cbn [c_buckets set]. rewrite map_app. apply NoDup_snoc; [apply (tw_bnames _ W)|apply get_bkt_none_notin; exact Hfb].
  - cbn. congruence.
  - intros b Hb. rewrite (Hleaf b Hb). split; [apply vzero_length|apply nonneg_vzero].
Qed.

(** ** a server leaves its bucket *)
Definition detach_rel (sn : Z) (b b' : bucket) : Prop :=
  b_parent b' = b_parent b /\ b_free b' = b_free b /\ b_labels b' = b_labels b /\
  (forall x, In (Some x) (b_children b') <-> (In (Some x) (b_children b) /\ x <> sn)) /\
  (forall x, x <> sn -> aget x (b_child_traits b') = aget x (b_child_traits b)).

Lemma hole_child_In sn l x : In (Some x) (hole_child sn l) <-> (In (Some x) l /\ x <> sn).
Proof.
  unfold hole_child. rewrite in_map_iff. split.
  - intros ([y|] & E & Hin); [|discriminate]. destruct (Z.eqb_spec y sn); [discriminate|]. inversion E; subst. auto.
  - intros [Hin Hne]. exists (Some x). split; [|exact Hin]. destruct (Z.eqb_spec x sn); [contradiction|reflexivity].
Qed.

Lemma listed_parent c sn s q b : TreeWf c -> get_srv sn (c_servers c) = Some s -> get_bkt q (c_buckets c) = Some b ->
  In (Some sn) (b_children b) -> s_parent s = Some q.
Proof.
  intros W Hs Hb Hin. destruct (listed_view _ _ _ _ W Hb Hin) as (w & Hv & Hp).
  rewrite (view_srv _ _ _ Hs) in Hv. injection Hv as <-. exact Hp.
Qed.

Lemma detach_rel_same c sn s q b : TreeWf c -> get_srv sn (c_servers c) = Some s -> get_bkt q (c_buckets c) = Some b ->
  s_parent s <> Some q -> detach_rel sn b b.
Proof.
  intros W Hs Hb Hne. repeat split; auto.
  - intros ->. apply Hne. eapply listed_parent; eassumption.
  - tauto.
Qed.

(** [c1] is [c] without the server [sn], in the server map and in the list of its parent; the walks of remove_node
    start from it *)
Section DetachServer.
  Variables (c : cell) (sn : Z) (s : server).
  Hypothesis HAc : Acct c.
  Hypothesis W : TreeWf c.
  Hypothesis Hs : get_srv sn (c_servers c) = Some s.
  Let g := fun b : bucket => b <| b_children ::= hole_child sn |> <| b_child_traits ::= adel sn |>.
  Let c0 := c <| c_servers ::= del_srv sn |>.
  Let c1 := match s_parent s with Some p => c_upd_bkt p g c0 | None => c0 end.

  Lemma ds_srv m : get_srv m (c_servers c1) = if Z.eqb m sn then None else get_srv m (c_servers c).
  Proof.
    replace (c_servers c1) with (del_srv sn (c_servers c)) by (unfold c1; destruct (s_parent s); reflexivity).
    apply get_srv_del, (ac_srv_names _ HAc).
  Qed.
  Lemma ds_so m : m <> sn -> get_srv m (c_servers c1) = get_srv m (c_servers c).
  Proof. intros H. rewrite ds_srv. destruct (Z.eqb_spec m sn); [contradiction|reflexivity]. Qed.
  Lemma ds_sn_not_bkt : get_bkt sn (c_buckets c) = None.
  Proof. eapply tw_disj; eassumption. Qed.
  Lemma ds_names : map b_name (c_buckets c1) = map b_name (c_buckets c).
  Proof. unfold c1. destruct (s_parent s); [apply upd_bkt_names|]; reflexivity. Qed.
  Lemma ds_rel : bkts_rel (detach_rel sn) (c_buckets c) (c_buckets c1).
  Proof.
    assert (Hsame : forall m, s_parent s <> Some m ->
              match get_bkt m (c_buckets c) with Some b => detach_rel sn b b | None => True end).
    { intros m Hm. destruct (get_bkt m (c_buckets c)) as [b|] eqn:Hb; [|exact I]. eapply detach_rel_same; eassumption. }
    intros m. specialize (Hsame m). unfold c1. destruct (s_parent s) as [p|] eqn:Hp.
    - destruct (Z.eq_dec m p) as [->|Hne].
      + destruct (tw_sparent _ W _ _ _ Hs Hp) as (bp & Hbp & _).
        rewrite (get_bkt_upd_same c0 p g bp (fun _ => eq_refl) Hbp), Hbp. do 3 (split; [reflexivity|]). split.
        * intros x. apply hole_child_In.
        * intros x Hx. apply ag_adel_other. exact Hx.
      + rewrite get_bkt_upd_other by (reflexivity || exact Hne). change (c_buckets c0) with (c_buckets c).
        destruct (get_bkt m (c_buckets c)); apply Hsame; congruence.
    - change (c_buckets c0) with (c_buckets c). destruct (get_bkt m (c_buckets c)); apply Hsame; discriminate.
  Qed.
  Lemma ds_fwd m b : get_bkt m (c_buckets c) = Some b -> exists b', get_bkt m (c_buckets c1) = Some b' /\ detach_rel sn b b'.
  Proof. exact (bkts_rel_fwd _ _ _ m b ds_rel). Qed.
  Lemma ds_bwd m b' : get_bkt m (c_buckets c1) = Some b' -> exists b, get_bkt m (c_buckets c) = Some b /\ detach_rel sn b b'.
  Proof. exact (bkts_rel_bwd _ _ _ m b' ds_rel). Qed.
  (* only the parent's trait entries change *)
  Lemma ds_traits m b b' : Some m <> s_parent s -> get_bkt m (c_buckets c) = Some b ->
    get_bkt m (c_buckets c1) = Some b' -> bkt_traits b' = bkt_traits b.
  Proof.
    intros Hx Hb Hb'. unfold c1 in Hb'.
    destruct (s_parent s) as [p|]; [rewrite get_bkt_upd_other in Hb' by (reflexivity || congruence)|];
      change (c_buckets c0) with (c_buckets c) in Hb'; congruence.
  Qed.

  Lemma detach_server_TreeWf : TreeWf c1.
  Proof.
    constructor.
    - rewrite ds_names. apply (tw_bnames _ W).
    - intros n s' Hs'. rewrite ds_srv in Hs'. destruct (Z.eqb n sn); [discriminate|].
      exact (bkts_rel_none _ _ _ n ds_rel (tw_disj _ W _ _ Hs')).
    - intros q b' m Hb' Hin. destruct (ds_bwd _ _ Hb') as (b & Hb & _ & _ & _ & Hc & _).
      destruct (proj1 (Hc m) Hin) as [Hin0 Hne].
      destruct (tw_child _ W _ _ _ Hb Hin0) as [(s0 & Hs0 & Hp0)|(b0 & Hb0 & Hp0)].
      + left. exists s0. rewrite ds_so by exact Hne. auto.
      + right. destruct (ds_fwd _ _ Hb0) as (b0' & Hb0' & Ep & _). exists b0'. split; [exact Hb0'|congruence].
    - intros n s' q Hs' Hq. rewrite ds_srv in Hs'. destruct (Z.eqb_spec n sn) as [|Hne]; [discriminate|].
      destruct (tw_sparent _ W _ _ _ Hs' Hq) as (b & Hb & Hin).
      destruct (ds_fwd _ _ Hb) as (b' & Hb' & _ & _ & _ & Hc & _). exists b'. split; [exact Hb'|]. apply Hc. auto.
    - intros n b' q Hb' Hq. destruct (ds_bwd _ _ Hb') as (b & Hb & Ep & _). rewrite Ep in Hq.
      destruct (tw_bparent _ W _ _ _ Hb Hq) as (b0 & Hb0 & Hin).
      destruct (ds_fwd _ _ Hb0) as (b0' & Hb0' & _ & _ & _ & Hc & _). exists b0'. split; [exact Hb0'|]. apply Hc.
      split; [exact Hin|]. intros ->. rewrite ds_sn_not_bkt in Hb. discriminate.
    - intros n b' Hb'. destruct (ds_bwd _ _ Hb') as (b & Hb & _).
      rewrite <- (map_length b_name (c_buckets c1)), ds_names, map_length.
      apply (up_ok_fwd c c1); [|eapply tw_depth; eassumption].
      intros m b0 Hb0. destruct (ds_fwd _ _ Hb0) as (b0' & Hb0' & Ep & _). eauto.
  Qed.

  Hypothesis HA : AggLocal c.

  Lemma ds_view_bwd m w' : view c1 m = Some w' ->
    m <> sn /\ exists w, view c m = Some w /\ nv_parent w' = nv_parent w /\ nv_free w' = nv_free w /\
                         nv_labels w' = nv_labels w /\ (Some m <> s_parent s -> nv_traits w' = nv_traits w).
  Proof.
    intros Hv. unfold view in *. rewrite ds_srv in Hv. destruct (Z.eqb_spec m sn) as [->|Hne].
    { rewrite (bkts_rel_none _ _ _ sn ds_rel ds_sn_not_bkt) in Hv. discriminate. }
    split; [exact Hne|].
    destruct (get_srv m (c_servers c)) as [s0|]; [inversion Hv; subst; eexists; repeat split; reflexivity|].
    destruct (get_bkt m (c_buckets c1)) as [b'|] eqn:Hb'; cbn in Hv; [|discriminate]. inversion Hv; subst w'.
    destruct (ds_bwd _ _ Hb') as (b & Hb & E1 & E2 & E3 & _). rewrite Hb. cbn. exists (bview b). split; [reflexivity|].
    cbn. rewrite E1, E2, E3. repeat split. intros Hx. eapply ds_traits; eassumption.
  Qed.

  Lemma detach_server_Agg3 : Agg3 c1 None None (s_parent s).
  Proof.
    assert (Hdim : c_dim c1 = c_dim c) by (unfold c1; destruct (s_parent s); reflexivity).
    destruct HA as (HD & HF & HL & HT). split; [|split; [|split]].
    - intros m b' Hb'. destruct (ds_bwd _ _ Hb') as (b & Hb & _ & E & _). rewrite Hdim, E. apply (HD _ _ Hb).
    - intros m w' q b' f Hv Hq Hb' Hf. destruct (ds_view_bwd _ _ Hv) as (_ & w & Hw & E1 & E2 & _).
      destruct (ds_bwd _ _ Hb') as (b & Hb & _ & E & _). rewrite E. apply (HF m w q b f Hw); congruence.
    - intros m w' q b' Hv Hq Hb'. destruct (ds_view_bwd _ _ Hv) as (_ & w & Hw & E1 & _ & E2 & _).
      destruct (ds_bwd _ _ Hb') as (b & Hb & _ & _ & E & _). rewrite E, E2. apply (HL m w q b Hw); congruence.
    - intros m w' q b' Hv Hq Hb' Hx. destruct (ds_view_bwd _ _ Hv) as (Hne & w & Hw & E1 & _ & _ & E2).
      destruct (ds_bwd _ _ Hb') as (b & Hb & _ & _ & _ & _ & E). rewrite (E m Hne), E2 by congruence.
      apply (HT m w q b Hw); [congruence|exact Hb|discriminate].
  Qed.

  Theorem detach_ok : TreeWf (detach_server c sn) /\ AggLocal (detach_server c sn).
  Proof.
    pose proof detach_server_TreeWf as W1. pose proof detach_server_Agg3 as A1.
    assert (S0 : SDims c0) by (apply Acct_SDims, Acct_del_server; exact HAc).
    unfold detach_server. rewrite Hs. fold c0. unfold c1 in W1, A1.
    destruct (s_parent s) as [p|] eqn:Hp; [|split; assumption].
    unfold unhook_server. rewrite (get_srv_name _ _ _ Hs). fold g.
    destruct (tw_sparent _ W _ _ _ Hs Hp) as (bp & Hbp & _).
    destruct (W_traits _ p _ _ W1 (ex_intro _ _ (get_bkt_upd_same c0 p g bp (fun _ => eq_refl) Hbp)) A1) as (W2 & A2).
    destruct (W_bump (depth_fuel (propagate_traits (depth_fuel (c_upd_bkt p g c0)) (c_upd_bkt p g c0) p)) _ p
                (s_counters s) (-1) _ _ _ W2 A2) as (W3 & A3).
    apply W_down; [exact W3| |exact A3].
    eapply SDims_sc; [apply bump_affinity_sc|]. eapply SDims_sc; [apply propagate_traits_sc|]. exact S0.
  Qed.
End DetachServer.

Lemma detach_server_ok c sn : Acct c -> TreeWf c -> AggLocal c ->
  TreeWf (detach_server c sn) /\ AggLocal (detach_server c sn).
Proof.
  intros HA W HL. destruct (get_srv sn (c_servers c)) as [s|] eqn:Hs; [exact (detach_ok c sn s HA W Hs HL)|].
  unfold detach_server. rewrite Hs. auto.
Qed.
(** ** the bucket walks read servers only through the listed children *)
Definition not_listed (sn : Z) (c : cell) : Prop :=
  forall q b, get_bkt q (c_buckets c) = Some b -> ~ In (Some sn) (b_children b).
Lemma not_listed_same sn c c' : bkts_same pskel c c' -> not_listed sn c -> not_listed sn c'.
Proof.
  intros HB H q b' Hb'. destruct (bkts_same_bwd _ _ _ _ _ HB Hb') as (b & Hb & E). injection E as _ E. rewrite E.
  exact (H q b Hb).
Qed.

(** cells that agree on everything the walks read, except for the server [sn] *)
Definition agree_but (sn : Z) (c c' : cell) : Prop :=
  c_dim c' = c_dim c /\ c_buckets c' = c_buckets c /\
  forall m, m <> sn -> get_srv m (c_servers c') = get_srv m (c_servers c).
Lemma agree_upd_bkt sn n g c c' : agree_but sn c c' -> agree_but sn (c_upd_bkt n g c) (c_upd_bkt n g c').
Proof.
  intros (H1 & H2 & H3). split; [exact H1|]. split; [|exact H3]. unfold c_upd_bkt. cbn [c_buckets set]. rewrite H2. reflexivity.
Qed.
Lemma agree_fuel sn c c' : agree_but sn c c' -> depth_fuel c' = depth_fuel c.
Proof. intros (_ & E & _). unfold depth_fuel. rewrite E. reflexivity. Qed.

Lemma propagate_traits_agree sn fuel : forall c c' n, agree_but sn c c' ->
  agree_but sn (propagate_traits fuel c n) (propagate_traits fuel c' n).
Proof.
  induction fuel as [|f IH]; intros c c' n H; cbn [propagate_traits]; [exact H|]. rewrite (proj1 (proj2 H)).
  destruct (get_bkt n (c_buckets c)) as [b|]; [|exact H]. destruct (b_parent b) as [p|]; [|exact H].
  apply IH, agree_upd_bkt, H.
Qed.
Lemma bump_affinity_agree sn fuel : forall c c' n ds sg, agree_but sn c c' ->
  agree_but sn (bump_affinity fuel c n ds sg) (bump_affinity fuel c' n ds sg).
Proof.
  induction fuel as [|f IH]; intros c c' n ds sg H; cbn [bump_affinity]; [exact H|]. rewrite (proj1 (proj2 H)).
  destruct (get_bkt n (c_buckets c)) as [b|]; [|exact H].
  destruct (b_parent b) as [p|]; [apply IH|]; apply agree_upd_bkt, H.
Qed.

Lemma fold_left_ext_in {A B} (f g : A -> B -> A) l : (forall a x, In x l -> f a x = g a x) ->
  forall a, fold_left f l a = fold_left g l a.
Proof.
  induction l as [|x r IH]; intros H a; cbn; [reflexivity|]. rewrite H by (left; reflexivity).
  apply IH. intros a0 y Hy. apply H. right. exact Hy.
Qed.

Lemma adjust_down_agree sn fuel : forall c c' n pv, agree_but sn c c' -> not_listed sn c ->
  agree_but sn (adjust_down fuel c n pv) (adjust_down fuel c' n pv).
Proof.
  induction fuel as [|f IH]; intros c c' n pv H Hnl; cbn [adjust_down]; [exact H|].
  pose proof H as (Hd & E & Hsrv). rewrite E.
  destruct (get_bkt n (c_buckets c)) as [b|] eqn:Hb; [|exact H].
  assert (Hstep : forall nf pv', agree_but sn
            (match b_parent b with
             | Some p => adjust_down f (c_upd_bkt n (fun x => x <| b_free := nf |>) c) p pv'
             | None => c_upd_bkt n (fun x => x <| b_free := nf |>) c
             end)
            (match b_parent b with
             | Some p => adjust_down f (c_upd_bkt n (fun x => x <| b_free := nf |>) c') p pv'
             | None => c_upd_bkt n (fun x => x <| b_free := nf |>) c'
             end)).
  { intros nf pv'. destruct (b_parent b) as [p|]; [apply IH|]; try (apply agree_upd_bkt; exact H).
    eapply not_listed_same; [apply bkts_same_upd; reflexivity|exact Hnl]. }
  destruct (live_children (b_children b)) as [|k ks] eqn:Ek.
  - rewrite Hd. apply Hstep.
  - destruct (match pv with Some v => all_lt v (b_free b) | None => false end); [exact H|].
    assert (Em : max_up_children c' (k :: ks) = max_up_children c (k :: ks)).
    { unfold max_up_children. rewrite Hd. apply fold_left_ext_in. intros acc m Hm.
      assert (Hne : m <> sn).
      { intros ->. rewrite <- Ek in Hm. apply live_children_In in Hm. eapply Hnl; eassumption. }
      unfold child_free_state. rewrite (Hsrv m Hne), E. reflexivity. }
    rewrite Em. destruct (any_lt (max_up_children c (k :: ks)) (b_free b)); [|exact H]. apply Hstep.
Qed.

(** remove_node gives the same buckets whether the server is still in the server map or not *)
Lemma unhook_agree c c' sn s p : TreeWf c -> get_srv sn (c_servers c) = Some s -> s_parent s = Some p ->
  agree_but sn c c' -> agree_but sn (unhook_server c p s) (unhook_server c' p s).
Proof.
  intros W Hs Hp H. unfold unhook_server. rewrite (get_srv_name _ _ _ Hs).
  set (g := fun b : bucket => b <| b_children ::= hole_child sn |> <| b_child_traits ::= adel sn |>).
  pose proof (agree_upd_bkt sn p g _ _ H) as H1. rewrite (agree_fuel _ _ _ H1).
  pose proof (propagate_traits_agree sn (depth_fuel (c_upd_bkt p g c)) _ _ p H1) as H2. rewrite (agree_fuel _ _ _ H2).
  pose proof (bump_affinity_agree sn (depth_fuel (propagate_traits (depth_fuel (c_upd_bkt p g c)) (c_upd_bkt p g c) p))
                _ _ p (s_counters s) (-1) H2) as H3. rewrite (agree_fuel _ _ _ H3).
  apply adjust_down_agree; [exact H3|].
  eapply not_listed_same.
  { eapply bkts_same_trans; [apply (propagate_traits_same pskel (fun x v => eq_refl))|].
    apply (bump_affinity_same pskel (fun x v => eq_refl)). }
  intros q b1 Hb1 Hin.
  destruct (get_upd_bkt_inv p q g (c_buckets c) b1 (fun _ => eq_refl) Hb1) as [(_ & bp & _ & ->)|(Hqp & Hb1')].
  - cbn in Hin. apply hole_child_In in Hin. tauto.
  - pose proof (listed_parent _ _ _ _ _ W Hs Hb1' Hin). congruence.
Qed.

(** ** move_server *)
Lemma move_server_ok c sn np bnp : Acct c -> TreeWf c -> AggLocal c ->
  get_bkt np (c_buckets c) = Some bnp ->
  TreeWf (move_server c sn np) /\ AggLocal (move_server c sn np).
Proof.
  intros HA W HL Hnp. unfold move_server. destruct (get_srv sn (c_servers c)) as [s|] eqn:Hs; [|auto].
  pose proof (ac_srv_names _ HA) as Hnd.
  (* [cd] is the cell without the server; it has the buckets of [c0], where the server was only unhooked *)
  set (cm := c <| c_servers ::= del_srv sn |>).
  set (c0 := match s_parent s with Some p => unhook_server c p s | None => c end).
  destruct (detach_server_ok c sn HA W HL) as (Wd & Ld). unfold detach_server in Wd, Ld. rewrite Hs in Wd, Ld. fold cm in Wd, Ld.
  set (cd := match s_parent s with Some p => unhook_server cm p s | None => cm end) in *.
  assert (Hsc0 : same_core c c0) by (unfold c0; destruct (s_parent s); [apply unhook_server_sc|apply same_core_refl]).
  assert (Hscd : same_core cm cd) by (unfold cd; destruct (s_parent s); [apply unhook_server_sc|apply same_core_refl]).
  assert (Hag : agree_but sn c0 cd).
  { assert (H : agree_but sn c cm).
    { split; [reflexivity|]. split; [reflexivity|]. intros m Hm. unfold cm. cbn [c_servers set].
      rewrite get_srv_del by exact Hnd. destruct (Z.eqb_spec m sn); [contradiction|reflexivity]. }
    unfold c0, cd. destruct (s_parent s) as [p|] eqn:Hp; [apply (unhook_agree c cm sn s p); assumption|exact H]. }
  destruct Hag as (Hdim & Hbk & Hsrv).
  assert (Hsd : get_srv sn (c_servers cd) = None).
  { rewrite (sc_servers _ _ Hscd). unfold cm. cbn [c_servers set]. rewrite get_srv_del by exact Hnd.
    rewrite Z.eqb_refl. reflexivity. }
  assert (HBd : bkts_same (fun _ : bucket => tt) c c0).
  { unfold c0. destruct (s_parent s) as [p|]; [|apply bkts_same_refl]. unfold unhook_server.
    eapply bkts_same_trans; [|apply (adjust_down_same (fun _ : bucket => tt) (fun x v => eq_refl))].
    eapply bkts_same_trans; [|apply (bump_affinity_same (fun _ : bucket => tt) (fun x v => eq_refl))].
    eapply bkts_same_trans; [|apply (propagate_traits_same (fun _ : bucket => tt) (fun x v => eq_refl))].
    apply bkts_same_upd; reflexivity. }
  destruct (bkts_same_fwd _ _ _ _ _ HBd Hnp) as (bp & Hbp0 & _). rewrite <- Hbk in Hbp0.
  assert (Hsnb : get_bkt sn (c_buckets cd) = None).
  { rewrite Hbk. eapply bkts_same_none; [exact HBd|]. eapply tw_disj; eassumption. }
  (* the server with its new parent *)
  set (s' := s <| s_parent := Some np |>).
  set (c1 := c_upd_srv sn (fun x => x <| s_parent := Some np |>) c0).
  assert (Hs1 : get_srv sn (c_servers c1) = Some s').
  { unfold c1, c_upd_srv. cbn [c_servers set]. rewrite (sc_servers _ _ Hsc0).
    apply (get_upd_srv_same sn (fun x => x <| s_parent := Some np |>) _ s); [reflexivity|exact Hs]. }
  assert (Hso : forall m, m <> sn -> get_srv m (c_servers c1) = get_srv m (c_servers cd)).
  { intros m Hm. unfold c1, c_upd_srv. cbn [c_servers set].
    rewrite get_upd_srv_other by (reflexivity || exact Hm). symmetry. apply Hsrv. exact Hm. }
  assert (Hb1 : c_buckets c1 = c_buckets cd) by (symmetry; exact Hbk).
  destruct (ac_srv_dims _ HA _ _ Hs) as (_ & Hlf & _).
  assert (Hdd : c_dim cd = c_dim c) by (rewrite (sc_dim _ _ Hscd); reflexivity).
  apply (attach_ok cd c1 np sn bp (sview s') (s_traits s)); auto using view_srv, has_traits_refl; try congruence.
  - rewrite Hb1. apply (tw_bnames _ Wd).
  - rewrite Hb1. apply le_n.
  - cbn. intros f. destruct (s_state s); congruence.
Qed.

(** ** every operation *)
Definition core3 (c c' : cell) : Prop := c_dim c' = c_dim c /\ c_servers c' = c_servers c /\ c_buckets c' = c_buckets c.
Lemma core3_refl c : core3 c c. Proof. repeat split. Qed.
Lemma core3_trans a b c : core3 a b -> core3 b c -> core3 a c.
Proof. unfold core3. intuition congruence. Qed.
Lemma TA_ext c c' : core3 c c' -> TreeWf c /\ AggLocal c -> TreeWf c' /\ AggLocal c'.
Proof. intros (H1 & H2 & H3) [W L]. split; [eapply TreeWf_ext; eassumption|eapply Agg3_ext; eassumption]. Qed.

Lemma upd_alloc_core3 c label path f : core3 c (upd_alloc c label path f).
Proof. unfold upd_alloc, ensure_part. destruct (aget label (c_parts c)); repeat split. Qed.
Lemma ensure_group_core3 c g : core3 c (ensure_group c g).
Proof. unfold ensure_group. destruct g as [n|]; [|apply core3_refl]. destruct (aget n (c_groups c)); repeat split. Qed.
Lemma release_core3 c n : core3 c (release_identity c n).
Proof. destruct (release_identity_frame c n) as (H1 & H2 & H3 & _). exact (conj H1 (conj H2 H3)). Qed.
Lemma add_app_core3 c label path a : core3 c (add_app c label path a).
Proof.
  unfold add_app. destruct (get_app (a_name a) (c_apps c)) as [old|].
  - eapply core3_trans; [|apply ensure_group_core3].
    eapply core3_trans; [|split; [|split]; reflexivity].
    eapply core3_trans; [|apply upd_alloc_core3].
    destruct (a_alloc old) as [[l0 p0]|]; [apply upd_alloc_core3|apply core3_refl].
  - eapply core3_trans; [|apply ensure_group_core3].
    eapply core3_trans; [apply upd_alloc_core3|]. repeat split.
Qed.

Lemma srv_remove_all_as c sn : asteps c (srv_remove_all c sn).
Proof.
  unfold srv_remove_all. destruct (get_srv sn (c_servers c)) as [s|]; [|apply as_refl].
  apply fold_as. intros c0 n. apply as_remove.
Qed.
Lemma Inv_srv_remove c sn an : Inv c -> Inv (srv_remove c sn an).
Proof. apply Inv_astep, AS_remove. Qed.
Lemma Inv_srv_remove_all c sn : Inv c -> Inv (srv_remove_all c sn).
Proof. apply Inv_asteps, srv_remove_all_as. Qed.

Lemma force_identity_core3 c an i : core3 c (force_identity c an i).
Proof.
  unfold force_identity. destruct i as [i|]; [|apply core3_refl]. destruct (get_app an (c_apps c)) as [a|]; [|apply core3_refl].
  destruct (group_of c a) as [[g grp]|]; repeat split.
Qed.

(** ** the events on instances, partitions and groups: a run of cycle steps, then a change that keeps dimension,
    servers and buckets *)
Definition cycle_then_core (c c' : cell) : Prop := exists c1, asteps c c1 /\ core3 c1 c'.
Lemma ctc_core c c' : core3 c c' -> cycle_then_core c c'.
Proof. intros H. exists c. split; [apply as_refl|exact H]. Qed.
Lemma TA_ctc c c' : cycle_then_core c c' -> Inv c -> TreeWf c' /\ AggLocal c'.
Proof. intros (c1 & H1 & H2) HI. exact (TA_ext c1 c' H2 (proj2 (Inv_asteps _ _ H1 HI))). Qed.

Lemma remove_app_ctc c n : cycle_then_core c (remove_app c n).
Proof.
  unfold remove_app. destruct (get_app n (c_apps c)) as [a|]; [|apply ctc_core, core3_refl].
  exists (match a_server a with Some sn => if is_member c sn then srv_remove c sn n else c | None => c end). split.
  - destruct (a_server a) as [sn|]; [|apply as_refl]. destruct (is_member c sn); [apply as_remove|apply as_refl].
  - cbv zeta. eapply core3_trans; [|eapply core3_trans; [apply release_core3|repeat split]].
    destruct (a_alloc a) as [[l0 p0]|]; [apply upd_alloc_core3|apply core3_refl].
Qed.
Lemma restore_op_ctc c sn an vb ex ident : cycle_then_core c (restore_op c sn an vb ex ident).
Proof.
  unfold restore_op. destruct (get_app an (c_apps c)) as [a|]; [|apply ctc_core, core3_refl].
  pose proof (restore_put_as c sn an vb ex) as H1. destruct (restore_put c sn an vb ex) as [c1 ok]. cbn [fst] in H1.
  destruct ok; [exists c1; split; [exact H1|apply force_identity_core3]|].
  destruct (a_once a); [|exists c1; split; [exact H1|apply core3_refl]].
  destruct (remove_app_ctc c1 an) as (c2 & H2 & H3). exists c2. split; [eapply as_trans; eassumption|exact H3].
Qed.
Theorem app_event_ctc c o : srv_event o = false -> cycle_then_core c (step c o).
Proof.
  destruct o; try discriminate; intros _; try (apply ctc_core; repeat split; fail); cbn [step].
  - apply ctc_core, add_app_core3.
  - apply remove_app_ctc.
  - apply ctc_core, upd_alloc_core3.
  - apply ctc_core. unfold config_group. destruct (aget name (c_groups c)); repeat split.
  - apply ctc_core. unfold remove_group. destruct (aget name (c_groups c)); [|apply core3_refl].
    destruct (existsb _ _); repeat split.
  - destruct (schedule c choices) as [[c' qs] pl] eqn:E. exists c'. split; [|apply core3_refl].
    exact (eq_ind _ (fun x => asteps c (fst (fst x))) (schedule_as c choices) _ E).
  - apply restore_op_ctc.
Qed.

Definition wf_op_agg (c : cell) (o : op) : Prop :=
  match o with
  | OAddBucket name level parent =>
      get_srv name (c_servers c) = None /\ get_bkt name (c_buckets c) = None /\
      exists bp, get_bkt parent (c_buckets c) = Some bp
  | OAddServer name parent cap label traits vu =>
      get_bkt name (c_buckets c) = None /\ exists bp, get_bkt parent (c_buckets c) = Some bp
  | OMoveServer name newparent => exists bp, get_bkt newparent (c_buckets c) = Some bp
  | _ => True
  end.

Theorem TA_step c o : wf_op c o -> wf_op_agg c o -> Inv c -> TreeWf (step c o) /\ AggLocal (step c o).
Proof.
  intros Hwf Hwa HI. destruct (srv_event o) eqn:E; [|exact (TA_ctc _ _ (app_event_ctc c o E) HI)].
  pose proof HI as (HA & W & L). destruct o; try discriminate E; cbn [step].
  - (* OAddBucket *) destruct Hwa as (H1 & H2 & bp & H3). eapply add_bucket_ok; eassumption.
  - (* OAddServer *) destruct Hwf as (H1 & H2 & H3 & H4). destruct Hwa as (H5 & bp & H6).
    eapply (add_server_ok c (new_server c name parent cap label traits valid_until) parent bp); auto.
  - (* ORemoveServer *)
    assert (HI' : Inv (if raw then c else srv_remove_all c name))
      by (destruct raw; [exact HI|apply Inv_srv_remove_all; exact HI]).
    destruct HI' as (HA' & W' & L'). apply detach_server_ok; assumption.
  - (* OMoveServer *) destruct Hwa as (bp & H). eapply move_server_ok; eassumption.
  - (* OSetState *) apply srv_set_state_ok; assumption.
  - (* OSetValidUntil *)
    destruct (get_srv name (c_servers c)) as [s|] eqn:Hs.
    + apply (srv_lower_ok c name s (fun s0 => s0 <| s_valid_until := t |>) Hs); auto.
      intros x Hx. exists x. split; [exact Hx|apply vle_refl].
    + apply (TA_ext c); [|auto]. split; [reflexivity|]. split; [|reflexivity].
      unfold c_upd_srv. cbn [c_servers set]. apply (kupd_none s_name). exact Hs.
  - (* OTick *) apply (TA_ext c); [repeat split|auto].
Qed.

Theorem Inv_step c o : wf_op c o -> wf_op_agg c o -> Inv c -> Inv (step c o).
Proof.
  intros H1 H2 HI. split; [apply Acct_step; [exact H1|apply HI]|apply TA_step; assumption].
Qed.

Fixpoint wf_ops_agg (c : cell) (ops : list op) : Prop :=
  match ops with [] => True | o :: r => wf_op_agg c o /\ wf_ops_agg (step c o) r end.

Theorem Inv_run ops : forall c, wf_ops c ops -> wf_ops_agg c ops -> Inv c -> Inv (run c ops).
Proof.
  induction ops as [|o r IH]; intros c H1 H2 HI; cbn; [exact HI|].
  destruct H1 as [H1 H1']. destruct H2 as [H2 H2']. apply IH; [exact H1'|exact H2'|apply Inv_step; assumption].
Qed.

Lemma Inv_init dim root level : Inv (init_cell dim root level).
Proof.
  split; [apply Acct_init|]. split.
  - constructor; cbn [init_cell c_buckets c_servers map b_name].
    + constructor; [intros []|constructor].
    + intros n s H. discriminate.
    + intros p b m Hb Hin. cbn in Hb. destruct (Z.eqb root p); [|discriminate]. inversion Hb; subst b. destruct Hin.
    + intros n s p H. discriminate.
    + intros n b' p Hb Hp. cbn in Hb. destruct (Z.eqb root n); [|discriminate]. inversion Hb; subst b'. discriminate.
    + intros n b Hb. cbn in Hb. cbn. destruct (Z.eqb root n); [|discriminate]. inversion Hb; subst b. reflexivity.
  - (* the only node is the root, which has no parent: there is no edge *)
    assert (Hno : forall m w p, view (init_cell dim root level) m = Some w -> nv_parent w <> Some p).
    { intros m w p Hv. unfold view in Hv. cbn in Hv. destruct (Z.eqb root m); [|discriminate].
      injection Hv as <-. discriminate. }
    split; [|split; [|split]].
    + intros n b Hb. cbn in Hb. destruct (Z.eqb root n); [|discriminate]. inversion Hb; subst b. cbn.
      split; [apply vzero_length|apply nonneg_vzero].
    + intros m w p b f Hv Hp. destruct (Hno m w p Hv Hp).
    + intros m w p b Hv Hp. destruct (Hno m w p Hv Hp).
    + intros m w p b Hv Hp. destruct (Hno m w p Hv Hp).
Qed.

(** the premises of the completeness theorem hold in every state a well-formed history reaches *)
Theorem reachable_TreeWf_AggSound dim root level ops :
  wf_ops (init_cell dim root level) ops -> wf_ops_agg (init_cell dim root level) ops ->
  TreeWf (run (init_cell dim root level) ops) /\ AggSound (run (init_cell dim root level) ops).
Proof.
  intros H1 H2. destruct (Inv_run ops _ H1 H2 (Inv_init dim root level)) as (_ & W & L).
  split; [exact W|apply AggLocal_sound; assumption].
Qed.

Theorem reachable_put_complete dim root level ops x a s rest :
  let c := run (init_cell dim root level) ops in
  wf_ops (init_cell dim root level) ops -> wf_ops_agg (init_cell dim root level) ops ->
  get_app x (c_apps c) = Some a ->
  get_srv (s_name s) (c_servers c) = Some s -> s_state s = Up ->
  put_guard c s a (a_lease a) = true ->
  down_path c (c_root c) rest (s_name s) ->
  (forall m b, In m (c_root c :: rest) -> get_bkt m (c_buckets c) = Some b ->
               under_limit (cget (a_aff a) (b_counters b)) (aff_limit a (b_level b)) = true) ->
  snd (cell_put c x) = true.
Proof.
  intros c H1 H2. destruct (reachable_TreeWf_AggSound dim root level ops H1 H2) as (W & S).
  apply cell_put_complete; assumption.
Qed.

(** boolean side conditions, for concrete histories *)
Definition wf_op_aggb (c : cell) (o : op) : bool :=
  match o with
  | OAddBucket name level parent =>
      (match get_srv name (c_servers c) with None => true | Some _ => false end)
      && (match get_bkt name (c_buckets c) with None => true | Some _ => false end)
      && (match get_bkt parent (c_buckets c) with Some _ => true | None => false end)
  | OAddServer name parent cap label traits vu =>
      (match get_bkt name (c_buckets c) with None => true | Some _ => false end)
      && (match get_bkt parent (c_buckets c) with Some _ => true | None => false end)
  | OMoveServer name newparent => match get_bkt newparent (c_buckets c) with Some _ => true | None => false end
  | _ => true
  end.
Fixpoint wf_ops_aggb (c : cell) (ops : list op) : bool :=
  match ops with [] => true | o :: r => wf_op_aggb c o && wf_ops_aggb (step c o) r end.
Lemma wf_op_aggb_sound c o : wf_op_aggb c o = true -> wf_op_agg c o.
Proof.
  destruct o; cbn; try (intros; exact I).
  - intros H. apply andb_true_iff in H as [H H3]. apply andb_true_iff in H as [H1 H2].
    destruct (get_srv name (c_servers c)); [discriminate|]. destruct (get_bkt name (c_buckets c)); [discriminate|].
    destruct (get_bkt parent (c_buckets c)); [eauto|discriminate].
  - intros H. apply andb_true_iff in H as [H1 H2].
    destruct (get_bkt name (c_buckets c)); [discriminate|]. destruct (get_bkt parent (c_buckets c)); [eauto|discriminate].
  - destruct (get_bkt newparent (c_buckets c)); [eauto|discriminate].
Qed.
Lemma wf_ops_aggb_sound ops : forall c, wf_ops_aggb c ops = true -> wf_ops_agg c ops.
Proof. exact (wf_runb_sound wf_op_agg wf_op_aggb wf_op_aggb_sound ops). Qed.

Print Assumptions reachable_put_complete.
Print Assumptions Inv_run.
Print Assumptions AggLocal_sound.

(** ** the history of PutComplete.v's example meets the side conditions, so its cell satisfies the premises by invariance *)
Example nv_wf_ops_agg : wf_ops_aggb (init_cell 2 2000 3) nv_ops = true.
Proof. vm_compute. reflexivity. Qed.
Theorem nv_reach : TreeWf nv_cell /\ AggSound nv_cell.
Proof.
  apply reachable_TreeWf_AggSound; [apply wf_opsb_sound; exact nv_wf_ops|apply wf_ops_aggb_sound; exact nv_wf_ops_agg].
Qed.

(** a history with topology changes, state changes and removals: it meets the side conditions, and the checkers
    accept the cell it reaches *)
Definition tp_ops : list op :=
  [ OAddBucket 2001 2 2000; OAddBucket 2002 2 2000; OAddBucket 2003 1 2001;
    OAddServer 1000 2003 [10;10] 4000 1 0; OAddServer 1001 2001 [6;6] 4000 2 0; OAddServer 1002 2002 [20;20] 4001 4 0;
    OAddApp 4000 [] (nv_app 1 5 1 0 3000 [8;8]); OAddApp 4000 [] (nv_app 2 5 2 0 3000 [5;5]);
    OAddApp 4001 [] (nv_app 3 5 3 4 3000 [12;12]);
    OSchedule [];
    OMoveServer 1000 2002; OSetState 1002 Frozen 3; OSchedule [];
    OSetState 1001 Down 4; OTick 100; OSchedule [];
    ORemoveServer 1002 false; OSetState 1001 Up 120; OMoveServer 1001 2003; OSchedule [];
    ORemoveApp 1; ORemoveServer 1000 true; OSchedule [] ].
Example tp_wf : wf_opsb (init_cell 2 2000 3) tp_ops && wf_ops_aggb (init_cell 2 2000 3) tp_ops = true.
Proof. vm_compute. reflexivity. Qed.
Example tp_checkers : let c := run (init_cell 2 2000 3) tp_ops in tree_wfb c && agg_soundb c = true.
Proof. vm_compute. reflexivity. Qed.
