(** Frame lemmas: what a placement attempt and an eviction scan leave untouched.
    Used for C03/C08 (servers that are not up receive nothing) and C07 (only instances behind the placer are evicted). *)
From Coq Require Import ZArith QArith List Bool Lia.
From RecordUpdate Require Import RecordSet.
From TM Require Import Sched.Vec Sched.Types Sched.Tree Sched.Cycle Sched.Steps Sched.MapsP. Import ListNotations.
                       Open Scope Z_scope.

(** every server other than [sn], and every instance other than [an], is left as it is *)
Definition frame (sn an : Z) (c c' : cell) : Prop :=
  (forall n, n <> sn -> get_srv n (c_servers c') = get_srv n (c_servers c)) /\
  (forall m, m <> an -> get_app m (c_apps c') = get_app m (c_apps c)).

Lemma frame_sc sn an c c' : same_core c c' -> frame sn an c c'.
Proof. intros (_ & _ & H3 & H4 & _). split; intros; rewrite ?H3, ?H4; reflexivity. Qed.
Lemma frame_trans sn an a b c : frame sn an a b -> frame sn an b c -> frame sn an a c.
Proof. intros [H1 H2] [H3 H4]. split; intros; [rewrite H3, H1|rewrite H4, H2]; auto. Qed.
Lemma frame_refl sn an c : frame sn an c c.
Proof. split; reflexivity. Qed.

Lemma prim_put_frame c sn an a l : frame sn an c (prim_put c sn an a l).
Proof.
  unfold prim_put. split; intros n Hne; cbn [c_upd_app c_upd_srv c_servers c_apps set].
  - apply get_upd_srv_other; [reflexivity|exact Hne].
  - apply get_upd_app_other; [intros x; destruct (a_expiry x); reflexivity|exact Hne].
Qed.
Lemma prim_remove_frame c sn an a : frame sn an c (prim_remove c sn an a).
Proof.
  unfold prim_remove. split; intros n Hne; cbn [c_upd_app c_upd_srv c_servers c_apps set].
  - apply get_upd_srv_other; [reflexivity|exact Hne].
  - apply get_upd_app_other; [reflexivity|exact Hne].
Qed.

Lemma srv_put_lease_frame c sn an l c' : srv_put_lease c sn an l = Some c' -> frame sn an c c'.
Proof.
  unfold srv_put_lease. destruct (get_srv sn (c_servers c)) as [s|]; [|discriminate].
  destruct (get_app an (c_apps c)) as [a|]; [|discriminate]. destruct (put_guard c s a l); [|discriminate].
  intros H; inversion H; subst; clear H.
  eapply frame_trans; [apply prim_put_frame|]. apply frame_sc.
  eapply same_core_trans; [apply bump_from_sc|apply adjust_down_from_sc].
Qed.
Lemma srv_put_frame c sn an c' : srv_put c sn an = Some c' -> frame sn an c c'.
Proof. unfold srv_put. destruct (get_app an (c_apps c)); [apply srv_put_lease_frame|discriminate]. Qed.
Lemma srv_remove_frame c sn an : frame sn an c (srv_remove c sn an).
Proof.
  unfold srv_remove. destruct (get_srv sn (c_servers c)) as [s|]; [|apply frame_refl].
  destruct (get_app an (c_apps c)) as [a|]; [|apply frame_refl].
  destruct (negb (zmem an (s_apps s))); [apply frame_refl|].
  eapply frame_trans; [apply prim_remove_frame|]. apply frame_sc.
  eapply same_core_trans; [apply bump_from_sc|apply adjust_up_from_sc].
Qed.

Lemma srv_remove_state c sn v k sk :
  get_srv k (c_servers (srv_remove c sn v)) = Some sk ->
  exists s0, get_srv k (c_servers c) = Some s0 /\ s_state sk = s_state s0.
Proof.
  unfold srv_remove. destruct (get_srv sn (c_servers c)) as [s|] eqn:Es; [|intros H; exists sk; auto].
  destruct (get_app v (c_apps c)) as [a0|]; [|intros H; exists sk; auto].
  destruct (negb (zmem v (s_apps s))); [intros H; exists sk; auto|].
  pose proof (same_core_trans _ _ _ (bump_from_sc (prim_remove c sn v a0) (s_parent s) [(a_aff a0, 1)] (-1))
                (adjust_up_from_sc _ (s_parent s) (vadd (s_free s) (a_demand a0)))) as (_ & _ & H3 & _).
  rewrite H3. unfold prim_remove. cbn [c_upd_app c_upd_srv c_servers set].
  set (fs := fun x : server => x <| s_free := vadd (s_free x) (a_demand a0) |> <| s_apps ::= zremove v |>
                                  <| s_counters ::= cadd (a_aff a0) (-1) |>).
  intros Hk. destruct (Z.eq_dec k sn) as [->|Hne].
  - rewrite (get_upd_srv_same sn fs _ s (fun x => eq_refl) Es) in Hk. inversion Hk; subst sk. exists s. auto.
  - rewrite get_upd_srv_other in Hk; [exists sk; auto|reflexivity|exact Hne].
Qed.

(** ** a fresh placement (Bucket.put from the top)
    The walk down the tree does bucket bookkeeping, gives up in sub-trees, and ends with at most one Server.put, on an
    up server: a relation between the cell before, the cell after and the outcome that holds of these holds of the walk. *)
Section Walk.
  Variables (R : cell -> cell -> bool -> Prop) (an : Z).
  Hypothesis R_fail : forall c c', same_core c c' -> R c c' false.
  Hypothesis R_sc_l : forall a b c ok, same_core a b -> R b c ok -> R a c ok.
  Hypothesis R_fail_l : forall a b c ok, R a b false -> R b c ok -> R a c ok.
  Hypothesis R_put : forall c n s c',
    get_srv n (c_servers c) = Some s -> s_state s = Up -> srv_put c n an = Some c' -> R c c' true.

  Lemma try_children_walk put_bkt b aff p0 :
    (forall c n, R c (fst (put_bkt c n)) (snd (put_bkt c n))) ->
    forall l c, R c (fst (try_children put_bkt b aff an p0 l c)) (snd (try_children put_bkt b aff an p0 l c)).
  Proof.
    intros Hp. induction l as [|[p n] r IHl]; intros c; cbn [try_children]; [apply R_fail, set_cursor_sc|].
    set (c1 := set_cursor c b aff (S p)). apply (R_sc_l _ c1); [apply set_cursor_sc|].
    destruct (get_srv n (c_servers c1)) as [s|] eqn:Es.
    - destruct (s_state s) eqn:Est; try apply IHl.
      destruct (srv_put c1 n an) as [c2|] eqn:Ep; [exact (R_put _ _ _ _ Es Est Ep)|apply IHl].
    - specialize (Hp c1 n). destruct (put_bkt c1 n) as [c2 ok]. destruct ok; [exact Hp|].
      eapply R_fail_l; [exact Hp|apply IHl].
  Qed.

  Theorem bucket_put_walk fuel : forall c b, R c (fst (bucket_put fuel c b an)) (snd (bucket_put fuel c b an)).
  Proof.
    induction fuel as [|f IH]; intros c b; cbn [bucket_put]; [apply R_fail, same_core_refl|].
    destruct (get_bkt b (c_buckets c)) as [bk|]; [|apply R_fail, same_core_refl].
    destruct (get_app an (c_apps c)) as [a|]; [|apply R_fail, same_core_refl].
    destruct (check_constraints c a (b_labels bk) (bkt_traits bk) (b_counters bk) (b_level bk) (b_free bk)); [|apply R_fail, same_core_refl].
    destruct (live_positions (b_children bk) (cursor_of bk (a_aff a))) as [|[p0 n0] rest]; [apply R_fail, set_cursor_sc|].
    apply try_children_walk. intros c' n. apply IH.
  Qed.
End Walk.

(* the same for a relation that does not look at the outcome *)
Lemma bucket_put_keeps (R : cell -> cell -> Prop) an :
  (forall a b c, R a b -> R b c -> R a c) -> (forall c c', same_core c c' -> R c c') ->
  (forall c n s c', get_srv n (c_servers c) = Some s -> s_state s = Up -> srv_put c n an = Some c' -> R c c') ->
  forall fuel c b, R c (fst (bucket_put fuel c b an)).
Proof.
  intros Ht Hsc Hput fuel c b. apply (bucket_put_walk (fun c c' _ => R c c')); eauto.
Qed.

(** it never touches a server that is not up *)
Definition nonup_kept (c c' : cell) : Prop :=
  forall n s, get_srv n (c_servers c) = Some s -> s_state s <> Up -> get_srv n (c_servers c') = Some s.

Lemma nonup_kept_refl c : nonup_kept c c.
Proof. intros n s H _. exact H. Qed.
Lemma nonup_kept_trans a b c : nonup_kept a b -> nonup_kept b c -> nonup_kept a c.
Proof. intros H1 H2 n s Hg Hs. apply H2; [apply H1; assumption|exact Hs]. Qed.
Lemma nonup_kept_sc c c' : same_core c c' -> nonup_kept c c'.
Proof. intros (_ & _ & H3 & _) n s Hg _. rewrite H3. exact Hg. Qed.
(* a step that rewrites the record of one up server only *)
Lemma nonup_kept_one c c' n s :
  get_srv n (c_servers c) = Some s -> s_state s = Up -> (forall k, k <> n -> get_srv k (c_servers c') = get_srv k (c_servers c)) ->
  nonup_kept c c'.
Proof. intros Es Est Hf k sk Hk Hnu. destruct (Z.eq_dec k n) as [->|Hne]; [congruence|]. rewrite Hf by exact Hne. exact Hk. Qed.

Theorem bucket_put_nonup fuel : forall c b an, nonup_kept c (fst (bucket_put fuel c b an)).
Proof.
  intros c b an. apply bucket_put_keeps; [apply nonup_kept_trans|apply nonup_kept_sc|].
  intros c0 n s c' Es Est Ep. exact (nonup_kept_one _ _ _ _ Es Est (proj1 (srv_put_frame _ _ _ _ Ep))).
Qed.

(** the eviction scan neither evicts from nor puts on a server that is not up *)
Theorem evict_scan_nonup victims placer : forall c ev, nonup_kept c (fst (evict_scan victims placer c ev)).
Proof.
  induction victims as [|v r IH]; intros c ev; cbn [evict_scan]; [apply nonup_kept_refl|].
  destruct (Z.eqb v placer); [apply nonup_kept_refl|].
  destruct (get_app v (c_apps c)) as [va|]; [|apply IH].
  destruct (a_server va) as [sn|]; [|apply IH].
  destruct (get_srv sn (c_servers c)) as [s|] eqn:Es; [|apply IH].
  destruct (s_state s) eqn:Est; try apply IH.
  apply (nonup_kept_trans _ (srv_remove c sn v)); [exact (nonup_kept_one _ _ _ _ Es Est (proj1 (srv_remove_frame c sn v)))|].
  destruct (srv_put (srv_remove c sn v) sn placer) as [c2|] eqn:Ep; [|apply IH].
  destruct (srv_put_frame _ _ _ _ Ep) as [Hf _].
  intros k sk Hk Hnu. destruct (Z.eq_dec k sn) as [->|Hne]; [|rewrite Hf by exact Hne; exact Hk].
  (* sn is up in c, hence its record after the removal is still up *)
  exfalso. destruct (srv_remove_state _ _ _ _ _ Hk) as (s0 & Hs0 & Hst). congruence.
Qed.

(** ** only instances strictly behind the placer (scanning from the end of the queue) can lose their server *)
Fixpoint before_placer (victims : list Z) (placer : Z) : list Z :=
  match victims with
  | [] => []
  | v :: r => if Z.eqb v placer then [] else v :: before_placer r placer
  end.

Definition apps_kept (keep : Z -> Prop) (c c' : cell) : Prop :=
  forall m, keep m -> get_app m (c_apps c') = get_app m (c_apps c).

Theorem evict_scan_victims_behind victims placer : forall c ev m,
  m <> placer -> ~ In m (before_placer victims placer) ->
  get_app m (c_apps (fst (evict_scan victims placer c ev))) = get_app m (c_apps c).
Proof.
  induction victims as [|v r IH]; intros c ev m Hmp Hnin; cbn [evict_scan before_placer] in *; [reflexivity|].
  destruct (Z.eqb_spec v placer) as [->|Hvp]; [reflexivity|].
  assert (Hmv : m <> v) by (intros ->; apply Hnin; left; reflexivity).
  assert (Hr : ~ In m (before_placer r placer)) by (intros H; apply Hnin; right; exact H).
  destruct (get_app v (c_apps c)) as [va|]; [|apply IH; assumption].
  destruct (a_server va) as [sn|]; [|apply IH; assumption].
  destruct (get_srv sn (c_servers c)) as [s|]; [|apply IH; assumption].
  destruct (s_state s); try (apply IH; assumption).
  destruct (srv_remove_frame c sn v) as [_ Hf1].
  destruct (srv_put (srv_remove c sn v) sn placer) as [c2|] eqn:Ep.
  - cbn [fst]. destruct (srv_put_frame _ _ _ _ Ep) as [_ Hf2]. rewrite Hf2 by exact Hmp. apply Hf1. exact Hmv.
  - rewrite IH by assumption. apply Hf1. exact Hmv.
Qed.

(** ** a placement attempt for [an] changes no other instance *)
Definition others_kept (an : Z) (c c' : cell) : Prop :=
  forall m, m <> an -> get_app m (c_apps c') = get_app m (c_apps c).
Lemma others_kept_trans an a b c : others_kept an a b -> others_kept an b c -> others_kept an a c.
Proof. intros H1 H2 m Hm. rewrite H2, H1; auto. Qed.
Lemma others_kept_sc an c c' : same_core c c' -> others_kept an c c'.
Proof. intros (_ & _ & _ & H4 & _) m _. rewrite H4. reflexivity. Qed.

Theorem bucket_put_others fuel : forall c b an, others_kept an c (fst (bucket_put fuel c b an)).
Proof.
  intros c b an. apply bucket_put_keeps; [apply others_kept_trans|apply others_kept_sc|].
  intros c0 n s c' _ _ Ep. exact (proj2 (srv_put_frame _ _ _ _ Ep)).
Qed.

(** ** what the guard of Server.put checks *)
Lemma vany2_gt_false_le : forall d f, any_gt d f = false -> length d = length f -> Forall2 Z.le d f.
Proof.
  induction d as [|x d IH]; intros [|y f] Hg Hl; cbn in *; try discriminate; [constructor|].
  apply orb_false_iff in Hg as [H1 H2]. constructor; [destruct (Z.gtb_spec x y); [discriminate|lia]|apply IH; [exact H2|lia]].
Qed.

Theorem put_guard_spec c s a lease : put_guard c s a lease = true ->
  (forall l, app_label a = Some l -> l = s_label s) /\
  (app_traits c a = 0 \/ has_traits (s_traits s) (app_traits c a) = true) /\
  (lease = 0 \/ c_now c + lease < s_valid_until s) /\
  under_limit (cget (a_aff a) (s_counters s)) (aff_limit a LEVEL_SERVER) = true /\
  any_gt (a_demand a) (s_free s) = false /\
  a_server a = None /\ ~ In (a_name a) (s_apps s).
Proof.
  unfold put_guard, check_lifetime, check_constraints. intros H.
  apply andb_true_iff in H as [H Hc]. apply andb_true_iff in H as [H Hl]. apply andb_true_iff in H as [Hm Hs].
  apply andb_true_iff in Hc as [Hc Hroom]. apply andb_true_iff in Hc as [Hc Hlim]. apply andb_true_iff in Hc as [Hlab Htr].
  repeat split.
  - intros l El. rewrite El in Hlab. cbn [zmem] in Hlab. rewrite orb_false_r in Hlab. apply Z.eqb_eq in Hlab. congruence.
  - apply orb_true_iff in Htr as [E|E]; [left; apply Z.eqb_eq; exact E|right; exact E].
  - apply orb_true_iff in Hl as [E|E]; [left; apply Z.eqb_eq; exact E|right; apply Z.ltb_lt; exact E].
  - exact Hlim.
  - apply negb_true_iff in Hroom. exact Hroom.
  - destruct (a_server a); [discriminate|reflexivity].
  - apply negb_true_iff in Hm. apply zmem_false in Hm. exact Hm.
Qed.

(** ** _handle_inactive_servers: who is moved *)
Theorem to_be_moved_spec c s n : In n (to_be_moved c s) <->
  In n (s_apps s) /\ exists a, get_app n (c_apps c) = Some a /\
    ((s_state s = Down /\ expired c (s_since s) a = true) \/ (s_state s = Frozen /\ a_unschedule a = true)).
Proof.
  unfold to_be_moved. destruct (s_state s) eqn:E.
  - split; [intros []|]. intros (_ & a & _ & [[H _]|[H _]]); discriminate.
  - rewrite filter_In. split.
    + intros [Hin Hf]. split; [exact Hin|]. destruct (get_app n (c_apps c)) as [a|]; [|discriminate]. exists a. auto.
    + intros (Hin & a & Ha & [[_ H]|[H _]]); [|discriminate]. split; [exact Hin|]. rewrite Ha. exact H.
  - rewrite filter_In. split.
    + intros [Hin Hf]. split; [exact Hin|]. destruct (get_app n (c_apps c)) as [a|]; [|discriminate]. exists a. auto.
    + intros (Hin & a & Ha & [[H _]|[_ H]]); [discriminate|]. split; [exact Hin|]. rewrite Ha. exact H.
Qed.
Theorem expired_spec c since a : expired c since a = true <->
  match a_drt a with None => 0 <= c_now c | Some t => since + t <= c_now c end.
Proof. unfold expired. destruct (a_drt a); apply Z.leb_le. Qed.

Theorem place_one_blacklisted rq st an a :
  get_app an (c_apps (l_cell st)) = Some a -> a_blacklisted a = true -> place_one rq st an = st.
Proof. intros Ha Hb. unfold place_one. rewrite Ha, Hb. reflexivity. Qed.
