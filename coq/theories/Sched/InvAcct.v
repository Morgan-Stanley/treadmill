(** C01: the accounting / two-views invariant [Acct]; it is kept by every primitive transition, hence by every
    scheduling cycle, and by every event of Events.v that meets the side condition [wf_op]. *)
From Coq Require Import ZArith QArith List Bool Lia Relations.
From RecordUpdate Require Import RecordSet.
From TM Require Import Sched.Vec Sched.Types Sched.Queue Sched.Tree Sched.Cycle Sched.Steps Sched.MapsP Sched.Events
                       Sched.EventsP.
Import ListNotations.
Open Scope Z_scope.

Definition demand_of (apps : list app) (dim : nat) (n : Z) : vec :=
  match get_app n apps with Some a => a_demand a | None => vzero dim end.
Fixpoint total (apps : list app) (dim : nat) (names : list Z) : vec :=
  match names with [] => vzero dim | n :: r => vadd (demand_of apps dim n) (total apps dim r) end.

Record Acct (c : cell) : Prop := {
  ac_srv_names : NoDup (map s_name (c_servers c));
  ac_app_names : NoDup (map a_name (c_apps c));
  ac_srv_dims : forall n s, get_srv n (c_servers c) = Some s ->
                            length (s_cap s) = c_dim c /\ length (s_free s) = c_dim c /\ nonneg (s_free s);
  ac_app_dims : forall n a, get_app n (c_apps c) = Some a -> length (a_demand a) = c_dim c /\ nonneg (a_demand a);
  ac_acct : forall n s, get_srv n (c_servers c) = Some s ->
                        vadd (s_free s) (total (c_apps c) (c_dim c) (s_apps s)) = s_cap s;
  ac_listed : forall n s m, get_srv n (c_servers c) = Some s -> In m (s_apps s) ->
                            exists a, get_app m (c_apps c) = Some a /\ a_server a = Some n;
  ac_placed : forall m a n s, get_app m (c_apps c) = Some a -> a_server a = Some n ->
                              get_srv n (c_servers c) = Some s -> In m (s_apps s);
  ac_nodup : forall n s, get_srv n (c_servers c) = Some s -> NoDup (s_apps s)
}.

(** ** the invariant looks at (name, server, demand) of instances only *)
Definition app_eq3 (a b : app) : Prop := a_name a = a_name b /\ a_server a = a_server b /\ a_demand a = a_demand b.

Lemma get_app_eq3 l l' : Forall2 app_eq3 l l' -> forall n,
  match get_app n l, get_app n l' with
  | Some a, Some b => app_eq3 a b
  | None, None => True
  | _, _ => False
  end.
Proof. apply get_app_Forall2. intros a b H. apply H. Qed.

Lemma app_eq3_refl a : app_eq3 a a.
Proof. repeat split. Qed.
Lemma Forall2_eq3_refl l : Forall2 app_eq3 l l.
Proof. apply Forall2_diag, app_eq3_refl. Qed.
Lemma Forall2_eq3_upd n f l : (forall x, app_eq3 x (f x)) -> Forall2 app_eq3 l (upd_app n f l).
Proof. apply Forall2_upd_app, app_eq3_refl. Qed.

(** ** totals *)
Lemma total_length apps dim names :
  (forall n a, get_app n apps = Some a -> length (a_demand a) = dim) -> length (total apps dim names) = dim.
Proof.
  intros Hd. induction names as [|n r IH]; cbn; [apply vzero_length|].
  unfold vadd. rewrite vmap2_length; unfold demand_of.
  - destruct (get_app n apps) eqn:E; [eapply Hd; exact E|apply vzero_length].
  - rewrite IH. destruct (get_app n apps) eqn:E; [symmetry; eapply Hd; exact E|symmetry; apply vzero_length].
Qed.
Lemma total_app apps dim l1 l2 :
  (forall n a, get_app n apps = Some a -> length (a_demand a) = dim) ->
  total apps dim (l1 ++ l2) = vadd (total apps dim l1) (total apps dim l2).
Proof.
  intros Hd. induction l1 as [|n r IH]; cbn.
  - rewrite vadd_comm. symmetry. apply vadd_zero_r. apply total_length. exact Hd.
  - rewrite IH. symmetry. apply vadd_assoc.
Qed.
Lemma total_zremove apps dim m l :
  (forall n a, get_app n apps = Some a -> length (a_demand a) = dim) -> In m l ->
  total apps dim l = vadd (demand_of apps dim m) (total apps dim (zremove m l)).
Proof.
  intros Hd. induction l as [|x t IH]; cbn; [tauto|]. intros Hin.
  destruct (Z.eqb_spec x m) as [->|Hne]; [reflexivity|].
  destruct Hin as [->|Hin]; [congruence|]. cbn. rewrite IH by exact Hin.
  rewrite <- !vadd_assoc. f_equal. apply vadd_comm.
Qed.

(** one server's books when it takes an instance that fits, and when it gives up one it lists *)
Lemma books_put apps dim free cap names an a :
  (forall n0 a0, get_app n0 apps = Some a0 -> length (a_demand a0) = dim) -> get_app an apps = Some a ->
  length free = dim -> any_gt (a_demand a) free = false -> vadd free (total apps dim names) = cap ->
  length (vsub free (a_demand a)) = dim /\ nonneg (vsub free (a_demand a)) /\
  vadd (vsub free (a_demand a)) (total apps dim (names ++ [an])) = cap.
Proof.
  intros Hdlen Ha Hlf Hcap Hbal. pose proof (Hdlen _ _ Ha) as Hld.
  split; [unfold vsub; rewrite vmap2_length; lia|]. split; [apply not_any_gt_sub_nonneg; [lia|exact Hcap]|].
  rewrite total_app by exact Hdlen. cbn [total]. unfold demand_of. rewrite Ha, (vadd_zero_r (a_demand a) dim Hld).
  rewrite vsub_vadd; [exact Hbal|lia|rewrite total_length by exact Hdlen; lia].
Qed.
Lemma books_remove apps dim free cap names an a :
  (forall n0 a0, get_app n0 apps = Some a0 -> length (a_demand a0) = dim) -> get_app an apps = Some a ->
  nonneg (a_demand a) -> length free = dim -> nonneg free -> In an names -> vadd free (total apps dim names) = cap ->
  length (vadd free (a_demand a)) = dim /\ nonneg (vadd free (a_demand a)) /\
  vadd (vadd free (a_demand a)) (total apps dim (zremove an names)) = cap.
Proof.
  intros Hdlen Ha Hnd Hlf Hnf Hm Hbal. pose proof (Hdlen _ _ Ha) as Hld.
  split; [unfold vadd; rewrite vmap2_length; lia|]. split; [apply nonneg_vadd; assumption|].
  rewrite <- Hbal, (total_zremove _ _ an names Hdlen Hm). unfold demand_of. rewrite Ha. apply vadd_assoc.
Qed.

(** totals read the demands of the names they sum over *)
Lemma total_ext l l' dim names :
  (forall n, In n names -> demand_of l' dim n = demand_of l dim n) -> total l' dim names = total l dim names.
Proof.
  induction names as [|n r IH]; intros H; cbn; [reflexivity|].
  rewrite IH, H; [reflexivity|left; reflexivity|intros m Hm; apply H; right; exact Hm].
Qed.
Lemma demand_of_eq3 l l' dim n a a' : get_app n l = Some a -> get_app n l' = Some a' -> app_eq3 a a' ->
  demand_of l' dim n = demand_of l dim n.
Proof. intros H H' (_ & _ & E). unfold demand_of. rewrite H, H'. symmetry. exact E. Qed.
Lemma total_upd_app n f l dim names : (forall x, a_name (f x) = a_name x) -> (forall x, a_demand (f x) = a_demand x) ->
  total (upd_app n f l) dim names = total l dim names.
Proof.
  intros Hn Hd. apply total_ext. intros m _. unfold demand_of.
  destruct (get_app m (upd_app n f l)) as [b|] eqn:Eb.
  - apply get_upd_app_inv in Eb as [(-> & a & -> & ->)|[_ ->]]; [rewrite Hd| |exact Hn]; reflexivity.
  - destruct (Z.eq_dec m n) as [->|Hne]; [|rewrite get_upd_app_other in Eb by assumption; rewrite Eb; reflexivity].
    destruct (get_app n l) as [a|] eqn:Ea; [|reflexivity]. rewrite (get_upd_app_same _ _ _ _ Hn Ea) in Eb. discriminate.
Qed.

(** ** the invariant through its observations
    Of the instances it reads name, server and demand: a cell with the same servers whose instances are those of
    [c] up to [app_eq3], or new and unplaced, and which keeps every listed instance, satisfies it with [c]. *)
Lemma Acct_apps c c' :
  c_dim c' = c_dim c -> c_servers c' = c_servers c -> NoDup (map a_name (c_apps c')) ->
  (forall m a', get_app m (c_apps c') = Some a' ->
     (exists a, get_app m (c_apps c) = Some a /\ app_eq3 a a') \/
     (a_server a' = None /\ length (a_demand a') = c_dim c /\ nonneg (a_demand a'))) ->
  (forall k s m a, get_srv k (c_servers c) = Some s -> In m (s_apps s) -> get_app m (c_apps c) = Some a ->
     exists a', get_app m (c_apps c') = Some a' /\ app_eq3 a a') ->
  Acct c -> Acct c'.
Proof.
  intros Hd Hs Hnd Hnew Hkeep [A1 A2 A3 A4 A5 A6 A7 A8]. constructor; rewrite ?Hd, ?Hs; try assumption.
  - intros m a' H. destruct (Hnew _ _ H) as [(a & Ha & _ & _ & <-)|(_ & H')]; [eapply A4; exact Ha|exact H'].
  - intros n s H. rewrite <- (A5 _ _ H). f_equal. apply total_ext. intros m Hm.
    destruct (A6 _ _ _ H Hm) as (a & Ha & _). destruct (Hkeep _ _ _ _ H Hm Ha) as (a' & Ha' & E).
    exact (demand_of_eq3 _ _ _ _ _ _ Ha Ha' E).
  - intros n s m H Hm. destruct (A6 _ _ _ H Hm) as (a & Ha & Hsv).
    destruct (Hkeep _ _ _ _ H Hm Ha) as (a' & Ha' & _ & E & _). exists a'. split; [exact Ha'|congruence].
  - intros m a' n s H Hsv Hg. destruct (Hnew _ _ H) as [(a & Ha & _ & E & _)|(E & _)]; [|congruence].
    exact (A7 _ _ _ _ Ha (eq_trans E Hsv) Hg).
Qed.

(** Of the servers it reads name, capacity, free vector and list: a cell with the same instances whose servers
    are those of [c] up to these, or new, empty and named by no instance, satisfies it with [c]. *)
Lemma Acct_servers c c' :
  c_dim c' = c_dim c -> c_apps c' = c_apps c -> NoDup (map s_name (c_servers c')) ->
  (forall n s', get_srv n (c_servers c') = Some s' ->
     (exists s, get_srv n (c_servers c) = Some s /\ s_cap s' = s_cap s /\ s_free s' = s_free s /\ s_apps s' = s_apps s) \/
     (s_apps s' = [] /\ s_free s' = s_cap s' /\ length (s_cap s') = c_dim c /\ nonneg (s_cap s') /\
      forall m a, get_app m (c_apps c) = Some a -> a_server a <> Some n)) ->
  Acct c -> Acct c'.
Proof.
  intros Hd Ha Hnd Hget [A1 A2 A3 A4 A5 A6 A7 A8]. constructor; rewrite ?Hd, ?Ha; try assumption.
  - intros n s' H. destruct (Hget _ _ H) as [(s & Hs & -> & -> & _)|(_ & -> & Hl & Hn & _)]; [eapply A3; exact Hs|auto].
  - intros n s' H. destruct (Hget _ _ H) as [(s & Hs & -> & -> & ->)|(-> & -> & Hl & _)]; [eapply A5; exact Hs|].
    apply vadd_zero_r. exact Hl.
  - intros n s' m H Hm. destruct (Hget _ _ H) as [(s & Hs & _ & _ & E)|(E & _)]; rewrite E in Hm; [|destruct Hm].
    eapply A6; eassumption.
  - intros m a n s' H Hsv Hg. destruct (Hget _ _ Hg) as [(s & Hs & _ & _ & ->)|(_ & _ & _ & _ & Hno)]; [|destruct (Hno m a H Hsv)].
    eapply A7; eassumption.
  - intros n s' H. destruct (Hget _ _ H) as [(s & Hs & _ & _ & ->)|(-> & _)]; [eapply A8; exact Hs|constructor].
Qed.

Lemma Acct_eq3 c c' :
  c_dim c' = c_dim c -> c_servers c' = c_servers c -> Forall2 app_eq3 (c_apps c) (c_apps c') -> Acct c -> Acct c'.
Proof.
  intros Hd Hs Hf HA. apply (Acct_apps c); try assumption.
  - rewrite (Forall2_keys a_name app_eq3 (fun a b H => proj1 H) _ _ Hf). apply (ac_app_names _ HA).
  - intros m a' H. left. pose proof (get_app_eq3 _ _ Hf m) as Q. rewrite H in Q.
    destruct (get_app m (c_apps c)) as [a|]; [exists a; auto|contradiction].
  - intros _ _ m a _ _ H. pose proof (get_app_eq3 _ _ Hf m) as Q. rewrite H in Q.
    destruct (get_app m (c_apps c')) as [a'|]; [exists a'; auto|contradiction].
Qed.
Lemma Acct_ext c c' : c_dim c' = c_dim c -> c_servers c' = c_servers c -> c_apps c' = c_apps c -> Acct c -> Acct c'.
Proof. intros H1 H2 H3. apply Acct_eq3; [exact H1|exact H2|rewrite H3; apply Forall2_eq3_refl]. Qed.
Lemma Acct_same_core c c' : same_core c c' -> Acct c -> Acct c'.
Proof. intros H. apply Acct_ext; apply H. Qed.

Lemma Acct_upd_app_eq3 c n f : (forall x, app_eq3 x (f x)) -> Acct c -> Acct (c_upd_app n f c).
Proof. intros Hf. apply Acct_eq3; [reflexivity|reflexivity|apply Forall2_eq3_upd; exact Hf]. Qed.

Lemma Acct_release c n : Acct c -> Acct (release_identity c n).
Proof.
  unfold release_identity. destruct (get_app n (c_apps c)) as [a|]; [|tauto].
  destruct (group_of c a) as [[g grp]|]; [|tauto]. destruct (a_identity a); [|tauto].
  apply Acct_eq3; [reflexivity|reflexivity|]. apply Forall2_eq3_upd. intros x; repeat split.
Qed.
Lemma Acct_acquire c n ch : Acct c -> Acct (fst (acquire_identity c n ch)).
Proof.
  unfold acquire_identity. destruct (get_app n (c_apps c)) as [a|]; [|tauto].
  destruct (group_of c a) as [[g grp]|]; [|tauto]. destruct (a_identity a); [tauto|].
  destruct (g_avail grp); [tauto|]. apply Acct_eq3; [reflexivity|reflexivity|]. apply Forall2_eq3_upd. intros x; repeat split.
Qed.

(** ** one server and one instance updated together (a placement, or its removal): the instance keeps name and
    demand, the server name and capacity; the new free vector balances the new list, which differs from the old
    one in the instance only, in agreement with the instance's new server field *)
Lemma Acct_upd_both c sn an s a fs fa :
  get_srv sn (c_servers c) = Some s -> get_app an (c_apps c) = Some a ->
  (forall x, s_name (fs x) = s_name x) -> (forall x, a_name (fa x) = a_name x) -> (forall x, a_demand (fa x) = a_demand x) ->
  a_server a = None \/ a_server a = Some sn -> a_server (fa a) = None \/ a_server (fa a) = Some sn ->
  length (s_cap (fs s)) = c_dim c /\ length (s_free (fs s)) = c_dim c /\ nonneg (s_free (fs s)) ->
  vadd (s_free (fs s)) (total (c_apps c) (c_dim c) (s_apps (fs s))) = s_cap (fs s) ->
  NoDup (s_apps (fs s)) ->
  (forall m, In m (s_apps (fs s)) <-> (m <> an /\ In m (s_apps s)) \/ (m = an /\ a_server (fa a) = Some sn)) ->
  Acct c -> Acct (c_upd_app an fa (c_upd_srv sn fs c)).
Proof.
  intros Hs Ha Hfs Hfa Hfd Hwas Hnow Hdims Hbal Hnd Hmem [A1 A2 A3 A4 A5 A6 A7 A8].
  assert (Hgs : forall n s', get_srv n (upd_srv sn fs (c_servers c)) = Some s' ->
                             (n = sn /\ s' = fs s) \/ (n <> sn /\ get_srv n (c_servers c) = Some s')).
  { intros n s' H. apply get_upd_srv_inv in H as [(-> & s0 & E & ->)|H]; [left|right; exact H|exact Hfs]. split; congruence. }
  assert (Hga : forall m a', get_app m (upd_app an fa (c_apps c)) = Some a' ->
                             (m = an /\ a' = fa a) \/ (m <> an /\ get_app m (c_apps c) = Some a')).
  { intros m a' H. apply get_upd_app_inv in H as [(-> & a0 & E & ->)|H]; [left|right; exact H|exact Hfa]. split; congruence. }
  constructor; cbn [c_upd_app c_upd_srv c_servers c_apps c_dim set].
  - rewrite upd_srv_names by exact Hfs. exact A1.
  - rewrite upd_app_names by exact Hfa. exact A2.
  - intros n s' H. destruct (Hgs _ _ H) as [[-> ->]|[_ H']]; [exact Hdims|eapply A3; exact H'].
  - intros m a' H. destruct (Hga _ _ H) as [[-> ->]|[_ H']]; [rewrite Hfd|]; eapply A4; eassumption.
  - intros n s' H. rewrite total_upd_app by assumption.
    destruct (Hgs _ _ H) as [[-> ->]|[_ H']]; [exact Hbal|eapply A5; exact H'].
  - intros n s' m H Hin. destruct (Hgs _ _ H) as [[-> ->]|[Hne H']].
    + apply Hmem in Hin as [[Hm Hin]|[-> Hsv]].
      * destruct (A6 _ _ _ Hs Hin) as (a0 & Ha0 & Hsv0). exists a0. rewrite get_upd_app_other by assumption. auto.
      * exists (fa a). rewrite (get_upd_app_same _ _ _ _ Hfa Ha). auto.
    + destruct (A6 _ _ _ H' Hin) as (a0 & Ha0 & Hsv0).
      assert (m <> an) by (intros ->; rewrite Ha in Ha0; injection Ha0 as <-; destruct Hwas; congruence).
      exists a0. rewrite get_upd_app_other by assumption. auto.
  - intros m a' n s' H Hsv Hg. destruct (Hga _ _ H) as [[-> ->]|[Hm H']].
    + assert (n = sn) by (destruct Hnow; congruence). subst n.
      destruct (Hgs _ _ Hg) as [[_ ->]|[Hne _]]; [apply Hmem; auto|congruence].
    + destruct (Hgs _ _ Hg) as [[-> ->]|[_ Hg']]; [apply Hmem; left; split; [exact Hm|]|]; eapply A7; eassumption.
  - intros n s' H. destruct (Hgs _ _ H) as [[-> ->]|[_ H']]; [exact Hnd|eapply A8; exact H'].
Qed.

(** ** put *)
Lemma Acct_put c sn an s a lease :
  get_srv sn (c_servers c) = Some s -> get_app an (c_apps c) = Some a -> put_guard c s a lease = true ->
  Acct c -> Acct (prim_put c sn an a lease).
Proof.
  intros Hs Ha Hg HA.
  unfold put_guard in Hg. repeat (apply andb_true_iff in Hg as [Hg ?]).
  match goal with H : check_constraints _ _ _ _ _ _ _ = true |- _ => rename H into Hcc end.
  unfold check_constraints in Hcc. apply andb_true_iff in Hcc as [_ Hcap]. apply negb_true_iff in Hcap.
  apply negb_true_iff, zmem_false in Hg. rewrite (get_app_name _ _ _ Ha) in Hg.
  assert (Hsrv0 : a_server a = None) by (destruct (a_server a); [discriminate|reflexivity]).
  destruct (ac_srv_dims _ HA _ _ Hs) as (Hlc & Hlf & _).
  destruct (books_put _ _ _ _ _ an a (fun n0 a0 Hq => proj1 (ac_app_dims _ HA n0 a0 Hq)) Ha Hlf Hcap (ac_acct _ HA _ _ Hs))
    as (B1 & B2 & B3).
  apply (Acct_upd_both c sn an s a); cbn; try assumption; try reflexivity; auto.
  - intros x. destruct (a_expiry x); reflexivity.
  - intros x. destruct (a_expiry x); reflexivity.
  - apply NoDup_snoc; [apply (ac_nodup _ HA _ _ Hs)|exact Hg].
  - intros m. rewrite in_app_iff. cbn. split.
    + intros [Hin|[<-|[]]]; [left; split; [intros ->; contradiction|exact Hin]|right; split; reflexivity].
    + intros [[_ Hin]|[-> _]]; auto.
Qed.

(** ** remove *)
Lemma Acct_remove c sn an s a :
  get_srv sn (c_servers c) = Some s -> get_app an (c_apps c) = Some a -> zmem an (s_apps s) = true ->
  Acct c -> Acct (prim_remove c sn an a).
Proof.
  intros Hs Ha Hm HA. apply zmem_In in Hm.
  destruct (ac_srv_dims _ HA _ _ Hs) as (Hlc & Hlf & Hnf).
  destruct (ac_listed _ HA _ _ _ Hs Hm) as (a0 & Ha0 & Hsv). rewrite Ha in Ha0. injection Ha0 as <-.
  pose proof (ac_nodup _ HA _ _ Hs) as Hnodup.
  destruct (books_remove _ _ _ _ _ an a (fun n0 a0 Hq => proj1 (ac_app_dims _ HA n0 a0 Hq)) Ha
              (proj2 (ac_app_dims _ HA _ _ Ha)) Hlf Hnf Hm (ac_acct _ HA _ _ Hs)) as (B1 & B2 & B3).
  apply (Acct_upd_both c sn an s a); cbn; try assumption; try reflexivity; auto.
  - apply zremove_NoDup. exact Hnodup.
  - intros m. split.
    + intros Hin. left. split; [intros ->; eapply zremove_not_in; eassumption|eapply zremove_In; exact Hin].
    + intros [[Hne Hin]|[_ H]]; [apply zremove_keep; assumption|discriminate].
Qed.

(** ** an instance whose server left the cell forgets it *)
Lemma Acct_unplace c an a n :
  get_app an (c_apps c) = Some a -> a_server a = Some n -> get_srv n (c_servers c) = None ->
  Acct c -> Acct (c_upd_app an (fun x => x <| a_server := None |> <| a_evicted := true |>) c).
Proof.
  intros Ha Hsv Hn HA. apply (Acct_apps c); try reflexivity; [| | |exact HA]; cbn [c_upd_app c_apps set].
  - rewrite upd_app_names by reflexivity. apply (ac_app_names _ HA).
  - intros m a' H. apply get_upd_app_inv in H as [(-> & a0 & E & ->)|[_ H]]; [right| |reflexivity].
    + rewrite Ha in E. injection E as <-. split; [reflexivity|apply (ac_app_dims _ HA _ _ Ha)].
    + left. exists a'. split; [exact H|apply app_eq3_refl].
  - (* no server lists the instance: the one it names is gone *)
    intros k s m b Hs Hm Hb. exists b. split; [|apply app_eq3_refl]. rewrite get_upd_app_other; [exact Hb|reflexivity|].
    intros ->. destruct (ac_listed _ HA _ _ _ Hs Hm) as (a0 & Ha0 & Hk). rewrite Ha in Ha0. injection Ha0 as <-. congruence.
Qed.

(** ** every primitive transition, every cycle *)
Lemma soft_eq3 f : soft f -> forall x, app_eq3 x (f x).
Proof. intros Hf x. repeat split; symmetry; apply (Hf x). Qed.

Theorem Acct_pstep c c' : pstep c c' -> Acct c -> Acct c'.
Proof.
  intros Hs. destruct Hs.
  - apply Acct_same_core; assumption.
  - eapply Acct_put; eassumption.
  - eapply Acct_remove; eassumption.
  - apply Acct_upd_app_eq3. apply soft_eq3. assumption.
  - eapply Acct_unplace; eassumption.
  - apply Acct_release.
  - apply Acct_acquire.
  - apply Acct_upd_app_eq3. intros x. repeat split.
Qed.

Theorem Acct_psteps c c' : psteps c c' -> Acct c -> Acct c'.
Proof. induction 1; [apply Acct_pstep; assumption|tauto|tauto]. Qed.

Theorem Acct_schedule c ch : Acct c -> Acct (fst (fst (schedule c ch))).
Proof. apply Acct_psteps. apply schedule_ps. Qed.

(** ** the events between cycles *)
Lemma Acct_add_server c s :
  get_srv (s_name s) (c_servers c) = None -> s_apps s = [] -> s_free s = s_cap s ->
  length (s_cap s) = c_dim c -> nonneg (s_cap s) ->
  (forall m a, get_app m (c_apps c) = Some a -> a_server a <> Some (s_name s)) ->
  Acct c -> Acct (c <| c_servers ::= (fun l => l ++ [s]) |>).
Proof.
  intros Hn Happs Hfree Hlen Hnn Hnoref HA. apply (Acct_servers c); try reflexivity; [| |exact HA]; cbn [c_servers set].
  - apply NoDup_map_snoc; [apply (ac_srv_names _ HA)|apply get_srv_none_notin; exact Hn].
  - (* an instance may name a server that left the cell (until the next cycle); a server of that name must
       not be added meanwhile -- hypothesis Hnoref *)
    intros n s' H. rewrite get_srv_snoc in H. destruct (get_srv n (c_servers c)) as [s0|] eqn:E; [injection H as <-; left; exists s0; auto|].
    destruct (Z.eqb_spec (s_name s) n) as [<-|]; [|discriminate]. injection H as <-. right. auto.
Qed.

Lemma Acct_del_server c n : Acct c -> Acct (c <| c_servers ::= del_srv n |>).
Proof.
  intros HA. pose proof (ac_srv_names _ HA) as Hnd.
  apply (Acct_servers c); try reflexivity; [| |exact HA]; cbn [c_servers set].
  - apply del_srv_names_NoDup, Hnd.
  - intros m s H. rewrite get_srv_del in H by exact Hnd. destruct (Z.eqb m n); [discriminate|]. left. exists s. auto.
Qed.

Lemma Acct_upd_srv_soft c n f :
  (forall x, s_name (f x) = s_name x /\ s_cap (f x) = s_cap x /\ s_free (f x) = s_free x /\ s_apps (f x) = s_apps x) ->
  Acct c -> Acct (c_upd_srv n f c).
Proof.
  intros Hf HA. assert (Hfn : forall x, s_name (f x) = s_name x) by (intros x; apply Hf).
  apply (Acct_servers c); try reflexivity; [| |exact HA]; cbn [c_upd_srv c_servers set].
  - rewrite upd_srv_names by exact Hfn. apply (ac_srv_names _ HA).
  - intros m s' H. left. apply get_upd_srv_inv in H as [(-> & s & Hs & ->)|[_ H]]; [|exists s'; auto|exact Hfn].
    exists s. split; [exact Hs|apply Hf].
Qed.

Lemma Acct_add_app c a :
  get_app (a_name a) (c_apps c) = None -> a_server a = None -> length (a_demand a) = c_dim c -> nonneg (a_demand a) ->
  Acct c -> Acct (c <| c_apps ::= (fun l => l ++ [a]) |>).
Proof.
  intros Hn Hsv Hlen Hnn HA. apply (Acct_apps c); try reflexivity; [| | |exact HA]; cbn [c_apps set].
  - apply NoDup_map_snoc; [apply (ac_app_names _ HA)|apply get_app_none_notin; exact Hn].
  - intros m a' H. rewrite get_app_snoc in H. destruct (get_app m (c_apps c)) as [b|].
    + left. exists b. injection H as <-. split; [reflexivity|apply app_eq3_refl].
    + destruct (Z.eqb (a_name a) m); [|discriminate]. injection H as <-. right. auto.
  - intros _ _ m b _ _ H. exists b. rewrite get_app_snoc, H. split; [reflexivity|apply app_eq3_refl].
Qed.

Lemma Acct_del_app c n :
  (forall k s, get_srv k (c_servers c) = Some s -> ~ In n (s_apps s)) ->
  Acct c -> Acct (c <| c_apps ::= del_app n |>).
Proof.
  intros Hfree HA. pose proof (ac_app_names _ HA) as Hnd.
  apply (Acct_apps c); try reflexivity; [| | |exact HA]; cbn [c_apps set].
  - apply del_app_names_NoDup, Hnd.
  - intros m a' H. rewrite get_app_del in H by exact Hnd. destruct (Z.eqb m n); [discriminate|].
    left. exists a'. split; [exact H|apply app_eq3_refl].
  - intros k s m a Hs Hm H. exists a. split; [|apply app_eq3_refl].
    rewrite get_del_app_other; [exact H|]. intros ->. exact (Hfree k s Hs Hm).
Qed.

Lemma Acct_upd_alloc c label path f : Acct c -> Acct (upd_alloc c label path f).
Proof. destruct (upd_alloc_frame c label path f) as (E1 & E2 & E3 & _). apply Acct_ext; assumption. Qed.
Lemma Acct_ensure_group c g : Acct c -> Acct (ensure_group c g).
Proof.
  unfold ensure_group. destruct g as [n|]; [|tauto]. destruct (aget n (c_groups c)); [tauto|].
  apply Acct_ext; reflexivity.
Qed.

(** Loader.restore_placement of one instance: a placement step of the cycle's alphabet, then the identity *)
Lemma restore_put_as c sn an vb ex : asteps c (fst (restore_put c sn an vb ex)).
Proof.
  unfold restore_put. destruct vb; [apply srv_restore_as|].
  destruct (get_app an (c_apps c)) as [a|]; [|apply as_refl]. destruct (a_once a); [apply as_refl|].
  destruct (srv_put c sn an) as [c'|] eqn:E; [|apply as_refl]. cbn [fst]. eapply as_put; exact E.
Qed.
Lemma restore_put_ps c sn an vb ex : psteps c (fst (restore_put c sn an vb ex)).
Proof. apply asteps_psteps, restore_put_as. Qed.
Lemma Acct_force_identity c an i : Acct c -> Acct (force_identity c an i).
Proof.
  unfold force_identity. destruct i as [i|]; [|tauto]. destruct (get_app an (c_apps c)) as [a|]; [|tauto].
  destruct (group_of c a) as [[g grp]|]; [|tauto].
  apply Acct_eq3; [reflexivity|reflexivity|]. apply Forall2_eq3_upd. intros x; repeat split.
Qed.

Definition wf_op (c : cell) (o : op) : Prop :=
  match o with
  | ORestore sname aname verbatim expires ident =>
      (* the call sites of Loader.restore_placement: the server exists and the instance, when it exists, is on no
         server (the server's own instances were just taken off it) *)
      get_srv sname (c_servers c) <> None /\
      (forall a, get_app aname (c_apps c) = Some a -> a_server a = None)
  | OAddServer name parent cap label traits vu =>
      get_srv name (c_servers c) = None /\ length cap = c_dim c /\ nonneg cap /\
      (forall m a, get_app m (c_apps c) = Some a -> a_server a <> Some name)
  | OAddApp label path a =>
      get_app (a_name a) (c_apps c) = None ->
      a_server a = None /\ length (a_demand a) = c_dim c /\ nonneg (a_demand a)
  | _ => True
  end.

Lemma Acct_srv_remove c sn an : Acct c -> Acct (srv_remove c sn an).
Proof. apply Acct_psteps, srv_remove_ps. Qed.
Lemma Acct_srv_remove_all c sn : Acct c -> Acct (srv_remove_all c sn).
Proof. apply Acct_psteps, srv_remove_all_ps. Qed.

Lemma Acct_detach c n : Acct c -> Acct (detach_server c n).
Proof.
  intros H. unfold detach_server. destruct (get_srv n (c_servers c)) as [s|]; [|exact H].
  pose proof (Acct_del_server c n H) as H0.
  destruct (s_parent s) as [p|]; [|exact H0].
  eapply Acct_same_core; [apply unhook_server_sc|exact H0].
Qed.

Lemma Acct_move_server c n p : Acct c -> Acct (move_server c n p).
Proof.
  intros H. unfold move_server. destruct (get_srv n (c_servers c)) as [s|]; [|exact H].
  eapply Acct_same_core; [apply attach_common_sc|]. apply Acct_upd_srv_soft; [intros x; repeat split|].
  destruct (s_parent s) as [p0|]; [eapply Acct_same_core; [apply unhook_server_sc|exact H]|exact H].
Qed.

Lemma srv_remove_server_none c sn an a s :
  Acct c -> get_app an (c_apps c) = Some a -> a_server a = Some sn -> get_srv sn (c_servers c) = Some s ->
  exists a', get_app an (c_apps (srv_remove c sn an)) = Some a' /\ a_server a' = None.
Proof.
  intros HA Ha Hsv Hs. unfold srv_remove. rewrite Hs, Ha.
  assert (Hin : In an (s_apps s)) by (eapply (ac_placed _ HA); eassumption).
  apply zmem_In in Hin. rewrite Hin. cbn [negb].
  set (fa := fun x : app => x <| a_server := None |> <| a_evicted := true |> <| a_unschedule := false |>
                              <| a_expiry := None |>).
  pose proof (same_core_trans _ _ _ (bump_from_sc (prim_remove c sn an a) (s_parent s) [(a_aff a, 1)] (-1))
                (adjust_up_from_sc _ (s_parent s) (vadd (s_free s) (a_demand a)))) as (_ & _ & _ & H4 & _).
  rewrite H4. unfold prim_remove. cbn [c_upd_app c_upd_srv c_apps set]. fold fa.
  exists (fa a). split; [apply get_upd_app_same; [reflexivity|exact Ha]|reflexivity].
Qed.

Lemma Acct_remove_app c n : Acct c -> Acct (remove_app c n).
Proof.
  intros HA. unfold remove_app. destruct (get_app n (c_apps c)) as [a|] eqn:Ea; [|exact HA].
  set (c1 := match a_server a with
             | Some sn => if is_member c sn then srv_remove c sn n else c
             | None => c
             end).
  assert (HA1 : Acct c1).
  { subst c1. destruct (a_server a); [|exact HA]. destruct (is_member c z); [apply Acct_srv_remove; exact HA|exact HA]. }
  (* taken off its server, or naming none that exists, the instance is on no list *)
  assert (Hfree : forall k s, get_srv k (c_servers c1) = Some s -> ~ In n (s_apps s)).
  { intros k s Hg Hin. destruct (ac_listed _ HA1 _ _ _ Hg Hin) as (a1 & Ha1 & Hsv1).
    subst c1. destruct (a_server a) as [sn|] eqn:Esv; [|congruence].
    unfold is_member in *. destruct (get_srv sn (c_servers c)) as [s0|] eqn:Es; [|congruence].
    destruct (srv_remove_server_none c sn n a s0 HA Ea Esv Es) as (a' & Ha' & Hn'). congruence. }
  apply Acct_del_app.
  - intros k s Hg. rewrite (proj1 (proj2 (release_identity_frame _ n))) in Hg.
    destruct (a_alloc a) as [[l0 p0]|]; [rewrite (proj1 (proj2 (upd_alloc_frame c1 l0 p0 _))) in Hg|]; eapply Hfree; exact Hg.
  - apply Acct_release. destruct (a_alloc a) as [[l0 p0]|]; [apply Acct_upd_alloc|]; exact HA1.
Qed.

Lemma Acct_add_app_op c label path a :
  wf_op c (OAddApp label path a) -> Acct c -> Acct (add_app c label path a).
Proof.
  intros Hwf HA. unfold add_app. destruct (get_app (a_name a) (c_apps c)) as [old|] eqn:Eo.
  - apply Acct_ensure_group. apply Acct_upd_app_eq3; [intros x; repeat split|].
    apply Acct_upd_alloc. destruct (a_alloc old) as [[l0 p0]|]; [apply Acct_upd_alloc|]; exact HA.
  - destruct (Hwf Eo) as (H1 & H2 & H3). apply Acct_ensure_group.
    destruct (upd_alloc_frame c label path (alloc_add_app (a_name a))) as (E2 & _ & E1 & _).
    apply Acct_add_app; [rewrite E1; exact Eo|exact H1|rewrite E2; exact H2|exact H3|apply Acct_upd_alloc, HA].
Qed.

Theorem Acct_step c o : wf_op c o -> Acct c -> Acct (step c o).
Proof.
  intros Hwf HA. destruct (attr_event o) as [[n f]|] eqn:Ea.
  { destruct (attr_event_step c o n f Ea) as [-> Hf]. apply Acct_upd_app_eq3; [|exact HA].
    intros x. repeat split; symmetry; apply (Hf x). }
  destruct o; try discriminate Ea; cbn [step].
  - (* OAddBucket *)
    unfold add_bucket. eapply Acct_same_core; [apply attach_common_sc|]. revert HA. apply Acct_ext; reflexivity.
  - (* OAddServer *)
    destruct Hwf as (H1 & H2 & H3 & H4). unfold add_server, new_server. cbn [s_parent].
    eapply Acct_same_core; [apply attach_common_sc|].
    apply Acct_add_server; cbn; auto.
  - (* ORemoveServer *)
    apply Acct_detach. destruct raw; [exact HA|apply Acct_srv_remove_all; exact HA].
  - apply Acct_move_server; exact HA.
  - (* OSetState *)
    unfold srv_set_state. destruct (get_srv name (c_servers c)) as [s|]; [|exact HA].
    destruct (sstate_eqb (s_state s) st); [exact HA|].
    assert (H1 : Acct (c_upd_srv name (fun x => x <| s_state := st |> <| s_since := since |>) c))
      by (apply Acct_upd_srv_soft; [intros x; repeat split|exact HA]).
    destruct st; (eapply Acct_same_core; [|exact H1]); [apply adjust_up_from_sc|apply adjust_down_from_sc|apply adjust_down_from_sc].
  - apply Acct_upd_srv_soft; [intros x; repeat split|exact HA].
  - apply Acct_add_app_op; assumption.
  - apply Acct_remove_app; exact HA.
  - apply Acct_upd_alloc; exact HA.
  - unfold config_group. destruct (aget name (c_groups c)); revert HA; apply Acct_ext; reflexivity.
  - unfold remove_group. destruct (aget name (c_groups c)); [|exact HA].
    destruct (existsb _ _); revert HA; apply Acct_ext; reflexivity.
  - revert HA; apply Acct_ext; reflexivity.
  - exact (Acct_psteps _ _ (step_schedule_ps c choices) HA).
  - (* ORestore *)
    unfold restore_op. destruct (get_app aname (c_apps c)) as [a|]; [|exact HA].
    pose proof (Acct_psteps _ _ (restore_put_ps c sname aname verbatim expires) HA) as H1.
    destruct (restore_put c sname aname verbatim expires) as [c1 ok]. cbn [fst] in H1.
    destruct ok; [apply Acct_force_identity; exact H1|]. destruct (a_once a); [apply Acct_remove_app|]; exact H1.
Qed.

Fixpoint wf_ops (c : cell) (ops : list op) : Prop :=
  match ops with [] => True | o :: r => wf_op c o /\ wf_ops (step c o) r end.

Theorem Acct_run ops : forall c, wf_ops c ops -> Acct c -> Acct (run c ops).
Proof. exact (run_inv Acct wf_op Acct_step ops). Qed.

Lemma Acct_init dim root level : Acct (init_cell dim root level).
Proof.
  constructor; cbn; try (constructor; fail); intros; discriminate.
Qed.

(** boolean well-formedness of events, for concrete histories *)
Definition wf_opb (c : cell) (o : op) : bool :=
  match o with
  | ORestore sname aname verbatim expires ident =>
      (match get_srv sname (c_servers c) with Some _ => true | None => false end)
      && (match get_app aname (c_apps c) with
          | Some a => match a_server a with None => true | Some _ => false end
          | None => true
          end)
  | OAddServer name parent cap label traits vu =>
      (match get_srv name (c_servers c) with None => true | Some _ => false end)
      && Nat.eqb (length cap) (c_dim c) && forallb (Z.leb 0) cap
      && forallb (fun a => negb (opt_eqb (a_server a) (Some name))) (c_apps c)
  | OAddApp label path a =>
      match get_app (a_name a) (c_apps c) with
      | Some _ => true
      | None => (match a_server a with None => true | Some _ => false end)
                && Nat.eqb (length (a_demand a)) (c_dim c) && forallb (Z.leb 0) (a_demand a)
      end
  | _ => true
  end.
Fixpoint wf_opsb (c : cell) (ops : list op) : bool :=
  match ops with [] => true | o :: r => wf_opb c o && wf_opsb (step c o) r end.

Lemma wf_opb_sound c o : wf_opb c o = true -> wf_op c o.
Proof.
  destruct o; cbn; try (intros; exact I).
  - intros H. repeat (apply andb_true_iff in H as [H ?]).
    destruct (get_srv name (c_servers c)); [discriminate|].
    split; [reflexivity|]. split; [apply Nat.eqb_eq; assumption|]. split; [apply forallb_nonneg; assumption|].
    intros m a Hg Hsv.
    match goal with X : forallb _ (c_apps c) = true |- _ => rewrite forallb_forall in X; specialize (X a (get_app_In _ _ _ Hg)) end.
    rewrite Hsv in *. cbn in *. rewrite Z.eqb_refl in *. discriminate.
  - intros H Hn. rewrite Hn in H. repeat (apply andb_true_iff in H as [H ?]).
    destruct (a_server a); [discriminate|]. split; [reflexivity|]. split; [apply Nat.eqb_eq; assumption|apply forallb_nonneg; assumption].
  - intros H. apply andb_true_iff in H as [H1 H2]. split.
    + destruct (get_srv sname (c_servers c)); [discriminate|discriminate].
    + intros a Ha. rewrite Ha in H2. destruct (a_server a); [discriminate|reflexivity].
Qed.
Lemma wf_opsb_sound ops : forall c, wf_opsb c ops = true -> wf_ops c ops.
Proof. exact (wf_runb_sound wf_op wf_opb wf_opb_sound ops). Qed.
