(** Cycle-level theorems: what every instance of every partition queue looks like after Cell.schedule
    (C05 end of cycle, C03 assignments). Built on the per-turn specifications of TurnP.v. *)
From Coq Require Import ZArith QArith List Bool Permutation.
From RecordUpdate Require Import RecordSet.
From TM Require Import Sched.Vec Sched.Types Sched.Queue Sched.Tree Sched.Cycle Sched.Steps Sched.InvAcct
                       Sched.InvIdent Sched.QueueP Sched.MergeOrderP Sched.TurnP. Import ListNotations. Open Scope
                       Z_scope.

(** ** _record_rank_and_util only writes the rank *)
Definition rank_eq (a a' : app) : Prop :=
  dyn_eq a a' /\ a_server a' = a_server a /\ a_expiry a' = a_expiry a /\ a_evicted a' = a_evicted a /\
  a_unschedule a' = a_unschedule a /\ a_renew a' = a_renew a.
Lemma rank_eq_refl a : rank_eq a a.
Proof. split; [apply dyn_eq_refl|]. repeat split. Qed.
Lemma rank_eq_trans a b c : rank_eq a b -> rank_eq b c -> rank_eq a c.
Proof.
  intros (H1 & H2 & H3 & H4 & H5 & H6) (G1 & G2 & G3 & G4 & G5 & G6).
  split; [eapply dyn_eq_trans; eassumption|]. repeat split; congruence.
Qed.

Lemma record_ranks_rank q : forall c x a, app_of c x = Some a ->
  exists a2, app_of (record_ranks c q) x = Some a2 /\ rank_eq a a2 /\
             ((~ In x (map e_app q) /\ a_rank a2 = a_rank a) \/ exists e, In e q /\ e_app e = x /\ a_rank a2 = e_rank e).
Proof.
  induction q as [|e r IH] using rev_ind; intros c x a Ha.
  - exists a. split; [exact Ha|]. split; [apply rank_eq_refl|]. left. split; [intros []|reflexivity].
  - unfold record_ranks. rewrite fold_left_app. cbn [fold_left]. fold (record_ranks c r).
    destruct (IH c x a Ha) as (a1 & Ha1 & Hr1 & Hw).
    set (fr := fun z : app => z <| a_rank := e_rank e |>).
    destruct (Z.eq_dec x (e_app e)) as [->|Hne].
    + exists (fr a1). split; [apply upd_app_self; [reflexivity|exact Ha1]|].
      split; [eapply rank_eq_trans; [exact Hr1|split; repeat split]|].
      right. exists e. split; [apply in_or_app; right; left; reflexivity|]. split; reflexivity.
    + exists a1. split; [rewrite upd_app_other; [exact Ha1|reflexivity|exact Hne]|]. split; [exact Hr1|].
      destruct Hw as [[Hni Hrk]|(e1 & Hin & He & Hrk)].
      * left. split; [|exact Hrk]. rewrite map_app. intros H. apply in_app_or in H. destruct H as [H|[H|[]]]; [contradiction|congruence].
      * right. exists e1. split; [apply in_or_app; left; exact Hin|]. split; assumption.
Qed.
Lemma record_ranks_spec q : forall c x a, app_of c x = Some a ->
  exists a1, app_of (record_ranks c q) x = Some a1 /\ rank_eq a a1.
Proof. intros c x a Ha. destruct (record_ranks_rank q c x a Ha) as (a1 & H1 & H2 & _). exists a1. auto. Qed.

(** id_rec and bl_rec do not look at the rank *)
Lemma rank_eq_recs a a1 : rank_eq a a1 -> id_rec a -> bl_rec a -> id_rec a1 /\ bl_rec a1.
Proof.
  intros (Hd & Hs & _) Hid Hbl. pose proof (stat_bl _ _ (dyn_stat _ _ Hd)) as Hbk. split.
  - intros Hne. rewrite Hs in Hne. eapply has_id_dyn; [exact Hd|apply Hid; exact Hne].
  - intros Hb. rewrite Hbk in Hb. destruct (Hbl Hb) as [H1 H2]. split; [congruence|].
    exact (no_id_stat _ _ (dyn_stat _ _ Hd) (dyn_identity _ _ Hd) H2).
Qed.

(** what is guaranteed for an instance after the cycle, relative to its record [a] and the cell [c] before *)
Definition after_cycle (c : cell) (a a' : app) : Prop :=
  stat_eq a a' /\
  (a_server a' = None -> no_id a') /\ (a_server a' <> None -> has_id a') /\
  (forall n, a_server a' = Some n -> a_server a <> Some n ->
     exists s, get_srv n (c_servers c) = Some s /\ s_state s = Up /\ guard_facts c s a).

(** the queue of a partition lists exactly the existing instances of its tree *)
Lemma partition_queue_names cc label top z :
  In z (map e_app (partition_queue cc label top)) <-> In z (all_apps top) /\ app_of cc z <> None.
Proof.
  unfold partition_queue. destruct (cell_size cc label) as [sz keps].
  pose proof (util_queue_perm (c_dim cc) sz keps (c_apps cc) top) as Hp.
  rewrite lookup_apps_names_filter in Hp. split.
  - intros H. apply (Permutation_in _ Hp) in H. apply filter_In in H as [H1 H2]. split; [exact H1|].
    unfold app_of. destruct (get_app z (c_apps cc)); discriminate.
  - intros [H1 H2]. apply (Permutation_in _ (Permutation_sym Hp)). apply filter_In. split; [exact H1|].
    unfold app_of in H2. destruct (get_app z (c_apps cc)); [reflexivity|contradiction].
Qed.
Lemma partition_queue_nodup cc label top : NoDup (all_apps top) -> NoDup (map e_app (partition_queue cc label top)).
Proof.
  intros Hnd. unfold partition_queue. destruct (cell_size cc label) as [sz keps]. apply util_queue_nodup. exact Hnd.
Qed.

(** one partition: schedule_alloc on a state whose instances of this partition are untouched since the phases *)
Lemma schedule_alloc_spec cc label top ch :
  AMI cc -> NoDup (all_apps top) ->
  forall x a, In x (all_apps top) -> app_of cc x = Some a -> id_rec a -> bl_rec a ->
  exists a', app_of (fst (schedule_alloc cc label top ch)) x = Some a' /\ after_cycle cc a a'.
Proof.
  intros Hami Hnd x a Hin Ha Hid Hbl. unfold schedule_alloc. cbn [fst].
  set (q := partition_queue cc label top).
  destruct (AMI_psteps _ _ (record_ranks_ps cc q) Hami) as (HA1 & HM1 & HI1).
  assert (Hxq : In x (map e_app q)) by (apply partition_queue_names; split; [exact Hin|congruence]).
  destruct (record_ranks_spec q cc x a Ha) as (a1 & Ha1 & Hr1).
  destruct (rank_eq_recs _ _ Hr1 Hid Hbl) as [Hid1 Hbl1]. destruct Hr1 as (Hd1 & Hs1 & _).
  destruct (find_placements_final _ _ ch (partition_queue_nodup cc label top Hnd) HA1 HI1 HM1 x a1 Hxq
              (Build_pre_ok _ _ _ Ha1 Hid1 Hbl1)) as (a' & Ha' & (Hst & F1 & F2 & F3)).
  exists a'. split; [exact Ha'|]. split; [eapply stat_eq_trans; [apply dyn_stat; exact Hd1|exact Hst]|].
  split; [exact F1|]. split; [exact F2|].
  intros n Hn Hne. destruct (F3 n Hn) as (s1 & Hs & Hup & Hgf); [rewrite Hs1; exact Hne|].
  eapply guard_facts_back; [apply psteps_static, record_ranks_ps|exact Hs|exact Hup|apply dyn_stat; exact Hd1|exact Hgf].
Qed.

(** instances of other partitions are not touched by schedule_alloc *)
Lemma schedule_alloc_frame cc label top ch x :
  AMI cc -> NoDup (all_apps top) -> ~ In x (all_apps top) ->
  forall a, app_of cc x = Some a -> exists a1, app_of (fst (schedule_alloc cc label top ch)) x = Some a1 /\ rank_eq a a1.
Proof.
  intros Hami Hnd Hx a Ha. unfold schedule_alloc. cbn [fst].
  set (q := partition_queue cc label top).
  destruct (AMI_psteps _ _ (record_ranks_ps cc q) Hami) as (HA1 & HM1 & HI1).
  destruct (record_ranks_spec q cc x a Ha) as (a1 & Ha1 & Hr). exists a1. split; [|exact Hr].
  rewrite find_placements_frame; [exact Ha1|apply partition_queue_nodup; exact Hnd|exact HA1|exact HI1|exact HM1|].
  intros H. apply partition_queue_names in H. exact (Hx (proj1 H)).
Qed.

(** ** the whole cycle *)
Lemma after_cycle_back c cc a a1 a' :
  static_kept c cc -> stat_eq a a1 -> a_server a1 = a_server a \/ a_server a1 = None ->
  after_cycle cc a1 a' -> after_cycle c a a'.
Proof.
  intros Hsk Hst Hsv (H1 & H2 & H3 & H4). split; [eapply stat_eq_trans; eassumption|]. split; [exact H2|]. split; [exact H3|].
  intros n Hn Hne. destruct (H4 n Hn) as (s & Hs & Hup & Hgf).
  { destruct Hsv as [E|E]; rewrite E; [exact Hne|discriminate]. }
  eapply guard_facts_back; eassumption.
Qed.
Lemma after_cycle_rank c a a1 a' : after_cycle c a a1 -> rank_eq a1 a' -> after_cycle c a a'.
Proof.
  intros (H1 & H2 & H3 & H4) (Hd & Hs & _). split; [eapply stat_eq_trans; [exact H1|apply dyn_stat; exact Hd]|].
  pose proof (dyn_identity _ _ Hd) as Hi.
  split; [intros E; rewrite Hs in E; eapply no_id_stat; [apply dyn_stat; exact Hd|exact Hi|apply H2; exact E]|].
  split; [intros E; rewrite Hs in E; eapply has_id_stat; [apply dyn_stat; exact Hd|exact Hi|apply H3; exact E]|].
  intros n Hn Hne. rewrite Hs in Hn. exact (H4 n Hn Hne).
Qed.

Definition part_apps (l : list (Z * alloc)) : list Z := flat_map (fun p => all_apps (snd p)) l.

Definition sched_F (ch : list (Z * Z)) (acc : cell * list (Z * list entry)) (p : Z * alloc) :=
  let '(cc, qs) := acc in
  match aget (fst p) (c_parts cc) with
  | Some top => let '(cc', q) := schedule_alloc cc (fst p) top ch in (cc', qs ++ [(fst p, q)])
  | None => (cc, qs)
  end.

Lemma schedule_fst c ch : fst (schedule c ch) = fold_left (sched_F ch) (c_parts (pre_phases c)) (pre_phases c, []).
Proof. unfold schedule. fold (sched_F ch). destruct (fold_left (sched_F ch) (c_parts (pre_phases c)) (pre_phases c, [])) as [c1 qs]. reflexivity. Qed.

(** what every partition's turn keeps of the cell and of the queues recorded so far, the fold over the partitions keeps *)
Lemma sched_fold_inv ch (Q : cell -> list (Z * list entry) -> Prop) :
  (forall cc qs label top, Q cc qs ->
     Q (fst (schedule_alloc cc label top ch)) (qs ++ [(label, snd (schedule_alloc cc label top ch))])) ->
  forall l cc qs, Q cc qs -> Q (fst (fold_left (sched_F ch) l (cc, qs))) (snd (fold_left (sched_F ch) l (cc, qs))).
Proof.
  intros HQ. induction l as [|p r IH]; intros cc qs H; cbn [fold_left]; [exact H|].
  unfold sched_F at 2 4. destruct (aget (fst p) (c_parts cc)) as [top|]; [|apply IH; exact H].
  specialize (HQ cc qs (fst p) top H). destruct (schedule_alloc cc (fst p) top ch) as [cc' q]. apply IH. exact HQ.
Qed.
Lemma sched_fold_ps ch l cc qs : psteps cc (fst (fold_left (sched_F ch) l (cc, qs))).
Proof.
  apply (sched_fold_inv ch (fun c1 _ => psteps cc c1)); [|apply ps_refl].
  intros c1 qs1 label top H. eapply ps_trans; [exact H|apply schedule_alloc_ps].
Qed.

Lemma sched_fold_spec ch P : forall l cc qs,
  AMI cc -> c_parts cc = P -> (forall p, In p l -> aget (fst p) P = Some (snd p)) -> NoDup (part_apps l) ->
  forall x a, app_of cc x = Some a ->
    (~ In x (part_apps l) -> exists a', app_of (fst (fold_left (sched_F ch) l (cc, qs))) x = Some a' /\ rank_eq a a') /\
    (In x (part_apps l) -> id_rec a -> bl_rec a ->
       exists a', app_of (fst (fold_left (sched_F ch) l (cc, qs))) x = Some a' /\ after_cycle cc a a').
Proof.
  induction l as [|p r IH]; intros cc qs Hami HP Hget Hnd x a Ha; cbn [fold_left].
  { split; [intros _; exists a; split; [exact Ha|apply rank_eq_refl]|intros []]. }
  unfold sched_F at 2 4. rewrite HP, (Hget p (or_introl eq_refl)).
  pose proof (schedule_alloc_ps cc (fst p) (snd p) ch) as Hps.
  change (part_apps (p :: r)) with (all_apps (snd p) ++ part_apps r) in *.
  destruct (NoDup_app_inv _ _ Hnd) as (Hnd1 & Hnd2 & Hdisj).
  pose proof (schedule_alloc_spec cc (fst p) (snd p) ch Hami Hnd1 x a) as Hspec.
  pose proof (schedule_alloc_frame cc (fst p) (snd p) ch x Hami Hnd1) as Hframe.
  destruct (schedule_alloc cc (fst p) (snd p) ch) as [cc' q]. cbn [fst] in *.
  pose proof (psteps_static _ _ Hps) as Hsk.
  assert (HP' : c_parts cc' = P) by (destruct Hsk as (_ & E & _); congruence).
  specialize (IH cc' (qs ++ [(fst p, q)]) (AMI_psteps _ _ Hps Hami) HP' (fun p0 H0 => Hget p0 (or_intror H0)) Hnd2 x).
  split.
  - intros Hni. destruct (Hframe (fun H => Hni (in_or_app _ _ _ (or_introl H))) a Ha) as (a1 & Ha1 & Hr1).
    destruct (proj1 (IH a1 Ha1) (fun H => Hni (in_or_app _ _ _ (or_intror H)))) as (a' & Ha' & Hr').
    exists a'. split; [exact Ha'|eapply rank_eq_trans; eassumption].
  - intros Hin Hid Hbl. apply in_app_or in Hin. destruct Hin as [Hin|Hin].
    + destruct (Hspec Hin Ha Hid Hbl) as (a1 & Ha1 & Hac).
      destruct (proj1 (IH a1 Ha1) (Hdisj x Hin)) as (a' & Ha' & Hr').
      exists a'. split; [exact Ha'|eapply after_cycle_rank; eassumption].
    + destruct (Hframe (fun H => Hdisj x H Hin) a Ha) as (a1 & Ha1 & Hr1).
      destruct (rank_eq_recs _ _ Hr1 Hid Hbl) as [Hid1 Hbl1]. destruct Hr1 as (Hd1 & Hs1 & _).
      destruct (proj2 (IH a1 Ha1) Hin Hid1 Hbl1) as (a' & Ha' & Hac).
      exists a'. split; [exact Ha'|]. eapply after_cycle_back; [exact Hsk|apply dyn_stat; exact Hd1|left; exact Hs1|exact Hac].
Qed.

(** well-formed partition table: labels are unique (it is a dict) and no instance is queued in two partitions *)
Definition parts_wf (c : cell) : Prop := NoDup (map fst (c_parts c)) /\ NoDup (part_apps (c_parts c)).

Lemma aget_nodup {V} (P : list (Z * V)) : NoDup (map fst P) -> forall p, In p P -> aget (fst p) P = Some (snd p).
Proof.
  induction P as [|[k v] r IH]; intros Hnd p Hin; [destruct Hin|]. cbn [map fst] in Hnd. inversion Hnd as [|? ? Hn Hr]; subst.
  cbn [aget]. destruct Hin as [<-|Hin]; cbn [fst snd]; [rewrite Z.eqb_refl; reflexivity|].
  destruct (Z.eqb_spec k (fst p)) as [E|E]; [|apply IH; assumption].
  exfalso. apply Hn. rewrite E. apply in_map. exact Hin.
Qed.

(** the phases, then the partitions one after the other *)
Lemma schedule_cycle c ch : Acct c -> Ident c -> parts_wf c -> forall x a, app_of c x = Some a ->
  exists a0, app_of (pre_phases c) x = Some a0 /\ touched a a0 /\
    (~ In x (part_apps (c_parts c)) -> exists a', app_of (fst (fst (schedule c ch))) x = Some a' /\ rank_eq a0 a') /\
    (In x (part_apps (c_parts c)) -> id_rec a ->
       exists a', app_of (fst (fst (schedule c ch))) x = Some a' /\ after_cycle (pre_phases c) a0 a').
Proof.
  intros HA HI [Hlab Hnd] x a Ha.
  destruct (pre_phases_spec c HA HI) as (Hami & Hat & Hps & Hbl).
  destruct (Hat x a Ha) as (a0 & Ha0 & Ht). exists a0. split; [exact Ha0|]. split; [exact Ht|].
  destruct (psteps_static _ _ Hps) as (_ & HP & _). rewrite schedule_fst, HP.
  destruct (sched_fold_spec ch (c_parts c) (c_parts c) (pre_phases c) [] Hami HP (aget_nodup _ Hlab) Hnd x a0 Ha0) as [H1 H2].
  split; [exact H1|]. intros Hin Hid. apply (H2 Hin); [eapply id_rec_touched; eassumption|eapply Hbl; exact Ha0].
Qed.

(** C05/C03 at the end of a scheduling cycle: for every instance of every partition's allocation tree that
    exists before the cycle and holds its identity if it is placed (Ident + the previous cycle give that),
    - nothing but placement fields and identity changed in its record,
    - it holds no identity if it ends the cycle unplaced, and holds one (when it has an identity group) if it ends placed,
    - and if it ends on a server other than the one it started on, that server is Up and satisfies the label,
      traits and lifetime constraints of the instance, all measured on the state before the cycle. *)
Theorem schedule_final_mid c ch : Acct c -> Ident c -> parts_wf c ->
  forall x a, In x (part_apps (c_parts c)) -> app_of c x = Some a -> id_rec a ->
  exists a0 a', app_of (pre_phases c) x = Some a0 /\ touched a a0 /\
                app_of (fst (fst (schedule c ch))) x = Some a' /\ after_cycle (pre_phases c) a0 a'.
Proof.
  intros HA HI Hwf x a Hin Ha Hid. destruct (schedule_cycle c ch HA HI Hwf x a Ha) as (a0 & Ha0 & Ht & _ & H).
  destruct (H Hin Hid) as (a' & Ha' & Hac). exists a0, a'. auto.
Qed.

Theorem schedule_final c ch : Acct c -> Ident c -> parts_wf c ->
  forall x a, In x (part_apps (c_parts c)) -> app_of c x = Some a -> id_rec a ->
  exists a', app_of (fst (fst (schedule c ch))) x = Some a' /\ after_cycle c a a'.
Proof.
  intros HA HI Hwf x a Hin Ha Hid.
  destruct (schedule_final_mid c ch HA HI Hwf x a Hin Ha Hid) as (a0 & a' & Ha0 & (Hst & Hrn & Hsv) & Ha' & Hac).
  exists a'. split; [exact Ha'|]. eapply after_cycle_back; [apply psteps_static, pre_phases_ps|exact Hst| |exact Hac].
  destruct Hsv as [[E _]|[E _]]; [left|right]; exact E.
Qed.

(** instances outside every partition tree are only touched by the four phases *)
Theorem schedule_outside c ch : Acct c -> Ident c -> parts_wf c ->
  forall x a, ~ In x (part_apps (c_parts c)) -> app_of c x = Some a ->
  exists a0 a', app_of (fst (fst (schedule c ch))) x = Some a' /\ touched a a0 /\ rank_eq a0 a'.
Proof.
  intros HA HI Hwf x a Hin Ha. destruct (schedule_cycle c ch HA HI Hwf x a Ha) as (a0 & Ha0 & Ht & H & _).
  destruct (H Hin) as (a' & Ha' & Hr). exists a0, a'. auto.
Qed.
