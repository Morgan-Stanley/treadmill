(** C04 (server level): the stored per-server affinity counters are the true counts, and no server holds more
    instances of an affinity than those instances allow at server level ([Aff]).  Every scheduling cycle keeps it;
    together with the accounting invariant ([AA]) so does every event that meets [wf_op] and [wf_op_aff]. *)
From Coq Require Import ZArith List Bool Lia.
From RecordUpdate Require Import RecordSet.
From TM Require Import Sched.Vec Sched.Types Sched.Queue Sched.Tree Sched.Cycle Sched.Steps Sched.MapsP Sched.Events
                       Sched.EventsP Sched.InvAcct.
Import ListNotations.
Open Scope Z_scope.

Definition has_aff (apps : list app) (aff : Z) (m : Z) : bool :=
  match get_app m apps with Some a => Z.eqb (a_aff a) aff | None => false end.
Definition count_aff (apps : list app) (aff : Z) (names : list Z) : Z :=
  Z.of_nat (length (filter (has_aff apps aff) names)).

Record Aff (c : cell) : Prop := {
  af_exact : forall n s aff, get_srv n (c_servers c) = Some s ->
                             cget aff (s_counters s) = count_aff (c_apps c) aff (s_apps s);
  af_shared : forall n1 n2 a1 a2, get_app n1 (c_apps c) = Some a1 -> get_app n2 (c_apps c) = Some a2 ->
                                  a_aff a1 = a_aff a2 -> a_limits a1 = a_limits a2;
  af_limit : forall n s m a L, get_srv n (c_servers c) = Some s -> In m (s_apps s) ->
                               get_app m (c_apps c) = Some a -> aff_limit a LEVEL_SERVER = Some L ->
                               cget (a_aff a) (s_counters s) <= L
}.

(** counters *)
Lemma cget_cadd k k2 d m : cget k2 (cadd k d m) = cget k2 m + (if Z.eqb k2 k then d else 0).
Proof.
  unfold cget, cadd. destruct (Z.eqb_spec k2 k) as [->|Hne].
  - rewrite ag_as_same. unfold cget. reflexivity.
  - rewrite ag_as_other by assumption. lia.
Qed.

(** the invariant reads (name, affinity, limits) of instances *)
Definition app_eqa (a b : app) : Prop := a_name a = a_name b /\ a_aff a = a_aff b /\ a_limits a = a_limits b.
Lemma app_eqa_refl a : app_eqa a a.
Proof. repeat split. Qed.
Lemma app_eqa_name a b : app_eqa a b -> a_name a = a_name b.
Proof. intros H. apply H. Qed.
Lemma count_aff_eqa l l' aff names : Forall2 app_eqa l l' -> count_aff l aff names = count_aff l' aff names.
Proof.
  intros Hf. unfold count_aff. f_equal. f_equal. apply filter_ext. intros m. unfold has_aff.
  pose proof (get_app_Forall2 _ _ _ app_eqa_name Hf m) as H. destruct (get_app m l), (get_app m l'); try contradiction; [|reflexivity].
  destruct H as (_ & H2 & _). rewrite H2. reflexivity.
Qed.
Lemma Aff_eqa c c' : c_servers c' = c_servers c -> Forall2 app_eqa (c_apps c) (c_apps c') -> Aff c -> Aff c'.
Proof.
  intros Hs Hf [A1 A2 A3].
  assert (Hback : forall n b, get_app n (c_apps c') = Some b -> exists a, get_app n (c_apps c) = Some a /\ app_eqa a b).
  { intros n b Hb. pose proof (get_app_Forall2 _ _ _ app_eqa_name Hf n) as H. rewrite Hb in H.
    destruct (get_app n (c_apps c)) as [a|]; [|contradiction]. exists a. auto. }
  constructor; rewrite ?Hs.
  - intros n s aff Hg. rewrite <- (count_aff_eqa _ _ _ _ Hf). eapply A1; exact Hg.
  - intros n1 n2 b1 b2 Hb1 Hb2 He. destruct (Hback _ _ Hb1) as (a1 & Ha1 & _ & E1 & L1).
    destruct (Hback _ _ Hb2) as (a2 & Ha2 & _ & E2 & L2). rewrite <- L1, <- L2. eapply A2; [exact Ha1|exact Ha2|congruence].
  - intros n s m b L Hg Hin Hb HL. destruct (Hback _ _ Hb) as (a & Ha & _ & E & Lm).
    rewrite <- E. eapply A3; [exact Hg|exact Hin|exact Ha|]. unfold aff_limit in *. rewrite Lm. exact HL.
Qed.
Lemma Aff_upd_app_eqa c n f : (forall x, app_eqa x (f x)) -> Aff c -> Aff (c_upd_app n f c).
Proof. intros Hf. apply Aff_eqa; [reflexivity|apply Forall2_upd_app; [exact app_eqa_refl|exact Hf]]. Qed.
Lemma Aff_ext c c' : c_servers c' = c_servers c -> c_apps c' = c_apps c -> Aff c -> Aff c'.
Proof. intros H1 H2. apply Aff_eqa; [exact H1|rewrite H2; apply Forall2_diag, app_eqa_refl]. Qed.
Lemma Aff_same_core c c' : same_core c c' -> Aff c -> Aff c'.
Proof. intros H. apply Aff_ext; apply H. Qed.

(** one server changes: the invariant is to be checked for that server only *)
Lemma Aff_upd_srv c sn fs : (forall x, s_name (fs x) = s_name x) ->
  (forall s, get_srv sn (c_servers c) = Some s ->
     (forall aff, cget aff (s_counters (fs s)) = count_aff (c_apps c) aff (s_apps (fs s))) /\
     (forall m a L, In m (s_apps (fs s)) -> get_app m (c_apps c) = Some a -> aff_limit a LEVEL_SERVER = Some L ->
                    cget (a_aff a) (s_counters (fs s)) <= L)) ->
  Aff c -> Aff (c_upd_srv sn fs c).
Proof.
  intros Hn Hfs [A1 A2 A3].
  constructor; cbn [c_upd_srv c_servers c_apps set].
  - intros n s' aff Hg. destruct (get_upd_srv_inv _ _ _ _ _ Hn Hg) as [(_ & s & Hs & ->)|(_ & Hg0)]; [apply (Hfs s Hs)|eapply A1; exact Hg0].
  - exact A2.
  - intros n s' m a L Hg. destruct (get_upd_srv_inv _ _ _ _ _ Hn Hg) as [(_ & s & Hs & ->)|(_ & Hg0)]; [apply (Hfs s Hs)|eapply A3; exact Hg0].
Qed.

(** counting *)
Lemma count_aff_snoc apps aff l m :
  count_aff apps aff (l ++ [m]) = count_aff apps aff l + (if has_aff apps aff m then 1 else 0).
Proof.
  unfold count_aff. rewrite filter_app, app_length, Nat2Z.inj_add. cbn [filter]. destruct (has_aff apps aff m); cbn [length]; lia.
Qed.
Lemma count_aff_zremove apps aff m l : In m l ->
  count_aff apps aff (zremove m l) = count_aff apps aff l - (if has_aff apps aff m then 1 else 0).
Proof.
  unfold count_aff. induction l as [|x t IH]; cbn; [tauto|]. intros Hin.
  destruct (Z.eqb_spec x m) as [->|Hne].
  - destruct (has_aff apps aff m); cbn [length]; rewrite ?Nat2Z.inj_succ; lia.
  - destruct Hin as [->|Hin]; [congruence|]. specialize (IH Hin). cbn [filter]. destruct (has_aff apps aff x); cbn [length]; rewrite ?Nat2Z.inj_succ; lia.
Qed.

(** ** put *)
Lemma Aff_put c sn an s a lease :
  get_srv sn (c_servers c) = Some s -> get_app an (c_apps c) = Some a -> put_guard c s a lease = true ->
  Aff c -> Aff (prim_put c sn an a lease).
Proof.
  intros Hs Ha Hg HF. pose proof HF as [A1 A2 A3].
  (* of the guard only this is needed: the server-level limit of the instance leaves room *)
  unfold put_guard in Hg. apply andb_true_iff in Hg as [_ Hcc].
  unfold check_constraints in Hcc. apply andb_true_iff in Hcc as [Hcc _]. apply andb_true_iff in Hcc as [_ Hlim].
  unfold prim_put. apply Aff_upd_app_eqa; [intros x; destruct (a_expiry x); repeat split|].
  apply Aff_upd_srv; [reflexivity| |exact HF]. intros s0 Hs0. rewrite Hs in Hs0. injection Hs0 as <-.
  cbn [s_counters s_apps set]. split.
  - intros aff. rewrite cget_cadd, count_aff_snoc, (A1 _ _ aff Hs). unfold has_aff. rewrite Ha, Z.eqb_sym. reflexivity.
  - intros m b L Hin Hb HL. rewrite cget_cadd. destruct (Z.eqb_spec (a_aff b) (a_aff a)) as [Eaff|Naff].
    + (* same affinity as the new instance: the limit is shared and the guard gives room *)
      assert (HLa : aff_limit a LEVEL_SERVER = Some L).
      { unfold aff_limit in *. rewrite <- (A2 _ _ _ _ Hb Ha Eaff). exact HL. }
      unfold under_limit in Hlim. rewrite HLa in Hlim. apply Z.ltb_lt in Hlim. rewrite Eaff. lia.
    + apply in_app_or in Hin as [Hin|[<-|[]]]; [pose proof (A3 _ _ _ _ _ Hs Hin Hb HL); lia|congruence].
Qed.

(** ** remove *)
Lemma Aff_remove c sn an s a :
  get_srv sn (c_servers c) = Some s -> get_app an (c_apps c) = Some a -> zmem an (s_apps s) = true ->
  Aff c -> Aff (prim_remove c sn an a).
Proof.
  intros Hs Ha Hm HF. pose proof HF as [A1 A2 A3]. apply zmem_In in Hm.
  unfold prim_remove. apply Aff_upd_app_eqa; [intros x; repeat split|].
  apply Aff_upd_srv; [reflexivity| |exact HF]. intros s0 Hs0. rewrite Hs in Hs0. injection Hs0 as <-.
  cbn [s_counters s_apps set]. split.
  - intros aff. rewrite cget_cadd, (count_aff_zremove _ _ _ _ Hm), (A1 _ _ aff Hs). unfold has_aff. rewrite Ha, Z.eqb_sym.
    destruct (Z.eqb (a_aff a) aff); lia.
  - intros m b L Hin Hb HL. apply zremove_In in Hin. pose proof (A3 _ _ _ _ _ Hs Hin Hb HL).
    rewrite cget_cadd. destruct (Z.eqb (a_aff b) (a_aff a)); lia.
Qed.

Lemma soft_eqa f : soft f -> forall x, app_eqa x (f x).
Proof.
  intros Hf x. repeat split; symmetry; apply (Hf x).
Qed.

Lemma Aff_release c an : Aff c -> Aff (release_identity c an).
Proof.
  unfold release_identity. destruct (get_app an (c_apps c)) as [a|]; [|tauto].
  destruct (group_of c a) as [[g grp]|]; [|tauto]. destruct (a_identity a); [|tauto].
  intros H. apply Aff_upd_app_eqa; [intros x; repeat split|]. revert H. apply Aff_ext; reflexivity.
Qed.
Lemma Aff_acquire c an ch : Aff c -> Aff (fst (acquire_identity c an ch)).
Proof.
  unfold acquire_identity. destruct (get_app an (c_apps c)) as [a|]; [|tauto].
  destruct (group_of c a) as [[g grp]|]; [|tauto]. destruct (a_identity a); [tauto|].
  destruct (g_avail grp); [tauto|]. cbn [fst]. intros H. apply Aff_upd_app_eqa; [intros x; repeat split|].
  revert H. apply Aff_ext; reflexivity.
Qed.

Theorem Aff_pstep c c' : pstep c c' -> Aff c -> Aff c'.
Proof.
  intros Hs. destruct Hs.
  - apply Aff_same_core; assumption.
  - eapply Aff_put; eassumption.
  - eapply Aff_remove; eassumption.
  - apply Aff_upd_app_eqa. apply soft_eqa. assumption.
  - apply Aff_upd_app_eqa. intros x. repeat split.
  - apply Aff_release.
  - apply Aff_acquire.
  - apply Aff_upd_app_eqa. intros x. repeat split.
Qed.
Theorem Aff_psteps c c' : psteps c c' -> Aff c -> Aff c'.
Proof. induction 1; [apply Aff_pstep; assumption|tauto|tauto]. Qed.
Theorem Aff_schedule c ch : Aff c -> Aff (fst (fst (schedule c ch))).
Proof. apply Aff_psteps. apply schedule_ps. Qed.

(** ** the events between cycles (together with the accounting invariant) *)
Definition AA (c : cell) : Prop := Acct c /\ Aff c.

Definition wf_op_aff (c : cell) (o : op) : Prop :=
  match o with
  | OAddApp label path a =>
      get_app (a_name a) (c_apps c) = None ->
      forall m b, get_app m (c_apps c) = Some b -> a_aff b = a_aff a -> a_limits b = a_limits a
  | _ => True
  end.

Lemma Aff_add_server c s :
  get_srv (s_name s) (c_servers c) = None -> s_apps s = [] -> s_counters s = [] ->
  Aff c -> Aff (c <| c_servers ::= (fun l => l ++ [s]) |>).
Proof.
  intros Hn Happs Hcnt [A1 A2 A3]. constructor; cbn [c_servers c_apps set]; try assumption.
  - intros n s' aff Hg. rewrite get_srv_snoc in Hg. destruct (get_srv n (c_servers c)) eqn:E.
    + inversion Hg; subst. eapply A1; exact E.
    + destruct (Z.eqb (s_name s) n); inversion Hg; subst. rewrite Happs, Hcnt. reflexivity.
  - intros n s' m a L Hg Hin. rewrite get_srv_snoc in Hg. destruct (get_srv n (c_servers c)) eqn:E.
    + inversion Hg; subst. eapply A3; eassumption.
    + destruct (Z.eqb (s_name s) n); inversion Hg; subst. rewrite Happs in Hin. destruct Hin.
Qed.
Lemma Aff_del_server c n : NoDup (map s_name (c_servers c)) -> Aff c -> Aff (c <| c_servers ::= del_srv n |>).
Proof.
  intros Hnd [A1 A2 A3]. constructor; cbn [c_servers c_apps set]; try assumption.
  - intros m s aff Hg. rewrite get_srv_del in Hg by exact Hnd. destruct (Z.eqb m n); [discriminate|]. eapply A1; exact Hg.
  - intros m s k a L Hg. rewrite get_srv_del in Hg by exact Hnd. destruct (Z.eqb m n); [discriminate|]. eapply A3; exact Hg.
Qed.
Lemma Aff_upd_srv_soft c n f :
  (forall x, s_name (f x) = s_name x /\ s_counters (f x) = s_counters x /\ s_apps (f x) = s_apps x) ->
  Aff c -> Aff (c_upd_srv n f c).
Proof.
  intros Hf HF. apply Aff_upd_srv; [intros x; apply Hf| |exact HF]. intros s Hs. destruct (Hf s) as (_ & -> & ->).
  split; [intros aff; exact (af_exact _ HF _ _ aff Hs)|intros m a L; exact (af_limit _ HF _ _ m a L Hs)].
Qed.
Lemma count_aff_ext apps apps' aff names :
  (forall m, In m names -> get_app m apps' = get_app m apps) -> count_aff apps' aff names = count_aff apps aff names.
Proof.
  intros H. unfold count_aff. f_equal. f_equal. induction names as [|x t IH]; cbn [filter]; [reflexivity|].
  assert (Hx : has_aff apps' aff x = has_aff apps aff x) by (unfold has_aff; rewrite (H x (or_introl eq_refl)); reflexivity).
  rewrite Hx, IH by (intros; apply H; right; assumption). reflexivity.
Qed.

Lemma ensure_group_same c g : c_servers (ensure_group c g) = c_servers c /\ c_apps (ensure_group c g) = c_apps c.
Proof. unfold ensure_group. destruct g as [k|]; [destruct (aget k (c_groups c))|]; split; reflexivity. Qed.
Lemma Aff_upd_alloc c l p f : Aff c -> Aff (upd_alloc c l p f).
Proof. apply Aff_ext; apply upd_alloc_frame. Qed.

(** a new instance at the end of the list, when the instances of its affinity declare its limits *)
Lemma Aff_add_app c c2 a :
  c_servers c2 = c_servers c -> c_apps c2 = c_apps c ++ [a] -> Acct c ->
  (forall m b, get_app m (c_apps c) = Some b -> a_aff b = a_aff a -> a_limits b = a_limits a) -> Aff c -> Aff c2.
Proof.
  intros Es Ea HA Hsh [A1 A2 A3]. constructor; rewrite ?Es, ?Ea.
  - intros n s aff Hg. rewrite (A1 _ _ aff Hg). symmetry. apply count_aff_ext. intros m Hin.
    destruct (ac_listed _ HA _ _ _ Hg Hin) as (b & Hb & _). rewrite get_app_snoc, Hb. reflexivity.
  - intros n1 n2 b1 b2 Hb1 Hb2 He. rewrite get_app_snoc in Hb1, Hb2.
    destruct (get_app n1 (c_apps c)) as [x1|] eqn:E1; destruct (get_app n2 (c_apps c)) as [x2|] eqn:E2.
    + inversion Hb1; inversion Hb2; subst. eapply A2; eassumption.
    + inversion Hb1; subst. destruct (Z.eqb (a_name a) n2); inversion Hb2; subst. eapply Hsh; eassumption.
    + inversion Hb2; subst. destruct (Z.eqb (a_name a) n1); inversion Hb1; subst. symmetry. eapply Hsh; [eassumption|congruence].
    + destruct (Z.eqb (a_name a) n1), (Z.eqb (a_name a) n2); inversion Hb1; inversion Hb2; subst; reflexivity.
  - intros n s m b L Hg Hin Hb HL. destruct (ac_listed _ HA _ _ _ Hg Hin) as (b0 & Hb0 & _).
    rewrite get_app_snoc, Hb0 in Hb. inversion Hb; subst. eapply A3; eassumption.
Qed.

(** an instance is dropped; no server lists it, since accounting holds afterwards *)
Lemma Aff_del_app c n : NoDup (map a_name (c_apps c)) -> Acct (c <| c_apps ::= del_app n |>) ->
  Aff c -> Aff (c <| c_apps ::= del_app n |>).
Proof.
  intros Hnd HA' [A1 A2 A3].
  assert (Hget : forall m, get_app m (del_app n (c_apps c)) = if Z.eqb m n then None else get_app m (c_apps c))
    by (intros m; apply get_app_del; exact Hnd).
  constructor; cbn [c_servers c_apps set].
  - intros k s aff Hg. rewrite (A1 _ _ aff Hg). symmetry. apply count_aff_ext. intros m Hin. rewrite Hget.
    destruct (Z.eqb_spec m n) as [->|]; [|reflexivity].
    destruct (ac_listed _ HA' _ _ _ Hg Hin) as (a & Ha & _). cbn [c_apps set] in Ha. rewrite Hget, Z.eqb_refl in Ha. discriminate.
  - intros n1 n2 b1 b2. rewrite !Hget. destruct (Z.eqb n1 n); [discriminate|]. destruct (Z.eqb n2 n); [discriminate|]. apply A2.
  - intros k s m b L Hg Hin. rewrite Hget. destruct (Z.eqb m n); [discriminate|]. eapply A3; eassumption.
Qed.

Lemma Aff_remove_app c name : Acct c -> Aff c -> Aff (remove_app c name).
Proof.
  intros HA HF. pose proof (Acct_remove_app c name HA) as HA'. unfold remove_app in *.
  destruct (get_app name (c_apps c)) as [a|]; [|exact HF]. cbv zeta in *.
  set (c1 := match a_server a with
             | Some sn => if is_member c sn then srv_remove c sn name else c
             | None => c
             end) in *.
  assert (H1 : AA c1).
  { subst c1. destruct (a_server a) as [sn|]; [|split; assumption]. destruct (is_member c sn); [|split; assumption].
    split; [apply Acct_srv_remove; exact HA|eapply Aff_psteps; [apply srv_remove_ps|exact HF]]. }
  set (c2 := match a_alloc a with Some (l0, p0) => upd_alloc c1 l0 p0 (alloc_del_app name) | None => c1 end) in *.
  assert (H2 : AA c2).
  { subst c2. destruct (a_alloc a) as [[l0 p0]|]; [|exact H1]. split; [apply Acct_upd_alloc|apply Aff_upd_alloc]; apply H1. }
  apply Aff_del_app; [apply ac_app_names, Acct_release, H2|exact HA'|apply Aff_release, H2].
Qed.

Lemma Aff_force_identity c an i : Aff c -> Aff (force_identity c an i).
Proof.
  unfold force_identity. destruct i as [i|]; [|tauto]. destruct (get_app an (c_apps c)) as [a|]; [|tauto].
  destruct (group_of c a) as [[g grp]|]; [|tauto].
  intros H. apply Aff_upd_app_eqa; [intros x; repeat split|]. revert H. apply Aff_ext; reflexivity.
Qed.

Theorem AA_step c o : wf_op c o -> wf_op_aff c o -> AA c -> AA (step c o).
Proof.
  intros Hwf Hwa [HA HF]. split; [apply Acct_step; assumption|].
  destruct o; cbn [step]; try (apply Aff_upd_app_eqa; [intros x; repeat split|exact HF]).
  - unfold add_bucket. eapply Aff_same_core; [apply attach_common_sc|]. revert HF. apply Aff_ext; reflexivity.
  - destruct Hwf as (H1 & _). unfold add_server, new_server. cbn [s_parent]. eapply Aff_same_core; [apply attach_common_sc|].
    apply Aff_add_server; cbn; auto.
  - (* ORemoveServer *)
    assert (H0 : AA (if raw then c else srv_remove_all c name)).
    { destruct raw; [split; assumption|]. split; [apply Acct_srv_remove_all; exact HA|].
      eapply Aff_psteps; [apply srv_remove_all_ps|exact HF]. }
    destruct H0 as [HA0 HF0]. set (c0 := if raw then c else srv_remove_all c name) in *.
    unfold detach_server. destruct (get_srv name (c_servers c0)) as [s|]; [|exact HF0].
    pose proof (Aff_del_server c0 name (ac_srv_names _ HA0) HF0) as H1.
    destruct (s_parent s) as [p|]; [|exact H1].
    eapply Aff_same_core; [apply unhook_server_sc|exact H1].
  - (* OMoveServer *)
    unfold move_server. destruct (get_srv name (c_servers c)) as [s|]; [|exact HF].
    eapply Aff_same_core; [apply attach_common_sc|]. apply Aff_upd_srv_soft; [intros x; repeat split|].
    destruct (s_parent s) as [p0|]; [eapply Aff_same_core; [apply unhook_server_sc|exact HF]|exact HF].
  - unfold srv_set_state. destruct (get_srv name (c_servers c)) as [s|]; [|exact HF].
    destruct (sstate_eqb (s_state s) st); [exact HF|].
    assert (H1 : Aff (c_upd_srv name (fun x => x <| s_state := st |> <| s_since := since |>) c))
      by (apply Aff_upd_srv_soft; [intros x; repeat split|exact HF]).
    destruct st; (eapply Aff_same_core; [|exact H1]); [apply adjust_up_from_sc|apply adjust_down_from_sc|apply adjust_down_from_sc].
  - apply Aff_upd_srv_soft; [intros x; repeat split|exact HF].
  - (* OAddApp *)
    unfold add_app. destruct (get_app (a_name a) (c_apps c)) as [old|] eqn:Eo.
    + eapply Aff_ext; [apply ensure_group_same..|]. apply Aff_upd_app_eqa; [intros x; repeat split|].
      apply Aff_upd_alloc. destruct (a_alloc old) as [[l0 p0]|]; [apply Aff_upd_alloc|]; exact HF.
    + eapply (Aff_add_app c); [| |exact HA| |exact HF].
      * rewrite (proj1 (ensure_group_same _ _)). cbn [c_servers set]. apply upd_alloc_frame.
      * rewrite (proj2 (ensure_group_same _ _)). cbn [c_apps set]. rewrite (proj1 (proj2 (proj2 (upd_alloc_frame _ _ _ _)))). reflexivity.
      * exact (Hwa Eo).
  - (* ORemoveApp *) apply Aff_remove_app; assumption.
  - apply Aff_upd_alloc. exact HF.
  - unfold config_group. destruct (aget name (c_groups c)); revert HF; apply Aff_ext; reflexivity.
  - unfold remove_group. destruct (aget name (c_groups c)); [|exact HF]. destruct (existsb _ _); revert HF; apply Aff_ext; reflexivity.
  - revert HF; apply Aff_ext; reflexivity.
  - exact (Aff_psteps _ _ (step_schedule_ps c choices) HF).
  - (* ORestore *)
    unfold restore_op. destruct (get_app aname (c_apps c)) as [a|]; [|exact HF].
    pose proof (Acct_psteps _ _ (restore_put_ps c sname aname verbatim expires) HA) as HA1.
    pose proof (Aff_psteps _ _ (restore_put_ps c sname aname verbatim expires) HF) as HF1.
    destruct (restore_put c sname aname verbatim expires) as [c1 ok]. cbn [fst] in HA1, HF1.
    destruct ok; [apply Aff_force_identity; exact HF1|]. destruct (a_once a); [apply Aff_remove_app; assumption|exact HF1].
Qed.

Fixpoint wf_ops_aff (c : cell) (ops : list op) : Prop :=
  match ops with [] => True | o :: r => (wf_op c o /\ wf_op_aff c o) /\ wf_ops_aff (step c o) r end.
Theorem AA_run ops : forall c, wf_ops_aff c ops -> AA c -> AA (run c ops).
Proof. exact (run_inv AA _ (fun c o H => AA_step c o (proj1 H) (proj2 H)) ops). Qed.
Lemma AA_init dim root level : AA (init_cell dim root level).
Proof.
  split; [apply Acct_init|]. constructor; cbn; intros; discriminate.
Qed.

(** boolean well-formedness for concrete histories *)
Fixpoint limits_eqb (a b : list (Z * Z)) : bool :=
  match a, b with
  | [], [] => true
  | (k, v) :: a', (k2, v2) :: b' => Z.eqb k k2 && Z.eqb v v2 && limits_eqb a' b'
  | _, _ => false
  end.
Lemma limits_eqb_eq a b : limits_eqb a b = true -> a = b.
Proof.
  revert b; induction a as [|[k v] a IH]; intros [|[k2 v2] b]; cbn; try discriminate; [reflexivity|].
  intros H. apply andb_true_iff in H as [H H3]. apply andb_true_iff in H as [H1 H2].
  apply Z.eqb_eq in H1, H2. subst. f_equal. apply IH. exact H3.
Qed.
Definition wf_op_affb (c : cell) (o : op) : bool :=
  match o with
  | OAddApp label path a =>
      match get_app (a_name a) (c_apps c) with
      | Some _ => true
      | None => forallb (fun b => negb (Z.eqb (a_aff b) (a_aff a)) || limits_eqb (a_limits b) (a_limits a)) (c_apps c)
      end
  | _ => true
  end.
Lemma wf_op_affb_sound c o : wf_op_affb c o = true -> wf_op_aff c o.
Proof.
  destruct o; cbn; try (intros; exact I). intros H Hn m b Hb He. rewrite Hn in H.
  rewrite forallb_forall in H. specialize (H b (get_app_In _ _ _ Hb)). rewrite He, Z.eqb_refl in H. cbn in H.
  apply limits_eqb_eq. exact H.
Qed.
Fixpoint wf_ops_affb (c : cell) (ops : list op) : bool :=
  match ops with [] => true | o :: r => wf_opb c o && wf_op_affb c o && wf_ops_affb (step c o) r end.
Lemma wf_ops_affb_sound ops : forall c, wf_ops_affb c ops = true -> wf_ops_aff c ops.
Proof.
  apply (wf_runb_sound (fun c o => wf_op c o /\ wf_op_aff c o) (fun c o => wf_opb c o && wf_op_affb c o)). intros c o H.
  apply andb_true_iff in H as [H1 H2]. split; [apply wf_opb_sound; exact H1|apply wf_op_affb_sound; exact H2].
Qed.
