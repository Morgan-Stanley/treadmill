(** Facts about the events of Events.v that the invariant files share: what the events leave alone, their
    classification by what they touch, and histories ([run]) as iterated events. *)
From Coq Require Import ZArith List Bool.
From RecordUpdate Require Import RecordSet.
From TM Require Import Sched.Vec Sched.Types Sched.Queue Sched.Tree Sched.Cycle Sched.Steps Sched.MapsP Sched.Events.
Import ListNotations.
Open Scope Z_scope.

Lemma step_schedule c ch : step c (OSchedule ch) = fst (fst (schedule c ch)).
Proof. cbn [step]. destruct (schedule c ch) as [[c' qs] pl]. reflexivity. Qed.
Lemma step_schedule_ps c ch : psteps c (step c (OSchedule ch)).
Proof. rewrite step_schedule. apply schedule_ps. Qed.

Lemma upd_alloc_frame c l p f :
  c_dim (upd_alloc c l p f) = c_dim c /\ c_servers (upd_alloc c l p f) = c_servers c /\
  c_apps (upd_alloc c l p f) = c_apps c /\ c_groups (upd_alloc c l p f) = c_groups c.
Proof. unfold upd_alloc, ensure_part. destruct (aget l (c_parts c)); auto. Qed.

(** ** histories
    [wf_ops], [wf_ops_id], [wf_ops_all], ... are [wf_run] at their side condition, written out as fixpoints of
    their own; they are convertible with it, so the lemmas below apply to them as they stand.  Likewise [wf_opsb],
    [wf_ops_allb], ... and [wf_runb]. *)
Definition wf_run (wf : cell -> op -> Prop) : cell -> list op -> Prop :=
  fix go c ops := match ops with [] => True | o :: r => wf c o /\ go (step c o) r end.
Lemma run_inv (P : cell -> Prop) (wf : cell -> op -> Prop) : (forall c o, wf c o -> P c -> P (step c o)) ->
  forall ops c, wf_run wf c ops -> P c -> P (run c ops).
Proof.
  intros Hstep. induction ops as [|o r IH]; intros c Hwf H; cbn; [exact H|].
  destruct Hwf as [H1 H2]. apply IH; [exact H2|apply Hstep; assumption].
Qed.
Lemma wf_run_app wf ops1 : forall c ops2,
  wf_run wf c (ops1 ++ ops2) <-> wf_run wf c ops1 /\ wf_run wf (run c ops1) ops2.
Proof.
  induction ops1 as [|o r IH]; intros c ops2; cbn [Datatypes.app wf_run run fold_left]; [tauto|].
  rewrite IH. unfold run. tauto.
Qed.

Definition wf_runb (wfb : cell -> op -> bool) : cell -> list op -> bool :=
  fix go c ops := match ops with [] => true | o :: r => wfb c o && go (step c o) r end.
Lemma wf_runb_sound (wf : cell -> op -> Prop) wfb : (forall c o, wfb c o = true -> wf c o) ->
  forall ops c, wf_runb wfb c ops = true -> wf_run wf c ops.
Proof.
  intros Hs. induction ops as [|o r IH]; intros c H; cbn [wf_runb wf_run] in *; [exact I|].
  apply andb_true_iff in H as [H1 H2]. split; [apply Hs; exact H1|apply IH; exact H2].
Qed.

(** ** events that touch servers, buckets and the clock only *)
Definition quiet (c c' : cell) : Prop := c_apps c' = c_apps c /\ c_parts c' = c_parts c /\ c_groups c' = c_groups c.
Lemma quiet_trans a b c : quiet a b -> quiet b c -> quiet a c.
Proof. intros (H1 & H2 & H3) (G1 & G2 & G3). repeat split; congruence. Qed.
Lemma same_core_quiet c c' : same_core c c' -> quiet c c'.
Proof. intros H. repeat split; apply H. Qed.

Lemma quiet_servers c f : quiet c (c <| c_servers ::= f |>).
Proof. repeat split. Qed.
Lemma quiet_buckets c f : quiet c (c <| c_buckets ::= f |>).
Proof. repeat split. Qed.

Definition srv_event (o : op) : bool :=
  match o with
  | OAddBucket _ _ _ | OAddServer _ _ _ _ _ _ | ORemoveServer _ _ | OMoveServer _ _ | OSetState _ _ _
  | OSetValidUntil _ _ | OTick _ => true
  | _ => false
  end.
(** Loader.remove_server takes the instances off the server first *)
Definition srv_event_pre (c : cell) (o : op) : cell :=
  match o with ORemoveServer name false => srv_remove_all c name | _ => c end.

Lemma srv_event_pre_ps c o : psteps c (srv_event_pre c o).
Proof. destruct o; try apply ps_refl. destruct raw; [apply ps_refl|apply srv_remove_all_ps]. Qed.

Lemma srv_event_quiet c o : srv_event o = true -> quiet (srv_event_pre c o) (step c o).
Proof.
  destruct o; try discriminate; intros _; cbn [step srv_event_pre].
  - eapply quiet_trans; [apply quiet_buckets|apply same_core_quiet, attach_common_sc].
  - eapply quiet_trans; [apply quiet_servers|apply same_core_quiet, attach_common_sc].
  - generalize (if raw then c else srv_remove_all c name). intros c0.
    unfold detach_server. destruct (get_srv name (c_servers c0)) as [s|]; [|repeat split].
    destruct (s_parent s); [eapply quiet_trans; [|apply same_core_quiet, unhook_server_sc]|]; apply quiet_servers.
  - unfold move_server. destruct (get_srv name (c_servers c)) as [s|]; [|repeat split].
    eapply quiet_trans; [|apply same_core_quiet, attach_common_sc]. eapply quiet_trans; [|apply quiet_servers].
    destruct (s_parent s) as [p|]; [apply same_core_quiet, unhook_server_sc|repeat split].
  - unfold srv_set_state. destruct (get_srv name (c_servers c)) as [s|]; [|repeat split].
    destruct (sstate_eqb (s_state s) st); [repeat split|].
    destruct st; (eapply quiet_trans; [apply quiet_servers|apply same_core_quiet; first [apply adjust_up_from_sc|apply adjust_down_from_sc]]).
  - apply quiet_servers.
  - repeat split.
Qed.

(** ** events that set one attribute of one instance, none that an invariant reads *)
Definition attr (f : app -> app) : Prop :=
  forall x, a_name (f x) = a_name x /\ a_demand (f x) = a_demand x /\ a_server (f x) = a_server x /\
            a_group (f x) = a_group x /\ a_identity (f x) = a_identity x /\ a_alloc (f x) = a_alloc x.
Definition attr_event (o : op) : option (Z * (app -> app)) :=
  match o with
  | OSetPrio n p => Some (n, fun a => a <| a_prio := p |>)
  | OSetDrt n t => Some (n, fun a => a <| a_drt := t |>)
  | OSetBlacklisted n b => Some (n, fun a => a <| a_blacklisted := b |>)
  | OSetRenew n => Some (n, fun a => a <| a_renew := true |>)
  | OSetUnschedule n => Some (n, fun a => a <| a_unschedule := true |>)
  | _ => None
  end.
Lemma attr_event_step c o n f : attr_event o = Some (n, f) -> step c o = c_upd_app n f c /\ attr f.
Proof. destruct o; try discriminate; intros [= <- <-]; split; try reflexivity; intros x; repeat split. Qed.
