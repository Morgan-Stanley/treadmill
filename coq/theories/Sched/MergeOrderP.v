(** C06, the two parts about the merged queue of a parent allocation (Sched/Queue.v).
    T1: for every allocation [sub] of the tree, at any depth, the final queue restricted to [sub]'s own instances
    is [sub]'s private queue, i.e. its instances in app-key order.
    T2: in the final queue a priority-0 entry comes after every non-zero-priority entry of the same rank. *)
From Coq Require Import ZArith QArith List Bool Lia Permutation Sorted.
From TM Require Import Sched.Vec Sched.Types Sched.Queue Sched.MapsP Sched.QueueP.
Import ListNotations.
Open Scope Z_scope.

(** * Small list facts *)
Lemma NoDup_app_inv {A} (l1 l2 : list A) :
  NoDup (l1 ++ l2) -> NoDup l1 /\ NoDup l2 /\ (forall x, In x l1 -> In x l2 -> False).
Proof.
  induction l1 as [|a l1 IH]; cbn; intros H.
  - split; [constructor|]. split; [exact H|]. intros x [].
  - inversion H as [|? ? Hn Hr]; subst. destruct (IH Hr) as (H1 & H2 & H3).
    split; [|split; [exact H2|]].
    + constructor; [|exact H1]. intros Hi. apply Hn. apply in_or_app. left. exact Hi.
    + intros x [<-|Hx] Hx2; [apply Hn; apply in_or_app; right; exact Hx2|exact (H3 x Hx Hx2)].
Qed.

Lemma NoDup_mid {A} (l1 m l2 : list A) :
  NoDup (l1 ++ m ++ l2) -> NoDup m /\ (forall x, In x m -> ~ In x l1 /\ ~ In x l2).
Proof.
  intros H. apply NoDup_app_inv in H. destruct H as (_ & H2 & H3).
  apply NoDup_app_inv in H2. destruct H2 as (Hm & _ & H4).
  split; [exact Hm|]. intros x Hx. split; intros Hi.
  - apply (H3 x Hi). apply in_or_app. left. exact Hx.
  - exact (H4 x Hx Hi).
Qed.

Lemma filter_all_true {A} (f : A -> bool) l : Forall (fun x => f x = true) l -> filter f l = l.
Proof. induction 1 as [|a l Ha _ IH]; cbn; [reflexivity|]. rewrite Ha, IH. reflexivity. Qed.
Lemma filter_all_false {A} (f : A -> bool) l : Forall (fun x => f x = false) l -> filter f l = [].
Proof. induction 1 as [|a l Ha _ IH]; cbn; [reflexivity|]. rewrite Ha. exact IH. Qed.
Lemma filter_map_comm {A B} (g : B -> bool) (h : A -> B) l :
  filter g (map h l) = map h (filter (fun x => g (h x)) l).
Proof. induction l as [|a l IH]; cbn; [reflexivity|]. destruct (g (h a)); cbn; rewrite IH; reflexivity. Qed.

Definition before {A} (x y : A) (l : list A) : Prop := exists l1 l2 l3, l = l1 ++ x :: l2 ++ y :: l3.

Lemma before_cons {A} (x y a : A) l : before x y l -> before x y (a :: l).
Proof. intros (l1 & l2 & l3 & ->). exists (a :: l1), l2, l3. reflexivity. Qed.
Lemma before_head {A} (x y : A) l : In y l -> before x y (x :: l).
Proof. intros H. destruct (in_split _ _ H) as (l2 & l3 & ->). exists [], l2, l3. reflexivity. Qed.

Lemma before_map {A B} (h : A -> B) x y l : before x y l -> before (h x) (h y) (map h l).
Proof.
  intros (l1 & l2 & l3 & ->). exists (map h l1), (map h l2), (map h l3).
  rewrite map_app. cbn [map]. rewrite map_app. reflexivity.
Qed.

Lemma before_filter {A} (g : A -> bool) x y : forall l, before x y (filter g l) -> before x y l.
Proof.
  induction l as [|a l IH]; cbn [filter]; [intros ([|? ?] & ? & ? & ?); discriminate|].
  destruct (g a); [|intros H; apply before_cons, IH, H].
  intros ([|b l1] & l2 & l3 & E); injection E as -> E.
  - apply before_head, (incl_filter g). rewrite E. apply in_or_app. right. left. reflexivity.
  - apply before_cons, IH. exists l1, l2, l3. exact E.
Qed.

Lemma before_total {A} (x y : A) : forall l, In x l -> In y l -> x <> y -> before x y l \/ before y x l.
Proof.
  induction l as [|a l IH]; intros Hx Hy Hne; [destruct Hx|].
  destruct Hx as [->|Hx], Hy as [->|Hy]; [contradiction|left; apply before_head, Hy|right; apply before_head, Hx|].
  destruct (IH Hx Hy Hne); [left|right]; apply before_cons; assumption.
Qed.

Lemma before_sorted {A} (R : A -> A -> Prop) x y l : StronglySorted R l -> before x y l -> R x y.
Proof.
  intros H (l1 & l2 & l3 & ->). induction l1 as [|a l1 IH]; cbn in H; apply StronglySorted_inv in H as [Hs Hf].
  - rewrite Forall_forall in Hf. apply Hf. apply in_or_app. right. left. reflexivity.
  - exact (IH Hs).
Qed.

Lemma before_nodup_asym {A} (x y : A) : forall l, NoDup l -> before x y l -> before y x l -> False.
Proof.
  induction l as [|a l IH]; intros Hnd (l1 & l2 & l3 & E) (m1 & m2 & m3 & E'); [destruct l1; discriminate|].
  inversion Hnd as [|? ? Hn Hr]; subst.
  assert (Hin : forall u v (k1 k2 k3 : list A), l = k1 ++ u :: k2 ++ v :: k3 -> In u l /\ In v l).
  { intros u v k1 k2 k3 ->. split; apply in_or_app; right; [left; reflexivity|right; apply in_or_app; right; left; reflexivity]. }
  destruct l1 as [|b l1], m1 as [|c m1]; cbn [List.app] in E, E'; injection E as Ea E; injection E' as Ea' E'.
  - apply Hn. rewrite Ea', E. apply in_or_app. right. left. reflexivity.
  - apply Hn. rewrite Ea. apply (Hin _ _ _ _ _ E').
  - apply Hn. rewrite Ea'. apply (Hin _ _ _ _ _ E).
  - apply (IH Hr); [exists l1, l2, l3; exact E|exists m1, m2, m3; exact E'].
Qed.

(** * Names *)
Lemma perm_names (q : list entry) names apps e :
  Permutation (map e_app q) (map a_name (lookup_apps names apps)) -> In e q -> In (e_app e) names.
Proof.
  intros Hp He. apply (in_map e_app), (Permutation_in _ Hp), in_map_iff in He.
  destruct He as (a & <- & Ha). apply (lookup_apps_name _ _ _ Ha).
Qed.
Lemma priv_queue_names dim al apps e : In e (priv_queue dim al apps) -> In (e_app e) (al_apps al).
Proof. apply perm_names with (apps := apps), priv_queue_map_perm. reflexivity. Qed.
Lemma util_queue_names dim free keps apps al e :
  In e (util_queue dim free keps apps al) -> In (e_app e) (all_apps al).
Proof. apply perm_names with (apps := apps), util_queue_perm. Qed.
Lemma subqs_names dim free keps apps subs e :
  In e (concat (subqs_of dim free keps apps subs)) -> In (e_app e) (subapps_of subs).
Proof.
  unfold subqs_of, subapps_of. intros He. apply in_concat in He. destruct He as (q & Hq & He).
  apply in_map_iff in Hq. destruct Hq as (p & <- & Hp).
  apply in_concat. exists (all_apps (snd p)). split; [apply in_map_iff; exists p; auto|].
  eapply util_queue_names. exact He.
Qed.

(** * heapq.merge interleaves its inputs *)
Section Interleave.
  Variable f : entry -> bool.
  Definition nof (q : list entry) : Prop := Forall (fun e => f e = false) q.
  (** at most one queue contains elements selected by [f] *)
  Fixpoint one_src (qs : list (list entry)) : Prop :=
    match qs with
    | [] => True
    | q :: t => (nof q /\ one_src t) \/ nof (concat t)
    end.

  (** taking the head [m] of one queue takes [m] from the front of the selected elements *)
  Lemma pop_filter m q post : forall pre, one_src (pre ++ (m :: q) :: post) ->
    filter f (concat (pre ++ (m :: q) :: post)) = (if f m then [m] else []) ++ filter f (concat (pre ++ q :: post)) /\
    one_src (pre ++ q :: post).
  Proof.
    induction pre as [|p pre IH]; cbn [List.app concat one_src].
    - intros Ho. split; [cbn [filter]; destruct (f m); reflexivity|].
      destruct Ho as [[Hn Ho]|Ho]; [left; split; [exact (Forall_inv_tail Hn)|exact Ho]|right; exact Ho].
    - rewrite !filter_app. intros [[Hp Ho]|Hn].
      + destruct (IH Ho) as [Hc Ho']. split; [|left; split; assumption]. rewrite Hc, (filter_all_false _ _ Hp). reflexivity.
      + apply (Permutation_Forall (concat_pop _ _ _ _)) in Hn. inversion Hn as [|? ? Hm Hn']; subst.
        split; [|right; exact Hn']. rewrite Hm, (filter_all_false f (concat _)), (filter_all_false _ _ Hn'); [reflexivity|].
        apply (Permutation_Forall (Permutation_sym (concat_pop _ _ _ _))). constructor; assumption.
  Qed.

  Lemma merge_filter : forall fuel qs, one_src qs -> (length (concat qs) <= fuel)%nat ->
    filter f (merge fuel qs) = filter f (concat qs).
  Proof.
    induction fuel as [|n IH]; intros qs Ho Hl.
    - destruct (concat qs); [reflexivity|cbn in Hl; lia].
    - cbn [merge]. destruct (pick qs) as [[m qs']|] eqn:E; [|rewrite (pick_none _ E); reflexivity].
      pose proof (Permutation_length (pick_perm _ _ _ E)) as Pl. cbn in Pl.
      destruct (pick_split _ _ _ E) as (pre & q & post & -> & ->). destruct (pop_filter _ _ _ _ Ho) as [Hc Ho'].
      rewrite Hc. cbn [filter]. rewrite IH by (assumption || lia). destruct (f m); reflexivity.
  Qed.

  (** only one queue is selected by [f]: the merged list restricted to [f] is that queue restricted to [f] *)
  Lemma merge_all_single pre q post : nof (concat pre) -> nof (concat post) ->
    filter f (merge_all (pre ++ q :: post)) = filter f q.
  Proof.
    intros Hpre Hpost. unfold merge_all. rewrite merge_filter; [| |lia].
    - rewrite concat_app, filter_app. cbn [concat]. rewrite filter_app.
      rewrite (filter_all_false _ _ Hpre), (filter_all_false _ _ Hpost). apply app_nil_r.
    - induction pre as [|p pre IH]; cbn [List.app one_src]; [right; exact Hpost|].
      cbn [concat] in Hpre. apply Forall_app in Hpre. left. split; [apply Hpre|apply IH, Hpre].
  Qed.
End Interleave.

(** * T1: every allocation of the tree keeps its internal order in the final queue *)
Inductive sub_of : alloc -> alloc -> Prop :=
| sub_here : forall al, sub_of al al
| sub_below : forall res rank adj traits maxu names subs p sub,
    In p subs -> sub_of (snd p) sub -> sub_of (Alloc res rank adj traits maxu names subs) sub.

Lemma alloc_at_sub_of : forall path al sub, alloc_at al path = Some sub -> sub_of al sub.
Proof.
  induction path as [|p r IH]; intros al sub H; cbn in H.
  - inversion H; subst. constructor.
  - destruct (aget p (al_subs al)) as [s|] eqn:E; [|discriminate].
    destruct al as [res rank adj traits maxu names subs]. cbn in E.
    apply (sub_below _ _ _ _ _ _ _ (p, s)); [apply aget_In; exact E|apply IH; exact H].
Qed.

Lemma sub_of_apps al sub : sub_of al sub -> incl (al_apps sub) (all_apps al).
Proof.
  induction 1 as [al|res rank adj traits maxu names subs p sub Hp Hs IH].
  - destruct al as [res rank adj traits maxu names subs]. rewrite all_apps_eq. apply incl_appl, incl_refl.
  - rewrite all_apps_eq. apply incl_appr. intros x Hx. unfold subapps_of.
    apply in_concat. exists (all_apps (snd p)). split; [apply in_map_iff; exists p; auto|apply IH; exact Hx].
Qed.

Definition own_names (apps : list app) (sub : alloc) : list Z :=
  map a_name (sort_apps (lookup_apps (al_apps sub) apps)).

(** instance names selected by [g] that occur in one input queue only *)
Lemma node_select (g : Z -> bool) pre q post :
  (forall e, In e (concat pre) -> g (e_app e) = false) -> (forall e, In e (concat post) -> g (e_app e) = false) ->
  filter g (map e_app (merge_all (pre ++ q :: post))) = filter g (map e_app q).
Proof.
  intros Hpre Hpost. rewrite !filter_map_comm. f_equal. apply merge_all_single; apply Forall_forall; assumption.
Qed.

Theorem merge_keeps_alloc_order dim free keps apps al sub :
  NoDup (all_apps al) -> sub_of al sub ->
  filter (fun n => zmem n (al_apps sub)) (map e_app (util_queue dim free keps apps al)) = own_names apps sub.
Proof.
  intros Hnd Hsub. induction Hsub as [al|res rank adj traits maxu names subs p sub Hp Hs IH].
  - destruct al as [res rank adj traits maxu names subs].
    rewrite util_queue_eq. cbv zeta. rewrite rescore_loop_map by reflexivity.
    rewrite all_apps_eq in Hnd. apply NoDup_app_inv in Hnd. destruct Hnd as (_ & _ & Hdis).
    rewrite (node_select _ _ _ []).
    + rewrite filter_all_true; [apply priv_queue_order|].
      apply Forall_map, Forall_forall. intros e He. apply zmem_In. exact (priv_queue_names _ _ _ _ He).
    + intros e He. apply subqs_names in He. apply zmem_false. cbn [al_apps]. intros Hi. exact (Hdis _ Hi He).
    + intros e [].
  - destruct (in_split _ _ Hp) as (pre & post & ->).
    rewrite util_queue_eq. cbv zeta. rewrite rescore_loop_map by reflexivity.
    rewrite all_apps_eq in Hnd. unfold subapps_of in Hnd. rewrite map_app, concat_app in Hnd. cbn [map concat] in Hnd.
    fold (subapps_of pre) (subapps_of post) in Hnd. rewrite app_assoc in Hnd.
    apply NoDup_mid in Hnd. destruct Hnd as (Hndp & Hdis).
    pose proof (sub_of_apps _ _ Hs) as Hincl.
    unfold subqs_of. rewrite map_app. cbn [map]. rewrite <- app_assoc. cbn [List.app].
    fold (subqs_of dim free keps apps pre) (subqs_of dim free keps apps post).
    rewrite node_select; [apply IH, Hndp| |].
    + intros e He. apply subqs_names in He. apply zmem_false. intros Hi.
      destruct (Hdis _ (Hincl _ Hi)) as [H1 _]. apply H1. apply in_or_app. right. exact He.
    + intros e He. rewrite concat_app in He. cbn [concat] in He. rewrite app_nil_r in He.
      apply zmem_false. intros Hi. destruct (Hdis _ (Hincl _ Hi)) as [H1 H2].
      apply in_app_or in He. destruct He as [He|He].
      * apply subqs_names in He. exact (H2 He).
      * apply priv_queue_names in He. cbn [al_apps] in He. apply H1. apply in_or_app. left. exact He.
Qed.

Corollary merge_keeps_alloc_order_at dim free keps apps al path sub :
  NoDup (all_apps al) -> alloc_at al path = Some sub ->
  filter (fun n => zmem n (al_apps sub)) (map e_app (util_queue dim free keps apps al)) = own_names apps sub.
Proof. intros Hnd Hp. apply merge_keeps_alloc_order; [exact Hnd|]. eapply alloc_at_sub_of. exact Hp. Qed.

(** ** two instances of one allocation *)
Lemma lookup_apps_names_filter names apps :
  map a_name (lookup_apps names apps) =
  filter (fun n => match get_app n apps with Some _ => true | None => false end) names.
Proof.
  induction names as [|n r IH]; cbn; [reflexivity|].
  destruct (get_app n apps) as [a|] eqn:E; cbn; [|exact IH].
  rewrite (get_app_name _ _ _ E), IH. reflexivity.
Qed.

Lemma util_queue_nodup dim free keps apps al :
  NoDup (all_apps al) -> NoDup (map e_app (util_queue dim free keps apps al)).
Proof.
  intros H. eapply Permutation_NoDup; [symmetry; apply util_queue_perm|].
  rewrite lookup_apps_names_filter. apply NoDup_filter. exact H.
Qed.

(** [x] strictly before [y] in app-key order => [x] before [y] in the final queue (and not after) *)
Theorem alloc_order_before dim free keps apps al sub x y :
  NoDup (all_apps al) -> sub_of al sub ->
  In x (lookup_apps (al_apps sub) apps) -> In y (lookup_apps (al_apps sub) apps) -> ~ key_le y x ->
  let names := map e_app (util_queue dim free keps apps al) in
  (exists l1 l2 l3, names = l1 ++ a_name x :: l2 ++ a_name y :: l3) /\
  (forall l1 l2 l3, names <> l1 ++ a_name y :: l2 ++ a_name x :: l3).
Proof.
  intros Hnd Hsub Hx Hy Hlt names.
  assert (Hex : before (a_name x) (a_name y) names).
  { apply (before_filter (fun n => zmem n (al_apps sub))). unfold names.
    rewrite (merge_keeps_alloc_order dim free keps apps al sub Hnd Hsub). apply before_map.
    apply (Permutation_in _ (sort_apps_perm _)) in Hx, Hy.
    destruct (before_total x y _ Hx Hy) as [H|H]; [|exact H|].
    - intros ->. destruct (key_le_total y y); contradiction.
    - destruct Hlt. exact (before_sorted _ _ _ _ (sort_apps_sorted _) H). }
  split; [exact Hex|]. intros l1 l2 l3 E.
  apply (before_nodup_asym _ _ _ (util_queue_nodup dim free keps apps al Hnd) Hex). exists l1, l2, l3. exact E.
Qed.

(** * T2: priority-0 entries come after all others of the same rank *)
(** coarse key: (rank, priority = 0), lexicographic *)
Definition ckey (e : entry) : Z * bool := (e_rank e, Z.eqb (e_prio e) 0).
Definition ckp_le (a b : Z * bool) : Prop :=
  fst a < fst b \/ (fst a = fst b /\ (snd a = true -> snd b = true)).
Definition cks (q : list entry) : Prop := StronglySorted ckp_le (map ckey q).
(** what re-scoring establishes for every entry: utilisation after = +inf exactly for priority 0,
    and then utilisation before = +inf too. (A non-zero-priority entry CAN have utilisation before = +inf:
    the one that follows a priority-0 entry of a lower rank in a parent's merged queue.) *)
Definition good (e : entry) : Prop := (e_ua e = None <-> e_prio e = 0) /\ (e_prio e = 0 -> e_ub e = None).
Definition cksg (q : list entry) : Prop := cks q /\ Forall good q.

Lemma ckp_le_trans a b c : ckp_le a b -> ckp_le b c -> ckp_le a c.
Proof. unfold ckp_le. intros [H1|[H1 H1']] [H2|[H2 H2']]; try (left; lia). right. split; [lia|tauto]. Qed.

(** on entries re-scoring has marked, the tuple comparison respects the coarse key: with equal ranks and exactly
    one of the two of priority 0, its utilisation values +inf put that one last *)
Lemma entry_ltb_ck m x : good m -> good x ->
  if entry_ltb m x then ckp_le (ckey m) (ckey x) else ckp_le (ckey x) (ckey m).
Proof.
  intros [Hm1 Hm2] [Hx1 Hx2]. unfold ckp_le, ckey, entry_ltb, entry_compare; cbn [fst snd].
  destruct (Z.compare_spec (e_rank m) (e_rank x)) as [Er|Er|Er]; cbn [lex]; [|left; exact Er..].
  destruct (Z.eqb_spec (e_prio m) 0) as [Pm|Pm], (Z.eqb_spec (e_prio x) 0) as [Px|Px].
  - destruct (lex _ _); right; (split; [lia|auto]).
  - rewrite (Hm2 Pm), (proj2 Hm1 Pm). destruct (e_ua x) as [u|]; [|destruct Px; apply Hx1; reflexivity].
    destruct (e_ub x); cbn; right; (split; [lia|discriminate]).
  - rewrite (Hx2 Px), (proj2 Hx1 Px). destruct (e_ua m) as [u|]; [|destruct Pm; apply Hm1; reflexivity].
    destruct (e_ub m); cbn; right; (split; [lia|discriminate]).
  - destruct (lex _ _); right; (split; [lia|auto]).
Qed.

Lemma rescore_good res av st d p :
  let '(acc', ub1, ua1) := rescore res av st d p in (ua1 = None <-> p = 0) /\ (p = 0 -> ub1 = None).
Proof.
  unfold rescore. destruct st as [acc ub]. destruct (Z.eqb_spec p 0) as [E|E].
  - split; [split; auto|auto].
  - split; [split; [discriminate|contradiction]|contradiction].
Qed.
Lemma rescore_loop_good res av l : forall acc ub, Forall good (rescore_loop res av l acc ub).
Proof.
  induction l as [|e r IH]; intros acc ub; cbn [rescore_loop]; [constructor|].
  pose proof (rescore_good res av (acc, ub) (e_demand e) (e_prio e)) as H.
  destruct (rescore res av (acc, ub) (e_demand e) (e_prio e)) as [[acc' ub1] ua1]. constructor; [exact H|apply IH].
Qed.
Lemma priv_loop_good rank adj maxu res av l : forall acc ub, Forall good (priv_loop rank adj maxu res av l acc ub).
Proof.
  induction l as [|a r IH]; intros acc ub; [constructor|]. rewrite priv_loop_cons.
  pose proof (rescore_good res av (acc, ub) (a_demand a) (a_prio a)) as H.
  destruct (rescore res av (acc, ub) (a_demand a) (a_prio a)) as [[acc' ub1] ua1]. constructor; [exact H|apply IH].
Qed.

(** ** the private queue is sorted by the coarse key *)
Fixpoint ztail (l : list Z) : Prop :=
  match l with [] => True | p :: r => (p = 0 -> Forall (fun z => z = 0) r) /\ ztail r end.
Lemma ptail_ztail l : ptail l -> ztail (map a_prio l).
Proof.
  induction l as [|a r IH]; cbn; [auto|]. intros [H1 H2]. split; [|apply IH; exact H2].
  intros H0. apply Forall_map. apply H1. exact H0.
Qed.
Lemma cks_of_rank_ztail : forall q,
  StronglySorted Z.le (map e_rank q) -> ztail (map e_prio q) -> cks q.
Proof.
  unfold cks. induction q as [|e q IH]; cbn [map]; intros Hr Hz; [constructor|].
  apply StronglySorted_inv in Hr as [Hrs Hrf]. destruct Hz as [Hz0 Hz]. constructor; [apply IH; assumption|].
  apply Forall_map, Forall_forall. intros x Hx.
  rewrite Forall_forall in Hrf. specialize (Hrf (e_rank x) (in_map e_rank _ _ Hx)).
  unfold ckp_le, ckey; cbn [fst snd].
  destruct (Z.eq_dec (e_rank e) (e_rank x)) as [Eq|Ne]; [right|left; lia].
  split; [exact Eq|]. intros H0. apply Z.eqb_eq in H0. specialize (Hz0 H0). rewrite Forall_forall in Hz0.
  apply Z.eqb_eq. apply Hz0. apply in_map. exact Hx.
Qed.

Lemma priv_queue_cksg dim apps al :
  apps_ok dim apps -> 0 <= al_adj al -> al_rank al <= UNPLACED_RANK -> nonneg (al_reserved al) ->
  cksg (priv_queue dim al apps).
Proof.
  intros Hok Hadj Hrank Hres. split; [|unfold priv_queue; apply priv_loop_good].
  apply cks_of_rank_ztail.
  - apply Sorted_StronglySorted; [exact Z.le_trans|]. apply priv_queue_rank_sorted; assumption.
  - unfold priv_queue. rewrite (priv_loop_map e_prio a_prio) by reflexivity.
    apply ptail_ztail, (sort_lookup_ptail dim), Hok.
Qed.

(** ** the final queue of every allocation tree is sorted by the coarse key *)
Theorem util_queue_cksg dim free keps apps al :
  apps_ok dim apps -> alloc_ok al -> cksg (util_queue dim free keps apps al).
Proof.
  intros Hok Hal. rewrite alloc_ok_all in Hal. revert Hal. apply util_queue_tree.
  - intros a (Ha & Hr & Hn). apply priv_queue_cksg; assumption.
  - intros qs res av acc ub Hqs. split; [|apply rescore_loop_good]. unfold cks. rewrite rescore_loop_map by reflexivity.
    apply (merge_sorted ckey ckp_le good ckp_le_trans entry_ltb_ck), Hqs.
Qed.

Theorem util_queue_zero_last dim free keps apps al :
  apps_ok dim apps -> alloc_ok al ->
  let q := util_queue dim free keps apps al in
  forall e1 e2, In e1 q -> In e2 q ->
    e_prio e1 = 0 -> e_prio e2 <> 0 -> e_rank e1 = e_rank e2 ->
    (exists l1 l2 l3, q = l1 ++ e2 :: l2 ++ e1 :: l3) /\
    (forall l1 l2 l3, q <> l1 ++ e1 :: l2 ++ e2 :: l3).
Proof.
  intros Hok Hal q e1 e2 H1 H2 Hp1 Hp2 Hr.
  destruct (util_queue_cksg dim free keps apps al Hok Hal) as [Hc _]. fold q in Hc.
  assert (Hno : ~ before e1 e2 q).
  { intros Hb. apply (before_map ckey), (before_sorted _ _ _ _ Hc) in Hb. unfold ckp_le, ckey in Hb; cbn [fst snd] in Hb.
    destruct Hb as [Hb|[_ Hb]]; [lia|]. apply Hp2, Z.eqb_eq, Hb, Z.eqb_eq, Hp1. }
  split; [|intros l1 l2 l3 E; apply Hno; exists l1, l2, l3; exact E].
  destruct (before_total e2 e1 q H2 H1) as [H|H]; [intros ->; contradiction|exact H|contradiction].
Qed.

(** ** the entries' static fields are those of the instance they name *)
Definition of_app (apps : list app) (e : entry) : Prop :=
  exists a, get_app (e_app e) apps = Some a /\ a_name a = e_app e /\ e_prio e = a_prio a /\
            e_demand e = a_demand a /\ e_pending e = is_pending a /\ e_order e = a_order a.

Theorem util_queue_of_app dim free keps apps al : Forall (of_app apps) (util_queue dim free keps apps al).
Proof.
  apply Forall_forall. intros e He.
  apply (in_map (fun e => (e_app e, e_prio e, e_demand e, e_pending e, e_order e))) in He.
  eapply Permutation_in in He;
    [|apply (util_queue_map_perm _ (fun a => (a_name a, a_prio a, a_demand a, is_pending a, a_order a))); reflexivity].
  apply in_map_iff in He. destruct He as (a & Ea & Ha). injection Ea as E1 E2 E3 E4 E5.
  exists a. rewrite <- E1. split; [apply (lookup_apps_name _ _ _ Ha)|]. repeat split; congruence.
Qed.

(** T2 stated on instance names: [e1] names a priority-0 instance, [e2] a non-zero-priority one *)
Corollary util_queue_zero_last_names dim free keps apps al :
  apps_ok dim apps -> alloc_ok al ->
  let q := util_queue dim free keps apps al in
  forall e1 e2 a1 a2, In e1 q -> In e2 q ->
    get_app (e_app e1) apps = Some a1 -> get_app (e_app e2) apps = Some a2 ->
    a_prio a1 = 0 -> a_prio a2 <> 0 -> e_rank e1 = e_rank e2 ->
    exists l1 l2 l3, map e_app q = l1 ++ e_app e2 :: l2 ++ e_app e1 :: l3.
Proof.
  intros Hok Hal q e1 e2 a1 a2 H1 H2 G1 G2 P1 P2 Hr.
  pose proof (util_queue_of_app dim free keps apps al) as Hof. fold q in Hof. rewrite Forall_forall in Hof.
  destruct (Hof _ H1) as (b1 & B1 & _ & Q1 & _). destruct (Hof _ H2) as (b2 & B2 & _ & Q2 & _).
  rewrite G1 in B1. rewrite G2 in B2. inversion B1; inversion B2; subst b1 b2.
  apply (before_map e_app), (util_queue_zero_last dim free keps apps al Hok Hal e1 e2 H1 H2); congruence.
Qed.

(** * Non-vacuity: a three-level tree *)
Definition mo_app (n p o : Z) (d : vec) (srv : option Z) : app :=
  mkApp n p d 3000 [] 0 0 None None false o None srv None None false false false false (-1).
Definition mo_apps : list app :=
  [ mo_app 1 5 1 [100;100;100] (Some 7); mo_app 2 5 2 [100;100;100] None; mo_app 3 9 3 [50;50;50] None;
    mo_app 4 0 4 [10;10;10] None; mo_app 5 1 5 [400;400;400] None; mo_app 6 3 6 [10;10;10] None;
    mo_app 7 0 7 [10;10;10] None; mo_app 8 2 8 [10;10;10] (Some 7); mo_app 9 0 9 [10;10;10] None;
    mo_app 10 4 10 [10;10;10] None ].
Definition mo_leaf : alloc := Alloc [64;64;64] 50 0 0 None [3; 9] [].
Definition mo_mid : alloc := Alloc [150;150;150] 100 10 0 (Some (3 # 1)%Q) [1; 2; 5] [(7000, mo_leaf); (7001, Alloc [0;0;0] 100 0 0 None [7; 8] [])].
Definition mo_alloc : alloc := Alloc [0;0;0] 100 0 0 None [4; 6] [(6000, mo_mid); (6001, Alloc [64;64;64] 100 0 0 None [10] [])].
Definition mo_queue := util_queue 3 [1000;1000;1000] 0 mo_apps mo_alloc.

(** the hypotheses of T1 and T2 hold, and the queue has priority-0 and other entries of the same rank
    (rank 50: 3 then 9; rank 100: 10, 6, 8 then 4, 7), coming from different allocations at different depths *)
Example mo_nonvacuous :
  apps_ok 3 mo_apps /\ alloc_ok mo_alloc /\ NoDup (all_apps mo_alloc) /\
  alloc_at mo_alloc [6000; 7000] = Some mo_leaf /\
  map (fun e => (e_app e, e_rank e, e_prio e)) mo_queue
  = [(3, 50, 9); (9, 50, 0); (1, 90, 5); (2, 90, 5); (10, 100, 4); (6, 100, 3); (8, 100, 2);
     (4, 100, 0); (7, 100, 0); (5, UNPLACED_RANK, 1)].
Proof.
  split; [|split; [|split; [|split]]].
  - unfold apps_ok, mo_apps. repeat constructor; cbn; try discriminate.
  - cbn. repeat split; try discriminate; repeat constructor; try discriminate.
  - vm_compute. repeat constructor; cbn [In]; lia.
  - vm_compute. reflexivity.
  - vm_compute. reflexivity.
Qed.

(** T1 and T2 instantiated on it *)
Example mo_T1_depth2 :
  filter (fun n => zmem n (al_apps mo_leaf)) (map e_app mo_queue) = [3; 9] /\
  filter (fun n => zmem n (al_apps mo_mid)) (map e_app mo_queue) = [1; 2; 5] /\
  filter (fun n => zmem n (al_apps mo_alloc)) (map e_app mo_queue) = [6; 4].
Proof. vm_compute. repeat split. Qed.

(** the model fact that makes T2 delicate: "utilisation before = +inf <=> priority 0" is FALSE after re-scoring.
    Instance 1 (priority 5, rank 90) follows the priority-0 instance 9 (rank 50) in the merged queue of its
    allocation and inherits utilisation-before = +inf; T2 holds nevertheless because the comparison falls
    through to utilisation-after, which is +inf exactly for priority 0 ([good]). *)
Example mo_ub_none_nonzero_prio :
  map (fun e => (e_app e, e_prio e, match e_ub e with None => true | _ => false end,
                 match e_ua e with None => true | _ => false end)) mo_queue
  = [(3, 9, false, false); (9, 0, true, true); (1, 5, true, false); (2, 5, false, false);
     (10, 4, false, false); (6, 3, false, false); (8, 2, false, false); (4, 0, true, true);
     (7, 0, true, true); (5, 1, true, false)].
Proof. vm_compute. reflexivity. Qed.

Print Assumptions merge_keeps_alloc_order.
Print Assumptions merge_keeps_alloc_order_at.
Print Assumptions alloc_order_before.
Print Assumptions util_queue_cksg.
Print Assumptions util_queue_zero_last.
Print Assumptions util_queue_of_app.
Print Assumptions util_queue_zero_last_names.
Print Assumptions mo_nonvacuous.
