(** C06 on Sched/Queue.v: the utilisation queue of an allocation tree is a permutation of the tree's instances with
    non-decreasing ranks, and the private queue of one allocation lists its instances by priority, running before
    pending, first-come. heapq.merge keeps every order on keys that the tuple comparison respects. *)
From Coq Require Import ZArith QArith List Bool Lia Permutation Sorted.
From TM Require Import Sched.Vec Sched.Types Sched.Queue Sched.MapsP.
Import ListNotations.
Open Scope Z_scope.

(** ** an induction principle for the nested allocation tree *)
Section AllocInd.
  Variable P : alloc -> Prop.
  Hypothesis H : forall res rank adj traits maxu names subs,
      Forall (fun p => P (snd p)) subs -> P (Alloc res rank adj traits maxu names subs).
  Fixpoint alloc_rect' (a : alloc) : P a :=
    match a with
    | Alloc res rank adj traits maxu names subs =>
        H res rank adj traits maxu names subs
          ((fix go (l : list (Z * alloc)) : Forall (fun p => P (snd p)) l :=
              match l with
              | [] => Forall_nil _
              | p :: r => Forall_cons p (alloc_rect' (snd p)) (go r)
              end) subs)
    end.
End AllocInd.
(** ** the nested fixpoints over the sub-allocations are maps *)
Definition subqs_of (dim : nat) (free : vec) (keps : nat) (apps : list app) (subs : list (Z * alloc)) : list (list entry) :=
  map (fun p => util_queue dim free keps apps (snd p)) subs.
Definition subapps_of (subs : list (Z * alloc)) : list Z :=
  concat (map (fun p => all_apps (snd p)) subs).

Lemma util_queue_eq dim free keps apps res rank adj traits maxu names subs :
  util_queue dim free keps apps (Alloc res rank adj traits maxu names subs) =
  let al := Alloc res rank adj traits maxu names subs in
  let tr := total_reserved al in
  let av := avail_vec (vadd tr free) keps in
  rescore_loop tr av (merge_all (subqs_of dim free keps apps subs ++ [priv_queue dim al apps]))
               (vzero dim) (Some (utilization (vzero dim) tr av)).
Proof.
  cbn [util_queue]. cbv zeta. f_equal. f_equal. f_equal.
  unfold subqs_of. induction subs as [|[n s] r IH]; [reflexivity|]. cbn [map snd]. f_equal. exact IH.
Qed.

Lemma all_apps_eq res rank adj traits maxu names subs :
  all_apps (Alloc res rank adj traits maxu names subs) = names ++ subapps_of subs.
Proof.
  cbn [all_apps]. f_equal.
  unfold subapps_of. induction subs as [|[n s] r IH]; [reflexivity|]. cbn [map snd concat]. f_equal. exact IH.
Qed.

(** [P] holds of every allocation of the tree; [alloc_ok] below is an instance, by conversion *)
Definition alloc_all (P : alloc -> Prop) : alloc -> Prop :=
  fix ok (al : alloc) : Prop :=
    let '(Alloc res rank adj traits maxu names subs) := al in
    P (Alloc res rank adj traits maxu names subs) /\
    (fix go (l : list (Z * alloc)) : Prop := match l with [] => True | (_, s) :: r => ok s /\ go r end) subs.

Lemma alloc_all_eq P res rank adj traits maxu names subs :
  alloc_all P (Alloc res rank adj traits maxu names subs) <->
  P (Alloc res rank adj traits maxu names subs) /\ Forall (fun p => alloc_all P (snd p)) subs.
Proof.
  cbn [alloc_all]. apply and_iff_compat_l.
  induction subs as [|[n s] r IH]; [split; constructor|]. rewrite Forall_cons_iff, <- IH. reflexivity.
Qed.

Lemma alloc_all_impl (P P' : alloc -> Prop) : (forall al, P al -> P' al) -> forall al, alloc_all P al -> alloc_all P' al.
Proof.
  intros HP. induction al as [res rank adj traits maxu names subs IH] using alloc_rect'.
  intros H. apply alloc_all_eq in H. destruct H as [Hal Hsubs]. apply alloc_all_eq. split; [apply HP, Hal|].
  rewrite Forall_forall in *. intros p Hp. apply IH, Hsubs; exact Hp.
Qed.

Section Tree.
  Variables (dim : nat) (free : vec) (keps : nat) (apps : list app) (P : alloc -> Prop) (Q : list entry -> Prop).
  Hypothesis Hpriv : forall al, P al -> Q (priv_queue dim al apps).
  Hypothesis Hstep : forall qs res av acc ub, Forall Q qs -> Q (rescore_loop res av (merge_all qs) acc ub).

  Theorem util_queue_tree al : alloc_all P al -> Q (util_queue dim free keps apps al).
  Proof.
    induction al as [res rank adj traits maxu names subs IH] using alloc_rect'.
    rewrite alloc_all_eq, util_queue_eq. intros [Hal Hsubs]. apply Hstep, Forall_app.
    split; [|repeat constructor; apply Hpriv, Hal].
    apply Forall_map. rewrite Forall_forall in *. intros p Hp. apply IH, Hsubs; exact Hp.
  Qed.
End Tree.

(** ** heapq.merge *)
Lemma pick_split qs : forall m qs', pick qs = Some (m, qs') ->
  exists pre q post, qs = pre ++ (m :: q) :: post /\ qs' = pre ++ q :: post.
Proof.
  induction qs as [|q t IH]; intros m qs'; [discriminate|].
  cbn [pick]. destruct (pick t) as [[m0 t']|].
  - destruct (IH _ _ eq_refl) as (pre & q0 & post & Et & Et').
    assert (Hrec : exists pre q1 post, q :: t = pre ++ (m0 :: q1) :: post /\ q :: t' = pre ++ q1 :: post)
      by (exists (q :: pre), q0, post; rewrite Et, Et'; split; reflexivity).
    destruct q as [|x q]; [|destruct (entry_ltb m0 x)]; intros [= <- <-]; try exact Hrec.
    exists [], q, t. split; reflexivity.
  - destruct q as [|x q]; intros [= <- <-]. exists [], q, t. split; reflexivity.
Qed.

Lemma concat_pop {A} pre (m : A) q post :
  Permutation (concat (pre ++ (m :: q) :: post)) (m :: concat (pre ++ q :: post)).
Proof. rewrite !concat_app. cbn [concat List.app]. symmetry. apply Permutation_middle. Qed.

Lemma pick_perm qs m qs' : pick qs = Some (m, qs') -> Permutation (concat qs) (m :: concat qs').
Proof. intros H. destruct (pick_split _ _ _ H) as (pre & q & post & -> & ->). apply concat_pop. Qed.

Lemma pick_none qs : pick qs = None -> concat qs = [].
Proof.
  induction qs as [|q t IH]; cbn; intros Hp; [reflexivity|].
  destruct q; [|destruct (pick t) as [[? ?]|]; [destruct (entry_ltb _ _)|]; discriminate].
  destruct (pick t) as [[? ?]|]; [discriminate|]. cbn. apply IH; reflexivity.
Qed.

Lemma merge_perm fuel qs : (length (concat qs) <= fuel)%nat -> Permutation (concat qs) (merge fuel qs).
Proof.
  revert qs; induction fuel as [|f IH]; intros qs Hf.
  - destruct (concat qs); [constructor| cbn in Hf; lia].
  - cbn. destruct (pick qs) as [[m qs']|] eqn:E.
    + pose proof (pick_perm _ _ _ E) as Pm. rewrite Pm. constructor. apply IH.
      apply Permutation_length in Pm. cbn in Pm. lia.
    + rewrite (pick_none _ E). constructor.
Qed.

Lemma merge_all_perm qs : Permutation (concat qs) (merge_all qs).
Proof. apply merge_perm. lia. Qed.

Lemma merge_sub : forall f qs e, In e (merge f qs) -> In e (concat qs).
Proof.
  induction f as [|f IH]; intros qs e He; cbn in He; [destruct He|].
  destruct (pick qs) as [[m qs']|] eqn:E; [|destruct He].
  apply (Permutation_in _ (Permutation_sym (pick_perm _ _ _ E))).
  destruct He as [<-|He]; [left; reflexivity|right; apply IH; exact He].
Qed.

(** the merge keeps any order [le] on keys that the tuple comparison respects on the entries at hand ([ok]) *)
Section MergeSorted.
  Context {K : Type} (key : entry -> K) (le : K -> K -> Prop) (ok : entry -> Prop).
  Hypothesis le_trans : forall a b c, le a b -> le b c -> le a c.
  Hypothesis ltb_le : forall m x, ok m -> ok x ->
    if entry_ltb m x then le (key m) (key x) else le (key x) (key m).

  Definition ksorted (q : list entry) : Prop := StronglySorted le (map key q) /\ Forall ok q.

  Lemma ksorted_head x q : ksorted (x :: q) -> (forall e, In e q -> le (key x) (key e)) /\ ok x /\ ksorted q.
  Proof.
    intros [Hs Ho]. cbn [map] in Hs. apply StronglySorted_inv in Hs. apply Forall_cons_iff in Ho.
    split; [|split; [apply Ho|split; [apply Hs|apply Ho]]].
    intros e He. destruct Hs as [_ Hf]. rewrite Forall_forall in Hf. apply Hf, in_map, He.
  Qed.

  (** the picked entry has the smallest key of everything that remains, and the queues stay sorted *)
  Lemma pick_min : forall qs m qs', Forall ksorted qs -> pick qs = Some (m, qs') ->
    (forall e, In e (concat qs') -> le (key m) (key e)) /\ Forall ksorted qs' /\ ok m.
  Proof.
    induction qs as [|q t IH]; intros m qs' Hs Hp; cbn [pick] in Hp; [discriminate|].
    apply Forall_cons_iff in Hs. destruct Hs as [Hq Ht].
    destruct q as [|x q].
    - destruct (pick t) as [[m0 t']|] eqn:E; [|discriminate]. injection Hp as <- <-.
      destruct (IH _ _ Ht eq_refl) as (Hmin & Hs' & Hg). split; [exact Hmin|split; [constructor; assumption|exact Hg]].
    - destruct (ksorted_head _ _ Hq) as (Hxq & Hgx & Hq').
      assert (Htake : (forall e, In e (concat t) -> le (key x) (key e)) ->
                (forall e, In e (concat (q :: t)) -> le (key x) (key e)) /\ Forall ksorted (q :: t) /\ ok x).
      { intros Ht'. split; [|split; [constructor; assumption|exact Hgx]].
        intros e He. cbn in He. apply in_app_or in He as [He|He]; [apply Hxq|apply Ht']; exact He. }
      destruct (pick t) as [[m0 t']|] eqn:E.
      + destruct (IH _ _ Ht eq_refl) as (Hmin & Hs' & Hg). pose proof (ltb_le m0 x Hg Hgx) as Hle.
        destruct (entry_ltb m0 x); injection Hp as <- <-.
        * split; [|split; [constructor; assumption|exact Hg]].
          intros e He. cbn in He. destruct He as [<-|He]; [exact Hle|].
          apply in_app_or in He as [He|He]; [|apply Hmin; exact He].
          eapply le_trans; [exact Hle|apply Hxq; exact He].
        * apply Htake. intros e He. apply (Permutation_in _ (pick_perm _ _ _ E)) in He.
          destruct He as [<-|He]; [exact Hle|]. eapply le_trans; [exact Hle|apply Hmin; exact He].
      + injection Hp as <- <-. apply Htake. rewrite (pick_none _ E). intros e [].
  Qed.

  Lemma merge_sorted : forall fuel qs, Forall ksorted qs -> ksorted (merge fuel qs).
  Proof.
    induction fuel as [|f IH]; intros qs Hs; cbn [merge]; [split; constructor|].
    destruct (pick qs) as [[m qs']|] eqn:E; [|split; constructor].
    destruct (pick_min _ _ _ Hs E) as (Hmin & Hs' & Hg). destruct (IH _ Hs') as [Hc Hgd].
    split; [|constructor; assumption]. cbn [map]. constructor; [exact Hc|].
    apply Forall_map, Forall_forall. intros e He. apply Hmin. eapply merge_sub. exact He.
  Qed.
End MergeSorted.

Lemma rescore_loop_map {B} (f : entry -> B) res av :
  (forall e ub ua, f (mkEntry (e_rank e) ub ua (e_pending e) (e_order e) (e_app e) (e_demand e) (e_prio e)) = f e) ->
  forall l acc ub, map f (rescore_loop res av l acc ub) = map f l.
Proof.
  intros Hf. induction l as [|e r IH]; intros acc ub; cbn [rescore_loop map]; [reflexivity|].
  destruct (rescore res av (acc, ub) (e_demand e) (e_prio e)) as [[acc' ub1] ua1]. cbn [map]. rewrite Hf, IH. reflexivity.
Qed.

(** the rank decision of one entry, as a function of its two utilisation values *)
Definition rank_of (rank adj : Z) (maxu : option Q) (ub ua : util) : Z :=
  let within := match maxu with None => true | Some m => util_leb ua (Some (m - 1)%Q) end in
  if within then (if util_ltb ub (Some 0%Q) then rank - adj else rank) else UNPLACED_RANK.

Lemma priv_loop_cons rank adj maxu res av a r acc ub :
  priv_loop rank adj maxu res av (a :: r) acc ub =
  let '(acc', ub1, ua1) := rescore res av (acc, ub) (a_demand a) (a_prio a) in
  mkEntry (rank_of rank adj maxu ub1 ua1) ub1 ua1 (is_pending a) (a_order a) (a_name a) (a_demand a) (a_prio a)
  :: priv_loop rank adj maxu res av r acc' ua1.
Proof. reflexivity. Qed.

Lemma lookup_apps_app l1 l2 apps : lookup_apps (l1 ++ l2) apps = lookup_apps l1 apps ++ lookup_apps l2 apps.
Proof.
  induction l1 as [|n r IH]; cbn; [reflexivity|]. destruct (get_app n apps); cbn; rewrite IH; reflexivity.
Qed.

Lemma insert_app_stable_perm a l : Permutation (a :: l) (insert_app_stable a l).
Proof.
  induction l as [|b r IH]; cbn; [reflexivity|].
  destruct (app_key_leb b a); [|reflexivity].
  rewrite perm_swap. constructor. exact IH.
Qed.
Lemma sort_apps_perm l : Permutation l (sort_apps l).
Proof.
  unfold sort_apps. rewrite <- (app_nil_r l) at 1. generalize (@nil app).
  induction l as [|a r IH]; intros acc; cbn; [reflexivity|].
  rewrite <- IH, <- insert_app_stable_perm. apply Permutation_middle.
Qed.

(** ** the whole queue is a permutation of the partition's instances, in every field [f] of an entry that is
    copied from the instance (where it is [g]) and left alone by re-scoring *)
Section Static.
  Context {B : Type} (f : entry -> B) (g : app -> B).
  Hypothesis fg : forall a rk ub ua,
    f (mkEntry rk ub ua (is_pending a) (a_order a) (a_name a) (a_demand a) (a_prio a)) = g a.
  Hypothesis f_static : forall e ub ua,
    f (mkEntry (e_rank e) ub ua (e_pending e) (e_order e) (e_app e) (e_demand e) (e_prio e)) = f e.

  Lemma priv_loop_map rank adj maxu res av l : forall acc ub,
    map f (priv_loop rank adj maxu res av l acc ub) = map g l.
  Proof.
    induction l as [|a r IH]; intros acc ub; [reflexivity|]. rewrite priv_loop_cons.
    destruct (rescore res av (acc, ub) (a_demand a) (a_prio a)) as [[acc' ub1] ua1]. cbn [map]. rewrite fg, IH. reflexivity.
  Qed.

  Lemma priv_queue_map_perm dim al apps :
    Permutation (map f (priv_queue dim al apps)) (map g (lookup_apps (al_apps al) apps)).
  Proof. unfold priv_queue. rewrite priv_loop_map. apply Permutation_map. symmetry. apply sort_apps_perm. Qed.

  Theorem util_queue_map_perm dim free keps apps al :
    Permutation (map f (util_queue dim free keps apps al)) (map g (lookup_apps (all_apps al) apps)).
  Proof.
    induction al as [res rank adj traits maxu names subs IH] using alloc_rect'.
    rewrite util_queue_eq, all_apps_eq. cbv zeta. rewrite (rescore_loop_map f _ _ f_static).
    rewrite <- merge_all_perm, concat_app. cbn [concat]. rewrite app_nil_r, lookup_apps_app, !map_app.
    rewrite Permutation_app_comm. apply Permutation_app; [apply priv_queue_map_perm|].
    unfold subqs_of, subapps_of. induction IH as [|p r Hp _ IHr]; cbn [map concat]; [reflexivity|].
    rewrite lookup_apps_app, !map_app. apply Permutation_app; assumption.
  Qed.
End Static.

Theorem util_queue_perm dim free keps apps al :
  Permutation (map e_app (util_queue dim free keps apps al)) (map a_name (lookup_apps (all_apps al) apps)).
Proof. apply util_queue_map_perm; reflexivity. Qed.

(** ** ranks are non-decreasing along the queue *)
Definition rank_sorted (l : list entry) : Prop := Sorted Z.le (map e_rank l).

Lemma entry_ltb_rank m x : if entry_ltb m x then e_rank m <= e_rank x else e_rank x <= e_rank m.
Proof.
  unfold entry_ltb, entry_compare.
  destruct (Z.compare_spec (e_rank m) (e_rank x)) as [E|E|E]; cbn [lex]; [|lia|lia].
  rewrite E. destruct (lex _ _); apply Z.le_refl.
Qed.

Lemma rank_sorted_ksorted q : rank_sorted q <-> ksorted e_rank Z.le (fun _ => True) q.
Proof.
  unfold rank_sorted, ksorted. split.
  - intros H. split; [apply Sorted_StronglySorted; [exact Z.le_trans|exact H]|apply Forall_forall; trivial].
  - intros [H _]. apply StronglySorted_Sorted, H.
Qed.

Lemma merge_rank_sorted fuel qs : Forall rank_sorted qs -> rank_sorted (merge fuel qs).
Proof.
  intros H. apply rank_sorted_ksorted, merge_sorted; [exact Z.le_trans|intros m x _ _; apply entry_ltb_rank|].
  eapply Forall_impl; [|exact H]. intros q. apply rank_sorted_ksorted.
Qed.

(** ranks of a sub-tree queue are sorted whenever every private queue's are *)
Definition priv_sorted (dim : nat) (apps : list app) : alloc -> Prop :=
  alloc_all (fun al => rank_sorted (priv_queue dim al apps)).

Theorem util_queue_rank_sorted dim free keps apps al :
  priv_sorted dim apps al -> rank_sorted (util_queue dim free keps apps al).
Proof.
  apply util_queue_tree; [trivial|]. intros qs res av acc ub Hqs.
  unfold rank_sorted. rewrite rescore_loop_map by reflexivity. apply merge_rank_sorted, Hqs.
Qed.

(** ** the private queue: monotone utilisation, rank decision *)
Definition nonneg (v : vec) : Prop := Forall (fun x => 0 <= x) v.
Definition qpos (av : list Q) : Prop := Forall (fun q => (0 < q)%Q) av.

Lemma util_leb_some a b : util_leb (Some a) (Some b) = true <-> (a <= b)%Q.
Proof. unfold util_leb, util_compare. rewrite Qle_alt. destruct (a ?= b)%Q; split; intros; congruence. Qed.
Lemma util_ltb_some a b : util_ltb (Some a) (Some b) = true <-> (a < b)%Q.
Proof. unfold util_ltb, util_compare. rewrite Qlt_alt. destruct (a ?= b)%Q; split; intros; congruence. Qed.

Lemma qmax_step_le m1 m2 y1 y2 : (m1 <= m2)%Q -> (y1 <= y2)%Q ->
  ((if Qle_bool m1 y1 then y1 else m1) <= (if Qle_bool m2 y2 then y2 else m2))%Q.
Proof.
  intros Hm Hy. destruct (Qle_bool m1 y1) eqn:E1, (Qle_bool m2 y2) eqn:E2; try assumption.
  - (* y1 vs m2, with not (m2 <= y2) *)
    assert (H2 : ~ (m2 <= y2)%Q) by (rewrite <- Qle_bool_iff; congruence).
    apply Qnot_le_lt in H2. apply Qle_trans with y2; [assumption|apply Qlt_le_weak; assumption].
  - apply Qle_bool_iff in E2. apply Qle_trans with m2; assumption.
Qed.

Lemma fold_qmax_le : forall l1 l2 m1 m2, Forall2 Qle l1 l2 -> (m1 <= m2)%Q ->
  (fold_left (fun m y => if Qle_bool m y then y else m) l1 m1 <=
   fold_left (fun m y => if Qle_bool m y then y else m) l2 m2)%Q.
Proof.
  induction l1 as [|y1 r1 IH]; intros l2 m1 m2 Hf Hm; inversion Hf; subst; cbn; [assumption|].
  apply IH; [assumption|]. apply qmax_step_le; assumption.
Qed.
Lemma qmaxl_le l1 l2 : Forall2 Qle l1 l2 -> (qmaxl l1 <= qmaxl l2)%Q.
Proof.
  intros Hf. destruct Hf as [|x y r1 r2 Hxy Hr]; cbn; [apply Qle_refl|]. apply fold_qmax_le; assumption.
Qed.

Lemma util_dims_mono : forall acc d res av,
  length d = length acc -> nonneg d -> qpos av ->
  Forall2 Qle (util_dims acc res av) (util_dims (vadd acc d) res av).
Proof.
  induction acc as [|a acc IH]; intros d res av Hl Hd Hav; destruct d as [|x d]; try discriminate.
  - cbn. constructor.
  - cbn. destruct res as [|r res]; [constructor|]. destruct av as [|v av]; [constructor|].
    inversion Hd; subst. inversion Hav; subst. constructor.
    + unfold Qdiv. apply Qmult_le_compat_r.
      * rewrite <- Zle_Qle. lia.
      * apply Qlt_le_weak. apply Qinv_lt_0_compat. assumption.
    + apply IH; auto.
Qed.

Lemma utilization_mono acc d res av :
  length d = length acc -> nonneg d -> qpos av ->
  (utilization acc res av <= utilization (vadd acc d) res av)%Q.
Proof. intros. unfold utilization. apply qmaxl_le. apply util_dims_mono; assumption. Qed.

(** the order on utilisation values (None = +inf), and [rank_of] is monotone in both of them *)
Definition ule (a b : util) : Prop := util_leb a b = true.

Lemma ule_None a : ule a None.
Proof. destruct a; reflexivity. Qed.
Lemma ule_refl a : ule a a.
Proof. destruct a as [x|]; [apply util_leb_some, Qle_refl|reflexivity]. Qed.
Lemma ule_trans a b c : ule a b -> ule b c -> ule a c.
Proof.
  destruct a as [x|], b as [y|], c as [z|]; try discriminate; try reflexivity.
  unfold ule. rewrite !util_leb_some. apply Qle_trans.
Qed.
Lemma ule_ltb_trans a b c : ule a b -> util_ltb b (Some c) = true -> util_ltb a (Some c) = true.
Proof.
  destruct a as [x|], b as [y|]; try discriminate.
  unfold ule. rewrite util_leb_some, !util_ltb_some. apply Qle_lt_trans.
Qed.

Definition within (maxu : option Q) (ua : util) : bool :=
  match maxu with None => true | Some m => util_leb ua (Some (m - 1)%Q) end.
Lemma within_mono maxu ua ua' : ule ua ua' -> within maxu ua' = true -> within maxu ua = true.
Proof. intros Ha. destruct maxu as [m|]; [exact (ule_trans _ _ _ Ha)|reflexivity]. Qed.

Lemma rank_of_mono rank adj maxu ub ua ub' ua' : 0 <= adj -> rank <= UNPLACED_RANK ->
  ule ub ub' -> ule ua ua' -> rank_of rank adj maxu ub ua <= rank_of rank adj maxu ub' ua'.
Proof.
  intros Hadj Hrank Hb Ha. unfold rank_of. fold (within maxu ua) (within maxu ua').
  pose proof (within_mono maxu _ _ Ha) as Hw. pose proof (ule_ltb_trans _ _ 0%Q Hb) as Hl.
  destruct (within maxu ua').
  - rewrite (Hw eq_refl). destruct (util_ltb ub' (Some 0%Q)); [rewrite (Hl eq_refl); lia|destruct (util_ltb ub _); lia].
  - destruct (within maxu ua); [destruct (util_ltb ub _)|]; lia.
Qed.

Fixpoint ptail (l : list app) : Prop :=
  match l with
  | [] => True
  | a :: r => (a_prio a = 0 -> Forall (fun b => a_prio b = 0) r) /\ ptail r
  end.

(** along the loop both utilisation values only grow (they stay at +inf from the first priority-0 instance on),
    so the ranks do; [ub0], [ua0] stand for the entry before the loop *)
Lemma priv_loop_rank_from rank adj maxu res av dim : 0 <= adj -> rank <= UNPLACED_RANK -> qpos av ->
  forall l acc ub ub0 ua0,
  ptail l -> Forall (fun a => length (a_demand a) = dim /\ nonneg (a_demand a)) l -> length acc = dim ->
  ule ub (Some (utilization acc res av)) \/ Forall (fun b => a_prio b = 0) l ->
  ule ub0 ub -> ule ua0 ub ->
  Sorted Z.le (rank_of rank adj maxu ub0 ua0 :: map e_rank (priv_loop rank adj maxu res av l acc ub)).
Proof.
  intros Hadj Hrank Hav. induction l as [|a r IH]; intros acc ub ub0 ua0 Hpt Hd Hlen Hu Hb0 Ha0; [repeat constructor|].
  rewrite priv_loop_cons. destruct Hpt as [Hz Hpt]. apply Forall_cons_iff in Hd. destruct Hd as [[Hla Hna] Hdr].
  assert (Hlen' : length (vadd acc (a_demand a)) = dim) by (unfold vadd; rewrite vmap2_length; lia).
  unfold rescore. destruct (Z.eqb_spec (a_prio a) 0) as [Hp0|Hp0]; cbn [map e_rank].
  - constructor; [|constructor; apply rank_of_mono; auto using ule_None].
    apply IH; [exact Hpt|exact Hdr|exact Hlen'|right; exact (Hz Hp0)|apply ule_None|apply ule_None].
  - destruct Hu as [Hu|Hu]; [|apply Forall_cons_iff in Hu; tauto].
    assert (Hm : ule ub (Some (utilization (vadd acc (a_demand a)) res av))).
    { eapply ule_trans; [exact Hu|]. apply util_leb_some, utilization_mono; auto; lia. }
    constructor; [|constructor; apply rank_of_mono; eauto using ule_trans].
    apply IH; [exact Hpt|exact Hdr|exact Hlen'|left; apply ule_refl|exact Hm|apply ule_refl].
Qed.

Theorem priv_loop_rank_sorted rank adj maxu res av dim : 0 <= adj -> rank <= UNPLACED_RANK -> qpos av ->
  forall l acc u,
  ptail l -> Forall (fun a => length (a_demand a) = dim /\ nonneg (a_demand a)) l -> length acc = dim ->
  (u <= utilization acc res av)%Q ->
  Sorted Z.le (map e_rank (priv_loop rank adj maxu res av l acc (Some u))).
Proof.
  intros Hadj Hrank Hav l acc u Hpt Hd Hlen Hu.
  eapply Sorted_inv, (priv_loop_rank_from rank adj maxu res av dim Hadj Hrank Hav l acc (Some u) (Some u) (Some u));
    auto using ule_refl. left. apply util_leb_some, Hu.
Qed.

(** ** order inside one allocation: priority, running before pending, first-come *)
Definition pz (a : app) : Z := if is_pending a then 1 else 0.
Definition key_le (x y : app) : Prop :=
  a_prio y < a_prio x \/
  (a_prio x = a_prio y /\
   (pz x < pz y \/ (pz x = pz y /\ (a_order x < a_order y \/ (a_order x = a_order y /\ a_name x <= a_name y))))).

Lemma lex_le_iff c d (P Q R : Prop) : (c = Lt <-> P) -> (c = Eq <-> Q) -> (d <> Gt <-> R) ->
  (lex c d <> Gt <-> P \/ (Q /\ R)).
Proof. intros <- <- <-. destruct c; cbn [lex]; intuition congruence. Qed.

Lemma bool_compare_pz x y : bool_compare (is_pending x) (is_pending y) = (pz x ?= pz y).
Proof. unfold pz. destruct (is_pending x), (is_pending y); reflexivity. Qed.

Lemma app_key_leb_spec x y : app_key_leb x y = true <-> key_le x y.
Proof.
  transitivity (app_key_compare x y <> Gt).
  { unfold app_key_leb. destruct (app_key_compare x y); split; congruence. }
  unfold app_key_compare, key_le. rewrite bool_compare_pz.
  apply lex_le_iff; [rewrite Z.compare_lt_iff; symmetry; apply Z.opp_lt_mono|rewrite Z.compare_eq_iff; apply Z.opp_inj_wd|].
  apply lex_le_iff; [apply Z.compare_lt_iff|apply Z.compare_eq_iff|].
  apply lex_le_iff; [apply Z.compare_lt_iff|apply Z.compare_eq_iff|reflexivity].
Qed.

(** one step of a lexicographic order: [lt] on the first component, [R] on the rest *)
Section Lex.
  Context {A : Type} (lt : A -> A -> Prop).
  Hypothesis lt_trans : forall a b c, lt a b -> lt b c -> lt a c.
  Lemma lex_trans a b c (R1 R2 R3 : Prop) : (R1 -> R2 -> R3) ->
    lt a b \/ (a = b /\ R1) -> lt b c \/ (b = c /\ R2) -> lt a c \/ (a = c /\ R3).
  Proof. intros HR [H1|[-> H1]] [H2|[<- H2]]; [left; eapply lt_trans; eassumption|left; assumption..|right; auto]. Qed.
  Lemma lex_total a b (R1 R2 : Prop) : lt a b \/ a = b \/ lt b a -> R1 \/ R2 ->
    (lt a b \/ (a = b /\ R1)) \/ (lt b a \/ (b = a /\ R2)).
  Proof. intros [H|[->|H]] HR; [left; left; exact H| |right; left; exact H]. destruct HR; [left|right]; right; auto. Qed.
End Lex.

Lemma key_le_total x y : key_le x y \/ key_le y x.
Proof.
  unfold key_le. apply (lex_total (fun a b => b < a)); [lia|].
  apply (lex_total Z.lt); [lia|]. apply (lex_total Z.lt); lia.
Qed.
Lemma key_le_trans x y z : key_le x y -> key_le y z -> key_le x z.
Proof.
  unfold key_le. apply (lex_trans (fun a b => b < a)); [intros a b c H1 H2; exact (Z.lt_trans _ _ _ H2 H1)|].
  apply (lex_trans Z.lt Z.lt_trans), (lex_trans Z.lt Z.lt_trans), Z.le_trans.
Qed.

Lemma insert_stable_sorted a l : StronglySorted key_le l -> StronglySorted key_le (insert_app_stable a l).
Proof.
  induction 1 as [|b r Hr IH Hb]; cbn; [repeat constructor|].
  destruct (app_key_leb b a) eqn:E.
  - constructor; [exact IH|]. apply app_key_leb_spec in E.
    rewrite Forall_forall in *. intros z Hz.
    apply (Permutation_in _ (Permutation_sym (insert_app_stable_perm a r))) in Hz.
    destruct Hz as [<-|Hz]; [exact E|apply Hb; exact Hz].
  - assert (Hab : key_le a b).
    { destruct (key_le_total a b) as [H|H]; [exact H|]. apply app_key_leb_spec in H. congruence. }
    constructor; [constructor; assumption|]. constructor; [exact Hab|].
    eapply Forall_impl; [|exact Hb]. intros z. apply key_le_trans, Hab.
Qed.

Theorem sort_apps_sorted l : StronglySorted key_le (sort_apps l).
Proof.
  unfold sort_apps. generalize (SSorted_nil key_le). generalize (@nil app).
  induction l as [|a r IH]; intros acc Hs; cbn; [exact Hs|]. apply IH, insert_stable_sorted, Hs.
Qed.

Lemma sorted_ptail l : StronglySorted key_le l -> Forall (fun a => 0 <= a_prio a) l -> ptail l.
Proof.
  induction 1 as [|a r Hr IH Ha]; intros Hp; cbn; [exact I|].
  inversion Hp as [|? ? Hpa Hpr]; subst. split; [|apply IH; exact Hpr].
  intros Hz. rewrite Forall_forall in *. intros b Hb. specialize (Ha b Hb). specialize (Hpr b Hb).
  unfold key_le in Ha. lia.
Qed.

Lemma avail_q_pos x k : 0 <= x -> (0 < avail_q x k)%Q.
Proof.
  intros Hx. unfold avail_q. destruct (Z.leb_spec 2 x).
  - change 0%Q with (inject_Z 0). rewrite <- Zlt_Qlt. lia.
  - apply Qlt_le_trans with (inject_Z (Z.of_nat (S k)) * feps)%Q.
    + apply Qmult_lt_0_compat; [change 0%Q with (inject_Z 0); rewrite <- Zlt_Qlt; lia|reflexivity].
    + rewrite <- (Qplus_0_l (inject_Z (Z.of_nat (S k)) * feps)) at 1. apply Qplus_le_compat; [|apply Qle_refl].
      change 0%Q with (inject_Z 0). rewrite <- Zle_Qle. exact Hx.
Qed.
Lemma avail_vec_pos xs k : nonneg xs -> qpos (avail_vec xs k).
Proof. induction 1; cbn; constructor; auto. apply avail_q_pos. assumption. Qed.

Lemma lookup_apps_name names apps a :
  In a (lookup_apps names apps) -> In (a_name a) names /\ get_app (a_name a) apps = Some a.
Proof.
  induction names as [|n r IH]; cbn; [tauto|].
  destruct (get_app n apps) as [b|] eqn:E; [intros [<-|H]|intros H]; [|destruct (IH H); auto..].
  rewrite (get_app_name _ _ _ E). auto.
Qed.

Definition apps_ok (dim : nat) (apps : list app) : Prop :=
  Forall (fun a => 0 <= a_prio a /\ length (a_demand a) = dim /\ nonneg (a_demand a)) apps.

Lemma sort_lookup_ok dim apps names : apps_ok dim apps -> apps_ok dim (sort_apps (lookup_apps names apps)).
Proof.
  unfold apps_ok. rewrite !Forall_forall. intros Hok a Ha. apply Hok, (get_app_In (a_name a)), (lookup_apps_name names).
  eapply Permutation_in; [symmetry; apply sort_apps_perm|exact Ha].
Qed.
Lemma sort_lookup_ptail dim apps names : apps_ok dim apps -> ptail (sort_apps (lookup_apps names apps)).
Proof.
  intros Hok. apply sorted_ptail; [apply sort_apps_sorted|].
  eapply Forall_impl; [|exact (sort_lookup_ok _ _ names Hok)]. intros a H. apply H.
Qed.

Theorem priv_queue_rank_sorted dim apps al :
  apps_ok dim apps -> 0 <= al_adj al -> al_rank al <= UNPLACED_RANK -> nonneg (al_reserved al) ->
  rank_sorted (priv_queue dim al apps).
Proof.
  intros Hok Hadj Hrank Hres. unfold rank_sorted, priv_queue. apply priv_loop_rank_sorted with (dim := dim); auto.
  - apply avail_vec_pos. exact Hres.
  - apply (sort_lookup_ptail dim), Hok.
  - eapply Forall_impl; [|exact (sort_lookup_ok _ _ _ Hok)]. intros a H. apply H.
  - apply vzero_length.
  - apply Qle_refl.
Qed.

(** every allocation of the tree is well-formed *)
Definition alloc_ok : alloc -> Prop :=
  fix ok (al : alloc) : Prop :=
    let '(Alloc res rank adj traits maxu names subs) := al in
    (0 <= adj /\ rank <= UNPLACED_RANK /\ nonneg res) /\
    (fix go (l : list (Z * alloc)) : Prop := match l with [] => True | (_, s) :: r => ok s /\ go r end) subs.

Definition alloc_wf (al : alloc) : Prop := 0 <= al_adj al /\ al_rank al <= UNPLACED_RANK /\ nonneg (al_reserved al).
Lemma alloc_ok_all al : alloc_ok al = alloc_all alloc_wf al.
Proof. reflexivity. Qed.

(** the private queue lists the allocation's instances in key order *)
Theorem priv_queue_order dim al apps :
  map e_app (priv_queue dim al apps) = map a_name (sort_apps (lookup_apps (al_apps al) apps)) /\
  StronglySorted key_le (sort_apps (lookup_apps (al_apps al) apps)).
Proof. split; [unfold priv_queue; apply priv_loop_map; reflexivity|apply sort_apps_sorted]. Qed.
