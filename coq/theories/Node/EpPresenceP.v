(** Proofs about Node/EpPresence.v: what EndpointPresence.unregister_* and trace.app.zk._unschedule can and
    cannot remove, on every node table and along every list of operations. *)
From Coq Require Import ZArith List Bool.
From TM Require Import Node.EpPresence Node.FindP.
Import ListNotations.
Open Scope Z_scope.

(** * equality tests *)
Lemma text_eqb_eq a : forall b, text_eqb a b = true <-> a = b.
Proof.
  induction a as [|x a IH]; intros [|y b]; cbn; split; intros H; try congruence; try discriminate.
  - apply andb_true_iff in H as [H1 H2]. apply Z.eqb_eq in H1. apply IH in H2. congruence.
  - inversion H; subst. rewrite Z.eqb_refl. cbn. apply IH. reflexivity.
Qed.
Lemma text_eqb_refl a : text_eqb a a = true.
Proof. apply text_eqb_eq. reflexivity. Qed.
Lemma text_eqb_neq a b : text_eqb a b = false <-> a <> b.
Proof.
  split.
  - intros H E. apply text_eqb_eq in E. congruence.
  - intros H. destruct (text_eqb a b) eqn:E; [apply text_eqb_eq in E; contradiction | reflexivity].
Qed.

Lemma path_eqb_eq a b : path_eqb a b = true <-> a = b.
Proof.
  destruct a, b; cbn; split; intros H; try discriminate H;
    repeat match goal with
    | H : _ && _ = true |- _ => apply andb_true_iff in H; destruct H
    | H : (_ =? _) = true |- _ => apply Z.eqb_eq in H
    | H : text_eqb _ _ = true |- _ => apply text_eqb_eq in H
    end; subst; try reflexivity;
    try (inversion H; subst; rewrite ?Z.eqb_refl, ?text_eqb_refl; reflexivity).
Qed.
Lemma path_eqb_refl a : path_eqb a a = true.
Proof. apply path_eqb_eq. reflexivity. Qed.
Lemma path_eqb_sym a b : path_eqb a b = path_eqb b a.
Proof.
  destruct (path_eqb a b) eqn:E1, (path_eqb b a) eqn:E2; try reflexivity.
  - apply path_eqb_eq in E1. subst. rewrite path_eqb_refl in E2. discriminate.
  - apply path_eqb_eq in E2. subst. rewrite path_eqb_refl in E1. discriminate.
Qed.

(** * the node table seen as a map *)
Lemma tget_path t q n : tget t q = Some n -> e_path n = q.
Proof. unfold tget. intros H. apply find_some in H as [_ H]. apply path_eqb_eq in H. exact H. Qed.

Lemma tget_delete t p t' q :
  tdelete t p = Some t' -> tget t' q = if path_eqb q p then None else tget t q.
Proof.
  unfold tdelete. destruct (tget t p) eqn:Hp; [|discriminate]. intros H. inversion H; subst; clear H.
  unfold tget. destruct (path_eqb q p) eqn:E.
  - apply path_eqb_eq in E. subst q. apply find_filter_kill. intros x Hx. rewrite Hx. reflexivity.
  - apply find_filter_same. intros x Hx. apply path_eqb_eq in Hx. rewrite Hx.
    rewrite E. reflexivity.
Qed.
Lemma tget_ensure_deleted t p q :
  tget (ensure_deleted t p) q = if path_eqb q p then None else tget t q.
Proof.
  unfold ensure_deleted. destruct (tdelete t p) eqn:Hd.
  - eapply tget_delete. exact Hd.
  - destruct (path_eqb q p) eqn:E; [|reflexivity]. apply path_eqb_eq in E. subst q.
    unfold tdelete in Hd. destruct (tget t p); [discriminate | reflexivity].
Qed.
Lemma tget_create t p d o t' q :
  tcreate t p d o = Some t' ->
  tget t' q = match tget t q with
              | Some x => Some x
              | None => if path_eqb p q then Some {| e_path := p; e_data := d; e_owner := o |} else None
              end.
Proof.
  unfold tcreate. destruct (tget t p) eqn:Hp; [discriminate|]. intros H. inversion H; subst; clear H.
  unfold tget. rewrite find_app. cbn. reflexivity.
Qed.
Lemma tget_expire_keep t sid q n :
  tget t q = Some n -> (sid =? 0) || negb (e_owner n =? sid) = true -> tget (texpire t sid) q = Some n.
Proof.
  unfold texpire. intros Hg Hs. destruct (sid =? 0); [exact Hg|]. cbn in Hs.
  unfold tget in *. apply find_filter_found; assumption.
Qed.
Lemma tget_expire_none t sid q : tget t q = None -> tget (texpire t sid) q = None.
Proof. unfold texpire. intros Hg. destruct (sid =? 0); [exact Hg|]. apply find_filter_none. exact Hg. Qed.

(** * _create_ephemeral_with_retry *)
(** the 13 attempts of one call see the same table: the call creates the node iff it is absent *)
Lemma create_ephemeral_spec t s p d :
  create_ephemeral t s p d =
    match tget t p with
    | None => (t ++ [{| e_path := p; e_data := d; e_owner := s |}], Done)
    | Some _ => (t, SetupError)
    end.
Proof.
  unfold create_ephemeral, retry_count. unfold tcreate, create_retry, tcreate. destruct (tget t p); reflexivity.
Qed.

Lemma tget_create_ephemeral t s p d q :
  tget (fst (create_ephemeral t s p d)) q =
    match tget t q with
    | Some x => Some x
    | None => if path_eqb p q then Some {| e_path := p; e_data := d; e_owner := s |} else None
    end.
Proof.
  rewrite create_ephemeral_spec. destruct (tget t p) eqn:Hp; cbn [fst].
  - destruct (tget t q) eqn:Hq; [reflexivity|]. destruct (path_eqb p q) eqn:E; [|reflexivity].
    apply path_eqb_eq in E. congruence.
  - unfold tget. now rewrite find_app.
Qed.

Lemma create_ephemeral_keeps t s p d q x :
  tget t q = Some x -> tget (fst (create_ephemeral t s p d)) q = Some x.
Proof. intros H. now rewrite tget_create_ephemeral, H. Qed.

Lemma create_ephemeral_none t s p d q :
  tget t q = None -> path_eqb p q = false -> tget (fst (create_ephemeral t s p d)) q = None.
Proof. intros H E. now rewrite tget_create_ephemeral, H, E. Qed.

Lemma create_ephemeral_done t s p d t' :
  create_ephemeral t s p d = (t', Done) ->
  tget t p = None /\ tget t' p = Some {| e_path := p; e_data := d; e_owner := s |}.
Proof.
  intros H. pose proof (tget_create_ephemeral t s p d p) as E. rewrite H, path_eqb_refl in E. cbn [fst] in E.
  rewrite create_ephemeral_spec in H. destruct (tget t p); [discriminate | auto].
Qed.

Lemma reg_loop_keeps a app eps : forall t q x,
  tget t q = Some x -> tget (fst (register_endpoints_loop a app eps t)) q = Some x.
Proof.
  induction eps as [|e r IH]; intros t q x Hq; cbn [register_endpoints_loop]; [exact Hq|].
  pose proof (tget_create_ephemeral t (a_sess a) (ep_path app e) (DText (hostport (a_host a) (ep_port e))) q) as H1.
  rewrite Hq in H1. destruct (create_ephemeral _ _ _ _) as [t1 []]; cbn [fst] in *; auto.
Qed.
Lemma reg_loop_none a app eps : forall t q,
  tget t q = None -> (forall e, In e eps -> path_eqb (ep_path app e) q = false) ->
  tget (fst (register_endpoints_loop a app eps t)) q = None.
Proof.
  induction eps as [|e r IH]; intros t q Hq Hne; cbn [register_endpoints_loop]; [exact Hq|].
  pose proof (tget_create_ephemeral t (a_sess a) (ep_path app e) (DText (hostport (a_host a) (ep_port e))) q) as H1.
  rewrite Hq, (Hne e (or_introl eq_refl)) in H1.
  destruct (create_ephemeral _ _ _ _) as [t1 []]; cbn [fst] in *; auto. apply IH; [exact H1|]. intros e' He'. apply Hne. now right.
Qed.
Lemma reg_loop_done a app eps : forall t t',
  register_endpoints_loop a app eps t = (t', Done) ->
  forall e, In e eps ->
    tget t' (ep_path app e) =
      Some {| e_path := ep_path app e; e_data := DText (hostport (a_host a) (ep_port e)); e_owner := a_sess a |}.
Proof.
  induction eps as [|e0 r IH]; intros t t' Hr e He; [destruct He|].
  cbn [register_endpoints_loop] in Hr.
  destruct (create_ephemeral t (a_sess a) (ep_path app e0) (DText (hostport (a_host a) (ep_port e0)))) as [t1 o] eqn:Hc.
  destruct o; try discriminate. destruct He as [<- | He]; [|eapply IH; eassumption].
  apply create_ephemeral_done in Hc as [_ Hc]. rewrite <- (reg_loop_keeps a app r t1 _ _ Hc). now rewrite Hr.
Qed.

(** * unregister: one node *)
Lemma tget_unreg_node t p h q :
  tget (unreg_node t p h) q = if path_eqb q p && holds t p h then None else tget t q.
Proof.
  unfold unreg_node, unreg_check, unreg_act. destruct (holds t p h).
  - rewrite tget_ensure_deleted. rewrite andb_true_r. reflexivity.
  - rewrite andb_false_r. reflexivity.
Qed.
Lemma andb_path_holds q p t h : path_eqb q p && holds t p h = path_eqb q p && holds t q h.
Proof. destruct (path_eqb q p) eqn:E; [|reflexivity]. apply path_eqb_eq in E. subst. reflexivity. Qed.
Lemma holds_unreg_node t p h q :
  holds (unreg_node t p h) q h = negb (path_eqb q p) && holds t q h.
Proof.
  unfold holds at 1. rewrite tget_unreg_node. destruct (path_eqb q p) eqn:E; cbn.
  - apply path_eqb_eq in E. subst q. destruct (holds t p h) eqn:Hh; [reflexivity|].
    unfold holds in Hh. exact Hh.
  - reflexivity.
Qed.

(** * the three unregister_* functions, exactly *)
Theorem thm_unregister_running_exact a m t q :
  snd (unregister_running a m t) = Done /\
  tget (fst (unregister_running a m t)) q =
    if path_eqb q (PRunning (m_app m)) && holds t q (a_host a) then None else tget t q.
Proof.
  split; [reflexivity|]. cbn [unregister_running fst]. rewrite tget_unreg_node. rewrite andb_path_holds. reflexivity.
Qed.

Lemma unreg_loop_exact h app eps : forall t q,
  tget (unregister_endpoints_loop h app eps t) q =
    if existsb (fun e => path_eqb q (ep_path app e)) (reached eps) && holds t q h then None else tget t q.
Proof.
  induction eps as [|e r IH]; intros t q; cbn [unregister_endpoints_loop reached]; [reflexivity|].
  destruct (ep_name e =? 0) eqn:En; [reflexivity|].
  cbn [existsb]. rewrite IH. rewrite tget_unreg_node, holds_unreg_node.
  destruct (path_eqb q (ep_path app e)) eqn:E.
  - apply path_eqb_eq in E. subst q. cbn. rewrite andb_false_r. reflexivity.
  - cbn. reflexivity.
Qed.
Theorem thm_unregister_endpoints_exact a m t q :
  snd (unregister_endpoints a m t) = Done /\
  tget (fst (unregister_endpoints a m t)) q =
    if existsb (fun e => path_eqb q (ep_path (m_app m) e)) (reached (m_eps m)) && holds t q (a_host a)
    then None else tget t q.
Proof. split; [reflexivity|]. cbn [unregister_endpoints fst]. apply unreg_loop_exact. Qed.

Theorem thm_unregister_identity_exact a m t q :
  snd (unregister_identity a m t) =
    match m_ident m with
    | Some gi => match tget t (ident_path gi) with
                 | Some n => match e_data n with DText _ => Raised | DIdent _ _ => Done end
                 | None => Done
                 end
    | None => Done
    end /\
  tget (fst (unregister_identity a m t)) q =
    if match m_ident m with Some gi => path_eqb q (ident_path gi) | None => false end && holds t q (a_host a)
    then None else tget t q.
Proof.
  unfold unregister_identity. destruct (m_ident m) as [gi|]; [|split; reflexivity].
  destruct (tget t (ident_path gi)) as [n|] eqn:Hg.
  - destruct (e_data n) eqn:Hd; cbn [fst snd]; (split; [reflexivity|]).
    + destruct (path_eqb q (ident_path gi)) eqn:E; [|reflexivity].
      apply path_eqb_eq in E. subst q. unfold holds. rewrite Hg. unfold ident_path, names. rewrite Hd. reflexivity.
    + rewrite tget_unreg_node. rewrite andb_path_holds. reflexivity.
  - cbn [fst snd]. split; [reflexivity|].
    destruct (path_eqb q (ident_path gi)) eqn:E; [|reflexivity].
    apply path_eqb_eq in E. subst q. unfold holds. rewrite Hg. reflexivity.
Qed.

(** * what "names" means *)
(** the comparison of unregister_running ([g] the identity) and unregister_endpoints ([g] = text before the colon) *)
Lemma names_text_spec (g : text -> text) d h :
  match d with DText s => negb (is_empty s) && text_eqb (g s) h | DIdent _ _ => false end = true <->
  exists s, d = DText s /\ s <> [] /\ g s = h.
Proof.
  destruct d as [s|h' ap]; [rewrite andb_true_iff, text_eqb_eq|]; split; try discriminate.
  - intros [Hs Hg]. exists s. destruct s; [discriminate | easy].
  - intros (s' & [= <-] & Hs & Hg). now destruct s.
  - now intros (s' & [=] & _).
Qed.
(** a node names at most one host *)
Lemma names_exclusive p d h1 h2 : names p d h1 = true -> names p d h2 = true -> h1 = h2.
Proof.
  destruct p; cbn; try discriminate; destruct d; cbn; try discriminate; intros H1 H2;
    repeat match goal with
    | H : _ && _ = true |- _ => apply andb_true_iff in H; destruct H
    | H : text_eqb _ _ = true |- _ => apply text_eqb_eq in H
    end; congruence.
Qed.
Lemma names_other_host p d b h : names p d b = true -> text_eqb h b = false -> names p d h = false.
Proof.
  intros Hb Hne. destruct (names p d h) eqn:Hh; [|reflexivity].
  pose proof (names_exclusive _ _ _ _ Hh Hb) as E. subst. rewrite text_eqb_refl in Hne. discriminate.
Qed.
Lemma before_colon_hostport h port :
  existsb (Z.eqb colon) h = false -> before_colon (hostport h port) = h.
Proof.
  unfold hostport. induction h as [|c h IH]; cbn [app before_colon existsb]; intros H.
  - rewrite Z.eqb_refl. reflexivity.
  - apply orb_false_iff in H as [H1 H2]. rewrite Z.eqb_sym in H1. rewrite H1. f_equal. apply IH. exact H2.
Qed.
Lemma host_ok_names_endpoint h port : host_ok h = true -> names_endpoint (DText (hostport h port)) h = true.
Proof.
  unfold host_ok. intros H. apply andb_true_iff in H as [H1 H2]. apply negb_true_iff in H1, H2.
  cbn. rewrite (before_colon_hostport _ _ H2), text_eqb_refl.
  unfold hostport. destruct h; [discriminate | reflexivity].
Qed.
Lemma host_ok_names_running h : host_ok h = true -> names_running (DText h) h = true.
Proof.
  unfold host_ok. intros H. apply andb_true_iff in H as [H1 _]. cbn. rewrite H1, text_eqb_refl. reflexivity.
Qed.

(** * an unregister_* by host a never removes a node that does not name a, and changes nothing but removals *)
Lemma unregister_shape o a t q :
  unregister_by o = Some a ->
  exists b, tget (fst (ep_step t o)) q = if b && holds t q (a_host a) then None else tget t q.
Proof.
  destruct o; cbn [unregister_by ep_step]; intros [= <-]; eexists.
  - apply thm_unregister_running_exact.
  - apply thm_unregister_endpoints_exact.
  - apply thm_unregister_identity_exact.
Qed.

Theorem thm_unregister_spares o a t q n :
  unregister_by o = Some a -> tget t q = Some n -> names q (e_data n) (a_host a) = false ->
  tget (fst (ep_step t o)) q = Some n.
Proof.
  intros Ho Hq Hn. destruct (unregister_shape o a t q Ho) as [b ->].
  unfold holds. now rewrite Hq, Hn, andb_false_r.
Qed.
(** an unregister_* never creates or rewrites a node *)
Theorem thm_unregister_only_removes o a t q :
  unregister_by o = Some a -> tget (fst (ep_step t o)) q = None \/ tget (fst (ep_step t o)) q = tget t q.
Proof. intros Ho. destruct (unregister_shape o a t q Ho) as [b ->]. destruct (_ && _); auto. Qed.

(** * _unschedule *)
Theorem thm_unschedule_exact h i t q :
  tget (unschedule h i t) q =
    if path_eqb q (PScheduled i) && texists t (PPlacement h i) then None else tget t q.
Proof.
  unfold unschedule. destruct (texists t (PPlacement h i)).
  - rewrite tget_ensure_deleted, andb_true_r. reflexivity.
  - rewrite andb_false_r. reflexivity.
Qed.
Theorem thm_unschedule_stale_noop h i t : tget t (PPlacement h i) = None -> unschedule h i t = t.
Proof. unfold unschedule, texists. intros H. rewrite H. reflexivity. Qed.

(** * the ten operations: four only add bindings to the node table, six only remove them *)
Definition adding (o : op) : bool :=
  match o with ORegRunning _ _ | ORegEndpoints _ _ | ORegIdentity _ _ | OCreate _ _ _ => true | _ => false end.

Lemma adding_keeps t o q n : adding o = true -> tget t q = Some n -> tget (fst (ep_step t o)) q = Some n.
Proof.
  intros Ha Hq. destruct o; try discriminate Ha; cbn [ep_step].
  - now apply create_ephemeral_keeps.
  - now apply reg_loop_keeps.
  - unfold register_identity. destruct (m_ident m); [now apply create_ephemeral_keeps | exact Hq].
  - destruct (tcreate t p d owner) eqn:Hc; cbn [fst]; [|exact Hq]. now rewrite (tget_create _ _ _ _ _ q Hc), Hq.
Qed.

Lemma removing_absent t o q : adding o = false -> tget t q = None -> tget (fst (ep_step t o)) q = None.
Proof.
  intros Ha Hq.
  assert (Hunreg : forall a, unregister_by o = Some a -> tget (fst (ep_step t o)) q = None)
    by (intros a Ho; destruct (thm_unregister_only_removes o a t q Ho) as [E|E]; congruence).
  destruct o; try discriminate Ha; try (now apply (Hunreg a)); cbn [ep_step fst].
  - rewrite thm_unschedule_exact, Hq. now destruct (_ && _).
  - destruct (tdelete t p) eqn:Hd; cbn [fst]; [|exact Hq]. rewrite (tget_delete _ _ _ q Hd), Hq. now destruct (path_eqb q p).
  - now apply tget_expire_none.
Qed.

(** * along any list of operations: a node naming host b is out of reach of everybody else's unregister_* and
      of every register_*, _unschedule and creation *)
Lemma names_not_scheduled n b i : names (e_path n) (e_data n) b = true -> path_eqb (e_path n) (PScheduled i) = false.
Proof. destruct (e_path n); cbn; try discriminate; reflexivity. Qed.

Lemma step_spares b n t o :
  tget t (e_path n) = Some n -> names (e_path n) (e_data n) b = true -> spares b n o = true ->
  tget (fst (ep_step t o)) (e_path n) = Some n.
Proof.
  intros Hq Hn Hs. destruct (adding o) eqn:Ha; [now apply adding_keeps|].
  assert (Hunreg : forall a, unregister_by o = Some a -> negb (text_eqb (a_host a) b) = true ->
                             tget (fst (ep_step t o)) (e_path n) = Some n).
  { intros a Ho Hab. apply negb_true_iff in Hab. apply (thm_unregister_spares o a); [exact Ho | exact Hq |].
    eapply names_other_host; eassumption. }
  destruct o; try discriminate Ha; cbn [spares] in Hs; try (now apply (Hunreg a)); clear Hunreg; cbn [ep_step fst].
  - rewrite thm_unschedule_exact, (names_not_scheduled n b inst Hn). exact Hq.
  - destruct (tdelete t p) eqn:Hd; cbn [fst]; [|exact Hq].
    rewrite (tget_delete _ _ _ (e_path n) Hd). apply negb_true_iff in Hs. rewrite path_eqb_sym, Hs. exact Hq.
  - apply tget_expire_keep; assumption.
Qed.
(** * EndpointPresence.register of host b succeeded: its nodes are there, ephemeral nodes of b's session naming b *)
Theorem thm_register_all_registers b m t t1 q :
  host_ok (a_host b) = true -> register_all b m t = (t1, Done) -> In q (registered_paths m) ->
  exists n, tget t1 q = Some n /\ e_path n = q /\ e_owner n = a_sess b /\ names q (e_data n) (a_host b) = true.
Proof.
  intros Hok Hr Hin. unfold register_all in Hr.
  destruct (register_identity b m t) as [t_i o_i] eqn:Hi.
  destruct o_i; try (inversion Hr; fail).
  destruct (register_running b m t_i) as [t_r o_r] eqn:Hrun.
  destruct o_r; try (inversion Hr; fail).
  unfold register_endpoints in Hr.
  assert (Hkeep : forall q x, tget t_r q = Some x -> tget t1 q = Some x).
  { intros q' x Hx. replace t1 with (fst (register_endpoints_loop b (m_app m) (m_eps m) t_r)) by (rewrite Hr; reflexivity).
    apply reg_loop_keeps. exact Hx. }
  unfold registered_paths in Hin. destruct Hin as [Hin | Hin].
  - subst q. unfold register_running in Hrun. apply create_ephemeral_done in Hrun as [_ Hrun].
    eexists. split; [apply Hkeep; exact Hrun|]. cbn. repeat split. apply host_ok_names_running. exact Hok.
  - apply in_app_or in Hin as [Hin | Hin].
    + apply in_map_iff in Hin as (e & Eq & He). subst q.
      eexists. split; [eapply reg_loop_done; eassumption|]. cbn [e_path e_owner e_data]. repeat split.
      unfold ep_path. cbn [names]. apply host_ok_names_endpoint. exact Hok.
    + unfold register_identity in Hi. destruct (m_ident m) as [gi|]; [|destruct Hin].
      destruct Hin as [Hin | []]. subst q.
      apply create_ephemeral_done in Hi as [_ Hi].
      eexists. split.
      * apply Hkeep. unfold register_running in Hrun.
        replace t_r with (fst (create_ephemeral t_i (a_sess b) (PRunning (m_app m)) (DText (a_host b))))
          by (rewrite Hrun; reflexivity).
        apply create_ephemeral_keeps. exact Hi.
      * cbn [e_path e_owner e_data]. repeat split. unfold ident_path. cbn. apply text_eqb_refl.
Qed.

Lemma step_stale a i n t o :
  tget t (PPlacement a i) = None -> tget t (PScheduled i) = Some n -> stale_for a i n o = true ->
  tget (fst (ep_step t o)) (PPlacement a i) = None /\ tget (fst (ep_step t o)) (PScheduled i) = Some n.
Proof.
  intros Hp Hs Hst. destruct (adding o) eqn:Ha.
  - split; [|now apply adding_keeps]. destruct o; try discriminate Ha; cbn [stale_for ep_step] in *.
    + apply create_ephemeral_none; [exact Hp | reflexivity].
    + apply reg_loop_none; [exact Hp | intros; reflexivity].
    + unfold register_identity. destruct (m_ident m); [apply create_ephemeral_none; [exact Hp | reflexivity] | exact Hp].
    + apply negb_true_iff in Hst. destruct (tcreate t p d owner) eqn:Hc; cbn [fst]; [|exact Hp].
      now rewrite (tget_create _ _ _ _ _ _ Hc), Hp, Hst.
  - split; [now apply removing_absent|]. destruct o; try discriminate Ha; cbn [stale_for] in Hst.
    1-3: apply (thm_unregister_spares _ a0); [reflexivity | exact Hs | reflexivity].
    all: cbn [ep_step fst].
    + rewrite thm_unschedule_exact. cbn [path_eqb]. destruct (inst =? i) eqn:Ei; cbn in Hst.
      * apply Z.eqb_eq in Ei. subst inst. apply text_eqb_eq in Hst. rewrite Hst.
        unfold texists. rewrite Hp. rewrite andb_false_r. exact Hs.
      * rewrite Z.eqb_sym, Ei. exact Hs.
    + apply negb_true_iff in Hst. destruct (tdelete t p) eqn:Hd; cbn [fst]; [|exact Hs].
      now rewrite (tget_delete _ _ _ _ Hd), (path_eqb_sym (PScheduled i) p), Hst.
    + apply tget_expire_keep; assumption.
Qed.
(** host a does not hold /placement/a/i (the instance was placed elsewhere, or nowhere) and is not given it: whatever
    else happens -- any number of a's stale events for i among it -- /scheduled/i stays *)
Theorem thm_stale_events_keep_scheduled a i n ops : forall t,
  tget t (PPlacement a i) = None -> tget t (PScheduled i) = Some n -> forallb (stale_for a i n) ops = true ->
  tget (ep_run t ops) (PPlacement a i) = None /\ tget (ep_run t ops) (PScheduled i) = Some n.
Proof.
  induction ops as [|o r IH]; intros t Hp Hs Hst; cbn [ep_run]; [split; assumption|].
  cbn in Hst. apply andb_true_iff in Hst as [H1 H2].
  destruct (step_stale a i n t o Hp Hs H1) as [Hp' Hs']. apply IH; assumption.
Qed.
Lemma run_app t ops1 : forall ops2, ep_run t (ops1 ++ ops2) = ep_run (ep_run t ops1) ops2.
Proof. revert t. induction ops1 as [|o r IH]; intros t ops2; cbn; [reflexivity | apply IH]. Qed.
