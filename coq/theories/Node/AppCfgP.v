(** Proofs about Node/AppCfg.v. *)
From Coq Require Import ZArith List Bool.
From TM Require Import Node.AppCfg Node.ArrangeP.
Import ListNotations.
Open Scope Z_scope.

(** * Finite maps *)
Section MapFacts.
  Context {K V : Type} (eqb : K -> K -> bool).
  Hypothesis eqb_spec : forall a b, eqb a b = true <-> a = b.

  Lemma eqb_refl' a : eqb a a = true.
  Proof. now apply eqb_spec. Qed.

  Lemma mget_mset (m : list (K * V)) k v k' :
    mget eqb (mset eqb m k v) k' = if eqb k k' then Some v else mget eqb m k'.
  Proof.
    induction m as [|[k0 w] r IH]; cbn.
    - reflexivity.
    - destruct (eqb k0 k) eqn:E; cbn.
      + apply eqb_spec in E. subst k0. destruct (eqb k k'); reflexivity.
      + rewrite IH. destruct (eqb k0 k') eqn:E2; auto.
        destruct (eqb k k') eqn:E3; auto.
        apply eqb_spec in E2, E3. subst. rewrite eqb_refl' in E. discriminate.
  Qed.

  Lemma mget_mdel (m : list (K * V)) k k' :
    mget eqb (mdel eqb m k) k' = if eqb k k' then None else mget eqb m k'.
  Proof.
    induction m as [|[k0 w] r IH]; cbn.
    - destruct (eqb k k'); reflexivity.
    - destruct (eqb k0 k) eqn:E; cbn.
      + apply eqb_spec in E. subst k0. rewrite IH. destruct (eqb k k'); reflexivity.
      + rewrite IH. destruct (eqb k0 k') eqn:E2; auto.
        destruct (eqb k k') eqn:E3; auto.
        apply eqb_spec in E2, E3. subst. rewrite eqb_refl' in E. discriminate.
  Qed.
  Lemma mget_mset_other (m : list (K * V)) k v k' : k <> k' -> mget eqb (mset eqb m k v) k' = mget eqb m k'.
  Proof. intros H. rewrite mget_mset. destruct (eqb k k') eqn:E; [apply eqb_spec in E; contradiction | reflexivity]. Qed.

  Lemma mget_mdel_other (m : list (K * V)) k k' : k <> k' -> mget eqb (mdel eqb m k) k' = mget eqb m k'.
  Proof. intros H. rewrite mget_mdel. destruct (eqb k k') eqn:E; [apply eqb_spec in E; contradiction | reflexivity]. Qed.
  Lemma mget_keys (m : list (K * V)) k : In k (map fst m) <-> mget eqb m k <> None.
  Proof.
    induction m as [|[k0 v] r IH]; cbn; [split; [tauto | congruence]|].
    destruct (eqb k0 k) eqn:E.
    - apply eqb_spec in E. split; [congruence | auto].
    - rewrite IH. split; [intros [H|H]; [subst; rewrite eqb_refl' in E; discriminate | auto] | auto].
  Qed.
End MapFacts.

Lemma zeqb_spec a b : Z.eqb a b = true <-> a = b.
Proof. apply Z.eqb_eq. Qed.

Lemma cont_eqb_spec a b : cont_eqb a b = true <-> a = b.
Proof.
  destruct a as [a1 a2], b as [b1 b2]. unfold cont_eqb. cbn.
  rewrite andb_true_iff, !Z.eqb_eq. split; [intros [-> ->]; reflexivity | intros H; inversion H; auto].
Qed.

Lemma lname_eqb_spec a b : lname_eqb a b = true <-> a = b.
Proof.
  destruct a as [i|c], b as [j|d]; cbn.
  - rewrite Z.eqb_eq. split; [intros ->; reflexivity | intros H; inversion H; auto].
  - split; [discriminate | intros H; inversion H].
  - split; [discriminate | intros H; inversion H].
  - rewrite cont_eqb_spec. split; [intros ->; reflexivity | intros H; inversion H; auto].
Qed.

Lemma cont_eqb_false a b : cont_eqb a b = false <-> a <> b.
Proof. rewrite <- cont_eqb_spec. destruct (cont_eqb a b); split; congruence. Qed.

Definition rget_mset := mget_mset (V := cont) Z.eqb zeqb_spec.
Definition rget_mdel := mget_mdel (V := cont) Z.eqb zeqb_spec.
Definition lget_mset := mget_mset (V := cont) lname_eqb lname_eqb_spec.
Definition lget_mdel := mget_mdel (V := cont) lname_eqb lname_eqb_spec.
Definition aget_mset := mget_mset (V := flags) cont_eqb cont_eqb_spec.
Definition aget_mdel := mget_mdel (V := flags) cont_eqb cont_eqb_spec.
Definition cget_mset := mget_mset (V := Z * bool) Z.eqb zeqb_spec.
Definition cget_mdel := mget_mdel (V := Z * bool) Z.eqb zeqb_spec.

(** * Link shape: the only names under which a container can be linked *)
Definition wf (s : st) : Prop :=
  (forall i c, rget (running s) i = Some c -> app_name c = i) /\
  (forall l c, lget (cleanup s) l = Some c -> l = LInst (app_name c) \/ l = LCont c).

Lemma wf_init : wf init.
Proof. split; cbn; intros; discriminate. Qed.

Definition wf_running (r : list (inst * cont)) : Prop := forall i c, rget r i = Some c -> app_name c = i.
Definition wf_cleanup (k : list (lname * cont)) : Prop :=
  forall l c, lget k l = Some c -> l = LInst (app_name c) \/ l = LCont c.

Lemma wf_running_mset r i c : wf_running r -> app_name c = i -> wf_running (mset Z.eqb r i c).
Proof.
  intros W Hc j c'. unfold rget. rewrite rget_mset. destruct (Z.eqb i j) eqn:E; [|apply W].
  apply Z.eqb_eq in E. intros [= <-]. congruence.
Qed.

Lemma wf_running_mdel r i : wf_running r -> wf_running (mdel Z.eqb r i).
Proof. intros W j c'. unfold rget. rewrite rget_mdel. destruct (Z.eqb i j); [discriminate | apply W]. Qed.

Lemma wf_cleanup_mset k l c :
  wf_cleanup k -> l = LInst (app_name c) \/ l = LCont c -> wf_cleanup (mset lname_eqb k l c).
Proof.
  intros W Hl l' c'. unfold lget. rewrite lget_mset. destruct (lname_eqb l l') eqn:E; [|apply W].
  apply lname_eqb_spec in E. intros [= <-]. congruence.
Qed.

Lemma wf_cleanup_mdel k l : wf_cleanup k -> wf_cleanup (mdel lname_eqb k l).
Proof. intros W l' c'. unfold lget. rewrite lget_mdel. destruct (lname_eqb l l'); [discriminate | apply W]. Qed.

Lemma wf_configure s i : wf s -> wf (fst (configure s i)).
Proof.
  intros [W1 W2]. unfold configure.
  destruct (cget (cache s) i) as [[f [|]]|]; cbn [fst]; [| split; auto | split; auto].
  destruct (aget (apps s) (i, f)); (split; [now apply wf_running_mset | exact W2]).
Qed.

Lemma wf_terminate s i : wf s -> wf (terminate s i).
Proof.
  intros [W1 W2]. unfold terminate. destruct (rget (running s) i) as [c|]; [|split; auto].
  split; [now apply wf_running_mdel | apply wf_cleanup_mset; auto].
Qed.

Lemma wf_add_cleanup_link s o c : wf s -> wf (add_cleanup_link s o c).
Proof.
  intros [W1 W2]. unfold add_cleanup_link. destruct o; (split; [exact W1|]); [exact W2 | apply wf_cleanup_mset; auto].
Qed.

(** one step of the container loop, and the whole resynchronisation, are made of terminate, configure and
    add_cleanup_link: what these preserve, they preserve *)
Lemma sync_container_shape (P : st -> Prop) s cached c :
  P s -> P (terminate s (app_name c)) -> (forall t o, P t -> P (add_cleanup_link t o c)) ->
  P (fst (configure s (app_name c))) -> P (fst (sync_container (s, cached) c)).
Proof.
  intros H0 Ht Ha Hc. unfold sync_container.
  destruct (opt_is c (linked s (rget (running s) (app_name c)))).
  { now destruct (opt_is c (mget Z.eqb cached (app_name c))). }
  destruct (opt_is c (linked s (lget (cleanup s) (LInst (app_name c))))); [exact H0|].
  destruct (opt_is c (mget Z.eqb cached (app_name c))); cbn [fst]; auto.
  destruct (has_cleanup_file s c); cbn [fst]; auto.
  destruct (configure s (app_name c)) as [s1 ok]. cbn [fst] in *. destruct ok; auto.
Qed.

Lemma synchronize_shape (P : st -> Prop) s oc oi :
  P s -> (forall t cached c, P t -> P (fst (sync_container (t, cached) c))) ->
  (forall t i, P t -> P (fst (configure t i))) -> P (synchronize s oc oi).
Proof.
  intros H0 Hs Hc. unfold synchronize.
  assert (F1 : forall l sc, P (fst sc) -> P (fst (fold_left sync_container l sc)))
    by (induction l as [|c l IH]; intros [t d] Hp; cbn [fold_left]; auto).
  assert (F2 : forall l t, P t -> P (fold_left (fun s i => fst (configure s i)) l t))
    by (induction l as [|j l IH]; intros t Hp; cbn [fold_left]; auto).
  destruct (fold_left sync_container _ _) as [s1 c1] eqn:E. apply F2.
  change s1 with (fst (s1, c1)). rewrite <- E. now apply F1.
Qed.

Lemma wf_sync_container s cached c : wf s -> wf (fst (sync_container (s, cached) c)).
Proof. intros W. apply sync_container_shape; auto using wf_terminate, wf_configure, wf_add_cleanup_link. Qed.

Lemma wf_synchronize s oc oi : wf s -> wf (synchronize s oc oi).
Proof. intros W. apply synchronize_shape; auto using wf_sync_container, wf_configure. Qed.

Lemma wf_handle s e oc oi : wf s -> wf (handle s e oc oi).
Proof.
  intros W. destruct e as [i|i| | |b]; cbn.
  - destruct (negb (active s)); auto. destruct (rget (running s) i); auto.
    destruct (is_finished s i); auto. now apply wf_configure.
  - destruct (negb (active s)); auto. destruct (runs_manifest s i); auto. now apply wf_terminate.
  - destruct (active s); auto. now apply wf_synchronize.
  - exact W.
  - exact W.
Qed.

Lemma wf_flag_cont s c k : wf s -> wf (flag_cont s c k).
Proof.
  intros W. unfold flag_cont. destruct (aget (apps s) c); auto.
  unfold mark_finished. now destruct (memb cont_eqb c _).
Qed.

Lemma wf_step s o : wf s -> wf (step s o).
Proof.
  intros W. destruct o as [i f ok|i| | |b|oc oi|i k|c k|l| |]; cbn; auto.
  - now destruct (cget (cache s) i).
  - destruct (queue s) as [|e q]; auto. now apply wf_handle.
  - destruct (rget (running s) i) as [c|] eqn:Hr; auto.
    destruct (wf_flag_cont s c k W) as [W1 W2]. split; cbn.
    + now apply wf_running_mdel.
    + apply wf_cleanup_mset; auto. left. f_equal. symmetry. now apply W.
  - now apply wf_flag_cont.
  - destruct (lget (cleanup s) l) as [c|]; auto. destruct W as [Wr Wc]. split; [exact Wr | now apply wf_cleanup_mdel].
  - split; cbn; intros; discriminate.
Qed.

Lemma wf_run ops : forall s, wf s -> wf (run ops s).
Proof. induction ops as [|o r IH]; intros s W; cbn; auto. apply IH. now apply wf_step. Qed.

(** every event sequence: a container is linked at most as running/<its instance>,
    cleanup/<its instance> and cleanup/<its own name> *)
Theorem links_wf_all ops : wf (run ops init).
Proof. apply wf_run, wf_init. Qed.

Lemma configure_running s j i :
  rget (running (fst (configure s j))) i =
  if Z.eqb j i then match cget (cache s) i with Some (f, true) => Some (i, f) | _ => rget (running s) i end
  else rget (running s) i.
Proof.
  unfold configure. destruct (Z.eqb j i) eqn:E.
  - apply Z.eqb_eq in E. subst j. destruct (cget (cache s) i) as [[f [|]]|]; cbn [fst]; auto.
    destruct (aget (apps s) (i, f)); cbn; unfold rget; now rewrite rget_mset, Z.eqb_refl.
  - destruct (cget (cache s) j) as [[f [|]]|]; cbn [fst]; auto.
    destruct (aget (apps s) (j, f)); cbn; unfold rget; now rewrite rget_mset, E.
Qed.

Lemma terminate_running s j i :
  rget (running (terminate s j)) i = if Z.eqb j i then None else rget (running s) i.
Proof.
  unfold terminate. destruct (rget (running s) j) eqn:Hr; cbn.
  - unfold rget. now rewrite rget_mdel.
  - destruct (Z.eqb j i) eqn:E; [apply Z.eqb_eq in E; now subst | reflexivity].
Qed.

(** * Handlers other than a resynchronisation *)

(** every handler except a deleted event for the instance itself and a resynchronisation
    leaves a running link alone *)
Lemma handler_keeps_running s e oc oi i c :
  rget (running s) i = Some c ->
  (e = EvDeleted i -> runs_manifest s i = true) -> (e = EvReadyUp -> active s = true) ->
  rget (running (handle s e oc oi)) i = Some c.
Proof.
  intros Hr Hd Hu. destruct e as [j|j| | |b]; cbn; auto.
  - destruct (negb (active s)); auto. destruct (rget (running s) j) eqn:Hj; auto.
    destruct (is_finished s j); auto. rewrite configure_running.
    destruct (Z.eqb j i) eqn:E; auto. apply Z.eqb_eq in E. congruence.
  - destruct (negb (active s)); auto. destruct (runs_manifest s j) eqn:Hm; auto. rewrite terminate_running.
    destruct (Z.eqb j i) eqn:E; auto. apply Z.eqb_eq in E. subst. rewrite (Hd eq_refl) in Hm. discriminate.
  - now rewrite (Hu eq_refl).
Qed.

(** no handler for a cache event starts a container that has a cleanup file and is not running *)
Lemma event_no_restart s e oc oi c fl :
  e <> EvReadyUp ->
  aget (apps s) c = Some fl -> flagged fl = true -> rget (running s) (app_name c) <> Some c ->
  rget (running (handle s e oc oi)) (app_name c) <> Some c.
Proof.
  intros He Ha Hfl Hr. destruct e as [j|j| | |b]; cbn; auto; try congruence.
  - destruct (negb (active s)); auto. destruct (rget (running s) j) eqn:Hj; auto.
    destruct (is_finished s j) eqn:Hf; auto. rewrite configure_running.
    destruct (Z.eqb j (app_name c)) eqn:E; auto. apply Z.eqb_eq in E. subst j.
    destruct (cget (cache s) (app_name c)) as [[f [|]]|] eqn:Hc; auto. intros [= Hc'].
    unfold is_finished, current_cont in Hf. rewrite Hc in Hf.
    unfold has_cleanup_file in Hf. rewrite Hc', Ha in Hf. congruence.
  - destruct (negb (active s)); auto. destruct (runs_manifest s j); auto. rewrite terminate_running.
    now destruct (Z.eqb j (app_name c)).
Qed.

Lemma NoDup_split {A} (c : A) l : NoDup l -> In c l -> exists l1 l2, l = l1 ++ c :: l2 /\ ~ In c l1 /\ ~ In c l2.
Proof.
  intros Hnd Hin. destruct (in_split _ _ Hin) as (l1 & l2 & ->).
  exists l1, l2. split; auto. apply NoDup_remove_2 in Hnd. rewrite in_app_iff in Hnd. tauto.
Qed.

(** * One instance's view of the state; steps about other instances do not change it *)
Definition same_inst (i : inst) (s s' : st) : Prop :=
  cget (cache s') i = cget (cache s) i /\
  rget (running s') i = rget (running s) i /\
  lget (cleanup s') (LInst i) = lget (cleanup s) (LInst i) /\
  (forall f, lget (cleanup s') (LCont (i, f)) = lget (cleanup s) (LCont (i, f))) /\
  (forall f, aget (apps s') (i, f) = aget (apps s) (i, f)).

Lemma same_inst_refl i s : same_inst i s s.
Proof. repeat split; auto. Qed.

Lemma same_inst_trans i s1 s2 s3 : same_inst i s1 s2 -> same_inst i s2 s3 -> same_inst i s1 s3.
Proof.
  intros (A1 & A2 & A3 & A4 & A5) (B1 & B2 & B3 & B4 & B5).
  repeat split; intros; congruence.
Qed.

Lemma configure_other s i j : j <> i -> same_inst i s (fst (configure s j)).
Proof.
  intros Hj. unfold configure. destruct (cget (cache s) j) as [[f [|]]|]; cbn [fst]; [| | apply same_inst_refl].
  - destruct (aget (apps s) (j, f)); repeat split; cbn; auto; intros;
      (apply (mget_mset_other Z.eqb zeqb_spec) || apply (mget_mset_other cont_eqb cont_eqb_spec)); congruence.
  - repeat split; cbn; auto. now apply (mget_mdel_other Z.eqb zeqb_spec).
Qed.

Lemma terminate_other s i j : j <> i -> wf s -> same_inst i s (terminate s j).
Proof.
  intros Hj [W1 _]. unfold terminate. destruct (rget (running s) j) as [c|] eqn:Hr; [|apply same_inst_refl].
  assert (Hc : app_name c = j) by (now apply W1).
  repeat split; cbn; auto; intros.
  - now apply (mget_mdel_other Z.eqb zeqb_spec).
  - now apply (mget_mset_other lname_eqb lname_eqb_spec).
  - apply (mget_mset_other lname_eqb lname_eqb_spec). intros [= ->]. cbn in Hc. congruence.
Qed.

Lemma add_inst_link_other s i c' :
  app_name c' <> i -> same_inst i s (with_cleanup s (mset lname_eqb (cleanup s) (LInst (app_name c')) c')).
Proof.
  intros Hj. repeat split; cbn; auto; intros; apply (mget_mset_other lname_eqb lname_eqb_spec); congruence.
Qed.

Lemma add_cleanup_link_other s i o c' :
  app_name c' <> i -> same_inst i s (add_cleanup_link s o c').
Proof. intros H. unfold add_cleanup_link. destruct o; [apply same_inst_refl | now apply add_inst_link_other]. Qed.

Ltac psimpl := cbn [cache apps running cleanup active queue finished with_cache with_apps with_running
                    with_cleanup with_active with_queue with_finished enqueue fst snd].

Ltac psimpl_in H := cbn [cache apps running cleanup active queue finished with_cache with_apps with_running
                           with_cleanup with_active with_queue with_finished enqueue fst snd] in H.

Lemma configure_cache s j i :
  cget (cache (fst (configure s j))) i =
  if Z.eqb j i then match cget (cache s) i with Some (f, false) => None | v => v end else cget (cache s) i.
Proof.
  unfold configure. destruct (cget (cache s) j) as [[f [|]]|] eqn:Hc; psimpl.
  - destruct (aget (apps s) (j, f)); psimpl; (destruct (Z.eqb j i) eqn:E; [apply Z.eqb_eq in E; subst; now rewrite Hc | reflexivity]).
  - unfold cget in *. rewrite cget_mdel. destruct (Z.eqb j i) eqn:E; [apply Z.eqb_eq in E; subst; now rewrite Hc | reflexivity].
  - destruct (Z.eqb j i) eqn:E; [apply Z.eqb_eq in E; subst; now rewrite Hc | reflexivity].
Qed.

(** the final loop of _synchronize configures the instances left in the local dict, in any order, possibly twice *)
Lemma final_loop_running i l : forall s,
  rget (running (fold_left (fun s j => fst (configure s j)) l s)) i =
  match cget (cache s) i with
  | Some (f, true) => if memb Z.eqb i l then Some (i, f) else rget (running s) i
  | _ => rget (running s) i
  end.
Proof.
  induction l as [|j l IH]; intros s; cbn [fold_left memb]; [now destruct (cget (cache s) i) as [[f [|]]|]|].
  rewrite IH, configure_cache, configure_running. destruct (Z.eqb j i); cbn [orb]; [|reflexivity].
  destruct (cget (cache s) i) as [[f [|]]|]; [now destruct (memb Z.eqb i l) | reflexivity | reflexivity].
Qed.

Lemma final_loop_cleanup l : forall s, cleanup (fold_left (fun s j => fst (configure s j)) l s) = cleanup s.
Proof.
  induction l as [|j l IH]; intros s; cbn [fold_left]; [reflexivity|]. rewrite IH. unfold configure.
  destruct (cget (cache s) j) as [[f [|]]|]; [destruct (aget (apps s) (j, f))| |]; reflexivity.
Qed.

(** * What _synchronize does to an instance *)
Lemma cont_eta (c : cont) : c = (app_name c, snd c).
Proof. destruct c; reflexivity. Qed.

Definition cached0 (s : st) : list (inst * cont) := map (fun kv => (fst kv, (fst kv, fst (snd kv)))) (cache s).

(** the local dict loses at most the instance of the container *)
Lemma sync_container_cached s cached c :
  snd (sync_container (s, cached) c) = cached \/ snd (sync_container (s, cached) c) = mdel Z.eqb cached (app_name c).
Proof.
  unfold sync_container.
  destruct (opt_is c (linked s (rget (running s) (app_name c)))).
  { destruct (opt_is c (mget Z.eqb cached (app_name c))); auto. }
  destruct (opt_is c (linked s (lget (cleanup s) (LInst (app_name c))))).
  { destruct (opt_is c (mget Z.eqb cached (app_name c))); auto. }
  destruct (opt_is c (mget Z.eqb cached (app_name c))); [|auto].
  destruct (has_cleanup_file s c); [auto|]. destruct (configure s (app_name c)). auto.
Qed.

Lemma sync_container_other_eq s cached c' i t d :
  app_name c' <> i -> wf s -> sync_container (s, cached) c' = (t, d) ->
  same_inst i s t /\ mget Z.eqb d i = mget Z.eqb cached i.
Proof.
  intros H W E. split.
  - change t with (fst (t, d)). rewrite <- E.
    apply (sync_container_shape (same_inst i s)); [apply same_inst_refl | now apply terminate_other | | now apply configure_other].
    intros u o Hu. eapply same_inst_trans; [exact Hu | now apply add_cleanup_link_other].
  - change d with (snd (t, d)). rewrite <- E.
    destruct (sync_container_cached s cached c') as [-> | ->]; [reflexivity | now apply (mget_mdel_other Z.eqb zeqb_spec)].
Qed.

Lemma wf_sync_container_eq s cached c t d : wf s -> sync_container (s, cached) c = (t, d) -> wf t.
Proof. intros W E. generalize (wf_sync_container s cached c W). now rewrite E. Qed.

Lemma fold_sync_other_eq i l s cached sA cA :
  wf s -> (forall c', In c' l -> app_name c' <> i) ->
  fold_left sync_container l (s, cached) = (sA, cA) ->
  same_inst i s sA /\ mget Z.eqb cA i = mget Z.eqb cached i /\ wf sA.
Proof.
  revert s cached. induction l as [|c' l IH]; intros s cached W Hl H; cbn [fold_left] in H.
  - injection H as <- <-. split; [apply same_inst_refl | auto].
  - destruct (sync_container (s, cached) c') as [s1 c1] eqn:E.
    destruct (sync_container_other_eq s cached c' i s1 c1 (Hl _ (or_introl eq_refl)) W E) as [S1 M1].
    destruct (IH s1 c1 (wf_sync_container_eq _ _ _ _ _ W E) (fun x Hx => Hl x (or_intror Hx)) H) as (S2 & M2 & W2).
    split; [eapply same_inst_trans; eauto | split; [congruence | exact W2]].
Qed.

Lemma aget_keys (m : list (cont * flags)) c : In c (map fst m) <-> aget m c <> None.
Proof. apply (mget_keys cont_eqb cont_eqb_spec). Qed.

Definition conts (s : st) (oc : list cont) : list cont := arrangeb cont_eqb oc (map fst (apps s)).

Lemma conts_spec s oc c : In c (conts s oc) <-> aget (apps s) c <> None.
Proof. unfold conts. now rewrite (arrangeb_In cont_eqb cont_eqb_spec), aget_keys. Qed.

Lemma linked_apps s s' o : apps s' = apps s -> linked s' o = linked s o.
Proof. intros H. unfold linked. now rewrite H. Qed.

Lemma linked_some s o x : linked s o = Some x -> o = Some x /\ aget (apps s) x <> None.
Proof.
  unfold linked. destruct o as [c|]; [|discriminate]. destruct (aget (apps s) c) eqn:E; [|discriminate].
  intros H; inversion H; subst. split; [reflexivity | congruence].
Qed.

Lemma opt_is_true c o : opt_is c o = true <-> o = Some c.
Proof.
  unfold opt_is. destruct o as [c'|]; [|split; discriminate].
  rewrite cont_eqb_spec. split; [intros ->; reflexivity | intros H; inversion H; reflexivity].
Qed.

Lemma opt_is_false_some c x : opt_is c (Some x) = false <-> x <> c.
Proof. unfold opt_is. apply cont_eqb_false. Qed.

Definition Ki (s : st) (i : inst) := lget (cleanup s) (LInst i).

Lemma wf_Ki_inst s i c : wf s -> Ki s i = Some c -> app_name c = i.
Proof. intros [_ W] H. destruct (W _ _ H) as [E|E]; inversion E; auto. Qed.

Lemma linked_inst i s t o :
  (forall f, aget (apps t) (i, f) = aget (apps s) (i, f)) -> (forall c, o = Some c -> app_name c = i) ->
  linked t o = linked s o.
Proof. intros Ha Ho. destruct o as [c|]; cbn; auto. rewrite (cont_eta c), (Ho c eq_refl). now rewrite Ha. Qed.

Lemma nc_step s cached i f' t d :
  wf s -> opt_is (i, f') (mget Z.eqb cached i) = false ->
  sync_container (s, cached) (i, f') = (t, d) ->
  d = cached /\ apps t = apps s /\ cache t = cache s /\
  rget (running t) i = (if opt_is (i, f') (linked s (rget (running s) i)) then None else rget (running s) i) /\
  (linked s (Ki s i) <> None -> Ki t i = Ki s i) /\
  (forall x, linked t (Ki t i) = Some x -> linked s (Ki s i) = Some x \/ x = (i, f')) /\
  (forall x, lget (cleanup s) (LCont x) = Some x -> lget (cleanup t) (LCont x) = Some x) /\
  (opt_is (i, f') (linked s (rget (running s) i)) = true -> lget (cleanup t) (LCont (i, f')) = Some (i, f')).
Proof.
  intros W Hnc H. unfold sync_container in H. cbn [app_name fst] in H. rewrite Hnc in H. fold (Ki s i) in H.
  destruct (opt_is (i, f') (linked s (rget (running s) i))) eqn:E1.
  - inversion H; subst t d; clear H.
    apply opt_is_true in E1. apply linked_some in E1. destruct E1 as [Hr _].
    unfold terminate. rewrite Hr. psimpl. repeat split; auto.
    + unfold rget. rewrite rget_mdel, Z.eqb_refl. reflexivity.
    + intros _. unfold Ki. psimpl. unfold lget. rewrite lget_mset. reflexivity.
    + intros x Hx. left. unfold Ki in *. psimpl_in Hx. unfold lget in Hx. rewrite lget_mset in Hx. cbn [lname_eqb] in Hx.
      rewrite <- Hx. symmetry. now apply linked_apps.
    + intros x Hx. unfold lget. rewrite lget_mset. destruct (lname_eqb (LCont (i, f')) (LCont x)) eqn:E; auto.
      apply lname_eqb_spec in E. inversion E; subst. reflexivity.
    + intros _. unfold lget. rewrite lget_mset. now rewrite (proj2 (lname_eqb_spec _ _) eq_refl).
  - destruct (opt_is (i, f') (linked s (Ki s i))) eqn:E2.
    + inversion H; subst t d; clear H. repeat split; auto. discriminate.
    + inversion H; subst t d; clear H. unfold add_cleanup_link. cbn [app_name fst].
      destruct (linked s (Ki s i)) as [k|] eqn:Ek.
      * repeat split; auto; [intros x Hx; left; congruence | discriminate].
      * psimpl. repeat split; auto.
        -- congruence.
        -- intros x Hx. right. unfold Ki in Hx. psimpl_in Hx. unfold lget in Hx. rewrite lget_mset in Hx.
           rewrite (proj2 (lname_eqb_spec _ _) eq_refl) in Hx. apply linked_some in Hx. destruct Hx as [Hx _].
           congruence.
        -- intros x Hx. unfold lget. rewrite lget_mset. cbn. exact Hx.
        -- discriminate.
Qed.

Definition kill (L : list cont) (s : st) (i : inst) : option cont :=
  match linked s (rget (running s) i) with
  | Some x => if memb cont_eqb x L then None else rget (running s) i
  | None => rget (running s) i
  end.

Definition r_killed (s : st) (i : inst) : option cont :=
  match linked s (rget (running s) i) with Some _ => None | None => rget (running s) i end.

(** [t], [d] come from [s], [cached] by visiting the containers [L], none of which is the cached generation of
    instance [i]: what instance [i] can tell *)
Definition nc_inv (i : inst) (L : list cont) (s : st) (cached : list (inst * cont)) (t : st) (d : list (inst * cont)) :=
  mget Z.eqb d i = mget Z.eqb cached i /\
  (forall f, aget (apps t) (i, f) = aget (apps s) (i, f)) /\
  cget (cache t) i = cget (cache s) i /\ wf t /\
  rget (running t) i = kill L s i /\
  (linked s (Ki s i) <> None -> Ki t i = Ki s i) /\
  (forall x, linked t (Ki t i) = Some x -> linked s (Ki s i) = Some x \/ In x L) /\
  (forall f, lget (cleanup s) (LCont (i, f)) = Some (i, f) -> lget (cleanup t) (LCont (i, f)) = Some (i, f)) /\
  (forall x, In x L -> linked s (rget (running s) i) = Some x -> lget (cleanup t) (LCont x) = Some x).

Lemma nc_fold i : forall L s cached t d,
  wf s -> (forall c', In c' L -> app_name c' = i -> opt_is c' (mget Z.eqb cached i) = false) ->
  fold_left sync_container L (s, cached) = (t, d) -> nc_inv i L s cached t d.
Proof.
  induction L as [|c' L IH]; intros s cached t d W HL H.
  { cbn in H. inversion H; subst. unfold nc_inv, kill.
    split; [reflexivity|]. split; [reflexivity|]. split; [reflexivity|]. split; [exact W|].
    split; [now destruct (linked t (rget (running t) i))|]. split; [auto|]. split; [auto|]. split; [auto|]. intros x []. }
  cbn [fold_left] in H. destruct (sync_container (s, cached) c') as [s1 d1] eqn:E1.
  assert (W1 : wf s1) by exact (wf_sync_container_eq s cached c' s1 d1 W E1).
  destruct (Z.eq_dec (app_name c') i) as [Hi|Hi].
  - (* a generation of [i] that is not the cached one *)
    destruct c' as [j f']. cbn in Hi. subst j.
    destruct (nc_step s cached i f' s1 d1 W (HL _ (or_introl eq_refl) eq_refl) E1) as (N1 & N2 & N3 & N4 & N5 & N6 & N7 & N8).
    subst d1.
    destruct (IH s1 cached t d W1 (fun x Hx => HL x (or_intror Hx)) H) as (I1 & I2 & I3 & I4 & I5 & I6 & I7 & I8 & I9).
    assert (Hlk : forall o, linked s1 o = linked s o) by (intros o; now apply linked_apps).
    split; [exact I1|]. split; [intros f; now rewrite I2, N2|]. split; [congruence|]. split; [exact I4|].
    split; [|split; [|split; [|split]]].
    + rewrite I5. unfold kill. rewrite Hlk, N4. cbn [memb].
      destruct (linked s (rget (running s) i)) as [x|] eqn:Ex; cbn [opt_is].
      * destruct (cont_eqb x (i, f')) eqn:Exc.
        -- apply cont_eqb_spec in Exc. subst x. unfold cont_eqb. cbn [fst snd].
           rewrite !Z.eqb_refl. cbn [andb orb linked]. reflexivity.
        -- rewrite Ex.
           assert (E' : cont_eqb (i, f') x = false).
           { apply cont_eqb_false. apply cont_eqb_false in Exc. congruence. }
           rewrite E'. reflexivity.
      * rewrite Ex. reflexivity.
    + intros Hk. rewrite I6; [now apply N5|]. rewrite Hlk. rewrite (N5 Hk). exact Hk.
    + intros x Hx. destruct (I7 x Hx) as [Hy|Hy]; [|right; right; exact Hy].
      destruct (N6 x Hy) as [Hz|Hz]; [left; exact Hz | right; left; congruence].
    + intros f Hx. apply I8. now apply N7.
    + intros x [<-|Hx] Hr.
      * apply I8. apply N8. rewrite Hr. apply opt_is_true. reflexivity.
      * destruct (cont_eqb x (i, f')) eqn:Exc.
        -- apply cont_eqb_spec in Exc. subst x. apply I8. apply N8. rewrite Hr. apply opt_is_true. reflexivity.
        -- apply I9; auto. rewrite Hlk, N4, Hr. cbn [opt_is]. rewrite Exc. exact Hr.
  - (* a container of another instance: [i] sees no difference between [s] and [s1] *)
    destruct (sync_container_other_eq s cached c' i s1 d1 Hi W E1) as [(A1 & A2 & A3 & A4 & A5) M1].
    assert (HL1 : forall x, In x L -> app_name x = i -> opt_is x (mget Z.eqb d1 i) = false)
      by (intros x Hx Hxi; rewrite M1; apply HL; auto; now right).
    destruct (IH s1 d1 t d W1 HL1 H) as (I1 & I2 & I3 & I4 & I5 & I6 & I7 & I8 & I9).
    assert (Hlr : linked s1 (rget (running s) i) = linked s (rget (running s) i))
      by (apply (linked_inst i); [exact A5 | intros c; apply W]).
    assert (Hlc : linked s1 (Ki s i) = linked s (Ki s i))
      by (apply (linked_inst i); [exact A5 | intros c; now apply wf_Ki_inst]).
    unfold nc_inv, kill, Ki in *. rewrite A2, A3, ?Hlr, ?Hlc in *.
    split; [congruence|]. split; [intros f; now rewrite I2|]. split; [congruence|]. split; [exact I4|].
    split; [|split; [exact I6|]; split; [|split]].
    + rewrite I5. destruct (linked s (rget (running s) i)) as [x|] eqn:Ex; [|reflexivity]. cbn [memb].
      replace (cont_eqb c' x) with false; [reflexivity|]. symmetry. apply cont_eqb_false. intros ->.
      apply linked_some in Ex as [Ex _]. apply Hi. now apply W.
    + intros x Hx. destruct (I7 x Hx); [now left | right; now right].
    + intros f Hx. apply I8. now rewrite A4.
    + intros x [<-|Hx] Hr; [|now apply I9]. apply linked_some in Hr as [Hr _]. exfalso. apply Hi. now apply W.
Qed.

Lemma memb_app {A} (eqb : A -> A -> bool) x l1 l2 : memb eqb x (l1 ++ l2) = memb eqb x l1 || memb eqb x l2.
Proof. induction l1 as [|y r IH]; cbn; auto. rewrite IH. now rewrite orb_assoc. Qed.

Lemma kill_cases L s i : kill L s i = None \/ kill L s i = rget (running s) i.
Proof. unfold kill. destruct (linked s (rget (running s) i)) as [x|]; auto. destruct (memb cont_eqb x L); auto. Qed.

Lemma kill_compose L1 L2 s t i :
  linked t (kill L1 s i) = linked s (kill L1 s i) -> rget (running t) i = kill L1 s i ->
  kill L2 t i = kill (L1 ++ L2) s i.
Proof.
  intros Ha Hr.
  assert (E : kill L2 t i = match linked s (kill L1 s i) with
                           | Some x => if memb cont_eqb x L2 then None else kill L1 s i
                           | None => kill L1 s i end).
  { unfold kill at 1. now rewrite Hr, Ha. }
  rewrite E. unfold kill.
  destruct (linked s (rget (running s) i)) as [x|] eqn:Ex.
  - rewrite memb_app. destruct (memb cont_eqb x L1); cbn [orb linked]; auto. now rewrite Ex.
  - now rewrite Ex.
Qed.

Lemma kill_all L s i : (forall x, linked s (rget (running s) i) = Some x -> In x L) -> kill L s i = r_killed s i.
Proof.
  intros H. unfold kill, r_killed. destruct (linked s (rget (running s) i)) as [x|]; auto.
  rewrite (proj2 (memb_In cont_eqb cont_eqb_spec x L) (H x eq_refl)). reflexivity.
Qed.

Lemma kill_keep L s i c : rget (running s) i = Some c -> ~ In c L -> kill L s i = Some c.
Proof.
  intros Hr Hn. unfold kill. rewrite Hr. destruct (linked s (Some c)) as [x|] eqn:E; auto.
  apply linked_some in E. destruct E as [E _]. inversion E; subst.
  rewrite (proj2 (memb_false cont_eqb cont_eqb_spec x L) Hn). reflexivity.
Qed.

(** ** the running link of an instance after a resynchronisation, every state, any number of generations *)
Definition expected_running (s : st) (i : inst) : option cont :=
  match cget (cache s) i with
  | Some (f, ok) =>
      match aget (apps s) (i, f) with
      | Some fl =>
          if opt_is (i, f) (linked s (rget (running s) i)) then Some (i, f)      (* already running: left alone *)
          else if opt_is (i, f) (linked s (Ki s i)) || flagged fl || negb ok
               then r_killed s i                              (* in cleanup, finished, or configure fails *)
               else Some (i, f)                               (* configured *)
      | None => if ok then Some (i, f) else r_killed s i      (* new manifest: configured *)
      end
  | None => r_killed s i                                      (* not cached: a running generation is terminated *)
  end.

Lemma cached0_i s i :
  mget Z.eqb (cached0 s) i = match cget (cache s) i with Some v => Some ((i, fst v) : cont) | None => None end.
Proof.
  unfold cached0. induction (cache s) as [|[k v] r IH]; cbn; auto.
  destruct (Z.eqb k i) eqn:E; auto. apply Z.eqb_eq in E. now subst.
Qed.

Lemma linked_running_in s oc i x : linked s (rget (running s) i) = Some x -> In x (conts s oc).
Proof. intros H. apply linked_some in H as [_ Ha]. now apply conts_spec. Qed.

Lemma opt_is_refl c : opt_is c (Some c) = true.
Proof. now apply opt_is_true. Qed.

Lemma memb_rest (m : list (inst * cont)) oi i :
  memb Z.eqb i (arrangeb Z.eqb oi (map fst m)) = true <-> mget Z.eqb m i <> None.
Proof. now rewrite (memb_In Z.eqb zeqb_spec), (arrangeb_In Z.eqb zeqb_spec), (mget_keys Z.eqb zeqb_spec). Qed.

Lemma sync_running_view s oc oi i sB cB :
  fold_left sync_container (conts s oc) (s, cached0 s) = (sB, cB) ->
  rget (running (synchronize s oc oi)) i =
  rget (running (match mget Z.eqb cB i with Some _ => fst (configure sB i) | None => sB end)) i.
Proof.
  intros HB. unfold synchronize. fold (cached0 s) (conts s oc). rewrite HB, final_loop_running.
  pose proof (memb_rest cB oi i) as Hm. destruct (mget Z.eqb cB i).
  - rewrite configure_running, Z.eqb_refl, (proj2 Hm); [reflexivity | discriminate].
  - destruct (memb Z.eqb i _); [now destruct (proj1 Hm eq_refl)|].
    now destruct (cget (cache sB) i) as [[f [|]]|].
Qed.

(** no container directory is the cached generation of the instance: the container loop only terminates *)
Lemma sync_no_current s oc i sB cB :
  wf s -> (forall f ok, cget (cache s) i = Some (f, ok) -> aget (apps s) (i, f) = None) ->
  fold_left sync_container (conts s oc) (s, cached0 s) = (sB, cB) ->
  nc_inv i (conts s oc) s (cached0 s) sB cB /\ kill (conts s oc) s i = r_killed s i.
Proof.
  intros W Hnew HB. split; [|apply kill_all; intros x Hx; eapply linked_running_in; eauto].
  apply nc_fold; [exact W | | exact HB]. intros c' Hc' _. apply conts_spec in Hc'. rewrite cached0_i.
  destruct (cget (cache s) i) as [[f ok]|] eqn:Hc; [|reflexivity]. cbn [fst].
  apply opt_is_false_some. intros E. rewrite <- E in Hc'. exact (Hc' (Hnew f ok eq_refl)).
Qed.

(** the step of the container loop on the cached generation [(i, f)] of an instance, after the loop has visited
    [L1]: the container is running afterwards, or the running link is what the visit of [L1] left *)
Lemma cur_step i f fl ok s L1 sA cA sM cM :
  wf s -> nc_inv i L1 s (cached0 s) sA cA -> ~ In (i, f) L1 ->
  cget (cache s) i = Some (f, ok) -> aget (apps s) (i, f) = Some fl ->
  sync_container (sA, cA) (i, f) = (sM, cM) ->
  mget Z.eqb cM i = None /\ wf sM /\
  let E := if opt_is (i, f) (linked s (rget (running s) i)) then Some (i, f)
           else if opt_is (i, f) (linked s (Ki s i)) || flagged fl || negb ok then r_killed s i else Some (i, f) in
  (rget (running sM) i = Some (i, f) /\ E = Some (i, f) \/
   (forall f', aget (apps sM) (i, f') = aget (apps s) (i, f')) /\ rget (running sM) i = kill L1 s i /\
   opt_is (i, f) (linked s (rget (running s) i)) = false /\ E = r_killed s i).
Proof.
  intros W (A1 & A2 & A3 & A4 & A5 & A6 & A7 & _) Hn1 Hc Ha HM.
  assert (WM : wf sM) by exact (wf_sync_container_eq sA cA (i, f) sM cM A4 HM).
  assert (Hdel : mget Z.eqb (mdel Z.eqb cA i) i = None) by (rewrite (mget_mdel Z.eqb zeqb_spec); now rewrite Z.eqb_refl).
  unfold sync_container in HM. cbn [app_name fst] in HM. rewrite A1, cached0_i, Hc in HM. cbn [fst] in HM.
  rewrite opt_is_refl in HM. fold (Ki sA i) in HM.
  rewrite (linked_inst i s sA (rget (running sA) i) A2) in HM by (intros c; apply A4).
  rewrite (linked_inst i s sA (Ki sA i) A2) in HM by (intros c; now apply wf_Ki_inst).
  cbv zeta. destruct (opt_is (i, f) (linked s (rget (running s) i))) eqn:E1.
  - (* already running *)
    assert (HRA : rget (running sA) i = Some (i, f)).
    { rewrite A5. apply kill_keep; auto. apply opt_is_true in E1. now apply linked_some in E1. }
    rewrite HRA in HM. replace (linked s (Some (i, f))) with (Some (i, f)) in HM by (cbn; now rewrite Ha).
    rewrite opt_is_refl in HM. inversion HM; subst sM cM; clear HM. auto.
  - assert (E1A : opt_is (i, f) (linked s (rget (running sA) i)) = false).
    { rewrite A5. destruct (kill_cases L1 s i) as [->| ->]; [reflexivity | exact E1]. }
    rewrite E1A in HM.
    destruct (opt_is (i, f) (linked s (Ki s i))) eqn:E2; cbn [orb].
    + (* in cleanup under the instance name *)
      assert (HK : Ki sA i = Ki s i).
      { apply A6. apply opt_is_true in E2. congruence. }
      rewrite HK, E2 in HM. inversion HM; subst sM cM; clear HM. split; [exact Hdel|]. split; [exact WM|]. right. auto.
    + assert (E2A : opt_is (i, f) (linked s (Ki sA i)) = false).
      { destruct (linked s (Ki sA i)) as [x|] eqn:Ex; [|reflexivity].
        apply opt_is_false_some. intros ->.
        rewrite <- (linked_inst i s sA (Ki sA i) A2) in Ex by (intros c; now apply wf_Ki_inst).
        destruct (A7 _ Ex) as [H|H].
        - rewrite H, opt_is_refl in E2. discriminate.
        - contradiction. }
      rewrite E2A in HM. unfold has_cleanup_file in HM. rewrite A2, Ha in HM.
      assert (Hadd : forall t o, apps (add_cleanup_link t o (i, f)) = apps t /\
                                 running (add_cleanup_link t o (i, f)) = running t)
        by (intros t o; unfold add_cleanup_link; now destruct o).
      destruct (flagged fl); cbn [orb].
      * (* finished *)
        inversion HM; subst sM cM; clear HM. split; [exact Hdel|]. split; [exact WM|]. right.
        rewrite (proj1 (Hadd _ _)), (proj2 (Hadd _ _)). auto.
      * unfold configure in HM. rewrite A3, Hc, A2, Ha in HM. destruct ok; cbn [negb];
          inversion HM; subst sM cM; clear HM; (split; [exact Hdel|]); (split; [exact WM|]).
        -- left. split; [|reflexivity]. psimpl. unfold rget. now rewrite rget_mset, Z.eqb_refl.
        -- right. rewrite (proj1 (Hadd _ _)), (proj2 (Hadd _ _)). auto.
Qed.

Theorem sync_running_general s oc oi i :
  wf s -> NoDup (map fst (apps s)) ->
  rget (running (synchronize s oc oi)) i = expected_running s i.
Proof.
  intros W Hnd.
  destruct (fold_left sync_container (conts s oc) (s, cached0 s)) as [sB cB] eqn:HB.
  rewrite (sync_running_view s oc oi i sB cB HB).
  unfold expected_running.
  assert (Hno : (forall f ok, cget (cache s) i = Some (f, ok) -> aget (apps s) (i, f) = None) ->
    rget (running (match mget Z.eqb cB i with Some _ => fst (configure sB i) | None => sB end)) i =
    match cget (cache s) i with Some (f, true) => Some (i, f) | _ => r_killed s i end).
  { intros Hnew. destruct (sync_no_current s oc i sB cB W Hnew HB) as [(N1 & _ & N3 & _ & N5 & _) <-].
    rewrite N1, cached0_i. destruct (cget (cache s) i) as [[f ok]|] eqn:Hc; [|exact N5].
    rewrite configure_running, Z.eqb_refl, N3. now destruct ok. }
  destruct (cget (cache s) i) as [[f ok]|] eqn:Hc; [|now apply Hno].
  destruct (aget (apps s) (i, f)) as [fl|] eqn:Ha; [|rewrite Hno; [now destruct ok | now intros f' ok' [= <- <-]]].
  clear Hno.
  (* cached and its container exists: it is visited, once; before it, at it, after it *)
  assert (Hin : In (i, f) (conts s oc)) by (apply conts_spec; congruence).
  destruct (@NoDup_split cont (i, f) _ (arrangeb_NoDup cont_eqb cont_eqb_spec oc _ Hnd) Hin) as (L1 & L2 & Hsp & Hn1 & Hn2).
  fold (conts s oc) in Hsp. rewrite Hsp, fold_left_app in HB. cbn [fold_left] in HB.
  destruct (fold_left sync_container L1 (s, cached0 s)) as [sA cA] eqn:HA.
  destruct (sync_container (sA, cA) (i, f)) as [sM cM] eqn:HM. rename HB into HT.
  assert (NA : nc_inv i L1 s (cached0 s) sA cA).
  { apply nc_fold; [exact W | | exact HA]. intros c' Hc' _. rewrite cached0_i, Hc. cbn [fst].
    apply opt_is_false_some. intros E. apply Hn1. now rewrite E. }
  destruct (cur_step i f fl ok s L1 sA cA sM cM W NA Hn1 Hc Ha HM) as (Hm & WM & HE). cbv zeta in HE.
  assert (HL2 : forall c', In c' L2 -> app_name c' = i -> opt_is c' (mget Z.eqb cM i) = false)
    by (intros c' _ _; now rewrite Hm).
  destruct (nc_fold i L2 sM cM sB cB WM HL2 HT) as (T1 & _ & _ & _ & T5 & _). rewrite T1, Hm, T5.
  destruct HE as [[Hr ->] | (Hap & Hr & E1 & ->)]; [now apply kill_keep|].
  rewrite (kill_compose L1 L2 s sM i); [| | exact Hr].
  - apply kill_all. intros x Hx. assert (Hxi := linked_running_in s oc i x Hx). rewrite Hsp in Hxi.
    apply in_app_or in Hxi. apply in_or_app. destruct Hxi as [H|[H|H]]; auto.
    subst x. rewrite Hx, opt_is_refl in E1. discriminate.
  - apply (linked_inst i); [exact Hap|]. intros c Hk. destruct (kill_cases L1 s i) as [E|E]; rewrite E in Hk; [discriminate|].
    now apply W.
Qed.

(** ** Corollaries *)

(** an unchanged running container is left running by a resynchronisation, whatever else is in apps/ *)
Lemma sync_keeps_unchanged s oc oi i f ok :
  wf s -> NoDup (map fst (apps s)) ->
  rget (running s) i = Some (i, f) -> aget (apps s) (i, f) <> None -> cget (cache s) i = Some (f, ok) ->
  rget (running (synchronize s oc oi)) i = Some (i, f).
Proof.
  intros W Hnd Hr Ha Hc. rewrite (sync_running_general s oc oi i W Hnd). unfold expected_running.
  rewrite Hc. destruct (aget (apps s) (i, f)) as [fl|] eqn:E; [|congruence].
  rewrite Hr. cbn [linked]. rewrite E. now rewrite opt_is_refl.
Qed.

(** a resynchronisation never starts a container that has a cleanup file and is not running *)
Lemma sync_no_restart s oc oi c fl :
  wf s -> NoDup (map fst (apps s)) ->
  aget (apps s) c = Some fl -> flagged fl = true -> rget (running s) (app_name c) <> Some c ->
  rget (running (synchronize s oc oi)) (app_name c) <> Some c.
Proof.
  intros W Hnd Ha Hfl Hr. rewrite (sync_running_general s oc oi _ W Hnd). unfold expected_running.
  assert (Hk : r_killed s (app_name c) <> Some c).
  { unfold r_killed. destruct (linked s (rget (running s) (app_name c))); [discriminate | exact Hr]. }
  destruct (cget (cache s) (app_name c)) as [[f ok]|] eqn:Hc; auto.
  destruct (Z.eq_dec f (snd c)) as [->|Hf].
  - rewrite <- (cont_eta c), Ha.
    destruct (opt_is c (linked s (rget (running s) (app_name c)))) eqn:E1.
    + apply opt_is_true in E1. apply linked_some in E1. destruct E1 as [E1 _]. congruence.
    + rewrite Hfl, orb_true_r. cbn [orb]. exact Hk.
  - assert (Hne : (app_name c, f) <> c) by (rewrite (cont_eta c) at 2; intros H; inversion H; congruence).
    destruct (aget (apps s) (app_name c, f)).
    + destruct (opt_is _ _); [congruence|]. destruct (_ || _ || _); [exact Hk | congruence].
    + destruct ok; [congruence | exact Hk].
Qed.

(** a running generation whose manifest is gone, or was replaced by one that is not configured yet, is handed
    to cleanup, and the new manifest (if any, and configurable) is configured *)
Lemma sync_hands_over s oc oi i x :
  wf s -> NoDup (map fst (apps s)) ->
  linked s (rget (running s) i) = Some x ->
  (forall f ok, cget (cache s) i = Some (f, ok) -> aget (apps s) (i, f) = None) ->
  lget (cleanup (synchronize s oc oi)) (LCont x) = Some x /\
  rget (running (synchronize s oc oi)) i = match cget (cache s) i with Some (f, true) => Some (i, f) | _ => None end.
Proof.
  intros W Hnd Hx Hnew. split.
  - destruct (fold_left sync_container (conts s oc) (s, cached0 s)) as [sB cB] eqn:HB.
    unfold synchronize. fold (cached0 s) (conts s oc). rewrite HB, final_loop_cleanup.
    destruct (sync_no_current s oc i sB cB W Hnew HB) as [(_ & _ & _ & _ & _ & _ & _ & _ & N9) _].
    apply N9; [now apply (linked_running_in s oc i) | exact Hx].
  - rewrite (sync_running_general s oc oi i W Hnd). unfold expected_running, r_killed. rewrite Hx.
    destruct (cget (cache s) i) as [[f ok]|] eqn:Hc; auto.
    rewrite (Hnew f ok eq_refl). reflexivity.
Qed.

(** * apps/ has one entry per container name, in every reachable state *)
Lemma keys_mset (m : list (cont * flags)) k v : NoDup (map fst m) -> NoDup (map fst (mset cont_eqb m k v)).
Proof.
  induction m as [|[k0 w] r IH]; cbn; intros H; [repeat constructor; auto|].
  inversion H as [|? ? Hn Hr]; subst. destruct (cont_eqb k0 k) eqn:E; cbn; constructor; auto.
  intros Hin. apply Hn. apply aget_keys. apply aget_keys in Hin. unfold aget in *. rewrite aget_mset in Hin.
  destruct (cont_eqb k k0) eqn:E'; [|exact Hin].
  apply cont_eqb_spec in E'. subst. now rewrite (proj2 (cont_eqb_spec _ _) eq_refl) in E.
Qed.

Lemma keys_mdel (m : list (cont * flags)) k : NoDup (map fst m) -> NoDup (map fst (mdel cont_eqb m k)).
Proof.
  induction m as [|[k0 w] r IH]; cbn; intros H; [constructor|].
  inversion H as [|? ? Hn Hr]; subst. destruct (cont_eqb k0 k); cbn; auto. constructor; auto.
  intros Hin. apply Hn. apply aget_keys. apply aget_keys in Hin. unfold aget in *. rewrite aget_mdel in Hin.
  now destruct (cont_eqb k k0).
Qed.

Definition nd (s : st) : Prop := NoDup (map fst (apps s)).

Lemma nd_same s s' : apps s' = apps s -> nd s -> nd s'.
Proof. unfold nd. now intros ->. Qed.

Lemma nd_configure s i : nd s -> nd (fst (configure s i)).
Proof.
  intros H. unfold configure. destruct (cget (cache s) i) as [[f [|]]|]; cbn [fst]; auto.
  destruct (aget (apps s) (i, f)); unfold nd; psimpl; auto. now apply keys_mset.
Qed.

Lemma nd_terminate s i : nd s -> nd (terminate s i).
Proof. unfold terminate. now destruct (rget (running s) i). Qed.

Lemma nd_flag_cont s c k : nd s -> nd (flag_cont s c k).
Proof.
  intros H. unfold flag_cont. destruct (aget (apps s) c); auto. unfold mark_finished, nd.
  destruct (memb cont_eqb c _); psimpl; now apply keys_mset.
Qed.

Lemma nd_sync_container s cached c : nd s -> nd (fst (sync_container (s, cached) c)).
Proof.
  intros H. apply sync_container_shape; auto using nd_terminate, nd_configure.
  intros t o. unfold add_cleanup_link. now destruct o.
Qed.

Lemma nd_synchronize s oc oi : nd s -> nd (synchronize s oc oi).
Proof. intros H. apply synchronize_shape; auto using nd_sync_container, nd_configure. Qed.

Lemma nd_step s o : nd s -> nd (step s o).
Proof.
  intros H. destruct o as [i f ok|i| | |b|oc oi|i k|c k|l| |]; cbn; auto using nd_flag_cont.
  - now destruct (cget (cache s) i).
  - destruct (queue s) as [|e q]; auto. destruct e as [i|i| | |b]; cbn; auto.
    + destruct (negb (active s)); auto. destruct (rget (running s) i); auto.
      destruct (is_finished _ i); auto. now apply nd_configure.
    + destruct (negb (active s)); auto. destruct (runs_manifest _ i); auto. now apply nd_terminate.
    + destruct (active s); auto. now apply nd_synchronize.
  - destruct (rget (running s) i) as [c|]; auto. now apply (nd_flag_cont s c k) in H.
  - destruct (lget (cleanup s) l); auto. unfold nd. psimpl. now apply keys_mdel.
Qed.

Lemma nd_run ops : forall s, nd s -> nd (run ops s).
Proof. induction ops as [|o r IH]; intros s H; cbn; auto. apply IH. now apply nd_step. Qed.

Theorem reachable_ok ops : wf (run ops init) /\ nd (run ops init).
Proof. split; [apply links_wf_all | apply nd_run; constructor]. Qed.

Lemma event_eq_dec (a b : event) : {a = b} + {a <> b}.
Proof. decide equality; try apply Z.eq_dec; apply bool_dec. Qed.

Lemma unchanged_stays s e oc oi i f ok :
  wf s -> nd s ->
  rget (running s) i = Some (i, f) -> aget (apps s) (i, f) <> None -> cget (cache s) i = Some (f, ok) ->
  rget (running (handle s e oc oi)) i = Some (i, f).
Proof.
  intros W N Hr Ha Hc. destruct (event_eq_dec e EvReadyUp) as [->|He].
  - cbn. destruct (active s) eqn:Hact; [exact Hr|].
    exact (sync_keeps_unchanged (with_active s true) oc oi i f ok W N Hr Ha Hc).
  - apply handler_keeps_running; [exact Hr | | congruence].
    intros _. unfold runs_manifest, current_cont. rewrite Hc, Hr. cbn [linked].
    destruct (aget (apps s) (i, f)); [apply opt_is_refl | congruence].
Qed.

Lemma no_restart_finished s e oc oi c fl :
  wf s -> nd s ->
  aget (apps s) c = Some fl -> flagged fl = true -> rget (running s) (app_name c) <> Some c ->
  rget (running (handle s e oc oi)) (app_name c) <> Some c.
Proof.
  intros W N Ha Hfl Hr. destruct (event_eq_dec e EvReadyUp) as [->|He].
  - cbn. destruct (active s) eqn:Hact; [exact Hr|].
    exact (sync_no_restart (with_active s true) oc oi c fl W N Ha Hfl Hr).
  - exact (event_no_restart s e oc oi c fl He Ha Hfl Hr).
Qed.

Lemma sync_configures_new s oc oi i f :
  wf s -> nd s -> cget (cache s) i = Some (f, true) -> aget (apps s) (i, f) = None ->
  rget (running (synchronize s oc oi)) i = Some (i, f).
Proof. intros W N Hc Ha. rewrite (sync_running_general s oc oi i W N). unfold expected_running. now rewrite Hc, Ha. Qed.
