(** Proofs about Node/Owners.v: invariants of every operation sequence. *)
From Coq Require Import ZArith List Bool Lia.
From TM Require Import Node.Owners.
Import ListNotations.
Open Scope Z_scope.

(** * Small facts *)
Lemma mem_z_In x l : mem_z x l = true <-> In x l.
Proof. induction l as [|y l IH]; cbn; [easy|]. rewrite orb_true_iff, Z.eqb_eq, IH. reflexivity. Qed.

Lemma negb_mem_false o l : negb (mem_z o l) = false -> In o l.
Proof. intros H. apply mem_z_In. apply negb_false_iff. exact H. Qed.

Lemma filter_all_true {A} (f : A -> bool) l : (forall e, In e l -> f e = true) -> filter f l = l.
Proof.
  induction l as [|x l IH]; cbn; intros H; [reflexivity|]. rewrite (H x) by (left; reflexivity).
  rewrite IH; [reflexivity|]. intros e He. apply H. right; exact He.
Qed.

Lemma filter_filter {A} (f g : A -> bool) l : filter f (filter g l) = filter (fun x => g x && f x) l.
Proof.
  induction l as [|x l IH]; cbn; [reflexivity|]. destruct (g x); cbn; [destruct (f x)|]; rewrite IH; reflexivity.
Qed.

Lemma NoDup_map_filter {A B} (g : A -> B) (f : A -> bool) l : NoDup (map g l) -> NoDup (map g (filter f l)).
Proof.
  induction l as [|x l IH]; cbn; intros H; [constructor|]. inversion H as [|? ? Hni Hnd]; subst.
  destruct (f x); cbn; [|exact (IH Hnd)]. constructor; [|exact (IH Hnd)].
  intros Hin. apply Hni. apply in_map_iff in Hin as (y & <- & Hy). apply in_map. apply filter_In in Hy. tauto.
Qed.

(** * Owner tables *)
(** [t'] is [t] with some entries removed: what every releasing or collecting operation does to a directory *)
Definition sub {K} (t t' : @table K) : Prop := exists f, t' = filter f t.

Lemma sub_refl {K} (t : @table K) : sub t t.
Proof. exists (fun _ => true). symmetry. apply filter_all_true. reflexivity. Qed.

Lemma sub_trans {K} (t u v : @table K) : sub t u -> sub u v -> sub t v.
Proof. intros [f ->] [g ->]. eexists. apply filter_filter. Qed.

Lemma sub_incl {K} (t t' : @table K) e : sub t t' -> In e t' -> In e t.
Proof. intros [f ->] H. apply filter_In in H. tauto. Qed.

Lemma sub_NoDup {K} (t t' : @table K) : sub t t' -> NoDup (keys t) -> NoDup (keys t').
Proof. intros [f ->]. apply NoDup_map_filter. Qed.

Section TableP.
  Context {K : Type}.
  Variable keqb : K -> K -> bool.
  Hypothesis keqb_spec : forall a b, keqb a b = true <-> a = b.

  Lemma keqb_refl a : keqb a a = true.
  Proof. apply keqb_spec. reflexivity. Qed.

  Lemma keqb_neq a b : a <> b -> keqb a b = false.
  Proof. intros H. destruct (keqb a b) eqn:E; [apply keqb_spec in E; contradiction | reflexivity]. Qed.

  Lemma lookup_In k o (t : @table K) : lookup keqb k t = Some o -> In (k, o) t.
  Proof.
    induction t as [|[k' o'] t IH]; cbn; intros H; [discriminate|].
    destruct (keqb k' k) eqn:E.
    - apply keqb_spec in E. inversion H; subst. left; reflexivity.
    - right; apply IH; exact H.
  Qed.

  Lemma lookup_None k (t : @table K) : lookup keqb k t = None <-> ~ In k (keys t).
  Proof.
    induction t as [|[k' o'] t IH]; cbn; [tauto|]. destruct (keqb k' k) eqn:E.
    - apply keqb_spec in E. split; [discriminate|]. intros H. destruct H. left; exact E.
    - rewrite IH. split; [|tauto]. intros H [H1|H1]; [|exact (H H1)]. subst. rewrite keqb_refl in E. discriminate.
  Qed.

  Lemma In_keys k o (t : @table K) : In (k, o) t -> In k (keys t).
  Proof. exact (in_map fst t (k, o)). Qed.

  Lemma NoDup_lookup k o (t : @table K) : NoDup (keys t) -> In (k, o) t -> lookup keqb k t = Some o.
  Proof.
    induction t as [|[k' o'] t IH]; cbn; intros Hnd Hin; [contradiction|].
    inversion Hnd as [|? ? Hni Hnd']; subst.
    destruct Hin as [Hin|Hin].
    - inversion Hin; subst. rewrite keqb_refl. reflexivity.
    - destruct (keqb k' k) eqn:E.
      + apply keqb_spec in E. subst. exfalso. apply Hni. apply (In_keys _ _ _ Hin).
      + apply IH; assumption.
  Qed.

  Lemma NoDup_functional k o1 o2 (t : @table K) : NoDup (keys t) -> In (k, o1) t -> In (k, o2) t -> o1 = o2.
  Proof.
    intros Hnd H1 H2. apply (NoDup_lookup _ _ _ Hnd) in H1. apply (NoDup_lookup _ _ _ Hnd) in H2. congruence.
  Qed.

  Lemma NoDup_snoc k o (t : @table K) : NoDup (keys t) -> lookup keqb k t = None -> NoDup (keys (t ++ [(k, o)])).
  Proof.
    intros Hnd Hl. unfold keys. rewrite map_app. apply (NoDup_Add (Add_app k (map fst t) [])).
    rewrite app_nil_r. split; [exact Hnd|apply lookup_None; exact Hl].
  Qed.

  Lemma In_remove k k' o' (t : @table K) : In (k', o') (remove keqb k t) <-> In (k', o') t /\ k' <> k.
  Proof.
    unfold remove. rewrite filter_In. cbn. split; intros [H1 H2]; split; try exact H1.
    - intros E; subst. rewrite keqb_refl in H2. discriminate.
    - rewrite (keqb_neq _ _ H2). reflexivity.
  Qed.

  Lemma release_cases k o (t : @table K) :
    (snd (release keqb k o t) = t /\ lookup keqb k t <> Some o) \/
    (snd (release keqb k o t) = remove keqb k t /\ lookup keqb k t = Some o).
  Proof.
    unfold release. destruct (lookup keqb k t) as [o'|] eqn:E.
    - destruct (o' =? o) eqn:E2; cbn.
      + apply Z.eqb_eq in E2; subst. right; auto.
      + apply Z.eqb_neq in E2. left; split; [reflexivity|congruence].
    - left; split; [reflexivity|congruence].
  Qed.

  Lemma release_noop k o (t : @table K) : lookup keqb k t <> Some o -> snd (release keqb k o t) = t.
  Proof. intros H. destruct (release_cases k o t) as [[H1 _]|[_ H2]]; [exact H1|contradiction]. Qed.

  Lemma release_sub k o (t : @table K) : sub t (snd (release keqb k o t)).
  Proof. destruct (release_cases k o t) as [[-> _]|[-> _]]; [apply sub_refl|eexists; reflexivity]. Qed.

  Lemma release_In k o k' o' (t : @table K) :
    NoDup (keys t) -> (In (k', o') (snd (release keqb k o t)) <-> In (k', o') t /\ ~ (k' = k /\ o' = o)).
  Proof.
    intros Hnd. destruct (release_cases k o t) as [[-> H]|[-> H]].
    - split; [|tauto]. intros Hin. split; [exact Hin|]. intros [-> ->]. apply H. apply NoDup_lookup; assumption.
    - rewrite In_remove. apply lookup_In in H. split; intros [Hin Hne]; (split; [exact Hin|]).
      + intros [E _]. contradiction.
      + intros ->. apply Hne. split; [reflexivity|]. exact (NoDup_functional _ _ _ _ Hnd Hin H).
  Qed.

  Lemma gc_In live e (t : @table K) : In e (gc live t) <-> In e t /\ In (snd e) live.
  Proof. unfold gc. rewrite filter_In. rewrite mem_z_In. reflexivity. Qed.

  Lemma create_tolerant_cases k o same (t t' : @table K) :
    create_tolerant keqb k o same t = Some t' ->
    (lookup keqb k t = None /\ t' = t ++ [(k, o)]) \/ (t' = t /\ lookup keqb k t = Some same).
  Proof.
    unfold create_tolerant, symlink. destruct (lookup keqb k t) as [o'|]; [|intros H; inversion H; auto].
    destruct (o' =? same) eqn:E; [|discriminate]. apply Z.eqb_eq in E; subst.
    intros H; inversion H; subst. right; auto.
  Qed.

  Lemma create_tolerant_fail k o same (t : @table K) :
    create_tolerant keqb k o same t = None -> exists o', lookup keqb k t = Some o' /\ o' <> same.
  Proof.
    unfold create_tolerant, symlink. destruct (lookup keqb k t) as [o'|] eqn:E; [|discriminate].
    destruct (o' =? same) eqn:E3; [discriminate|]. apply Z.eqb_neq in E3. intros _. exists o'. auto.
  Qed.

  (** the directory after a create call, raising or not *)
  Definition created k o same (t : @table K) : @table K :=
    match create_tolerant keqb k o same t with Some t' => t' | None => t end.

  Lemma created_keeps k o same t e : In e t -> In e (created k o same t).
  Proof.
    intros H. unfold created. destruct (create_tolerant keqb k o same t) as [t'|] eqn:E; [|exact H].
    apply create_tolerant_cases in E as [[_ ->]|[-> _]]; [apply in_or_app; left|]; exact H.
  Qed.

  Lemma created_free k o same t : lookup keqb k t = None -> created k o same t = t ++ [(k, o)].
  Proof. intros H. unfold created, create_tolerant, symlink. rewrite H. reflexivity. Qed.

  (** what one operation does to a directory: it removes entries, or it adds one entry, for the owner [who], on a
      key nobody held (and which satisfies [P]) *)
  Inductive tstep (P : K -> Prop) (who : option Z) (t : @table K) : @table K -> Prop :=
  | TSub t' : sub t t' -> tstep P who t t'
  | TAdd k o : who = Some o -> lookup keqb k t = None -> P k -> tstep P who t (t ++ [(k, o)]).

  Lemma tstep_NoDup P who t t' : tstep P who t t' -> NoDup (keys t) -> NoDup (keys t').
  Proof. intros [u H|k o _ Hl _] Hnd; [exact (sub_NoDup _ _ H Hnd)|apply NoDup_snoc; assumption]. Qed.

  Lemma tstep_new P who t t' k o :
    tstep P who t t' -> In (k, o) t' -> ~ In (k, o) t -> who = Some o /\ lookup keqb k t = None.
  Proof.
    intros [u H|k' o' Hw Hl _] Hin Hni; [destruct Hni; exact (sub_incl _ _ _ H Hin)|].
    apply in_app_or in Hin as [Hin|[Hin|[]]]; [contradiction|]. inversion Hin; subst. auto.
  Qed.

  Lemma tstep_Forall (P Q : K -> Prop) who t t' :
    (forall k, P k -> Q k) -> tstep P who t t' -> Forall (fun e => Q (fst e)) t -> Forall (fun e => Q (fst e)) t'.
  Proof.
    intros HPQ [u H|k o _ _ Hk] Hall.
    - rewrite Forall_forall in *. intros e He. apply Hall. exact (sub_incl _ _ _ H He).
    - apply Forall_app. split; [exact Hall|]. constructor; [exact (HPQ k Hk)|constructor].
  Qed.

  Lemma created_tstep (P : K -> Prop) k o same t : P k -> tstep P (Some o) t (created k o same t).
  Proof.
    intros Hk. unfold created. destruct (create_tolerant keqb k o same t) as [t'|] eqn:E; [|apply TSub, sub_refl].
    apply create_tolerant_cases in E as [[Hl ->]|[-> _]]; [apply TAdd; auto|apply TSub, sub_refl].
  Qed.
End TableP.

Lemma zeqb_spec : forall a b, (a =? b) = true <-> a = b.
Proof. intros. apply Z.eqb_eq. Qed.

Lemma spec_eqb_spec : forall a b, spec_eqb a b = true <-> a = b.
Proof.
  intros [a1 a2 a3 a4 a5 a6] [b1 b2 b3 b4 b5 b6]. unfold spec_eqb; cbn. split.
  - intros H. repeat (apply andb_true_iff in H as [H ?]).
    repeat match goal with E : (_ =? _) = true |- _ => apply Z.eqb_eq in E end. subst. reflexivity.
  - intros H; inversion H; subst. rewrite !Z.eqb_refl. reflexivity.
Qed.

Lemma spec_eqb_false k k' : k <> k' -> spec_eqb k k' = false.
Proof. exact (keqb_neq spec_eqb spec_eqb_spec k k'). Qed.

Lemma opt_matches_some x o : opt_matches (Some x) o = true <-> x = o.
Proof. cbn. apply Z.eqb_eq. Qed.

Notation zlookup := (lookup Z.eqb).

Lemma unlink_spec_sub k x (t : @table spec) : sub t (unlink_spec k x t).
Proof. destruct x as [o|]; [apply release_sub|eexists; reflexivity]. Qed.

Lemma unlink_all_noop a pr e x (t : @table spec) :
  (forall k o, In (k, o) t -> spec_matches a pr e k = true -> o <> x) -> unlink_all a pr e (Some x) t = t.
Proof.
  intros H. apply filter_all_true. intros [k o] Hin. cbn. destruct (spec_matches a pr e k) eqn:E; [|reflexivity]. cbn.
  destruct (Z.eqb_spec x o) as [->|]; [destruct (H k o Hin E eq_refl)|reflexivity].
Qed.

(** * Devices (Python dict as association list) *)
Lemma dget_In o d (m : devs) : dget o m = Some d -> In (o, d) m.
Proof.
  induction m as [|[k d'] m IH]; cbn; intros H; [discriminate|].
  destruct (k =? o) eqn:E; [apply Z.eqb_eq in E; inversion H; subst; left; reflexivity | right; apply IH; exact H].
Qed.

Lemma dget_NoDup o d (m : devs) : NoDup (map fst m) -> In (o, d) m -> dget o m = Some d.
Proof.
  induction m as [|[k d'] m IH]; cbn; intros Hnd Hin; [contradiction|].
  inversion Hnd as [|? ? Hni Hnd']; subst. destruct Hin as [Hin|Hin].
  - inversion Hin; subst. rewrite Z.eqb_refl. reflexivity.
  - destruct (k =? o) eqn:E; [|apply IH; assumption].
    apply Z.eqb_eq in E; subst. exfalso. apply Hni. apply (in_map fst) in Hin. exact Hin.
Qed.

Lemma dget_dset o x d (m : devs) : dget o (dset x d m) = if x =? o then Some d else dget o m.
Proof.
  induction m as [|[k d'] m IH]; cbn; [reflexivity|]. destruct (k =? x) eqn:E; cbn.
  - apply Z.eqb_eq in E; subst k. destruct (x =? o); reflexivity.
  - rewrite IH. destruct (k =? o) eqn:E2; [|reflexivity]. apply Z.eqb_eq in E2; subst k. rewrite Z.eqb_sym, E. reflexivity.
Qed.

Lemma dget_ddel o x (m : devs) : dget o (ddel x m) = if x =? o then None else dget o m.
Proof.
  unfold ddel. induction m as [|[k d'] m IH]; cbn; [destruct (x =? o); reflexivity|]. destruct (k =? x) eqn:E; cbn.
  - rewrite IH. apply Z.eqb_eq in E; subst k. destruct (x =? o); reflexivity.
  - rewrite IH. destruct (k =? o) eqn:E2; [|reflexivity]. apply Z.eqb_eq in E2; subst k. rewrite Z.eqb_sym, E. reflexivity.
Qed.

Lemma In_dset k x o d (m : devs) : In (k, x) (dset o d m) -> (k = o /\ x = d) \/ In (k, x) m.
Proof.
  induction m as [|[k' d'] m IH]; cbn.
  - intros [H|[]]. inversion H; subst. left; split; reflexivity.
  - destruct (k' =? o) eqn:E; cbn.
    + intros [H|H]; [inversion H; subst; apply Z.eqb_eq in E; subst; left; split; reflexivity|right; right; exact H].
    + intros [H|H]; [right; left; exact H|]. destruct (IH H) as [H'|H']; [left; exact H'|right; right; exact H'].
Qed.

Lemma dkeys_dset o d (m : devs) : NoDup (map fst m) -> NoDup (map fst (dset o d m)).
Proof.
  induction m as [|[k d'] m IH]; cbn; intros H; [constructor; [intros []|constructor]|].
  inversion H as [|? ? Hni Hnd]; subst. destruct (k =? o) eqn:E; cbn; constructor; auto.
  intros Hx. apply in_map_iff in Hx as ([k' x] & <- & Hx). cbn in *.
  apply In_dset in Hx as [[-> _]|Hx]; [rewrite Z.eqb_refl in E; discriminate|]. apply Hni. exact (in_map fst _ _ Hx).
Qed.

Lemma dkeys_ddel o (m : devs) : NoDup (map fst m) -> NoDup (map fst (ddel o m)).
Proof. apply NoDup_map_filter. Qed.

Lemma ddel_absent o (m : devs) : dget o m = None -> ddel o m = m.
Proof.
  induction m as [|[k d] m IH]; cbn; intros H; [reflexivity|].
  destruct (k =? o) eqn:E; [discriminate|]. cbn. unfold ddel in IH. rewrite IH by exact H. reflexivity.
Qed.

Lemma dev_holds_iff m o a : dev_holds m o a = true <-> exists d, dget o m = Some d /\ d_ip d = Some a.
Proof.
  unfold dev_holds. destruct (dget o m) as [d|]; [|split; [discriminate|intros [d [H _]]; discriminate]].
  destruct (d_ip d) as [b|] eqn:E.
  - rewrite Z.eqb_eq. split; [intros ->; exists d; auto|]. intros [d' [H1 H2]]. congruence.
  - split; [discriminate|]. intros [d' [H1 H2]]. congruence.
Qed.

Lemma dev_holds_ddel x m o a : dev_holds (ddel x m) o a = if x =? o then false else dev_holds m o a.
Proof. unfold dev_holds. rewrite dget_ddel. destruct (x =? o); reflexivity. Qed.

(** * VipMgr.alloc *)
Lemma scan_alloc_spec t o n : forall a x t',
  scan_alloc t o a n = Some (x, t') ->
  a <= x < a + Z.of_nat n /\ zlookup x t = None /\ t' = t ++ [(x, o)] /\
  (forall y, a <= y < x -> zlookup y t <> None).
Proof.
  induction n as [|n IH]; intros a x t' H; [discriminate|]. cbn [scan_alloc] in H. unfold symlink in H.
  destruct (zlookup a t) eqn:E.
  - apply IH in H as (H1 & H2 & H3 & H4). repeat split; try lia; auto.
    intros y Hy. destruct (Z.eq_dec y a) as [->|Hne]; [congruence|apply H4; lia].
  - inversion H; subst. repeat split; try lia; auto.
Qed.

Lemma hosts_in_cidr c a :
  hosts_first c <= a < hosts_first c + Z.of_nat (hosts_count c) ->
  in_cidr c a = true /\ (4 <= c_size c -> is_host c a = true).
Proof.
  unfold hosts_first, hosts_count, in_cidr, is_host. destruct (4 <=? c_size c) eqn:E; intros H.
  - apply Z.leb_le in E. rewrite Z2Nat.id in H by lia. split; [|intros _]; apply andb_true_iff; split;
      try apply Z.leb_le; try apply Z.ltb_lt; lia.
  - apply Z.leb_gt in E. split; [|lia]. apply andb_true_iff; split; [apply Z.leb_le|apply Z.ltb_lt]; lia.
Qed.

Inductive alloc_outcome (c : cidr) (o : Z) (p : option Z) (t : @table Z) : res -> @table Z -> Prop :=
| AllocFail r : (forall a, r <> RAddr a) -> alloc_outcome c o p t r t
| AllocOk a : zlookup a t = None -> in_cidr c a = true ->
              (p = None -> 4 <= c_size c -> is_host c a = true) ->
              (forall q, p = Some q -> a = q) ->
              (p = None -> forall y, hosts_first c <= y < a -> zlookup y t <> None) ->
              alloc_outcome c o p t (RAddr a) (t ++ [(a, o)]).

Lemma vip_alloc_outcome c o p t : alloc_outcome c o p t (fst (vip_alloc c o p t)) (snd (vip_alloc c o p t)).
Proof.
  unfold vip_alloc, symlink. destruct p as [q|].
  - destruct (in_cidr c q) eqn:E; [|cbn; constructor; congruence].
    destruct (zlookup q t) eqn:E2; cbn; constructor; auto; congruence.
  - destruct (scan_alloc t o (hosts_first c) (hosts_count c)) as [[a t1]|] eqn:E; cbn; [|constructor; congruence].
    apply scan_alloc_spec in E as (H1 & H2 & -> & H4). apply hosts_in_cidr in H1 as [H1 H1'].
    constructor; auto. congruence.
Qed.

Lemma vip_alloc_keeps c o p t e : In e t -> In e (snd (vip_alloc c o p t)).
Proof. intros H. destruct (vip_alloc_outcome c o p t); [|apply in_or_app; left]; exact H. Qed.

(** what alloc returns, read off the pair it computes *)
Lemma vip_alloc_returns c o p t :
  match vip_alloc c o p t with
  | (RAddr a, t') =>
      zlookup a t = None /\ t' = t ++ [(a, o)] /\ in_cidr c a = true /\ (forall q, p = Some q -> a = q) /\
      (p = None -> (4 <= c_size c -> is_host c a = true) /\ forall y, hosts_first c <= y < a -> zlookup y t <> None)
  | (_, t') => t' = t
  end.
Proof.
  pose proof (vip_alloc_outcome c o p t) as H. destruct (vip_alloc c o p t) as [r t']. cbn in H.
  destruct H as [r Hr|a]; [destruct r; try reflexivity; destruct (Hr _ eq_refl)|auto 10].
Qed.

Lemma alloc_picked c o q t :
  match vip_alloc c o (Some q) t with
  | (RAddr a, t') => a = q /\ zlookup q t = None /\ t' = t ++ [(q, o)] /\ in_cidr c q = true
  | (_, t') => t' = t
  end.
Proof.
  pose proof (vip_alloc_returns c o (Some q) t) as H. destruct (vip_alloc c o (Some q) t) as [[] t']; try exact H.
  destruct H as (H1 & H2 & H3 & H4 & _). rewrite (H4 q eq_refl) in *. auto.
Qed.

(** * State invariants *)
Definition wf (c : cidr) (s : state) : Prop :=
  NoDup (keys (s_vips s)) /\ NoDup (keys (s_rules s)) /\ NoDup (keys (s_specs s)) /\
  NoDup (map fst (s_devs s)) /\ Forall (fun e => in_cidr c (fst e) = true) (s_vips s).

Lemma wf_empty c : wf c empty_state.
Proof. unfold wf; cbn. repeat split; constructor. Qed.

(** the service's view agrees with the directory: a device's address is held by that device's owner *)
Definition dev_consistent (s : state) : Prop :=
  forall o a, dev_holds (s_devs s) o a = true -> zlookup a (s_vips s) = Some o.

(** * The network service *)
(** the directories the service never touches *)
Definition dirs (s : state) := (s_rules s, s_specs s, s_res s, s_apps s).

(** ** on_delete_request *)
Lemma svc_delete_dirs o s : dirs (svc_delete o s) = dirs s.
Proof. unfold svc_delete. destruct (dget o (s_devs s)) as [d|]; [destruct (d_ip d)|]; reflexivity. Qed.

Lemma svc_delete_devs o s : s_devs (svc_delete o s) = ddel o (s_devs s).
Proof.
  unfold svc_delete. destruct (dget o (s_devs s)) as [d|] eqn:E; [destruct (d_ip d); reflexivity|].
  symmetry. apply ddel_absent. exact E.
Qed.

Lemma svc_delete_vips o s :
  s_vips (svc_delete o s) =
  match dget o (s_devs s) with
  | Some d => match d_ip d with Some a => snd (release Z.eqb a o (s_vips s)) | None => s_vips s end
  | None => s_vips s
  end.
Proof. unfold svc_delete. destruct (dget o (s_devs s)) as [d|]; [destruct (d_ip d)|]; reflexivity. Qed.

Lemma svc_delete_sub o s : sub (s_vips s) (s_vips (svc_delete o s)).
Proof.
  rewrite svc_delete_vips. destruct (dget o (s_devs s)) as [d|]; [destruct (d_ip d)|]; try apply sub_refl.
  apply release_sub.
Qed.

Lemma svc_delete_In x s k o :
  NoDup (keys (s_vips s)) ->
  (In (k, o) (s_vips (svc_delete x s)) <-> In (k, o) (s_vips s) /\ ~ (o = x /\ dev_holds (s_devs s) o k = true)).
Proof.
  intros Hnd. rewrite svc_delete_vips. unfold dev_holds.
  destruct (dget x (s_devs s)) as [d|] eqn:E; [destruct (d_ip d) as [a|] eqn:E2|].
  - rewrite (release_In Z.eqb zeqb_spec) by exact Hnd.
    split; intros [Hin Hn]; (split; [exact Hin|]).
    + intros [-> H]. rewrite E, E2 in H. apply Z.eqb_eq in H. auto.
    + intros [-> ->]. apply Hn. rewrite E, E2. split; [reflexivity|apply Z.eqb_refl].
  - split; [|tauto]. intros H. split; [exact H|]. intros [-> H']. rewrite E, E2 in H'. discriminate.
  - split; [|tauto]. intros H. split; [exact H|]. intros [-> H']. rewrite E in H'. discriminate.
Qed.

(** ** the stale-device loop of synchronize *)
Definition del_all (l : list Z) (s : state) : state := fold_left (fun st o => svc_delete o st) l s.

Lemma del_all_dirs l : forall s, dirs (del_all l s) = dirs s.
Proof. induction l as [|x l IH]; intros s; cbn; [reflexivity|]. rewrite IH. apply svc_delete_dirs. Qed.

Lemma del_all_dget l : forall s x,
  dget x (s_devs (del_all l s)) = if mem_z x l then None else dget x (s_devs s).
Proof.
  induction l as [|y l IH]; intros s x; cbn; [reflexivity|]. rewrite IH, svc_delete_devs, dget_ddel.
  destruct (y =? x), (mem_z x l); reflexivity.
Qed.

Lemma del_all_dkeys l : forall s, NoDup (map fst (s_devs s)) -> NoDup (map fst (s_devs (del_all l s))).
Proof.
  induction l as [|y l IH]; intros s H; cbn; [exact H|]. apply IH. rewrite svc_delete_devs. apply dkeys_ddel. exact H.
Qed.

Lemma del_all_sub l : forall s, sub (s_vips s) (s_vips (del_all l s)).
Proof.
  induction l as [|y l IH]; intros s; cbn; [apply sub_refl|]. exact (sub_trans _ _ _ (svc_delete_sub y s) (IH _)).
Qed.

Lemma del_all_In l : forall s k o,
  NoDup (keys (s_vips s)) ->
  (In (k, o) (s_vips (del_all l s)) <-> In (k, o) (s_vips s) /\ ~ (In o l /\ dev_holds (s_devs s) o k = true)).
Proof.
  induction l as [|x l IH]; intros s k o Hnd; cbn [del_all fold_left In]; [tauto|].
  change (fold_left _ l (svc_delete x s)) with (del_all l (svc_delete x s)).
  rewrite IH by exact (sub_NoDup _ _ (svc_delete_sub x s) Hnd). rewrite svc_delete_In by exact Hnd.
  rewrite svc_delete_devs, dev_holds_ddel. destruct (Z.eqb_spec x o) as [->|Hne]; intuition congruence.
Qed.

Definition stale_owners (m : devs) : list Z := map fst (filter (fun e => d_stale (snd e)) m).

Lemma stale_owners_mem m o : NoDup (map fst m) -> mem_z o (stale_owners m) = dev_stale m o.
Proof.
  intros Hnd. apply eq_true_iff_eq. rewrite mem_z_In. unfold stale_owners, dev_stale. split.
  - intros H. apply in_map_iff in H as [[k d] [H1 H2]]. cbn in H1; subst. apply filter_In in H2 as [H2 H3].
    rewrite (dget_NoDup _ _ _ Hnd H2). exact H3.
  - destruct (dget o m) as [d|] eqn:E; [|discriminate]. intros H. apply dget_In in E.
    apply in_map_iff. exists (o, d). split; [reflexivity|]. apply filter_In. auto.
Qed.

(** ** synchronize *)
Lemma svc_sync_cases s :
  let s1 := del_all (stale_owners (s_devs s)) s in
  (fst (svc_sync s) = set_vips s1 (gc (s_res s1) (s_vips s1)) /\ snd (svc_sync s) = ROk) \/
  (fst (svc_sync s) = s1 /\ snd (svc_sync s) = RKey).
Proof.
  cbn. unfold svc_sync. fold (stale_owners (s_devs s)). fold (del_all (stale_owners (s_devs s)) s).
  destruct (forallb _ _); cbn; [left|right]; auto.
Qed.

Lemma svc_sync_dirs s : dirs (fst (svc_sync s)) = dirs s.
Proof. destruct (svc_sync_cases s) as [[-> _]|[-> _]]; exact (del_all_dirs (stale_owners (s_devs s)) s). Qed.

Lemma svc_sync_dget s o :
  NoDup (map fst (s_devs s)) ->
  dget o (s_devs (fst (svc_sync s))) = if dev_stale (s_devs s) o then None else dget o (s_devs s).
Proof.
  intros Hnd. rewrite <- (stale_owners_mem _ o Hnd), <- del_all_dget.
  destruct (svc_sync_cases s) as [[-> _]|[-> _]]; reflexivity.
Qed.

Lemma svc_sync_dget_Some s o d :
  NoDup (map fst (s_devs s)) -> dget o (s_devs (fst (svc_sync s))) = Some d -> d_stale d = false /\ dget o (s_devs s) = Some d.
Proof.
  intros Hnd H. rewrite svc_sync_dget in H by exact Hnd. unfold dev_stale in H.
  destruct (dget o (s_devs s)) as [d'|]; [|discriminate]. destruct (d_stale d') eqn:E; [discriminate|]. injection H as <-. auto.
Qed.

Lemma svc_sync_sub s : sub (s_vips s) (s_vips (fst (svc_sync s))).
Proof.
  destruct (svc_sync_cases s) as [[-> _]|[-> _]]; cbn [s_vips set_vips]; [|apply del_all_sub].
  apply (sub_trans _ _ _ (del_all_sub (stale_owners (s_devs s)) s)). eexists; reflexivity.
Qed.

Lemma svc_sync_In s k o :
  NoDup (keys (s_vips s)) -> NoDup (map fst (s_devs s)) ->
  (In (k, o) (s_vips (fst (svc_sync s))) ->
   In (k, o) (s_vips s) /\ ~ (dev_stale (s_devs s) o = true /\ dev_holds (s_devs s) o k = true) /\
   (snd (svc_sync s) = ROk -> In o (s_res s))) /\
  (In (k, o) (s_vips s) -> ~ (dev_stale (s_devs s) o = true /\ dev_holds (s_devs s) o k = true) -> In o (s_res s) ->
   In (k, o) (s_vips (fst (svc_sync s)))).
Proof.
  intros Hv Hd. rewrite <- (stale_owners_mem _ o Hd), mem_z_In.
  pose proof (del_all_In (stale_owners (s_devs s)) s k o Hv) as D.
  assert (R : s_res (del_all (stale_owners (s_devs s)) s) = s_res s) by (pose proof (del_all_dirs (stale_owners (s_devs s)) s) as E; inversion E; reflexivity).
  destruct (svc_sync_cases s) as [[-> ->]|[-> ->]]; cbn [s_vips set_vips]; rewrite ?gc_In; cbn [snd]; rewrite ?R.
  - split; [intros [H1 H2]; apply D in H1; tauto|]. intros H1 H2 H3. split; [apply D; tauto|exact H3].
  - split; [intros H1; apply D in H1; split; [tauto|split; [tauto|discriminate]]|]. intros H1 H2 _. apply D. tauto.
Qed.

(** ** on_create_request *)
Definition new_dev (a env : Z) : dev := {| d_ip := Some a; d_dev := true; d_env := Some env; d_stale := false |}.

Inductive create_outcome (c : cidr) (o env : Z) (s : state) : state -> res -> Prop :=
| CreateFail r : (forall a, r <> RAddr a) -> create_outcome c o env s s r
| CreateNew a s' :
    dget o (s_devs s) = None -> zlookup a (s_vips s) = None -> in_cidr c a = true ->
    (4 <= c_size c -> is_host c a = true) ->
    s_vips s' = s_vips s ++ [(a, o)] -> s_devs s' = dset o (new_dev a env) (s_devs s) ->
    create_outcome c o env s s' (RAddr a)
| CreateReuse a s' :
    dev_holds (s_devs s) o a = true ->
    s_vips s' = s_vips s -> s_devs s' = dset o (new_dev a env) (s_devs s) ->
    create_outcome c o env s s' (RAddr a).

Lemma svc_create_outcome c o env s :
  create_outcome c o env s (fst (svc_create c o env s)) (snd (svc_create c o env s)).
Proof.
  unfold svc_create. destruct (dget o (s_devs s)) as [d|] eqn:E.
  - destruct (d_ip d) as [a|] eqn:E2; [|cbn; constructor; congruence].
    assert (Hh : dev_holds (s_devs s) o a = true) by (apply dev_holds_iff; exists d; auto).
    destruct (d_dev d); cbn; apply CreateReuse; auto.
  - pose proof (vip_alloc_outcome c o None (s_vips s)) as Ha.
    destruct (vip_alloc c o None (s_vips s)) as [r t'] eqn:E2. cbn in Ha.
    inversion Ha as [r' Hr|a H1 H2 H3 H4 H5]; subst.
    + destruct r; cbn; constructor; congruence.
    + cbn. apply CreateNew; auto.
Qed.

Lemma svc_create_dirs c o env s : dirs (fst (svc_create c o env s)) = dirs s.
Proof.
  unfold svc_create. destruct (dget o (s_devs s)) as [d|].
  - destruct (d_ip d); [destruct (d_dev d)|]; reflexivity.
  - destruct (vip_alloc c o None (s_vips s)) as [[] t]; reflexivity.
Qed.

Lemma svc_create_keeps c o env s e : In e (s_vips s) -> In e (s_vips (fst (svc_create c o env s))).
Proof.
  intros H. destruct (svc_create_outcome c o env s) as [| ? ? _ _ _ _ -> _ | ? ? _ -> _]; [|apply in_or_app; left|]; exact H.
Qed.

Lemma svc_create_dget c x env s o : x <> o -> dget o (s_devs (fst (svc_create c x env s))) = dget o (s_devs s).
Proof.
  intros Hne. apply Z.eqb_neq in Hne.
  destruct (svc_create_outcome c x env s) as [| ? ? _ _ _ _ _ -> | ? ? _ _ ->]; rewrite ?dget_dset, ?Hne; reflexivity.
Qed.

Lemma svc_create_reuse c o env s a :
  dev_holds (s_devs s) o a = true ->
  snd (svc_create c o env s) = RAddr a /\ s_vips (fst (svc_create c o env s)) = s_vips s /\
  dget o (s_devs (fst (svc_create c o env s))) = Some (new_dev a env).
Proof.
  intros Hh. apply dev_holds_iff in Hh as [d [H1 H2]]. unfold svc_create. rewrite H1, H2.
  destruct (d_dev d); cbn; rewrite dget_dset, Z.eqb_refl; auto.
Qed.

Lemma svc_create_records c o env s a :
  snd (svc_create c o env s) = RAddr a -> dget o (s_devs (fst (svc_create c o env s))) = Some (new_dev a env).
Proof.
  destruct (svc_create_outcome c o env s) as [r Hr| ? ? _ _ _ _ _ -> | ? ? _ _ ->]; intros E;
    [destruct (Hr a E)| |]; inversion E; subst; rewrite dget_dset, Z.eqb_refl; reflexivity.
Qed.

(** ** a new service instance: initialize() *)
Definition restart_step (m : devs) (e : Z * Z) : devs :=
  let (a, o) := e in
  match dget o m with
  | Some d => dset o {| d_ip := Some a; d_dev := d_dev d; d_env := d_env d; d_stale := true |} m
  | None => dset o {| d_ip := Some a; d_dev := false; d_env := None; d_stale := true |} m
  end.

Definition veth_step (m : devs) (o : Z) : devs :=
  dset o {| d_ip := None; d_dev := true; d_env := None; d_stale := true |} m.

Lemma svc_restart_devs s : s_devs (svc_restart s) = fold_left restart_step (s_vips s) (fold_left veth_step (s_veth s) []).
Proof. reflexivity. Qed.

(** a property of the device table that every [dset] of the two loops keeps *)
Lemma fold_restart_inv (P : devs -> Prop) vips veth :
  P [] -> (forall m o d, P m -> d_stale d = true -> P (dset o d m)) ->
  P (fold_left restart_step vips (fold_left veth_step veth [])).
Proof.
  intros H0 Hs.
  assert (V : forall l m, P m -> P (fold_left veth_step l m)).
  { induction l as [|o l IH]; intros m H; cbn; [exact H|]. apply IH, Hs; [exact H|reflexivity]. }
  assert (R : forall l m, P m -> P (fold_left restart_step l m)).
  { induction l as [|[a o] l IH]; intros m H; cbn; [exact H|]. apply IH. destruct (dget o m); apply Hs; auto. }
  apply R, V, H0.
Qed.

Lemma restart_dkeys s : NoDup (map fst (s_devs (svc_restart s))).
Proof. rewrite svc_restart_devs. apply fold_restart_inv; [constructor|]. intros m o d H _. apply dkeys_dset. exact H. Qed.

Lemma fold_restart_stale l : forall m,
  (forall o d, dget o m = Some d -> d_stale d = true) ->
  forall o d, dget o (fold_left restart_step l m) = Some d -> d_stale d = true.
Proof.
  induction l as [|[b x] l IH]; intros m Hm; cbn; [exact Hm|]. apply IH. intros o d. unfold restart_step.
  destruct (dget x m); rewrite dget_dset; destruct (x =? o); try apply Hm; intros H; inversion H; reflexivity.
Qed.

Lemma fold_restart_holds (t : @table Z) l : forall m,
  (forall e, In e l -> In e t) ->
  (forall o a, dev_holds m o a = true -> In (a, o) t) ->
  forall o a, dev_holds (fold_left restart_step l m) o a = true -> In (a, o) t.
Proof.
  induction l as [|[b x] l IH]; intros m Hl Hm; cbn; [exact Hm|]. apply IH; [intros e He; apply Hl; right; exact He|].
  intros o a. unfold dev_holds, restart_step.
  destruct (dget x m); rewrite dget_dset; destruct (Z.eqb_spec x o) as [->|_]; try apply Hm;
    cbn; intros H; apply Z.eqb_eq in H; subst; apply Hl; left; reflexivity.
Qed.

Lemma restart_holds s o a : dev_holds (s_devs (svc_restart s)) o a = true -> In (a, o) (s_vips s).
Proof.
  rewrite svc_restart_devs. apply fold_restart_holds; [auto|]. clear o a. intros o a.
  induction (s_veth s) as [|x l IH] using rev_ind; [discriminate|]. rewrite fold_left_app. cbn. unfold veth_step at 1, dev_holds.
  rewrite dget_dset. destruct (x =? o); [discriminate|exact IH].
Qed.

(** * What one operation does to each component of the state *)
Lemma step_fields c p s :
  let s' := fst (step c p s) in
  s_vips s' = match p with
              | VipAlloc x q => snd (vip_alloc c x q (s_vips s))
              | VipFree x a => snd (release Z.eqb a x (s_vips s))
              | VipGc => gc (s_res s) (s_vips s)
              | SvcCreate x env => s_vips (fst (svc_create c x env s))
              | SvcDelete x => s_vips (svc_delete x s)
              | SvcSync => s_vips (fst (svc_sync s))
              | _ => s_vips s
              end /\
  s_rules s' = match p with
               | RuleCreate k x => created Z.eqb k x x (s_rules s)
               | RuleUnlink k x => snd (release Z.eqb k x (s_rules s))
               | RuleGc => gc (s_apps s) (s_rules s)
               | _ => s_rules s
               end /\
  s_specs s' = match p with
               | SpecCreate k x => created spec_eqb k x (sp_app k) (s_specs s)
               | SpecUnlink k x => unlink_spec k x (s_specs s)
               | SpecUnlinkAll a pr e x => unlink_all a pr e x (s_specs s)
               | SpecGc => gc (s_apps s) (s_specs s)
               | _ => s_specs s
               end /\
  s_res s' = match p with ResUp x => add_z x (s_res s) | ResDown x => del_z x (s_res s) | _ => s_res s end /\
  s_apps s' = match p with AppUp x => add_z x (s_apps s) | AppDown x => del_z x (s_apps s) | _ => s_apps s end /\
  s_devs s' = match p with
              | SvcCreate x env => s_devs (fst (svc_create c x env s))
              | SvcDelete x => ddel x (s_devs s)
              | SvcSync => s_devs (fst (svc_sync s))
              | SvcRestart => s_devs (svc_restart s)
              | _ => s_devs s
              end.
Proof.
  assert (D : forall s', dirs s' = dirs s ->
              s_rules s' = s_rules s /\ s_specs s' = s_specs s /\ s_res s' = s_res s /\ s_apps s' = s_apps s)
    by (intros s' E; inversion E; auto).
  destruct p; cbn [step fst]; unfold created; try (repeat split; reflexivity).
  - destruct (vip_alloc c o picked (s_vips s)); repeat split; reflexivity.
  - destruct (create_tolerant Z.eqb k o o (s_rules s)); repeat split; reflexivity.
  - destruct (create_tolerant spec_eqb k o (sp_app k) (s_specs s)); repeat split; reflexivity.
  - split; [reflexivity|]. destruct (D _ (svc_create_dirs c o env s)) as (-> & -> & -> & ->). repeat split; reflexivity.
  - split; [reflexivity|]. destruct (D _ (svc_delete_dirs o s)) as (-> & -> & -> & ->). repeat split; try reflexivity.
    apply svc_delete_devs.
  - split; [reflexivity|]. destruct (D _ (svc_sync_dirs s)) as (-> & -> & -> & ->). repeat split; reflexivity.
Qed.

Definition step_vips c p s := proj1 (step_fields c p s).
Definition step_rules c p s := proj1 (proj2 (step_fields c p s)).
Definition step_specs c p s := proj1 (proj2 (proj2 (step_fields c p s))).
Definition step_res c p s := proj1 (proj2 (proj2 (proj2 (step_fields c p s)))).
Definition step_devs c p s := proj2 (proj2 (proj2 (proj2 (proj2 (step_fields c p s))))).

(** ** Each directory's step *)
(** a new address lies in the network and, unless the caller picked it, is a host address *)
Definition vip_ok (c : cidr) (p : op) (a : Z) : Prop :=
  in_cidr c a = true /\ (4 <= c_size c -> picks_host c p = true -> is_host c a = true).

Lemma step_vips_tstep c p s : tstep Z.eqb (vip_ok c p) (creates_for p) (s_vips s) (s_vips (fst (step c p s))).
Proof.
  rewrite step_vips. destruct p; try apply TSub, sub_refl.
  - destruct (vip_alloc_outcome c o picked (s_vips s)) as [|a H1 H2 H3 H4 _]; [apply TSub, sub_refl|].
    apply TAdd; [reflexivity|exact H1|]. split; [exact H2|]. intros Hs Hp.
    destruct picked as [q|]; [rewrite (H4 q eq_refl); exact Hp|exact (H3 eq_refl Hs)].
  - apply TSub, release_sub.
  - apply TSub. eexists; reflexivity.
  - destruct (svc_create_outcome c o env s) as [|a s' _ H1 H2 H3 -> _|a s' _ -> _]; try apply TSub, sub_refl.
    apply TAdd; [reflexivity|exact H1|]. split; auto.
  - apply TSub, svc_delete_sub.
  - apply TSub, svc_sync_sub.
Qed.

Lemma step_rules_tstep c p s : tstep Z.eqb (fun _ => True) (creates_for p) (s_rules s) (s_rules (fst (step c p s))).
Proof.
  rewrite step_rules. destruct p; try apply TSub, sub_refl.
  - apply created_tstep. exact I.
  - apply TSub, release_sub.
  - apply TSub. eexists; reflexivity.
Qed.

Lemma step_specs_tstep c p s : tstep spec_eqb (fun _ => True) (creates_for p) (s_specs s) (s_specs (fst (step c p s))).
Proof.
  rewrite step_specs. destruct p; try apply TSub, sub_refl.
  - apply created_tstep. exact I.
  - apply TSub, unlink_spec_sub.
  - apply TSub. eexists; reflexivity.
  - apply TSub. eexists; reflexivity.
Qed.

(** * Every operation preserves well-formedness *)
Lemma step_wf c p s : wf c s -> wf c (fst (step c p s)).
Proof.
  intros (Hv & Hr & Hs & Hd & Hc). split; [|split; [|split; [|split]]].
  - exact (tstep_NoDup Z.eqb zeqb_spec _ _ _ _ (step_vips_tstep c p s) Hv).
  - exact (tstep_NoDup Z.eqb zeqb_spec _ _ _ _ (step_rules_tstep c p s) Hr).
  - exact (tstep_NoDup spec_eqb spec_eqb_spec _ _ _ _ (step_specs_tstep c p s) Hs).
  - rewrite step_devs. destruct p; try exact Hd.
    + destruct (svc_create_outcome c o env s) as [| ? ? _ _ _ _ _ -> | ? ? _ _ ->]; try apply dkeys_dset; exact Hd.
    + apply dkeys_ddel. exact Hd.
    + destruct (svc_sync_cases s) as [[-> _]|[-> _]]; apply del_all_dkeys; exact Hd.
    + apply restart_dkeys.
  - exact (tstep_Forall Z.eqb _ (fun a => in_cidr c a = true) _ _ _ (fun a H => proj1 H) (step_vips_tstep c p s) Hc).
Qed.

Lemma run_wf c ops : forall s, wf c s -> wf c (run c ops s).
Proof. induction ops as [|p r IH]; intros s H; cbn; [exact H|]. apply IH. apply step_wf. exact H. Qed.

(** * Only the owner's release (or a collection while the owner is gone) removes an entry *)
Lemma step_keeps_vip c p s k o :
  wf c s -> In (k, o) (s_vips s) -> may_remove_vip s p k o = false -> In (k, o) (s_vips (fst (step c p s))).
Proof.
  intros (Hv & _ & _ & Hd & _) Hin Hm. rewrite step_vips. destruct p; try exact Hin; cbn in Hm.
  - apply vip_alloc_keeps. exact Hin.
  - apply (release_In Z.eqb zeqb_spec); [exact Hv|]. split; [exact Hin|]. intros [-> ->].
    rewrite !Z.eqb_refl in Hm. discriminate.
  - apply gc_In. split; [exact Hin|]. apply negb_mem_false. exact Hm.
  - apply svc_create_keeps. exact Hin.
  - apply svc_delete_In; [exact Hv|]. split; [exact Hin|]. intros [-> H]. rewrite Z.eqb_refl, H in Hm. discriminate.
  - apply orb_false_iff in Hm as [Hm1 Hm2]. apply (proj2 (svc_sync_In s k o Hv Hd)); [exact Hin| |exact (negb_mem_false _ _ Hm2)].
    intros [H1 H2]. rewrite H1, H2 in Hm1. discriminate.
Qed.

Lemma step_keeps_rule c p s k o :
  wf c s -> In (k, o) (s_rules s) -> may_remove_rule s p k o = false -> In (k, o) (s_rules (fst (step c p s))).
Proof.
  intros (_ & Hr & _) Hin Hm. rewrite step_rules. destruct p; try exact Hin; cbn in Hm.
  - apply created_keeps. exact Hin.
  - apply (release_In Z.eqb zeqb_spec); [exact Hr|]. split; [exact Hin|]. intros [-> ->].
    rewrite !Z.eqb_refl in Hm. discriminate.
  - apply gc_In. split; [exact Hin|]. apply negb_mem_false. exact Hm.
Qed.

Lemma step_keeps_spec c p s k o :
  wf c s -> In (k, o) (s_specs s) -> may_remove_spec s p k o = false -> In (k, o) (s_specs (fst (step c p s))).
Proof.
  intros (_ & _ & Hs & _) Hin Hm. rewrite step_specs. destruct p; try exact Hin; cbn in Hm.
  - apply created_keeps. exact Hin.
  - destruct o0 as [x|]; cbn [unlink_spec].
    + apply (release_In spec_eqb spec_eqb_spec); [exact Hs|]. split; [exact Hin|]. intros [-> ->].
      rewrite (keqb_refl spec_eqb spec_eqb_spec) in Hm. cbn in Hm. rewrite Z.eqb_refl in Hm. discriminate.
    + apply (In_remove spec_eqb spec_eqb_spec). split; [exact Hin|]. intros ->.
      rewrite (keqb_refl spec_eqb spec_eqb_spec) in Hm. discriminate.
  - apply filter_In. split; [exact Hin|]. cbn. rewrite Hm. reflexivity.
  - apply gc_In. split; [exact Hin|]. apply negb_mem_false. exact Hm.
Qed.

(** * Repeated requests to the network service *)
Lemma step_keeps_dev c p s o d :
  keeps_dev o p = true -> dget o (s_devs s) = Some d ->
  exists d', dget o (s_devs (fst (step c p s))) = Some d' /\ d_ip d' = d_ip d.
Proof.
  intros Hk Hd. rewrite step_devs. destruct p; try discriminate; try (exists d; split; [exact Hd|reflexivity]).
  - destruct (Z.eq_dec o0 o) as [->|Hne]; [|rewrite svc_create_dget by exact Hne; eauto].
    destruct (d_ip d) as [a|] eqn:E.
    + exists (new_dev a env). split; [|reflexivity]. apply svc_create_reuse. apply dev_holds_iff. eauto.
    + exists d. split; [|exact E]. unfold svc_create. rewrite Hd, E. exact Hd.
  - cbn in Hk. rewrite dget_ddel. destruct (o0 =? o); [discriminate|eauto].
Qed.

Lemma run_keeps_dev c ops : forall s o a,
  forallb (keeps_dev o) ops = true -> dev_holds (s_devs s) o a = true -> dev_holds (s_devs (run c ops s)) o a = true.
Proof.
  induction ops as [|p r IH]; intros s o a Hk Hh; cbn; [exact Hh|]. cbn in Hk. apply andb_true_iff in Hk as [Hk1 Hk2].
  apply IH; [exact Hk2|]. apply dev_holds_iff in Hh as (d & Hd & Ha).
  destruct (step_keeps_dev c p s o d Hk1 Hd) as (d' & Hd' & E). apply dev_holds_iff. exists d'. split; congruence.
Qed.

(** * The service's view stays consistent with the directory on guarded schedules *)
(** the address a device carries after a step is in vips/ for its owner, or the device carried it before and the
    guard keeps this step from removing the entry *)
Lemma step_dev_holds c p s o a :
  wf c s -> guard s p = true -> dev_holds (s_devs (fst (step c p s))) o a = true ->
  In (a, o) (s_vips (fst (step c p s))) \/ (dev_holds (s_devs s) o a = true /\ may_remove_vip s p a o = false).
Proof.
  intros (_ & _ & _ & Hd & _) Hg. rewrite step_devs.
  destruct p; try (intros Hh; right; split; [exact Hh|reflexivity]); cbn [may_remove_vip].
  - (* VipFree *)
    intros Hh. right. split; [exact Hh|]. destruct (Z.eqb_spec o0 o) as [->|]; [|reflexivity].
    destruct (Z.eqb_spec a0 a) as [->|]; [|reflexivity]. cbn in Hg. rewrite Hh in Hg. discriminate.
  - (* VipGc *)
    intros Hh. right. split; [exact Hh|]. apply dev_holds_iff in Hh as (d & G1 & G2). apply dget_In in G1.
    cbn in Hg. rewrite forallb_forall in Hg. specialize (Hg _ G1). cbn in Hg. rewrite G2 in Hg. cbn in Hg. rewrite Hg. reflexivity.
  - (* SvcCreate *)
    rewrite step_vips. unfold dev_holds at 1.
    destruct (svc_create_outcome c o0 env s) as [|b s' _ _ _ _ -> ->|b s' Hb -> ->]; auto; rewrite dget_dset;
      (destruct (Z.eqb_spec o0 o) as [->|_]; [cbn; intros H; apply Z.eqb_eq in H; subst b|intros H; right; auto]).
    + left. apply in_or_app. right. left. reflexivity.
    + right. auto.
  - (* SvcDelete *)
    rewrite dev_holds_ddel. destruct (o0 =? o); [discriminate|]. intros Hh. right. auto.
  - (* SvcSync *)
    unfold dev_holds at 1. rewrite svc_sync_dget by exact Hd. destruct (dev_stale (s_devs s) o) eqn:Es; [discriminate|].
    intros Hh. right. split; [exact Hh|]. cbn. apply dev_holds_iff in Hh as (d & G1 & _).
    cbn in Hg. rewrite forallb_forall in Hg. specialize (Hg _ (dget_In _ _ _ G1)). cbn in Hg.
    unfold dev_stale in Es. rewrite G1 in Es. rewrite Es in Hg. cbn in Hg. rewrite Hg. reflexivity.
  - (* SvcRestart *)
    intros Hh. left. apply restart_holds. exact Hh.
Qed.

Lemma step_consistent c p s :
  wf c s -> guard s p = true -> dev_consistent s -> dev_consistent (fst (step c p s)).
Proof.
  intros Hw Hg Hc o a Hh. apply (NoDup_lookup Z.eqb zeqb_spec); [exact (proj1 (step_wf c p s Hw))|].
  destruct (step_dev_holds c p s o a Hw Hg Hh) as [H|[H1 H2]]; [exact H|].
  apply step_keeps_vip; [exact Hw| |exact H2]. apply (lookup_In Z.eqb zeqb_spec). exact (Hc o a H1).
Qed.

Lemma run_consistent c ops : forall s,
  wf c s -> guarded c ops s = true -> dev_consistent s -> dev_consistent (run c ops s).
Proof.
  induction ops as [|p r IH]; intros s Hw Hg Hc; cbn; [exact Hc|]. cbn in Hg. apply andb_true_iff in Hg as [Hg1 Hg2].
  apply IH; [apply step_wf; exact Hw|exact Hg2|apply step_consistent; assumption].
Qed.

Lemma consistent_empty : dev_consistent empty_state.
Proof. intros o a H. discriminate. Qed.

Lemma consistent_exclusive s o1 o2 a :
  dev_consistent s -> dev_holds (s_devs s) o1 a = true -> dev_holds (s_devs s) o2 a = true -> o1 = o2.
Proof. intros Hc H1 H2. apply Hc in H1. apply Hc in H2. congruence. Qed.

(** * Scanned addresses are hosts: never the network or the broadcast address *)
Definition all_hosts (c : cidr) (s : state) : Prop := Forall (fun e => is_host c (fst e) = true) (s_vips s).

Lemma step_hosts c p s :
  4 <= c_size c -> picks_host c p = true -> all_hosts c s -> all_hosts c (fst (step c p s)).
Proof.
  intros Hsz Hp.
  exact (tstep_Forall Z.eqb _ (fun a => is_host c a = true) _ _ _ (fun a H => proj2 H Hsz Hp) (step_vips_tstep c p s)).
Qed.

Lemma run_hosts c ops : forall s,
  4 <= c_size c -> forallb (picks_host c) ops = true -> all_hosts c s -> all_hosts c (run c ops s).
Proof.
  induction ops as [|p r IH]; intros s Hsz Hp Hh; cbn; [exact Hh|]. cbn in Hp. apply andb_true_iff in Hp as [Hp1 Hp2].
  apply IH; auto. apply step_hosts; assumption.
Qed.

Lemma is_host_not_edge c a : is_host c a = true -> a <> c_base c /\ a <> c_base c + c_size c - 1 /\ in_cidr c a = true.
Proof.
  unfold is_host, in_cidr. intros H. apply andb_true_iff in H as [H1 H2]. apply Z.ltb_lt in H1. apply Z.ltb_lt in H2.
  repeat split; try lia.
Qed.

(** * History level: an entry survives every sequence in which nobody entitled removes it *)
Fixpoint undisturbed {K} (may : state -> op -> K -> Z -> bool) (c : cidr) (ops : list op) (s : state) (k : K) (o : Z) : bool :=
  match ops with
  | [] => true
  | p :: r => negb (may s p k o) && undisturbed may c r (fst (step c p s)) k o
  end.

Lemma run_keeps {K} (tbl : state -> @table K) may c k o :
  (forall p s, wf c s -> In (k, o) (tbl s) -> may s p k o = false -> In (k, o) (tbl (fst (step c p s)))) ->
  forall ops s, wf c s -> In (k, o) (tbl s) -> undisturbed may c ops s k o = true -> In (k, o) (tbl (run c ops s)).
Proof.
  intros Hstep. induction ops as [|p r IH]; intros s Hw Hin Hu; cbn; [exact Hin|].
  cbn in Hu. apply andb_true_iff in Hu as [H1 H2]. apply negb_true_iff in H1.
  apply IH; [apply step_wf; exact Hw| |exact H2]. apply Hstep; assumption.
Qed.

(** * A collection during which an owner appears and registers an entry *)
Lemma In_add_z x o l : In x (add_z o l) <-> x = o \/ In x l.
Proof.
  unfold add_z. destruct (mem_z o l) eqn:E.
  - apply mem_z_In in E. split; [auto|]. intros [->|H]; assumption.
  - rewrite in_app_iff. cbn. split; [intros [H|[H|[]]]; auto|intros [H|H]; auto].
Qed.

Lemma run_app c a : forall b s, run c (a ++ b) s = run c b (run c a s).
Proof. induction a as [|p a IH]; intros b s; cbn; [reflexivity|apply IH]. Qed.

Lemma xrun_lin c xs : forall s, xrun c xs s = run c (flat_map lin xs) s.
Proof.
  induction xs as [|x r IH]; intros s; cbn [xrun flat_map]; [reflexivity|].
  rewrite run_app, IH. destruct x; reflexivity.
Qed.

Lemma step_rule_create c k o s : fst (step c (RuleCreate k o) s) = set_rules s (created Z.eqb k o o (s_rules s)).
Proof. cbn. unfold created. destruct (create_tolerant Z.eqb k o o (s_rules s)); [reflexivity|destruct s; reflexivity]. Qed.

Lemma step_spec_create c k o s :
  fst (step c (SpecCreate k o) s) = set_specs s (created spec_eqb k o (sp_app k) (s_specs s)).
Proof.
  cbn. unfold created. destruct (create_tolerant spec_eqb k o (sp_app k) (s_specs s)); [reflexivity|destruct s; reflexivity].
Qed.

Lemma step_vip_alloc c o p s :
  step c (VipAlloc o p) s = (set_vips s (snd (vip_alloc c o p (s_vips s))), fst (vip_alloc c o p (s_vips s))).
Proof. cbn. destruct (vip_alloc c o p (s_vips s)); reflexivity. Qed.

Lemma gc_created {K} (keqb : K -> K -> bool) (Hk : forall a b, keqb a b = true <-> a = b) k o same live (t : @table K) :
  (forall e, In e t -> In (snd e) live -> In e (gc live (created keqb k o same t))) /\
  (lookup keqb k t = None -> In o live -> In (k, o) (gc live (created keqb k o same t))).
Proof.
  split; [intros e H1 H2|intros H1 H2]; apply gc_In; (split; [|assumption]).
  - apply created_keeps; assumption.
  - rewrite created_free by exact H1. apply in_or_app. right. left. reflexivity.
Qed.

Lemma gc_alloc c o p live (t : @table Z) :
  (forall e, In e t -> In (snd e) live -> In e (gc live (snd (vip_alloc c o p t)))) /\
  (forall a, fst (vip_alloc c o p t) = RAddr a -> In o live -> In (a, o) (gc live (snd (vip_alloc c o p t)))).
Proof.
  split; [intros e H1 H2|intros a H1 H2]; apply gc_In; (split; [|assumption]); [apply vip_alloc_keeps; exact H1|].
  destruct (vip_alloc_outcome c o p t) as [r Hf|b]; [destruct (Hf a H1)|]. injection H1 as ->. apply in_or_app. right. left. reflexivity.
Qed.

(** * Garbage collection *)
(** the surviving entries keep their order: the result is a filter of the old directory *)
Lemma vip_gc_is_filter c s : s_vips (fst (step c VipGc s)) = filter (fun e => mem_z (snd e) (s_res s)) (s_vips s).
Proof. reflexivity. Qed.

