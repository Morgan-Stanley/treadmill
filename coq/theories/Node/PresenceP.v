(** Proofs about the presence service model [Node/Presence.v]. *)
From Coq Require Import ZArith List Bool Lia PeanoNat.
From TM Require Import Node.Presence Node.FindP.
Import ListNotations.
Open Scope Z_scope.

(** * Lists *)
Lemma nth_error_upd {X} (l : list X) i x j :
  nth_error (upd l i x) j =
  if Nat.eqb i j then match nth_error l i with Some _ => Some x | None => None end else nth_error l j.
Proof.
  revert i j; induction l as [|y l IH]; intros i j.
  - cbn. destruct (Nat.eqb i j); destruct i, j; reflexivity.
  - destruct i as [|i], j as [|j]; cbn; try reflexivity. apply IH.
Qed.

Lemma map_upd {X Y} (f : X -> Y) (l : list X) i x : map f (upd l i x) = upd (map f l) i (f x).
Proof. revert i; induction l as [|y l IH]; intros [|i]; cbn; try reflexivity. f_equal. apply IH. Qed.

Lemma upd_same {X} (l : list X) i x : nth_error l i = Some x -> upd l i x = l.
Proof.
  revert i; induction l as [|y l IH]; intros [|i] H; cbn in *; try discriminate.
  - congruence.
  - f_equal. apply IH. exact H.
Qed.

Lemma upd_all {X} (P : X -> Prop) l i x :
  (forall j c, nth_error l j = Some c -> P c) -> P x -> forall j c, nth_error (upd l i x) j = Some c -> P c.
Proof.
  intros Hl Hx j c. rewrite nth_error_upd. destruct (Nat.eqb i j); [|apply Hl].
  destruct (nth_error l i); [|discriminate]. now intros [= <-].
Qed.

Lemma In_upd {X} (l : list X) i x z : In z (upd l i x) -> z = x \/ In z l.
Proof.
  intros H. apply In_nth_error in H as [j H]. rewrite nth_error_upd in H. destruct (Nat.eqb i j).
  - destruct (nth_error l i); [|discriminate]. left. congruence.
  - right. eapply nth_error_In. exact H.
Qed.

Lemma NoDup_upd_fresh {X} (l : list X) i y : NoDup l -> ~ In y l -> NoDup (upd l i y).
Proof.
  revert i; induction l as [|x l IH]; intros [|i] Hnd Hy; cbn; try constructor;
    inversion Hnd as [|? ? Hx Hl]; subst; cbn in Hy.
  - tauto.
  - exact Hl.
  - intros H. apply In_upd in H. intuition congruence.
  - apply IH; tauto.
Qed.

Lemma NoDup_nth_neq {X} (l : list X) i j a b :
  NoDup l -> nth_error l i = Some a -> nth_error l j = Some b -> i <> j -> a <> b.
Proof.
  intros Hnd Hi Hj Hij E. subst b. apply Hij.
  apply (proj1 (NoDup_nth_error l) Hnd).
  - apply nth_error_Some. congruence.
  - congruence.
Qed.

Lemma nodupb_NoDup l : nodupb l = true -> NoDup l.
Proof.
  induction l as [|x l IH]; cbn; intros H; [constructor|].
  apply andb_true_iff in H as [Hx Hl]. constructor; [|apply IH; exact Hl].
  intros Hin. apply negb_true_iff in Hx.
  assert (E : existsb (Z.eqb x) l = true) by (apply existsb_exists; exists x; split; [exact Hin | apply Z.eqb_refl]).
  congruence.
Qed.

(** * ZooKeeper table *)
Lemma zk_get_path t p n : zk_get t p = Some n -> n_path n = p.
Proof. intros H. apply find_some in H as [_ H]. lia. Qed.

Lemma owner_of_create t p d sid t' q :
  zk_create t p d sid = Some t' ->
  owner_of t p = None /\
  owner_of t' q = match owner_of t q with Some o => Some o | None => if p =? q then Some sid else None end.
Proof.
  unfold zk_create. destruct (zk_get t p) eqn:Ep; [discriminate|]. intros [= <-]. unfold owner_of. rewrite Ep.
  split; [reflexivity|]. unfold zk_get. rewrite find_app. destruct (find _ t); [reflexivity|]. cbn. now destruct (p =? q).
Qed.

Lemma owner_of_set t p d t' q : zk_set t p d = Some t' -> owner_of t' q = owner_of t q.
Proof.
  unfold zk_set. destruct (zk_get t p); [|discriminate]. intros [= <-].
  unfold owner_of, zk_get. induction t as [|x t IH]; cbn; [reflexivity|].
  destruct (n_path x =? p) eqn:E; cbn; [assert (n_path x = p) by lia; subst p|];
    (destruct (n_path x =? q); cbn; [reflexivity | exact IH]).
Qed.

Lemma owner_of_delete t p t' q :
  zk_delete t p = Some t' -> owner_of t' q = if q =? p then None else owner_of t q.
Proof.
  unfold zk_delete. destruct (zk_get t p); [|discriminate]. intros [= <-]. unfold owner_of, zk_get.
  destruct (q =? p) eqn:E.
  - rewrite find_filter_kill; [reflexivity|]. intros x Hx. apply negb_false_iff. lia.
  - rewrite find_filter_same; [reflexivity|]. intros x Hx. apply negb_true_iff. lia.
Qed.

Lemma expire_preserved t sid q sid' :
  owner_of t q = Some sid' -> sid' <> sid -> owner_of (zk_expire t sid) q = Some sid'.
Proof.
  unfold owner_of, zk_expire, zk_get. intros Hq Hne.
  destruct (find (fun n => n_path n =? q) t) as [n|] eqn:E; [|discriminate].
  rewrite (find_filter_found _ _ _ n E); [exact Hq|]. cbn in Hq.
  apply negb_true_iff, Z.eqb_neq. congruence.
Qed.

(** what one call of a client with session sid may do to the table *)
Definition zk_change (sid : Z) (t t' : zk) : Prop :=
  t' = t \/ (exists p d, zk_create t p d sid = Some t') \/ (exists p d, zk_set t p d = Some t') \/
  (exists p, zk_delete t p = Some t' /\ owner_of t p = Some sid).

Lemma other_preserved sid t t' q sid' :
  zk_change sid t t' -> owner_of t q = Some sid' -> sid' <> sid -> owner_of t' q = Some sid'.
Proof.
  intros [->|[[p [d H]]|[[p [d H]]|[p [H Ho]]]]] Hq Hne.
  - exact Hq.
  - apply (owner_of_create _ _ _ _ _ q) in H as [_ ->]. now rewrite Hq.
  - now rewrite (owner_of_set _ _ _ _ q H).
  - rewrite (owner_of_delete _ _ _ q H). destruct (q =? p) eqn:E; [|exact Hq].
    replace q with p in Hq by lia. congruence.
Qed.

(** * The ownership invariant *)
Definition guarded (k : pc) : option Z :=
  match k with
  | PUpdate _ _ p _ _ | PDelChildren _ _ p _ | PDelDelete _ _ p _ => Some p
  | _ => None
  end.

(** a client past its ownership check on p: p exists and is owned by the client's session *)
Definition client_ok (t : zk) (c : client) : Prop :=
  c_alive c = true -> forall p, guarded (c_pc c) = Some p -> owner_of t p = Some (c_sess c).

Definition Inv (s : state) : Prop :=
  NoDup (map c_sess (st_clients s)) /\
  (forall j c, nth_error (st_clients s) j = Some c -> c_sess c < st_next s) /\
  (forall j c, nth_error (st_clients s) j = Some c -> client_ok (st_zk s) c).

Lemma guarded_next_create rid app rest : guarded (next_create rid app rest) = None.
Proof. destruct rest as [|[p d] rest]; reflexivity. Qed.
Lemma guarded_next_delete rid app rest : guarded (next_delete rid app rest) = None.
Proof. destruct rest as [|p rest]; reflexivity. Qed.

Lemma client_ok_unguarded t c m k : guarded k = None -> client_ok t (with_pc c m k).
Proof. intros Hg _ p Hp. cbn in Hp. congruence. Qed.

Lemma client_ok_guarded t c m k p :
  guarded k = Some p -> owner_of t p = Some (c_sess c) -> client_ok t (with_pc c m k).
Proof. intros Hg Ho _ q Hq. cbn in *. congruence. Qed.

Create HintDb presence discriminated.
#[local] Hint Resolve client_ok_unguarded guarded_next_create guarded_next_delete : presence.

Lemma client_ok_start t c r : client_ok t (start c r).
Proof. destruct r; apply (client_ok_unguarded t c (c_pmap c)); auto with presence. Qed.

Lemma read_step i c t op p d ok rid app isdel retry m k :
  mutating op = false -> (op = OCreate -> ok = false) -> client_ok t (with_pc c m k) ->
  c_sess (with_pc c m k) = c_sess c /\ client_ok t (with_pc c m k) /\
  safe_obs (mk_obs i c t t op p d ok rid app isdel retry) /\ zk_change (c_sess c) t t.
Proof.
  intros Hm Hc Hok. split; [reflexivity|]. split; [exact Hok|]. split; [|now left].
  unfold safe_obs; cbn. split; [congruence|]. split; [|reflexivity].
  intros H1 H2. rewrite (Hc H1) in H2. discriminate.
Qed.

Lemma client_step_spec i t c t' c' o :
  c_alive c = true -> client_ok t c -> client_step i t c = Some (t', c', o) ->
  c_sess c' = c_sess c /\ client_ok t' c' /\ safe_obs o /\ zk_change (c_sess c) t t'.
Proof.
  intros Ha Hok H. specialize (Hok Ha). unfold client_step in H.
  destruct (c_pc c) as [|rid app p d rest|rid app p d rest|rid app p d rest|rid app p|rid app p
                        |rid app p rest|rid app p rest|rid app p rest]; try discriminate.
  - (* PCreate *)
    destruct (zk_create t p d (c_sess c)) as [t1|] eqn:E; injection H as <- <- <-;
      [|apply read_step; [easy | easy | auto with presence]].
    destruct (owner_of_create _ _ _ _ _ p E) as [Hn Hs]. rewrite Hn, Z.eqb_refl in Hs.
    split; [reflexivity|]. split; [auto with presence|]. split; [|right; left; eauto].
    unfold safe_obs; cbn. repeat split; intros; try discriminate; assumption.
  - (* PGet *)
    destruct (zk_get t p) as [n|] eqn:Eg;
      [destruct (negb (n_owner n =? c_sess c)) eqn:Eo; [|destruct (negb (n_data n =? d))]|];
      injection H as <- <- <-; (apply read_step; [easy | easy |]); auto with presence.
    apply (client_ok_guarded _ _ _ _ p); [reflexivity|]. unfold owner_of. rewrite Eg. cbn.
    apply negb_false_iff in Eo. f_equal. lia.
  - (* PUpdate *)
    specialize (Hok p eq_refl).
    destruct (zk_set t p d) as [t1|] eqn:E;
      [|unfold zk_set in E; unfold owner_of in Hok; destruct (zk_get t p); discriminate].
    injection H as <- <- <-.
    split; [reflexivity|]. split; [auto with presence|]. split; [|right; right; left; eauto].
    unfold safe_obs; cbn. repeat split; intros; try discriminate; [exact Hok | exact (owner_of_set _ _ _ _ p E)].
  - (* PWatchGet *)
    destruct (zk_get t p); injection H as <- <- <-; (apply read_step; [easy | easy | auto with presence]).
  - (* PWatchExists *)
    destruct (zk_get t p); injection H as <- <- <-; (apply read_step; [easy | easy | auto with presence]).
  - (* PDelGet *)
    destruct (zk_get t p) as [n|] eqn:Eg; [destruct (n_owner n =? c_sess c) eqn:Eo|];
      injection H as <- <- <-; (apply read_step; [easy | easy |]); auto with presence.
    apply (client_ok_guarded _ _ _ _ p); [reflexivity|]. unfold owner_of. rewrite Eg. cbn. f_equal. lia.
  - (* PDelChildren *)
    specialize (Hok p eq_refl).
    destruct (zk_get t p); injection H as <- <- <-; (apply read_step; [easy | easy |]); auto with presence.
    now apply (client_ok_guarded _ _ _ _ p).
  - (* PDelDelete *)
    specialize (Hok p eq_refl).
    destruct (zk_delete t p) as [t1|] eqn:E;
      [|unfold zk_delete in E; unfold owner_of in Hok; destruct (zk_get t p); discriminate].
    injection H as <- <- <-.
    split; [reflexivity|]. split; [auto with presence|]. split; [|right; right; right; eauto].
    unfold safe_obs; cbn. repeat split; intros; try discriminate. exact Hok.
Qed.

(** one client is replaced by one with the same session, and the table changes in a way that keeps every node of the
    other sessions: the invariant survives *)
Lemma Inv_upd s i c c' t' :
  Inv s -> nth_error (st_clients s) i = Some c -> c_sess c' = c_sess c ->
  (forall q sid, owner_of (st_zk s) q = Some sid -> sid <> c_sess c -> owner_of t' q = Some sid) ->
  client_ok t' c' ->
  Inv {| st_zk := t'; st_clients := upd (st_clients s) i c'; st_next := st_next s |}.
Proof.
  intros (Hnd & Hlt & Hok) Hi Es Hpres Hc'. unfold Inv; cbn [st_zk st_clients st_next]. split; [|split].
  - rewrite map_upd, Es, upd_same; [exact Hnd|]. now rewrite nth_error_map, Hi.
  - apply (upd_all (fun c => c_sess c < st_next s)); [exact Hlt|]. rewrite Es. exact (Hlt _ _ Hi).
  - intros j c0. rewrite nth_error_upd, Hi. destruct (Nat.eqb i j) eqn:Eij; [now intros [= <-]|].
    intros Hj Ha p Hp. apply Hpres; [exact (Hok _ _ Hj Ha p Hp)|]. apply Nat.eqb_neq in Eij.
    apply (NoDup_nth_neq (map c_sess (st_clients s)) j i); [exact Hnd | | | congruence];
      rewrite nth_error_map; [rewrite Hj | rewrite Hi]; reflexivity.
Qed.

Lemma step_inv s a s' os : Inv s -> step s a = Some (s', os) -> Inv s' /\ Forall safe_obs os.
Proof.
  intros HI H. destruct a as [i r|i|i|i]; cbn in H;
    destruct (nth_error (st_clients s) i) as [c|] eqn:Ei; try discriminate.
  - (* AReq *)
    destruct (c_alive c && is_idle (c_pc c)); [|discriminate]. injection H as <- <-.
    split; [|constructor]. apply (Inv_upd s i c); auto using client_ok_start. now destruct r.
  - (* AStep *)
    destruct (c_alive c) eqn:Ea; [|discriminate].
    destruct (client_step i (st_zk s) c) as [[[t' c'] o]|] eqn:Ec; [|discriminate]. injection H as <- <-.
    destruct HI as (Hnd & Hlt & Hok).
    destruct (client_step_spec _ _ _ _ _ _ Ea (Hok _ _ Ei) Ec) as (Es & Hc' & Hso & Hch).
    split; [|constructor; [exact Hso | constructor]].
    apply (Inv_upd s i c); [now split | exact Ei | exact Es | | exact Hc'].
    intros q sid. now apply other_preserved.
  - (* AExpire *)
    destruct (c_alive c); [|discriminate]. injection H as <- <-.
    split; [|constructor]. apply (Inv_upd s i c); [exact HI | exact Ei | reflexivity | | discriminate].
    intros q sid. apply expire_preserved.
  - (* ARestart: a session number never used before *)
    destruct (c_alive c); [discriminate|]. injection H as <- <-. destruct HI as (Hnd & Hlt & Hok).
    split; [|constructor]. unfold Inv; cbn [st_zk st_clients st_next]. split; [|split].
    + rewrite map_upd. cbn. apply NoDup_upd_fresh; [exact Hnd|].
      intros Hin. apply in_map_iff in Hin as [c0 [E Hc0]]. apply In_nth_error in Hc0 as [j Hj].
      specialize (Hlt _ _ Hj). lia.
    + apply (upd_all (fun c => c_sess c < st_next s + 1)); [|cbn; lia]. intros j c0 Hj. specialize (Hlt _ _ Hj). lia.
    + apply (upd_all (client_ok (st_zk s))); [exact Hok | discriminate].
Qed.

Lemma run_invariant (I : state -> Prop) (P : obs -> Prop) :
  (forall s a s' os, I s -> step s a = Some (s', os) -> I s' /\ Forall P os) ->
  forall acts s s' os, I s -> run s acts = Some (s', os) -> I s' /\ Forall P os.
Proof.
  intros Hstep. induction acts as [|a acts IH]; intros s s' os Hi H; cbn in H.
  - injection H as <- <-. split; [exact Hi | constructor].
  - destruct (step s a) as [[s1 o1]|] eqn:E1; [|discriminate].
    destruct (run s1 acts) as [[s2 o2]|] eqn:E2; [|discriminate]. injection H as <- <-.
    destruct (Hstep _ _ _ _ Hi E1) as [Hi1 Ho1]. destruct (IH _ _ _ Hi1 E2) as [Hi2 Ho2].
    split; [exact Hi2 | apply Forall_app; split; assumption].
Qed.

Definition run_inv := run_invariant Inv safe_obs step_inv.

Lemma wf_init_spec s : wf_init s = true ->
  NoDup (map c_sess (st_clients s)) /\
  forall j c, nth_error (st_clients s) j = Some c ->
    c_sess c < st_next s /\ c_pc c = PIdle /\ pm_nodup (c_pmap c) = true.
Proof.
  unfold wf_init. intros H. apply andb_true_iff in H as [H1 H2]. rewrite forallb_forall in H2.
  split; [apply nodupb_NoDup; exact H1|]. intros j c Hj. apply nth_error_In in Hj. specialize (H2 _ Hj).
  apply andb_true_iff in H2 as [H2 H3]. apply andb_true_iff in H2 as [H2 H4].
  split; [lia|]. split; [now destruct (c_pc c) | exact H3].
Qed.

Lemma wf_init_Inv s : wf_init s = true -> Inv s.
Proof.
  intros H. apply wf_init_spec in H as [Hnd Hc]. split; [exact Hnd|].
  split; intros j c Hj; destruct (Hc j c Hj) as (Hlt & Hpc & _); [exact Hlt|].
  intros _ p. now rewrite Hpc.
Qed.

(** * The local map: on_delete_request touches only paths registered for its rsrc_id *)
Lemma pe_is_true app p e : pe_is app p e = true <-> pe_app e = app /\ pe_path e = p.
Proof. unfold pe_is. rewrite andb_true_iff. lia. Qed.

Lemma has_key_In e m x :
  In x m -> pe_app x = pe_app e -> pe_path x = pe_path e -> existsb (pe_is (pe_app e) (pe_path e)) m = true.
Proof. intros Hx Ha Hp. apply existsb_exists. exists x. split; [exact Hx | now apply pe_is_true]. Qed.

Lemma pm_nodup_map (f : pentry -> pentry) m :
  (forall e, pe_app (f e) = pe_app e /\ pe_path (f e) = pe_path e) -> pm_nodup (map f m) = pm_nodup m.
Proof.
  intros Hf. induction m as [|e m IH]; cbn; [reflexivity|]. rewrite IH. f_equal. f_equal.
  destruct (Hf e) as [-> ->]. clear IH. induction m as [|x m IH]; cbn; [reflexivity|]. rewrite IH. f_equal.
  unfold pe_is. destruct (Hf x) as [-> ->]. reflexivity.
Qed.

Lemma pm_nodup_snoc m x : pm_nodup m = true -> existsb (pe_is (pe_app x) (pe_path x)) m = false -> pm_nodup (m ++ [x]) = true.
Proof.
  induction m as [|e m IH]; cbn; intros Hn Hx; [reflexivity|].
  apply andb_true_iff in Hn as [He Hm]. apply orb_false_iff in Hx as [Hxe Hxm].
  rewrite IH by assumption. rewrite andb_true_r. rewrite existsb_app. cbn. rewrite orb_false_r.
  apply negb_true_iff in He. rewrite He. cbn. apply negb_true_iff.
  unfold pe_is in *. destruct (pe_app x =? pe_app e) eqn:E1, (pe_path x =? pe_path e) eqn:E2; cbn in Hxe; try discriminate; lia.
Qed.

Lemma pm_nodup_set m app p rid : pm_nodup m = true -> pm_nodup (pm_set m app p rid) = true.
Proof.
  intros H. unfold pm_set. destruct (existsb (pe_is app p) m) eqn:E.
  - rewrite pm_nodup_map; [exact H|]. intros e. destruct (pe_is app p e) eqn:Ee; cbn; [|split; reflexivity].
    apply pe_is_true in Ee as [-> ->]. split; reflexivity.
  - apply pm_nodup_snoc; [exact H | exact E].
Qed.

Lemma pm_nodup_filter f m : pm_nodup m = true -> pm_nodup (filter f m) = true.
Proof.
  induction m as [|e m IH]; cbn; intros H; [reflexivity|]. apply andb_true_iff in H as [He Hm].
  destruct (f e); cbn; [|apply IH; exact Hm]. rewrite IH by exact Hm. rewrite andb_true_r.
  apply negb_true_iff. apply negb_true_iff in He.
  destruct (existsb (pe_is (pe_app e) (pe_path e)) (filter f m)) eqn:E; [|reflexivity].
  apply existsb_exists in E as [x [Hx Hpx]]. apply filter_In in Hx as [Hx _]. apply pe_is_true in Hpx as [Ha Hp].
  now rewrite (has_key_In e m x) in He.
Qed.

Lemma pm_get_del_other m app p q : q <> p -> pm_get (pm_del m app p) app q = pm_get m app q.
Proof.
  intros Hq. unfold pm_get, pm_del. rewrite find_filter_same; [reflexivity|].
  intros x Hx. apply pe_is_true in Hx as [Ha Hp]. apply negb_true_iff.
  unfold pe_is. destruct (pe_path x =? p) eqn:E; [lia|]. apply andb_false_r.
Qed.

Lemma pm_paths_spec m app rid q : pm_nodup m = true -> In q (pm_paths m app rid) -> pm_get m app q = Some rid.
Proof.
  unfold pm_paths, pm_get. induction m as [|e m IH]; cbn; intros Hn Hq; [contradiction|].
  apply andb_true_iff in Hn as [He Hm]. apply negb_true_iff in He.
  (* a key found in the tail is not the key of the head *)
  assert (Htail : In q (map pe_path (filter (fun e => (pe_app e =? app) && (pe_rid e =? rid)) m)) ->
                  option_map pe_rid (if pe_is app q e then Some e else find (pe_is app q) m) = Some rid).
  { intros Hq'. specialize (IH Hm Hq'). destruct (pe_is app q e) eqn:Eq; [|exact IH]. exfalso.
    destruct (find (pe_is app q) m) as [x|] eqn:Ef; [|discriminate]. apply find_some in Ef as [Hx Hpx].
    apply pe_is_true in Eq as [<- <-]. apply pe_is_true in Hpx as [Ha Hp]. now rewrite (has_key_In e m x) in He. }
  destruct ((pe_app e =? app) && (pe_rid e =? rid)) eqn:Em; [destruct Hq as [<-|Hq]|]; auto.
  apply andb_true_iff in Em as [E1 E2]. unfold pe_is. rewrite E1, Z.eqb_refl. cbn. f_equal. lia.
Qed.

Lemma pm_paths_NoDup m app rid : pm_nodup m = true -> NoDup (pm_paths m app rid).
Proof.
  unfold pm_paths. induction m as [|e m IH]; cbn; intros Hn; [constructor|].
  apply andb_true_iff in Hn as [He Hm]. apply negb_true_iff in He.
  destruct ((pe_app e =? app) && (pe_rid e =? rid)) eqn:Em; cbn; [|apply IH; exact Hm].
  constructor; [|apply IH; exact Hm]. intros Hin. apply in_map_iff in Hin as [x [Hp Hx]].
  apply filter_In in Hx as [Hx Hxm]. apply andb_true_iff in Em as [E1 _]. apply andb_true_iff in Hxm as [E2 _].
  rewrite (has_key_In e m x) in He; [discriminate | exact Hx | lia | exact Hp].
Qed.

Lemma pm_paths_other m app p rid1 rid2 :
  pm_nodup m = true -> pm_get m app p = Some rid2 -> rid1 <> rid2 -> ~ In p (pm_paths m app rid1).
Proof. intros Hn Hg Hne Hin. apply (pm_paths_spec _ _ _ _ Hn) in Hin. congruence. Qed.

(** a client inside on_delete_request rid: the current and the remaining paths are registered for rid *)
Definition del_ok (c : client) : Prop :=
  pm_nodup (c_pmap c) = true /\
  match c_pc c with
  | PDelGet rid app p rest | PDelChildren rid app p rest | PDelDelete rid app p rest =>
      pm_get (c_pmap c) app p = Some rid /\ (forall q, In q rest -> pm_get (c_pmap c) app q = Some rid) /\ NoDup (p :: rest)
  | _ => True
  end.

Definition Inv2 (s : state) : Prop := forall j c, nth_error (st_clients s) j = Some c -> del_ok c.

Definition deleting (k : pc) : bool :=
  match k with PDelGet _ _ _ _ | PDelChildren _ _ _ _ | PDelDelete _ _ _ _ => true | _ => false end.

Lemma deleting_next_create rid app rest : deleting (next_create rid app rest) = false.
Proof. destruct rest as [|[p d] rest]; reflexivity. Qed.

Lemma create_step_ok i c t t' op p d ok rid app retry m k :
  op <> ODelete -> pm_nodup m = true -> deleting k = false ->
  del_ok (with_pc c m k) /\ reg_obs (mk_obs i c t t' op p d ok rid app false retry).
Proof.
  intros Hop Hn Hk. split; [split; [exact Hn | now destruct k]|].
  unfold reg_obs; cbn. repeat split; intros; congruence.
Qed.

Lemma del_ok_next_delete c m rid app p rest :
  pm_nodup m = true -> (forall q, In q rest -> pm_get m app q = Some rid) -> NoDup (p :: rest) ->
  del_ok (with_pc c (pm_del m app p) (next_delete rid app rest)).
Proof.
  intros Hn Hr Hnd. split; [apply pm_nodup_filter; exact Hn|]. cbn.
  inversion Hnd as [|? ? Hp Hrest]; subst.
  destruct rest as [|q rest]; cbn; [exact I|].
  assert (Hne : forall x, In x (q :: rest) -> x <> p) by (intros x Hx ->; contradiction).
  split; [|split].
  - rewrite pm_get_del_other; [apply Hr; left; reflexivity | apply Hne; left; reflexivity].
  - intros x Hx. rewrite pm_get_del_other; [apply Hr; right; exact Hx | apply Hne; right; exact Hx].
  - exact Hrest.
Qed.

(** one call of a delete request working on p: it stays on p, or forgets p and moves on *)
Lemma delete_step_ok i c t t' op p ok rid app retry rest m k :
  pm_nodup (c_pmap c) = true -> pm_get (c_pmap c) app p = Some rid ->
  (forall q, In q rest -> pm_get (c_pmap c) app q = Some rid) -> NoDup (p :: rest) ->
  op <> OSet -> op <> OCreate ->
  m = c_pmap c /\ (k = PDelChildren rid app p rest \/ k = PDelDelete rid app p rest) \/
  m = pm_del (c_pmap c) app p /\ k = next_delete rid app rest ->
  del_ok (with_pc c m k) /\ reg_obs (mk_obs i c t t' op p 0 ok rid app true retry).
Proof.
  intros Hn Hg Hr Hnd H1 H2 Hmk. split.
  - destruct Hmk as [[-> [-> | ->]] | [-> ->]]; [split; cbn; auto .. | now apply del_ok_next_delete].
  - unfold reg_obs; cbn. repeat split; intros; try congruence. destruct H; congruence.
Qed.

Lemma client_step_del i t c t' c' o : del_ok c -> client_step i t c = Some (t', c', o) -> del_ok c' /\ reg_obs o.
Proof.
  intros [Hn Hpc] H. unfold client_step in H.
  destruct (c_pc c) as [|rid app p d rest|rid app p d rest|rid app p d rest|rid app p|rid app p
                        |rid app p rest|rid app p rest|rid app p rest]; try discriminate.
  - destruct (zk_create t p d (c_sess c)); injection H as <- <- <-;
      (apply create_step_ok; [discriminate | auto using pm_nodup_set | auto using deleting_next_create]).
  - destruct (zk_get t p) as [n|];
      [destruct (negb (n_owner n =? c_sess c)); [|destruct (negb (n_data n =? d))]|]; injection H as <- <- <-;
      (apply create_step_ok; [discriminate | auto using pm_nodup_set | auto using deleting_next_create]).
  - destruct (zk_set t p d); injection H as <- <- <-;
      (apply create_step_ok; [discriminate | auto using pm_nodup_set | auto using deleting_next_create]).
  - destruct (zk_get t p); injection H as <- <- <-; (apply create_step_ok; [discriminate | auto | auto]).
  - destruct (zk_get t p); injection H as <- <- <-; (apply create_step_ok; [discriminate | auto | auto]).
  - destruct Hpc as (Hg & Hr & Hnd). destruct (zk_get t p) as [n|]; [destruct (n_owner n =? c_sess c)|];
      injection H as <- <- <-; (apply delete_step_ok with (rest := rest); auto; discriminate).
  - destruct Hpc as (Hg & Hr & Hnd). destruct (zk_get t p);
      injection H as <- <- <-; (apply delete_step_ok with (rest := rest); auto; discriminate).
  - destruct Hpc as (Hg & Hr & Hnd). destruct (zk_delete t p);
      injection H as <- <- <-; (apply delete_step_ok with (rest := rest); auto; discriminate).
Qed.

Lemma del_ok_start c r : del_ok c -> del_ok (start c r).
Proof.
  intros [Hn _]. destruct r as [rid app items|rid app]; (split; [exact Hn|]); cbn.
  - now destruct items as [|[p d] rest].
  - pose proof (fun q => pm_paths_spec (c_pmap c) app rid q Hn) as Hs. pose proof (pm_paths_NoDup (c_pmap c) app rid Hn) as Hd.
    destruct (pm_paths (c_pmap c) app rid) as [|p rest]; cbn; [exact I|]. cbn in Hs. auto.
Qed.

Lemma Inv2_upd s i c' t n :
  Inv2 s -> del_ok c' -> Inv2 {| st_zk := t; st_clients := upd (st_clients s) i c'; st_next := n |}.
Proof. intros Hi Hc. exact (upd_all del_ok _ _ _ Hi Hc). Qed.

Lemma step_inv2 s a s' os : Inv2 s -> step s a = Some (s', os) -> Inv2 s' /\ Forall reg_obs os.
Proof.
  intros Hi H. destruct a as [i r|i|i|i]; cbn in H;
    destruct (nth_error (st_clients s) i) as [c|] eqn:Ei; try discriminate.
  - destruct (c_alive c && is_idle (c_pc c)); [|discriminate]. injection H as <- <-. split; [|constructor].
    apply Inv2_upd; [exact Hi | exact (del_ok_start c r (Hi _ _ Ei))].
  - destruct (c_alive c); [|discriminate].
    destruct (client_step i (st_zk s) c) as [[[t' c'] o]|] eqn:Ec; [|discriminate]. injection H as <- <-.
    destruct (client_step_del _ _ _ _ _ _ (Hi _ _ Ei) Ec) as [Hd Ho].
    split; [apply Inv2_upd; assumption | constructor; [exact Ho | constructor]].
  - destruct (c_alive c); [|discriminate]. injection H as <- <-. split; [|constructor].
    apply Inv2_upd; [exact Hi | exact (Hi _ _ Ei)].
  - destruct (c_alive c); [discriminate|]. injection H as <- <-. split; [|constructor].
    apply Inv2_upd; [exact Hi | now split].
Qed.

Definition run_inv2 := run_invariant Inv2 reg_obs step_inv2.

Lemma wf_init_Inv2 s : wf_init s = true -> Inv2 s.
Proof.
  intros H j c Hj. apply wf_init_spec in H as [_ Hc]. destruct (Hc j c Hj) as (_ & Hpc & Hn).
  split; [exact Hn | now rewrite Hpc].
Qed.

