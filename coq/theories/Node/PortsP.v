(** Proofs about Node/Ports.v (runtime.allocate_network_ports). *)
From Coq Require Import ZArith List Bool Lia.
From TM Require Import Node.Ports Node.PortsRun.
Import ListNotations.
Open Scope Z_scope.

(** * List facts *)
Lemma memz_In p l : memz p l = true <-> In p l.
Proof.
  unfold memz. rewrite existsb_exists. split.
  - intros [x [Hin Heq]]. apply Z.eqb_eq in Heq. now subst.
  - intros Hin. exists p. split; [assumption | apply Z.eqb_refl].
Qed.

Lemma nodupb_NoDup l : nodupb l = true -> NoDup l.
Proof.
  induction l as [|x t IH]; cbn [nodupb]; intros H; [constructor|].
  apply andb_true_iff in H as [Hx Ht]. constructor; [|now apply IH].
  intros Hin. apply memz_In in Hin. rewrite Hin in Hx. discriminate.
Qed.

Lemma In_firstn {A} (x : A) n l : In x (firstn n l) -> In x l.
Proof. intros H. rewrite <- (firstn_skipn n l). apply in_or_app. now left. Qed.

Lemma In_skipn {A} (x : A) n l : In x (skipn n l) -> In x l.
Proof. intros H. rewrite <- (firstn_skipn n l). apply in_or_app. now right. Qed.

Lemma NoDup_firstn_ {A} n (l : list A) : NoDup l -> NoDup (firstn n l).
Proof.
  revert n. induction l as [|x l IH]; intros [|n] H; cbn [firstn]; try constructor.
  - inversion H as [|? ? Hx Hl]; subst. intros Hin. apply Hx. eapply In_firstn; eassumption.
  - inversion H; subst. now apply IH.
Qed.

Lemma NoDup_app_l {A} (a b : list A) : NoDup (a ++ b) -> NoDup a.
Proof.
  induction a as [|x a IH]; cbn; intros H; [constructor|].
  inversion H as [|? ? Hx Hl]; subst. constructor; [|now apply IH].
  intros Hin. apply Hx. apply in_or_app. now left.
Qed.

Lemma NoDup_app_r {A} (a b : list A) : NoDup (a ++ b) -> NoDup b.
Proof. induction a as [|x a IH]; cbn; intros H; [assumption|]. inversion H; subst. now apply IH. Qed.

Lemma NoDup_app_disj {A} (a b : list A) x : NoDup (a ++ b) -> In x a -> In x b -> False.
Proof.
  induction a as [|y a IH]; cbn; intros H Ha Hb; [contradiction|].
  inversion H as [|? ? Hy Hl]; subst. destruct Ha as [->|Ha].
  - apply Hy. apply in_or_app. now right.
  - now apply IH.
Qed.

(** * _allocate_sockets *)
Lemma free_In busy s p : In p (free busy s) <-> In p s /\ busy p = false.
Proof.
  unfold free. rewrite filter_In. split; intros [H1 H2]; split; try assumption.
  - now destruct (busy p).
  - now rewrite H2.
Qed.

Lemma free_cons busy p s :
  free busy (p :: s) = if busy p then free busy s else p :: free busy s.
Proof. unfold free. cbn [filter]. now destruct (busy p). Qed.

Lemma free_app busy a b : free busy (a ++ b) = free busy a ++ free busy b.
Proof. unfold free. apply filter_app. Qed.

(** The loop, in closed form.  With [k] ports still to find: it succeeds iff [k] free ports occur in the sample
    BEFORE its last element (the last element can be bound, but the length test that would notice it is at the top
    of an iteration that never comes) *)
Lemma alloc_loop_spec busy count : forall sample got, (length got <= count)%nat ->
  alloc_loop busy count sample got =
  match sample with
  | [] => SErr got
  | _ :: _ =>
      if (count - length got <=? length (free busy (removelast sample)))%nat
      then SOk (got ++ firstn (count - length got) (free busy sample))
      else SErr (got ++ free busy sample)
  end.
Proof.
  induction sample as [|p rest IH]; intros got Hle; [reflexivity|].
  cbn [alloc_loop].
  destruct (Nat.eqb (length got) count) eqn:E.
  - apply Nat.eqb_eq in E. rewrite E, Nat.sub_diag. cbn [Nat.leb firstn]. now rewrite app_nil_r.
  - apply Nat.eqb_neq in E.
    destruct (count - length got)%nat as [|k] eqn:K; [lia|].
    destruct (busy p) eqn:B.
    + rewrite IH by lia. rewrite K. destruct rest as [|q r].
      * cbn. rewrite B. cbn. now rewrite app_nil_r.
      * change (removelast (p :: q :: r)) with (p :: removelast (q :: r)).
        rewrite !(free_cons busy p), B. reflexivity.
    + rewrite IH by (rewrite app_length; cbn [length]; lia).
      rewrite app_length. cbn [length].
      replace (count - (length got + 1))%nat with k by lia.
      destruct rest as [|q r].
      * cbn. rewrite B. cbn. reflexivity.
      * change (removelast (p :: q :: r)) with (p :: removelast (q :: r)).
        rewrite !(free_cons busy p), B. cbn [length Nat.leb firstn].
        rewrite <- !app_assoc. reflexivity.
Qed.

(** the enabling condition: the sample is not empty and [count] free ports occur before its last element *)
Definition enough (busy : Z -> bool) (sample : list Z) (count : nat) : bool :=
  match sample with
  | [] => false
  | _ :: _ => (count <=? length (free busy (removelast sample)))%nat
  end.

Theorem allocate_sockets_spec busy sample count :
  allocate_sockets busy sample count =
  if enough busy sample count then SOk (firstn count (free busy sample)) else SErr (free busy sample).
Proof.
  unfold allocate_sockets, enough. rewrite alloc_loop_spec by (cbn; lia).
  destruct sample as [|p s]; [reflexivity|]. cbn [length app]. now rewrite Nat.sub_0_r.
Qed.

(** number of free ports = those before the last element + the last one if it is free *)
Lemma free_last_count busy s : s <> [] ->
  length (free busy s) =
  (length (free busy (removelast s)) + if busy (last s 0%Z) then 0 else 1)%nat.
Proof.
  intros Hne. rewrite (app_removelast_last 0 Hne) at 1.
  rewrite free_app, app_length. f_equal. cbn [free filter].
  destruct (busy (last s 0)); reflexivity.
Qed.

(** [enough] in terms of all the free ports of the sample: the last element does not count *)
Lemma enough_spec busy s count : s <> [] ->
  enough busy s count = (count + (if busy (last s 0%Z) then 0 else 1) <=? length (free busy s))%nat.
Proof.
  intros Hne. rewrite (free_last_count busy s Hne). destruct s as [|p s]; [contradiction|]. unfold enough.
  apply Bool.eq_iff_eq_true. rewrite !Nat.leb_le. destruct (busy (last (p :: s) 0)); lia.
Qed.

(** success: exactly [count] ports, the first free ones in sample order *)
Theorem alloc_ok busy sample count l :
  allocate_sockets busy sample count = SOk l ->
  l = firstn count (free busy sample) /\ length l = count /\
  enough busy sample count = true.
Proof.
  rewrite allocate_sockets_spec. destruct (enough busy sample count) eqn:E; [|discriminate].
  intros [= <-]. split; [reflexivity|]. split; [|reflexivity]. apply firstn_length_le.
  destruct sample as [|p s]; [discriminate|]. rewrite enough_spec in E by discriminate.
  apply Nat.leb_le in E. lia.
Qed.

(** pairwise distinct, none busy, all from the sample *)
Theorem alloc_ok_distinct busy sample count l :
  NoDup sample -> allocate_sockets busy sample count = SOk l ->
  NoDup l /\ (forall p, In p l -> busy p = false /\ In p sample).
Proof.
  intros Hnd H. apply alloc_ok in H as [-> _]. split.
  - apply NoDup_firstn_. now apply NoDup_filter.
  - intros p Hin. apply In_firstn in Hin. apply free_In in Hin. tauto.
Qed.

(** * _allocate_network_ports_proto *)
Lemma set_real_matches proto e p : ep_matches proto (set_real e p) = ep_matches proto e.
Proof. reflexivity. Qed.

Lemma assign_length proto : forall eps socks, length (assign proto eps socks) = length eps.
Proof.
  induction eps as [|e t IH]; intros socks; [reflexivity|]. cbn [assign].
  destruct (ep_matches proto e).
  - destruct socks as [|p ps]; [reflexivity|]. cbn [length]. now rewrite IH.
  - cbn [length]. now rewrite IH.
Qed.

(** names and protocols never change *)
Lemma assign_names proto : forall eps socks,
  map ep_name (assign proto eps socks) = map ep_name eps /\
  map ep_proto (assign proto eps socks) = map ep_proto eps.
Proof.
  induction eps as [|e t IH]; intros socks; [split; reflexivity|]. cbn [assign].
  destruct (ep_matches proto e).
  - destruct socks as [|p ps]; [split; reflexivity|]. cbn [map]. destruct (IH ps) as [H1 H2].
    rewrite H1, H2. split; reflexivity.
  - cbn [map]. destruct (IH socks) as [H1 H2]. rewrite H1, H2. split; reflexivity.
Qed.

(** the endpoints of another protocol are not touched *)
Lemma assign_filter_other proto (f : endpoint -> bool) :
  (forall e p, f (set_real e p) = f e) -> (forall e, f e = true -> ep_matches proto e = false) ->
  forall eps socks, filter f (assign proto eps socks) = filter f eps.
Proof.
  intros Hf Hdis. induction eps as [|e t IH]; intros socks; [reflexivity|]. cbn [assign].
  destruct (ep_matches proto e) eqn:M.
  - destruct socks as [|p ps]; [reflexivity|]. cbn [filter]. rewrite Hf.
    destruct (f e) eqn:F; [apply Hdis in F; congruence|]. apply IH.
  - cbn [filter]. rewrite IH. reflexivity.
Qed.

(** the endpoints of this protocol, in manifest order, get the first sockets in order *)
Lemma assign_filter_same proto : forall eps socks, (n_matching proto eps <= length socks)%nat ->
  filter (ep_matches proto) (assign proto eps socks) =
  map (fun es => set_real (fst es) (snd es)) (combine (filter (ep_matches proto) eps) socks).
Proof.
  unfold n_matching. induction eps as [|e t IH]; intros socks Hlen; [reflexivity|]. cbn [assign filter].
  destruct (ep_matches proto e) eqn:M.
  - destruct socks as [|p ps]; [cbn [filter length] in Hlen; rewrite M in Hlen; cbn in Hlen; lia|].
    cbn [filter]. rewrite set_real_matches, M. cbn [combine map fst snd]. f_equal. apply IH.
    cbn [length] in Hlen. cbn [filter] in Hlen. rewrite M in Hlen. cbn [length] in Hlen. lia.
  - cbn [filter]. rewrite M. apply IH. cbn [filter] in Hlen. now rewrite M in Hlen.
Qed.

(** position by position: the endpoint at index [i] is untouched if of another protocol; otherwise it gets the
    socket whose index is the number of endpoints of this protocol before it *)
Lemma assign_nth proto : forall eps socks i e, (n_matching proto eps <= length socks)%nat ->
  nth_error eps i = Some e ->
  if ep_matches proto e
  then exists p, nth_error socks (n_matching proto (firstn i eps)) = Some p /\
                 nth_error (assign proto eps socks) i = Some (set_real e p)
  else nth_error (assign proto eps socks) i = Some e.
Proof.
  unfold n_matching. induction eps as [|e0 t IH]; intros socks i e Hlen Hn; [destruct i; discriminate|].
  cbn [assign]. cbn [filter] in Hlen.
  destruct i as [|i].
  - cbn [nth_error] in Hn. inversion Hn; subst e0. clear Hn.
    destruct (ep_matches proto e) eqn:M.
    + destruct socks as [|p ps]; [cbn in Hlen; lia|]. exists p. split; reflexivity.
    + reflexivity.
  - cbn [nth_error] in Hn. cbn [firstn filter].
    destruct (ep_matches proto e0) eqn:M0.
    + destruct socks as [|p ps]; [cbn in Hlen; lia|].
      cbn [length] in Hlen. specialize (IH ps i e ltac:(lia) Hn).
      destruct (ep_matches proto e); cbn [length nth_error]; exact IH.
    + specialize (IH socks i e Hlen Hn).
      destruct (ep_matches proto e); cbn [nth_error]; exact IH.
Qed.

Lemma n_matching_firstn_lt proto : forall eps i e, nth_error eps i = Some e -> ep_matches proto e = true ->
  (n_matching proto (firstn i eps) < n_matching proto eps)%nat.
Proof.
  unfold n_matching. induction eps as [|e0 t IH]; intros i e Hn M; [destruct i; discriminate|].
  destruct i as [|i]; cbn [nth_error] in Hn.
  - inversion Hn; subst. cbn [firstn filter]. rewrite M. cbn; lia.
  - cbn [firstn filter]. specialize (IH i e Hn M). destruct (ep_matches proto e0); cbn [length]; lia.
Qed.

Lemma map_real_combine : forall (eps : list endpoint) socks, (length eps <= length socks)%nat ->
  map ep_real (map (fun es => set_real (fst es) (snd es)) (combine eps socks)) =
  map Some (firstn (length eps) socks).
Proof.
  induction eps as [|e t IH]; intros socks Hlen; [reflexivity|].
  destruct socks as [|p ps]; [cbn in Hlen; lia|]. cbn [combine map length firstn fst snd set_real ep_real].
  f_equal. apply IH. cbn in Hlen. lia.
Qed.

Lemma real_ports_assign proto eps socks : (n_matching proto eps <= length socks)%nat ->
  real_ports proto (assign proto eps socks) = map Some (firstn (n_matching proto eps) socks).
Proof. intros H. unfold real_ports. rewrite assign_filter_same by exact H. now apply map_real_combine. Qed.

(** * allocate_network_ports *)
Lemma matches_tcp_udp e : ep_matches P_UDP e = true -> ep_matches P_TCP e = false.
Proof.
  unfold ep_matches. intros H. apply Z.eqb_eq in H. rewrite H. reflexivity.
Qed.

Lemma n_matching_assign proto proto' : forall eps socks,
  n_matching proto' (assign proto eps socks) = n_matching proto' eps.
Proof.
  unfold n_matching. induction eps as [|e t IH]; intros socks; [reflexivity|]. cbn [assign].
  destruct (ep_matches proto e).
  - destruct socks as [|p ps]; [reflexivity|]. cbn [filter]. rewrite set_real_matches.
    destruct (ep_matches proto' e); cbn [length]; now rewrite IH.
  - cbn [filter]. destruct (ep_matches proto' e); cbn [length]; now rewrite IH.
Qed.

Lemma firstn_assign proto : forall eps socks i,
  firstn i (assign proto eps socks) = assign proto (firstn i eps) socks.
Proof.
  induction eps as [|e t IH]; intros socks [|i]; cbn [assign firstn]; try reflexivity.
  destruct (ep_matches proto e); [destruct socks as [|p ps]|]; cbn [firstn]; now rewrite ?IH.
Qed.

(** the tcp pass then the udp pass, position by position: the tcp pass does not disturb the udp count of a prefix *)
Lemma assign_tcp_udp_nth eps tcp udp i e :
  (n_matching P_TCP eps <= length tcp)%nat -> (n_matching P_UDP eps <= length udp)%nat ->
  nth_error eps i = Some e ->
  let r := assign P_UDP (assign P_TCP eps tcp) udp in
  if ep_matches P_TCP e
  then exists p, nth_error tcp (n_matching P_TCP (firstn i eps)) = Some p /\ nth_error r i = Some (set_real e p)
  else if ep_matches P_UDP e
  then exists p, nth_error udp (n_matching P_UDP (firstn i eps)) = Some p /\ nth_error r i = Some (set_real e p)
  else nth_error r i = Some e.
Proof.
  intros Hlet Hleu Hi r. rewrite <- (n_matching_assign P_TCP P_UDP eps tcp) in Hleu.
  pose proof (assign_nth P_TCP eps tcp i e Hlet Hi) as H1.
  destruct (ep_matches P_TCP e) eqn:Mt.
  - destruct H1 as [p [Hp He]]. exists p. split; [assumption|].
    pose proof (assign_nth P_UDP _ udp i (set_real e p) Hleu He) as H2.
    rewrite set_real_matches in H2.
    destruct (ep_matches P_UDP e) eqn:Mu; [apply matches_tcp_udp in Mu; congruence | assumption].
  - pose proof (assign_nth P_UDP _ udp i e Hleu H1) as H2.
    destruct (ep_matches P_UDP e) eqn:Mu; [|assumption].
    destruct H2 as [p [Hp He]]. exists p. split; [|assumption].
    rewrite <- Hp. f_equal. now rewrite firstn_assign, n_matching_assign.
Qed.

Definition n_tcp (m : manifest) : nat := (n_matching P_TCP (m_eps m) + ecount (m_eph_tcp m))%nat.
Definition n_udp (m : manifest) : nat := (n_matching P_UDP (m_eps m) + ecount (m_eph_udp m))%nat.

Lemma ports_tables_ok_spec T : ports_tables_ok T = true ->
  0 < pt_prod_low T <= pt_prod_high T /\ 0 < pt_nonprod_low T <= pt_nonprod_high T /\
  (pt_prod_high T < pt_nonprod_low T \/ pt_nonprod_high T < pt_prod_low T) /\
  0 < pt_span T <= pt_prod_high T - pt_prod_low T + 1 /\ pt_span T <= pt_nonprod_high T - pt_nonprod_low T + 1.
Proof.
  unfold ports_tables_ok. lia.
Qed.

Ltac crush_out := repeat match goal with
  | H : exists _, _ |- _ => destruct H
  | H : _ /\ _ |- _ => destruct H
  end; try discriminate; try congruence.

(** * A pool of consecutive ports, everything busy but the last two: one port can be had, two cannot
      (the second free port is the last element of the sample) *)
Lemma zrange_length lo n : length (zrange lo n) = n.
Proof. revert lo. induction n as [|n IH]; intros lo; cbn [zrange length]; [reflexivity | now rewrite IH]. Qed.

Lemma zrange_app lo n m : zrange lo (n + m) = zrange lo n ++ zrange (lo + Z.of_nat n) m.
Proof.
  revert lo. induction n as [|n IH]; intros lo; cbn [zrange Nat.add app].
  - now rewrite Z.add_0_r.
  - rewrite IH. do 3 f_equal. lia.
Qed.

Lemma free_zrange_busy busy lo n :
  (forall p, lo <= p < lo + Z.of_nat n -> busy p = true) -> free busy (zrange lo n) = [].
Proof.
  revert lo. induction n as [|n IH]; intros lo Hb; cbn [zrange]; [reflexivity|].
  rewrite free_cons, Hb by lia. apply IH. intros p Hp. apply Hb. lia.
Qed.

Theorem alloc_all_but_last_two busy lo k :
  0 <= k -> (forall p, lo <= p < lo + k -> busy p = true) -> busy (lo + k) = false -> busy (lo + k + 1) = false ->
  allocate_sockets busy (zrange lo (Z.to_nat (k + 2))) 1 = SOk [lo + k] /\
  allocate_sockets busy (zrange lo (Z.to_nat (k + 2))) 2 = SErr [lo + k; lo + k + 1].
Proof.
  intros Hk Hb H1 H2. replace (Z.to_nat (k + 2)) with (Z.to_nat k + 2)%nat by lia.
  rewrite !allocate_sockets_spec, zrange_app, Z2Nat.id by exact Hk. cbn [zrange].
  assert (Hf : forall s, free busy (zrange lo (Z.to_nat k) ++ s) = free busy s).
  { intros s. rewrite free_app, free_zrange_busy; [reflexivity|]. intros p Hp. apply Hb. lia. }
  assert (E : forall c, enough busy (zrange lo (Z.to_nat k) ++ [lo + k; lo + k + 1]) c = (c <=? 1)%nat).
  { intros c. unfold enough. rewrite removelast_app by discriminate. cbn [removelast]. rewrite Hf.
    unfold free. cbn [filter]. rewrite H1. now destruct (zrange lo (Z.to_nat k)). }
  rewrite !E, Hf. unfold free. cbn [filter Nat.leb]. now rewrite H1, H2.
Qed.

Lemma mk_sample_whole_pool T e : mk_sample T e {| ss_full := true; ss_prefix := [] |} = pool_list T e.
Proof. unfold mk_sample. cbn [ss_full ss_prefix app]. induction (pool_list T e) as [|p l IH]; [reflexivity | exact (f_equal (cons p) IH)]. Qed.

(** a tcp and a udp endpoint MAY get the same number (two socket types, two samples): real behaviour *)
Definition share_manifest : manifest :=
  {| m_env := ENV_DEV;
     m_eps := [ {| ep_name := 1; ep_proto := P_TCP; ep_port := 0; ep_real := None |};
                {| ep_name := 2; ep_proto := P_UDP; ep_port := 8000; ep_real := None |} ];
     m_eph_tcp := None; m_eph_udp := None |}.

