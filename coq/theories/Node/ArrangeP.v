(** Iterating over a set in a recorded order ([arrangeb] of Node/AppCfg.v; [arrange] of Node/Cache.v is its
    instance for names): the same members, each once. *)
From Coq Require Import List Bool.
From TM Require Import Node.AppCfg.
Import ListNotations.

Section Arrange.
  Context {A : Type} (eqb : A -> A -> bool).
  Hypothesis eqb_spec : forall a b, eqb a b = true <-> a = b.

  Lemma memb_In x l : memb eqb x l = true <-> In x l.
  Proof.
    induction l as [|y r IH]; cbn; [split; [discriminate | tauto]|].
    rewrite orb_true_iff, IH, eqb_spec. tauto.
  Qed.
  Lemma memb_false x l : memb eqb x l = false <-> ~ In x l.
  Proof. rewrite <- memb_In. destruct (memb eqb x l); split; congruence. Qed.

  Lemma dedupb_In x l : In x (dedupb eqb l) <-> In x l.
  Proof.
    induction l as [|y r IH]; cbn; [tauto|].
    destruct (memb eqb y r) eqn:E.
    - rewrite IH. apply memb_In in E. split; [auto | intros [H|H]; [subst; auto | auto]].
    - cbn. rewrite IH. tauto.
  Qed.
  Lemma dedupb_NoDup l : NoDup (dedupb eqb l).
  Proof.
    induction l as [|y r IH]; cbn; [constructor|].
    destruct (memb eqb y r) eqn:E; auto. constructor; auto. rewrite dedupb_In. now apply memb_false.
  Qed.

  Lemma arrangeb_In ord l x : In x (arrangeb eqb ord l) <-> In x l.
  Proof.
    unfold arrangeb. rewrite in_app_iff, !filter_In, dedupb_In, memb_In, negb_true_iff, memb_false.
    split; [tauto|]. intros H. destruct (memb eqb x ord) eqn:E.
    - left. split; auto. now apply memb_In.
    - right. split; auto. now apply memb_false.
  Qed.

  Lemma arrangeb_NoDup ord l : NoDup l -> NoDup (arrangeb eqb ord l).
  Proof.
    intros Hl. unfold arrangeb.
    assert (H1 := NoDup_filter (fun x => memb eqb x l) (dedupb_NoDup ord)).
    assert (H2 := NoDup_filter (fun x => negb (memb eqb x ord)) Hl).
    assert (Hd : forall x, In x (filter (fun x => memb eqb x l) (dedupb eqb ord)) ->
                           ~ In x (filter (fun x => negb (memb eqb x ord)) l)).
    { intros x HA HB. rewrite filter_In in HA, HB. destruct HA as [HA _]. destruct HB as [_ HB].
      rewrite dedupb_In in HA. apply negb_true_iff in HB. apply memb_false in HB. exact (HB HA). }
    revert H1 H2 Hd. generalize (filter (fun x => memb eqb x l) (dedupb eqb ord)) as l1.
    generalize (filter (fun x => negb (memb eqb x ord)) l) as l2.
    intros l2 l1 H1 H2. induction H1 as [|x l1 Hx Hl1 IH]; cbn; intros Hd; auto.
    constructor.
    - rewrite in_app_iff. intros [H|H]; [auto | apply (Hd x); cbn; auto].
    - apply IH. intros y Hy. apply Hd. cbn; auto.
  Qed.
End Arrange.

