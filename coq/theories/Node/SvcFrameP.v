(** Proofs about Node/SvcFrame.v: what the resource-service framework hands to the implementation. *)
From Coq Require Import ZArith List Bool Lia.
From TM Require Import Node.Owners Node.OwnersP Node.SvcFrame.
Import ListNotations.
Open Scope Z_scope.

Lemma forallb_imp {A} (f g : A -> bool) l : (forall x, f x = true -> g x = true) -> forallb f l = true -> forallb g l = true.
Proof. intros H. rewrite !forallb_forall. auto. Qed.

(** * Tables *)
Lemma fget_fset n m e t : fget n (fset m e t) = if m =? n then e else fget n t.
Proof.
  induction t as [|[k e'] t IH]; cbn; [reflexivity|]. destruct (k =? m) eqn:E; cbn.
  - apply Z.eqb_eq in E; subst k. destruct (m =? n); reflexivity.
  - rewrite IH. destruct (k =? n) eqn:E2; [|reflexivity]. apply Z.eqb_eq in E2; subst k. rewrite Z.eqb_sym, E. reflexivity.
Qed.

Lemma fget_fset_same n e t : fget n (fset n e t) = e.
Proof. rewrite fget_fset, Z.eqb_refl. reflexivity. Qed.

Lemma fget_fset_other n m e t : m <> n -> fget n (fset m e t) = fget n t.
Proof. intros H. rewrite fget_fset. apply Z.eqb_neq in H. rewrite H. reflexivity. Qed.

Lemma fget_entry n t : fget n t = absent \/ In (n, fget n t) t.
Proof.
  induction t as [|[k e] t IH]; cbn; [left; reflexivity|].
  destruct (k =? n) eqn:E; [apply Z.eqb_eq in E; subst; right; left; reflexivity|].
  destruct IH as [IH|IH]; [left; exact IH|right; right; exact IH].
Qed.

Lemma live_set_link_false e : live (set_link false e) = false.
Proof. reflexivity. Qed.
Lemma req_env_live e x : req_env e = Some x -> live e = true.
Proof. unfold req_env. destruct (live e); [reflexivity|discriminate]. Qed.
Lemma replayable_live e : replayable e = true -> live e = true.
Proof. unfold replayable. destruct (req_env e) eqn:E; [intros _; exact (req_env_live e z E)|discriminate]. Qed.

Lemma replayable_fset n e' t k : replayable e' = replayable (fget n t) -> replayable (fget k (fset n e' t)) = replayable (fget k t).
Proof. intros H. rewrite fget_fset. destruct (Z.eqb_spec n k) as [->|]; [exact H|reflexivity]. Qed.

(** * Owners: lists, guards *)
Lemma In_del_z x y l : In x (del_z y l) <-> In x l /\ x <> y.
Proof.
  unfold del_z. rewrite filter_In. split; intros [H1 H2]; split; try exact H1.
  - intros ->. rewrite Z.eqb_refl in H2. discriminate.
  - destruct (x =? y) eqn:E; [apply Z.eqb_eq in E; contradiction|reflexivity].
Qed.

Lemma guarded_app c a : forall b s, guarded c (a ++ b) s = guarded c a s && guarded c b (run c a s).
Proof.
  induction a as [|p a IH]; intros b s; cbn; [reflexivity|]. rewrite IH. rewrite andb_assoc. reflexivity.
Qed.

Lemma guarded_quiet c ops : forall s, forallb quiet ops = true -> guarded c ops s = true.
Proof.
  induction ops as [|p ops IH]; intros s H; cbn; [reflexivity|]. cbn in H. apply andb_true_iff in H as [H1 H2].
  rewrite IH by exact H2. destruct p; cbn in *; try reflexivity; discriminate.
Qed.

(** what the framework emits apart from SvcRestart, SvcSync and SvcDelete *)
Definition mild (p : op) : bool :=
  match p with ResUp _ | ResDown _ | SvcCreate _ _ => true | _ => false end.

Lemma mild_quiet ops : forallb mild ops = true -> forallb quiet ops = true.
Proof. apply forallb_imp. intros []; cbn; congruence. Qed.

Lemma mild_delta n e e' : forallb mild (res_delta n e e') = true.
Proof.
  unfold res_delta. destruct (live e' && negb (live e)); [reflexivity|].
  destruct (live e && negb (live e')); reflexivity.
Qed.

Lemma devs_delta c n e e' s : s_devs (run c (res_delta n e e') s) = s_devs s.
Proof.
  unfold res_delta. destruct (live e' && negb (live e)); [reflexivity|].
  destruct (live e && negb (live e')); reflexivity.
Qed.

Definition all_stale (m : devs) : Prop := forall k x, In (k, x) m -> d_stale x = true.

Lemma restart_all_stale s : all_stale (s_devs (svc_restart s)).
Proof.
  rewrite svc_restart_devs. apply fold_restart_inv; [intros k x []|]. intros m o d H Hd k x Hin.
  destruct (In_dset _ _ _ _ _ Hin) as [[_ ->]|H']; [exact Hd|exact (H k x H')].
Qed.

Lemma restart_res s : s_res (svc_restart s) = s_res s.
Proof. reflexivity. Qed.

Lemma create_devs c o env s k x :
  In (k, x) (s_devs (fst (svc_create c o env s))) -> k = o \/ In (k, x) (s_devs s).
Proof.
  destruct (svc_create_outcome c o env s) as [| ? ? _ _ _ _ _ -> | ? ? _ _ ->]; auto;
    intros Hin; destruct (In_dset _ _ _ _ _ Hin) as [[-> _]|H']; auto.
Qed.

(** * What the framework does at [_on_created] *)
Definition answer (r : res) : rtag := match r with RAddr a => RepOk a | _ => RepErr end.

Inductive created_outcome (c : cidr) (n : Z) (t : ftable) (s : state) : ftable * list op * list Z -> Prop :=
| OcSkip : is_dot n = true \/ e_link (fget n t) = false -> created_outcome c n t s (t, [], [])
| OcInvalid : is_dot n = false -> e_link (fget n t) = true -> req_env (fget n t) = None ->
    created_outcome c n t s
      (fset n (set_link false (fget n t)) t, res_delta n (fget n t) (set_link false (fget n t)), [n])
| OcRejected : is_dot n = false -> live (fget n t) = true -> req_env (fget n t) = None ->
    created_outcome c n t s (fset n (set_reply (Some RepErr) (fget n t)) t, [], [])
| OcHanded env : is_dot n = false -> req_env (fget n t) = Some env ->
    created_outcome c n t s
      (fset n (set_reply (Some (answer (snd (step c (SvcCreate n env) s)))) (fget n t)) t, [SvcCreate n env], []).

Lemma on_created_outcome c n t s x : on_created c n t s = x -> created_outcome c n t s x.
Proof.
  intros <-. unfold on_created. destruct (is_dot n) eqn:Ed; [apply OcSkip; auto|].
  destruct (e_link (fget n t)) eqn:El; cbn [negb]; [|apply OcSkip; auto].
  destruct (e_dir (fget n t)) eqn:Edir; [destruct (e_req (fget n t)) as [env|] eqn:Er; [destruct (env <? 0) eqn:Eenv|]|];
    [apply OcRejected|apply OcHanded|apply OcInvalid|apply OcInvalid]; auto;
    unfold req_env, live; rewrite ?El, ?Edir, ?Er, ?Eenv; reflexivity.
Qed.

Lemma on_created_mild c n t s t' ops dels : on_created c n t s = (t', ops, dels) -> forallb mild ops = true.
Proof. intros E. apply on_created_outcome in E. inversion E; subst; try reflexivity. apply mild_delta. Qed.

Lemma on_created_frame c n t s t' ops dels : on_created c n t s = (t', ops, dels) ->
  (forall m, m <> n -> fget m t' = fget m t) /\ (forall x, In x dels -> x = n).
Proof.
  intros E. apply on_created_outcome in E.
  inversion E; subst; (split; [intros m Hm; rewrite ?fget_fset_other by congruence; reflexivity|]); intros x []; auto.
  destruct H.
Qed.

Lemma on_created_handed c n t s env : is_dot n = false -> req_env (fget n t) = Some env ->
  on_created c n t s =
  (fset n (set_reply (Some (answer (snd (step c (SvcCreate n env) s)))) (fget n t)) t, [SvcCreate n env], []).
Proof.
  intros Hd Hr. pose proof (on_created_outcome c n t s _ eq_refl) as O.
  inversion O as [[H|H] E|? ? Hq E|? ? Hq E|env' ? Hq E]; try congruence.
  - unfold req_env, live in Hr. rewrite H in Hr. discriminate.
  - rewrite Hq in Hr. injection Hr as ->. reflexivity.
Qed.

(** * The invariants *)
(** every link that resolves is a resource Owners.v knows *)
Definition covers (t : ftable) (s : state) : Prop := forall n, live (fget n t) = true -> In n (s_res s).
(** every device that is not stale belongs to a request the framework hands over *)
Definition fresh_replayed (t : ftable) (s : state) : Prop :=
  forall k x, In (k, x) (s_devs s) -> d_stale x = false -> replayable (fget k t) = true.

Lemma res_covers_covers t s : res_covers t s = true -> covers t s.
Proof.
  intros H n Hl. destruct (fget_entry n t) as [E|E]; [rewrite E in Hl; discriminate|].
  unfold res_covers in H. rewrite forallb_forall in H. specialize (H _ E). cbn in H. rewrite Hl in H. cbn in H.
  apply mem_z_In. exact H.
Qed.

Lemma covers_same_res t s s' : covers t s -> s_res s' = s_res s -> covers t s'.
Proof. intros H E n Hn. rewrite E. exact (H n Hn). Qed.

Lemma covers_fset t s n e' : covers t s -> (live e' = true -> live (fget n t) = true) -> covers (fset n e' t) s.
Proof.
  intros Hc Hl m Hm. apply Hc. rewrite fget_fset in Hm. destruct (Z.eqb_spec n m) as [->|]; auto.
Qed.

Lemma covers_delta c t s n e' :
  covers t s -> covers (fset n e' t) (run c (res_delta n (fget n t) e') s).
Proof.
  intros H m Hm. unfold res_delta.
  destruct (Z.eq_dec m n) as [->|Hne].
  - rewrite fget_fset_same in Hm. rewrite Hm. cbn [andb].
    destruct (live (fget n t)) eqn:El; cbn.
    + exact (H n El).
    + apply In_add_z. left; reflexivity.
  - rewrite fget_fset_other in Hm by congruence. pose proof (H m Hm) as Hin.
    destruct (live e' && negb (live (fget n t))); cbn; [apply In_add_z; right; exact Hin|].
    destruct (live (fget n t) && negb (live e')); cbn; [apply In_del_z; split; assumption|exact Hin].
Qed.

(** a stretch of the framework's operations, started where the implementation state [covers] the table:
    it passes the guards and ends where the new state covers the new table *)
Definition sound (c : cidr) (t : ftable) (s : state) (ops : list op) (t' : ftable) : Prop :=
  covers t s -> guarded c ops s = true /\ covers t' (run c ops s).

Lemma sound_nil c t s : sound c t s [] t.
Proof. intros H. split; [reflexivity|exact H]. Qed.

Lemma sound_app c t s o1 t1 o2 t2 :
  sound c t s o1 t1 -> sound c t1 (run c o1 s) o2 t2 -> sound c t s (o1 ++ o2) t2.
Proof.
  intros H1 H2 Hc. destruct (H1 Hc) as [G1 C1]. destruct (H2 C1) as [G2 C2]. rewrite guarded_app, run_app, G1, G2. auto.
Qed.

Lemma sound_quiet c t s ops t' :
  forallb quiet ops = true -> (covers t s -> covers t' (run c ops s)) -> sound c t s ops t'.
Proof. intros Hq H Hc. split; [apply guarded_quiet; exact Hq|exact (H Hc)]. Qed.

Lemma sound_delta c t s n e' : sound c t s (res_delta n (fget n t) e') (fset n e' t).
Proof. apply sound_quiet; [apply mild_quiet, mild_delta|apply covers_delta]. Qed.

Lemma sound_on_deleted c t s n : sound c t s (on_deleted n) t.
Proof.
  unfold on_deleted. destruct (is_dot n); [apply sound_nil|]. apply sound_quiet; [reflexivity|].
  intros Hc. exact (covers_same_res _ _ _ Hc (step_res c (SvcDelete n) s)).
Qed.

Lemma sound_deliver c l : forall t s, sound c t s (deliver l) t.
Proof.
  induction l as [|n l IH]; intros t s; [apply sound_nil|]. exact (sound_app _ _ _ _ _ _ _ (sound_on_deleted c t s n) (IH _ _)).
Qed.

(** ** _on_created *)
Lemma on_created_sound c n t s t' ops dels : on_created c n t s = (t', ops, dels) -> sound c t s ops t'.
Proof.
  intros E. apply on_created_outcome in E. inversion E; subst.
  - apply sound_nil.
  - apply sound_delta.
  - apply sound_quiet; [reflexivity|]. intros Hc. apply covers_fset; auto.
  - apply sound_quiet; [reflexivity|]. intros Hc. apply covers_fset; [|auto].
    exact (covers_same_res _ _ _ Hc (step_res c (SvcCreate n env) s)).
Qed.

Lemma on_created_fresh c n t s t' ops dels :
  on_created c n t s = (t', ops, dels) -> fresh_replayed t s -> fresh_replayed t' (run c ops s).
Proof.
  intros E Hf. apply on_created_outcome in E. inversion E as [H|Hd Hl Hr|Hd Hl Hr|env Hd Hr]; subst; [exact Hf| | |];
    intros k x Hin Hst.
  - rewrite devs_delta in Hin. rewrite replayable_fset; [exact (Hf k x Hin Hst)|]. unfold replayable. rewrite Hr. reflexivity.
  - rewrite replayable_fset; [exact (Hf k x Hin Hst)|reflexivity].
  - cbn [run step fst] in Hin. destruct (create_devs c n env s k x Hin) as [->|Hin'].
    + rewrite fget_fset_same. unfold replayable. change (req_env (set_reply _ ?e)) with (req_env e). rewrite Hr. reflexivity.
    + rewrite replayable_fset; [exact (Hf k x Hin' Hst)|reflexivity].
Qed.

Lemma on_created_path_sound c p t s t' ops dels : on_created_path c p t s = (t', ops, dels) -> sound c t s ops t'.
Proof. destruct p as [|n]; cbn; [intros E; inversion E; apply sound_nil|apply on_created_sound]. Qed.

(** ** the replay loop *)
Lemma replay_inv c l : forall t s t' ops dels,
  replay c l t s = (t', ops, dels) ->
  forallb mild ops = true /\ sound c t s ops t' /\ (fresh_replayed t s -> fresh_replayed t' (run c ops s)).
Proof.
  induction l as [|n l IH]; intros t s t' ops dels E; cbn in E.
  - inversion E; subst. split; [reflexivity|split; [apply sound_nil|auto]].
  - destruct (on_created c n t s) as [[t1 o1] d1] eqn:E1.
    destruct (replay c l t1 (run c o1 s)) as [[t2 o2] d2] eqn:E2. inversion E; subst; clear E.
    destruct (IH _ _ _ _ _ E2) as (M2 & S2 & F2).
    rewrite forallb_app, (on_created_mild _ _ _ _ _ _ _ E1), M2, run_app.
    split; [reflexivity|split; [exact (sound_app _ _ _ _ _ _ _ (on_created_sound _ _ _ _ _ _ _ E1) S2)|]].
    intros Hf. exact (F2 (on_created_fresh _ _ _ _ _ _ _ E1 Hf)).
Qed.

(** ** _check_requests *)
Lemma check_requests_spec l : forall t svcs t' rm,
  check_requests l t = (svcs, t', rm) ->
  svcs = filter (fun n => e_dir (fget n t)) l /\
  (forall m, e_dir (fget m t) = true -> fget m t' = fget m t) /\
  (forall m, e_dir (fget m t') = e_dir (fget m t)) /\
  (forall m, live (fget m t') = true -> live (fget m t) = true) /\
  (forall x, In x rm -> e_dir (fget x t) = false).
Proof.
  induction l as [|n l IH]; intros t svcs t' rm E; cbn in E; [inversion E; subst; cbn; intuition|].
  cbn [filter]. destruct (e_dir (fget n t)) eqn:Ed.
  - destruct (check_requests l t) as [[sv t1] r1] eqn:E1. inversion E; subst.
    destruct (IH _ _ _ _ E1) as (H1 & H2 & H3 & H4 & H5). rewrite H1. auto.
  - destruct (check_requests l (fset n (set_link false (fget n t)) t)) as [[sv t1] r1] eqn:E1. inversion E; subst.
    destruct (IH _ _ _ _ E1) as (H1 & H2 & H3 & H4 & H5).
    assert (Hd : forall m, e_dir (fget m (fset n (set_link false (fget n t)) t)) = e_dir (fget m t)).
    { intros m. rewrite fget_fset. destruct (Z.eqb_spec n m) as [->|]; reflexivity. }
    split; [|split; [|split; [|split]]].
    + rewrite H1. apply filter_ext. intros m. apply Hd.
    + intros m Hm. rewrite H2 by (rewrite Hd; exact Hm). apply fget_fset_other. congruence.
    + intros m. rewrite H3. apply Hd.
    + intros m Hm. apply H4 in Hm. rewrite fget_fset in Hm. destruct (n =? m); [discriminate|exact Hm].
    + intros x [->|Hx]; [exact Ed|]. rewrite <- Hd. exact (H5 x Hx).
Qed.

(** * The start-up sequence satisfies the guard of C14_service_consistent *)
Lemma sync_guard_from t s : covers t s -> fresh_replayed t s -> guard s SvcSync = true.
Proof.
  intros Hc Hf. cbn. apply forallb_forall. intros [k x] Hin. cbn.
  destruct (d_stale x) eqn:Est; [reflexivity|]. cbn. apply mem_z_In. apply Hc. apply replayable_live.
  exact (Hf k x Hin Est).
Qed.

Lemma startup_shape c order t s t' ops dels :
  startup c order t s = (t', ops, dels) ->
  exists svcs t0 rm0 mid d1,
    check_requests (glob order t) t = (svcs, t0, rm0) /\ replay c svcs t0 (run c [SvcRestart] s) = (t', mid, d1) /\
    ops = SvcRestart :: mid ++ [SvcSync] /\ dels = rm0 ++ d1.
Proof.
  unfold startup. destruct (check_requests (glob order t) t) as [[svcs t0] rm0].
  destruct (replay c svcs t0 (run c [SvcRestart] s)) as [[t1 mid] d1] eqn:E1. intros E; inversion E; subst.
  exists svcs, t0, rm0, mid, d1. auto.
Qed.

(** what holds right before synchronize *)
Lemma startup_parts c order t s t' ops dels :
  startup c order t s = (t', ops, dels) -> covers t s ->
  exists mid, ops = SvcRestart :: mid ++ [SvcSync] /\ forallb mild mid = true /\
    covers t' (run c mid (svc_restart s)) /\ fresh_replayed t' (run c mid (svc_restart s)).
Proof.
  intros E Hc. destruct (startup_shape _ _ _ _ _ _ _ E) as (svcs & t0 & rm0 & o1 & d1 & E0 & E1 & -> & _).
  destruct (replay_inv c svcs t0 _ t' o1 d1 E1) as (M & S & F).
  exists o1. split; [reflexivity|split; [exact M|]]. split.
  - apply S. intros m Hm. apply Hc. exact (proj1 (proj2 (proj2 (proj2 (check_requests_spec _ _ _ _ _ E0)))) m Hm).
  - apply F. intros k x Hin Hst. rewrite (restart_all_stale s k x Hin) in Hst. discriminate.
Qed.

Lemma startup_sound c order t s t' ops dels : startup c order t s = (t', ops, dels) -> sound c t s ops t'.
Proof.
  intros E Hc. destruct (startup_parts c order t s t' ops dels E Hc) as (mid & -> & M & C & F).
  change (SvcRestart :: mid ++ [SvcSync]) with ([SvcRestart] ++ mid ++ [SvcSync]).
  rewrite !guarded_app, !run_app, (guarded_quiet c mid _ (mild_quiet mid M)). cbn [guarded run step fst andb].
  rewrite (sync_guard_from t' _ C F). split; [reflexivity|].
  exact (covers_same_res _ _ _ C (step_res c SvcSync _)).
Qed.

(** every step of a history: restarts interleaved with client requests, releases, vanishing containers, foreign
    interference with request.yml and stray events *)
Lemma fstep_raw_sound c f st t ops up : fstep_raw c f st = (t, ops, up) -> sound c (f_tbl st) (f_own st) ops t.
Proof.
  unfold fstep_raw. destruct f as [order| |n env|n|n|n|n|p].
  - destruct (startup c order (f_tbl st) (f_own st)) as [[t1 o1] d1] eqn:E1. intros E; inversion E; subst.
    exact (sound_app _ _ _ _ _ _ _ (startup_sound _ _ _ _ _ _ _ E1) (sound_deliver _ _ _ _)).
  - intros E; inversion E; subst. apply sound_nil.
  - destruct (client_put n env (fget n (f_tbl st))) as [e' ev].
    pose proof (sound_delta c (f_tbl st) (f_own st) n e') as S1.
    destruct ev; try (intros E; inversion E; subst; exact S1).
    destruct (f_up st); [|intros E; inversion E; subst; exact S1].
    destruct (on_created c n _ _) as [[t2 o2] d2] eqn:E2. intros E; inversion E; subst.
    exact (sound_app _ _ _ _ _ _ _ S1 (sound_app _ _ _ _ _ _ _ (on_created_sound _ _ _ _ _ _ _ E2) (sound_deliver _ _ _ _))).
  - destruct (client_delete (fget n (f_tbl st))) as [e' ev]. intros E; inversion E; subst.
    apply (sound_app _ _ _ _ _ _ _ (sound_delta _ _ _ _ _)).
    destruct ev; try apply sound_nil. destruct (f_up st); [apply sound_on_deleted|apply sound_nil].
  - destruct (f_up st); intros E; inversion E; subst; [|apply sound_delta].
    apply (sound_app _ _ _ _ _ _ _ (sound_delta _ _ _ _ _)).
    destruct (e_link (fget n (f_tbl st))); [apply sound_on_deleted|apply sound_nil].
  - intros E; inversion E; subst. apply sound_nil.
  - intros E; inversion E; subst. destruct (e_dir (fget n (f_tbl st))); [|apply sound_nil].
    apply sound_quiet; [reflexivity|]. intros Hc. apply covers_fset; auto.
  - destruct (f_up st); [|intros E; inversion E; subst; apply sound_nil].
    destruct (on_created_path c p _ _) as [[t2 o2] d2] eqn:E2. intros E; inversion E; subst.
    exact (sound_app _ _ _ _ _ _ _ (on_created_path_sound _ _ _ _ _ _ _ E2) (sound_deliver _ _ _ _)).
Qed.

Lemma fstep_inv c f st :
  covers (f_tbl st) (f_own st) ->
  guarded c (snd (fstep c f st)) (f_own st) = true /\
  f_own (fst (fstep c f st)) = run c (snd (fstep c f st)) (f_own st) /\
  covers (f_tbl (fst (fstep c f st))) (f_own (fst (fstep c f st))).
Proof.
  intros Hc. unfold fstep. destruct (fstep_raw c f st) as [[t ops] up] eqn:E. cbn [fst snd f_own f_tbl].
  destruct (fstep_raw_sound c f st t ops up E Hc). auto.
Qed.

Lemma frame_run_inv c fs : forall st,
  covers (f_tbl st) (f_own st) ->
  guarded c (snd (frame_run c fs st)) (f_own st) = true /\
  f_own (fst (frame_run c fs st)) = run c (snd (frame_run c fs st)) (f_own st) /\
  covers (f_tbl (fst (frame_run c fs st))) (f_own (fst (frame_run c fs st))).
Proof.
  induction fs as [|f fs IH]; intros st Hc; cbn; [auto|].
  destruct (fstep_inv c f st Hc) as (G1 & R1 & C1).
  destruct (fstep c f st) as [st1 o1] eqn:E1. cbn [fst snd] in *.
  destruct (IH st1 C1) as (G2 & R2 & C2).
  destruct (frame_run c fs st1) as [st2 o2] eqn:E2. cbn [fst snd] in *.
  rewrite guarded_app, run_app, G1, <- R1, G2. auto.
Qed.

Lemma covers_empty : covers (f_tbl fstate0) (f_own fstate0).
Proof. intros n Hn. discriminate. Qed.

(** * The start-up replays every request exactly once, in directory order, and nothing else *)
Lemma creates_app a b : creates (a ++ b) = creates a ++ creates b.
Proof.
  induction a as [|p a IH]; cbn; [reflexivity|]. destruct (create_of p); cbn; rewrite IH; reflexivity.
Qed.

Lemma creates_delta n e e' : creates (res_delta n e e') = [].
Proof.
  unfold res_delta. destruct (live e' && negb (live e)); [reflexivity|].
  destruct (live e && negb (live e')); reflexivity.
Qed.

Definition replay_item (t : ftable) (n : Z) : list (Z * Z) :=
  match req_env (fget n t) with Some env => [(n, env)] | None => [] end.

Lemma on_created_creates c n t s t' ops dels :
  on_created c n t s = (t', ops, dels) -> is_dot n = false -> creates ops = replay_item t n.
Proof.
  intros E Hd. apply on_created_outcome in E. unfold replay_item.
  inversion E as [[H|H]|? ? Hr|? ? Hr|env ? Hr]; subst; rewrite ?Hr; try reflexivity; [congruence| |apply creates_delta].
  unfold req_env, live. rewrite H. reflexivity.
Qed.

Lemma flat_map_ext_in' {A B} (f g : A -> list B) l : (forall x, In x l -> f x = g x) -> flat_map f l = flat_map g l.
Proof.
  induction l as [|x l IH]; intros H; cbn; [reflexivity|]. rewrite (H x (or_introl eq_refl)), IH; [reflexivity|].
  intros y Hy. apply H. right; exact Hy.
Qed.

Lemma replay_creates c l : forall t s t' ops dels,
  replay c l t s = (t', ops, dels) -> NoDup l -> forallb (fun n => negb (is_dot n)) l = true ->
  creates ops = flat_map (replay_item t) l.
Proof.
  induction l as [|n l IH]; intros t s t' ops dels E Hnd Hdot; cbn in E; [inversion E; reflexivity|].
  destruct (on_created c n t s) as [[t1 o1] d1] eqn:E1.
  destruct (replay c l t1 (run c o1 s)) as [[t2 o2] d2] eqn:E2. inversion E; subst; clear E.
  cbn in Hdot. apply andb_true_iff in Hdot as [Hd1 Hd2]. apply negb_true_iff in Hd1.
  inversion Hnd as [|x l' Hnotin Hnd']; subst.
  rewrite creates_app, (on_created_creates c n t s t1 o1 d1 E1 Hd1), (IH t1 _ t' o2 d2 E2 Hnd' Hd2). cbn [flat_map]. f_equal.
  apply flat_map_ext_in'. intros m Hm. unfold replay_item.
  rewrite (proj1 (on_created_frame c n t s t1 o1 d1 E1)); [reflexivity|]. intros ->. contradiction.
Qed.

Lemma nodup_z_NoDup l : nodup_z l = true -> NoDup l.
Proof.
  induction l as [|x l IH]; cbn; intros H; [constructor|]. apply andb_true_iff in H as [H1 H2].
  constructor; [|exact (IH H2)]. intros Hin. apply mem_z_In in Hin. rewrite Hin in H1. discriminate.
Qed.

Lemma flat_map_filter_nil {A B} (f : A -> list B) (p : A -> bool) l :
  (forall x, p x = false -> f x = []) -> flat_map f (filter p l) = flat_map f l.
Proof.
  intros H. induction l as [|x l IH]; cbn; [reflexivity|]. destruct (p x) eqn:E; cbn; rewrite IH; [reflexivity|].
  rewrite (H x E). reflexivity.
Qed.

Lemma startup_mid c order t s :
  exists mid, snd (fst (startup c order t s)) = SvcRestart :: mid ++ [SvcSync] /\ forallb mild mid = true.
Proof.
  destruct (startup c order t s) as [[t' ops] dels] eqn:E.
  destruct (startup_shape _ _ _ _ _ _ _ E) as (svcs & t0 & rm0 & mid & d1 & _ & E1 & -> & _).
  exists mid. split; [reflexivity|]. exact (proj1 (replay_inv _ _ _ _ _ _ _ E1)).
Qed.

Theorem startup_creates c order t s : nodup_z order = true -> creates (snd (fst (startup c order t s))) = to_replay order t.
Proof.
  intros Hnd. destruct (startup c order t s) as [[t' ops] dels] eqn:E. cbn [fst snd].
  destruct (startup_shape _ _ _ _ _ _ _ E) as (svcs & t0 & rm0 & o1 & d1 & E0 & E1 & -> & _).
  destruct (check_requests_spec _ _ _ _ _ E0) as (Hs & Hkeep & Hdir & _).
  assert (Hg : NoDup (glob order t)) by (apply NoDup_filter; apply nodup_z_NoDup; exact Hnd).
  assert (Hsv : NoDup svcs) by (rewrite Hs; apply NoDup_filter; exact Hg).
  assert (Hdot : forallb (fun n => negb (is_dot n)) svcs = true).
  { apply forallb_forall. intros n Hn. rewrite Hs in Hn. apply filter_In in Hn as [Hn _].
    unfold glob in Hn. apply filter_In in Hn as [_ Hn]. apply andb_true_iff in Hn. tauto. }
  change (SvcRestart :: o1 ++ [SvcSync]) with ([SvcRestart] ++ o1 ++ [SvcSync]).
  rewrite !creates_app. cbn [creates create_of]. rewrite app_nil_r. cbn [app].
  rewrite (replay_creates c svcs t0 _ t' o1 d1 E1 Hsv Hdot). rewrite Hs. unfold to_replay.
  rewrite flat_map_filter_nil.
  - apply flat_map_ext_in'. intros n Hn. unfold replay_item.
    destruct (e_dir (fget n t)) eqn:Ed; [rewrite Hkeep by exact Ed; reflexivity|].
    unfold req_env, live. rewrite Hdir, Ed, !andb_false_r. reflexivity.
  - intros n Hn. unfold replay_item, req_env, live. rewrite Hdir, Hn, andb_false_r. reflexivity.
Qed.

Lemma In_glob order t n : In n order -> is_dot n = false -> live (fget n t) = true -> In n (glob order t).
Proof. intros H1 H2 H3. apply filter_In. split; [exact H1|]. rewrite H2. apply andb_true_iff in H3. tauto. Qed.

Lemma In_to_replay order t n env :
  In (n, env) (to_replay order t) -> In n order /\ is_dot n = false /\ req_env (fget n t) = Some env.
Proof.
  intros Hin. apply in_flat_map in Hin as (k & Hk & Hin). apply filter_In in Hk as [Hk1 Hk2].
  destruct (req_env (fget k t)) as [e|] eqn:E; [|destruct Hin]. destruct Hin as [Hin|[]]. injection Hin as -> ->.
  apply andb_true_iff in Hk2 as [Hk2 _]. apply negb_true_iff in Hk2. auto.
Qed.

(** exactly once: a request that has to be handed over and that the listing shows is handed over once *)
Lemma count_flat_single (f : Z -> option Z) (l : list Z) n env :
  NoDup l -> In n l -> f n = Some env ->
  filter (fun x => fst x =? n) (flat_map (fun k => match f k with Some e => [(k, e)] | None => [] end) l) = [(n, env)].
Proof.
  intros Hnd.
  assert (Hnil : forall l', ~ In n l' ->
    filter (fun x : Z * Z => fst x =? n) (flat_map (fun k => match f k with Some e => [(k, e)] | None => [] end) l') = []).
  { induction l' as [|y l' IH']; intros Hy; cbn; [reflexivity|].
    rewrite filter_app, IH' by (intros H; apply Hy; right; exact H).
    rewrite app_nil_r. destruct (f y); [|reflexivity]. cbn.
    destruct (y =? n) eqn:E; [apply Z.eqb_eq in E; subst; exfalso; apply Hy; left; reflexivity|reflexivity]. }
  induction Hnd as [|x l Hn Hnd IH]; intros Hin Hf; [destruct Hin|].
  cbn [flat_map]. rewrite filter_app. destruct Hin as [->|Hin].
  - rewrite Hf, (Hnil l Hn). cbn. rewrite Z.eqb_refl. reflexivity.
  - rewrite (IH Hin Hf). destruct (f x); [|reflexivity]. cbn.
    destruct (x =? n) eqn:E; [apply Z.eqb_eq in E; subst; contradiction|reflexivity].
Qed.

(** * The client *)
(** put, of a new request or of a registered one whose link resolves: the service is notified, the request is
    there, and an old reply is not *)
Lemma client_put_live n env e : e_uid e = false \/ live e = true ->
  snd (client_put n env e) = CCreated /\ live (fst (client_put n env e)) = true /\
  e_dir (fst (client_put n env e)) = true /\ e_req (fst (client_put n env e)) = Some env /\
  e_reply (fst (client_put n env e)) = (if e_uid e then None else client_get e).
Proof.
  destruct e as [l d r u rep]. unfold client_put, live, client_get. cbn.
  destruct d, u, l; cbn; intros [H|H]; try discriminate; auto.
Qed.

(** * A live, replayed owner keeps its address across a start-up *)
(** [o] holds [a]: the directory says so and the service's device says so *)
Definition holds (o a : Z) (s : state) : Prop := In (a, o) (s_vips s) /\ dev_holds (s_devs s) o a = true.
(** [a] is the only address of [o] in the directory (side condition of the restart: initialize() keeps, per owner,
    the address listed last) *)
Definition sole (o a : Z) (s : state) : Prop := forall a', In (a', o) (s_vips s) -> a' = a.
Definition sole_addr (o a : Z) (s : state) : bool :=
  forallb (fun e => negb (snd e =? o) || (fst e =? a)) (s_vips s).
Definition fresh (o : Z) (s : state) : Prop := dev_stale (s_devs s) o = false.

Lemma sole_addr_sole o a s : sole_addr o a s = true -> sole o a s.
Proof.
  intros H a' Hin. unfold sole_addr in H. rewrite forallb_forall in H. specialize (H _ Hin). cbn in H.
  rewrite Z.eqb_refl in H. cbn in H. apply Z.eqb_eq in H. exact H.
Qed.

(** operations of the framework other than the owner's own delete, synchronize and a restart *)
Definition calm (o : Z) (p : op) : bool :=
  match p with
  | ResUp _ | ResDown _ | SvcCreate _ _ => true
  | SvcDelete x => negb (x =? o)
  | _ => false
  end.

Lemma mild_calm o ops : forallb mild ops = true -> forallb (calm o) ops = true.
Proof. apply forallb_imp. intros []; cbn; congruence. Qed.

Lemma step_calm c o a p s :
  calm o p = true -> wf c s -> holds o a s -> sole o a s ->
  holds o a (fst (step c p s)) /\ sole o a (fst (step c p s)) /\
  (fresh o s -> fresh o (fst (step c p s))) /\
  (forall env, p = SvcCreate o env -> fresh o (fst (step c p s))).
Proof.
  intros Hc (Hv & _) [Hin Hh] Hs. unfold holds, sole, fresh, dev_holds, dev_stale in *.
  destruct p; try discriminate; cbn [step fst].
  - cbn. repeat split; auto. intros; discriminate.
  - cbn. repeat split; auto. intros; discriminate.
  - destruct (Z.eq_dec o0 o) as [->|Hne].
    + destruct (svc_create_reuse c o env s a Hh) as (_ & -> & ->). cbn. rewrite Z.eqb_refl. repeat split; auto.
    + rewrite (svc_create_dget c o0 env s o Hne). repeat split; auto.
      * apply svc_create_keeps. exact Hin.
      * intros a' Ha. destruct (svc_create_outcome c o0 env s) as [|b s' _ _ _ _ E _|b s' _ E _]; rewrite ?E in Ha; auto.
        apply in_app_or in Ha as [Ha|[Ha|[]]]; [exact (Hs a' Ha)|]. inversion Ha; subst. contradiction.
      * intros env' X. inversion X. contradiction.
  - cbn in Hc. apply negb_true_iff in Hc. rewrite svc_delete_devs, dget_ddel, Hc. repeat split; auto.
    + apply svc_delete_In; [exact Hv|]. split; [exact Hin|]. intros [-> _]. rewrite Z.eqb_refl in Hc. discriminate.
    + intros a' Ha. exact (Hs a' (sub_incl _ _ _ (svc_delete_sub o0 s) Ha)).
    + intros; discriminate.
Qed.

Lemma run_calm c o a ops : forall s,
  forallb (calm o) ops = true -> wf c s -> holds o a s -> sole o a s ->
  holds o a (run c ops s) /\ sole o a (run c ops s) /\
  (fresh o s \/ (exists env, In (SvcCreate o env) ops) -> fresh o (run c ops s)).
Proof.
  induction ops as [|p ops IH]; intros s Hc Hw Hh Hs; cbn.
  - split; [exact Hh|split; [exact Hs|]]. intros [H|[env []]]. exact H.
  - cbn in Hc. apply andb_true_iff in Hc as [Hc1 Hc2].
    destruct (step_calm c o a p s Hc1 Hw Hh Hs) as (Hh1 & Hs1 & Hf1 & Hf2).
    destruct (IH _ Hc2 (step_wf c p s Hw) Hh1 Hs1) as (Hh2 & Hs2 & Hf3).
    split; [exact Hh2|split; [exact Hs2|]].
    intros [H|[env [H|H]]]; apply Hf3.
    + left. exact (Hf1 H).
    + left. exact (Hf2 env H).
    + right. exists env. exact H.
Qed.

(** SvcRestart: the owner of a single address gets a (stale) device with that address *)
Lemma fold_restart_holds_sole o a l : forall m,
  (forall a', In (a', o) l -> a' = a) -> In (a, o) l \/ dev_holds m o a = true ->
  dev_holds (fold_left restart_step l m) o a = true.
Proof.
  induction l as [|[b x] l IH]; intros m Hs H; cbn.
  - destruct H as [[]|H]. exact H.
  - apply IH; [intros a' Ha; apply Hs; right; exact Ha|]. unfold restart_step, dev_holds in *.
    destruct (Z.eqb_spec x o) as [->|Hne].
    + right. assert (b = a) by (apply Hs; left; reflexivity). subst b.
      destruct (dget o m); rewrite dget_dset, Z.eqb_refl; cbn; apply Z.eqb_refl.
    + destruct H as [[H|H]|H]; [inversion H; subst; contradiction|left; exact H|right].
      apply Z.eqb_neq in Hne. destruct (dget x m); rewrite dget_dset, Hne; exact H.
Qed.

Lemma restart_holds_sole o a s : In (a, o) (s_vips s) -> sole o a s -> holds o a (svc_restart s).
Proof.
  intros Hin Hs. split; [exact Hin|]. rewrite svc_restart_devs. apply fold_restart_holds_sole; [exact Hs|left; exact Hin].
Qed.

Lemma creates_In n env ops : In (n, env) (creates ops) -> In (SvcCreate n env) ops.
Proof.
  induction ops as [|p ops IH]; cbn; [auto|]. destruct p; cbn; try (intros H; right; exact (IH H)).
  intros [H|H]; [inversion H; subst; left; reflexivity|right; exact (IH H)].
Qed.

Lemma sync_keeps c o a s :
  wf c s -> holds o a s -> fresh o s -> In o (s_res s) ->
  holds o a (fst (svc_sync s)) /\ fresh o (fst (svc_sync s)).
Proof.
  intros (Hv & _ & _ & Hd & _) [Hin Hh] Hf Hr. unfold fresh in Hf.
  assert (E : dget o (s_devs (fst (svc_sync s))) = dget o (s_devs s)) by (rewrite svc_sync_dget, Hf by exact Hd; reflexivity).
  unfold holds, fresh, dev_holds, dev_stale in *. rewrite E. split; [split; [|exact Hh]|exact Hf].
  apply (proj2 (svc_sync_In s a o Hv Hd)); [exact Hin| |exact Hr]. intros [H _]. unfold dev_stale in H. congruence.
Qed.

Lemma startup_keeps_core c order t s o a :
  wf c s -> covers t s -> nodup_z order = true -> In o order -> is_dot o = false ->
  replayable (fget o t) = true -> In (a, o) (s_vips s) -> sole o a s ->
  let s' := run c (snd (fst (startup c order t s))) s in
  wf c s' /\ holds o a s' /\ sole o a s' /\ fresh o s'.
Proof.
  intros Hw Hc Hnd Hord Hdot Hrep Hin Hs s'.
  destruct (startup c order t s) as [[t' ops] dels] eqn:E. unfold s'. cbn [fst snd].
  destruct (startup_parts c order t s t' ops dels E Hc) as (mid & -> & Hmild & Hcov & Hfr).
  assert (Hcr : exists env, In (SvcCreate o env) mid).
  { unfold replayable in Hrep. destruct (req_env (fget o t)) as [env|] eqn:Er; [|discriminate]. exists env. apply creates_In.
    pose proof (startup_creates c order t s Hnd) as H1. rewrite E in H1. cbn [fst snd creates create_of] in H1.
    rewrite creates_app, app_nil_r in H1. rewrite H1. apply in_flat_map. exists o.
    split; [exact (In_glob _ _ _ Hord Hdot (req_env_live _ _ Er))|rewrite Er; left; reflexivity]. }
  change (SvcRestart :: mid ++ [SvcSync]) with ([SvcRestart] ++ mid ++ [SvcSync]). rewrite !run_app.
  cbn [run step fst].
  pose proof (step_wf c SvcRestart s Hw) as Hw1. cbn [step fst] in Hw1.
  destruct (run_calm c o a mid (svc_restart s) (mild_calm o mid Hmild) Hw1 (restart_holds_sole o a s Hin Hs) Hs) as (Hh2 & Hs2 & Hf2).
  specialize (Hf2 (or_intror Hcr)).
  pose proof (run_wf c mid _ Hw1) as Hw2.
  assert (Hres : In o (s_res (run c mid (svc_restart s)))).
  { apply Hcov. apply replayable_live. destruct Hh2 as [_ Hh2]. apply dev_holds_iff in Hh2 as [d [Hd1 Hd2]].
    apply (Hfr o d); [apply dget_In; exact Hd1|]. unfold fresh, dev_stale in Hf2. rewrite Hd1 in Hf2. exact Hf2. }
  destruct (sync_keeps c o a _ Hw2 Hh2 Hf2 Hres) as (Hh3 & Hf3).
  split; [exact (step_wf c SvcSync _ Hw2)|split; [exact Hh3|split; [|exact Hf3]]].
  intros a' Ha. apply Hs2. exact (sub_incl _ _ _ (svc_sync_sub _) Ha).
Qed.

(** * Whole histories *)
(** what the owner has been told, if anything, is [a] *)
Definition told_ok (a : Z) (e : ent) : Prop := e_reply e = None \/ e_reply e = Some (RepOk a).

Lemma replayable_inv e : replayable e = true ->
  e_link e = true /\ e_dir e = true /\ exists env, e_req e = Some env /\ (env <? 0) = false.
Proof.
  unfold replayable, req_env, live. destruct (e_link e), (e_dir e); cbn; try discriminate.
  destruct (e_req e) as [env|]; [|discriminate]. destruct (env <? 0) eqn:E; [discriminate|]. intros _.
  split; [reflexivity|split; [reflexivity|exists env; split; [reflexivity|exact E]]].
Qed.

(** the request of [o] is one the framework hands over, and what [o] has been told, if anything, is [a] *)
Definition entry_ok (o a : Z) (t : ftable) : Prop := replayable (fget o t) = true /\ told_ok a (fget o t).
(** [o] holds [a] and nothing else *)
Definition owner_ok (c : cidr) (o a : Z) (s : state) : Prop := wf c s /\ holds o a s /\ sole o a s.

(** a stretch of the framework's operations that leaves the request of [o] and its address alone; [dels] are the
    links the framework removed on the way (their deletion events are still to come) *)
Definition kept (c : cidr) (o a : Z) (t : ftable) (s : state) (ops : list op) (t' : ftable) (dels : list Z) : Prop :=
  entry_ok o a t -> owner_ok c o a s -> entry_ok o a t' /\ owner_ok c o a (run c ops s) /\ ~ In o dels.

Lemma kept_app c o a t s o1 t1 d1 o2 t2 d2 :
  kept c o a t s o1 t1 d1 -> kept c o a t1 (run c o1 s) o2 t2 d2 -> kept c o a t s (o1 ++ o2) t2 (d1 ++ d2).
Proof.
  intros H1 H2 He Ho. destruct (H1 He Ho) as (E1 & O1 & D1). destruct (H2 E1 O1) as (E2 & O2 & D2).
  rewrite run_app. split; [exact E2|split; [exact O2|]]. intros H. apply in_app_or in H. tauto.
Qed.

Lemma kept_calm c o a t s ops t' dels :
  forallb (calm o) ops = true -> (entry_ok o a t -> holds o a s -> entry_ok o a t' /\ ~ In o dels) ->
  kept c o a t s ops t' dels.
Proof.
  intros Hc He E (Hw & Hh & Hs). destruct (run_calm c o a ops s Hc Hw Hh Hs) as (H1 & H2 & _).
  destruct (He E Hh) as [E' D]. split; [exact E'|split; [split; [apply run_wf; exact Hw|auto]|exact D]].
Qed.

Lemma kept_nil c o a t s : kept c o a t s [] t [].
Proof. apply kept_calm; auto. Qed.

Lemma kept_other c o a t s n e' : n <> o -> kept c o a t s (res_delta n (fget n t) e') (fset n e' t) [].
Proof.
  intros Hne. apply kept_calm; [apply mild_calm, mild_delta|]. unfold entry_ok. rewrite fget_fset_other by exact Hne. auto.
Qed.

Lemma calm_on_deleted o n : n <> o -> forallb (calm o) (on_deleted n) = true.
Proof.
  intros H. unfold on_deleted. destruct (is_dot n); cbn; [reflexivity|]. apply Z.eqb_neq in H. rewrite H. reflexivity.
Qed.

Lemma kept_delivered c o a t s ops t' dels : kept c o a t s ops t' dels -> kept c o a t s (ops ++ deliver dels) t' [].
Proof.
  intros H He Ho. destruct (H He Ho) as (E1 & O1 & D1). rewrite run_app. revert E1 O1. apply kept_calm; [|auto].
  clear -D1. induction dels as [|n l IH]; [reflexivity|]. change (deliver (n :: l)) with (on_deleted n ++ deliver l).
  rewrite forallb_app, IH by (intros X; apply D1; right; exact X).
  rewrite calm_on_deleted; [reflexivity|]. intros ->. apply D1. left; reflexivity.
Qed.

Lemma on_created_kept c o a n t s t' ops dels : on_created c n t s = (t', ops, dels) -> kept c o a t s ops t' dels.
Proof.
  intros E. apply kept_calm; [exact (mild_calm o _ (on_created_mild _ _ _ _ _ _ _ E))|]. intros [Hr Ht] [_ Hh].
  destruct (on_created_frame c n t s t' ops dels E) as (Hf & Hd). unfold entry_ok.
  destruct (Z.eq_dec n o) as [->|Hne]; [|rewrite (Hf o) by congruence; split; [auto|]; intros Hin; apply Hd in Hin; congruence].
  pose proof Hr as Hq. unfold replayable in Hq. destruct (req_env (fget o t)) as [env|] eqn:Eq; [|discriminate].
  destruct (is_dot o) eqn:Edot; [unfold on_created in E; rewrite Edot in E; inversion E; subst; auto|].
  rewrite (on_created_handed c o t s env Edot Eq) in E. inversion E; subst. rewrite fget_fset_same.
  split; [split; [exact Hr|]|intros []]. right. cbn [set_reply e_reply step].
  rewrite (proj1 (svc_create_reuse c o env s a Hh)). reflexivity.
Qed.

Lemma replay_kept c o a l : forall t s t' ops dels, replay c l t s = (t', ops, dels) -> kept c o a t s ops t' dels.
Proof.
  induction l as [|n l IH]; intros t s t' ops dels E; cbn in E; [inversion E; subst; apply kept_nil|].
  destruct (on_created c n t s) as [[t1 o1] d1] eqn:E1.
  destruct (replay c l t1 (run c o1 s)) as [[t2 o2] d2] eqn:E2. inversion E; subst; clear E.
  exact (kept_app _ _ _ _ _ _ _ _ _ _ _ (on_created_kept _ _ _ _ _ _ _ _ _ E1) (IH _ _ _ _ _ E2)).
Qed.

Lemma startup_kept c o a order t s t' ops dels :
  startup c order t s = (t', ops, dels) -> covers t s -> nodup_z order = true -> In o order -> is_dot o = false ->
  kept c o a t s ops t' dels.
Proof.
  intros E Hc Hnd Hord Hdot [Hr Ht] (Hw & [Hin Hh] & Hs).
  pose proof (startup_keeps_core c order t s o a Hw Hc Hnd Hord Hdot Hr Hin Hs) as K. rewrite E in K.
  destruct K as (Hw' & Hh' & Hs' & _).
  destruct (startup_shape _ _ _ _ _ _ _ E) as (svcs & t0 & rm0 & o1 & d1 & E0 & E1 & -> & ->).
  destruct (replayable_inv _ Hr) as (_ & Hd & _).
  destruct (check_requests_spec _ _ _ _ _ E0) as (_ & Hkeep & _ & _ & Hrm). pose proof (Hkeep o Hd) as Ho.
  destruct (replay_kept c o a svcs t0 _ t' o1 d1 E1) as (R & _ & D).
  - unfold entry_ok. rewrite Ho. auto.
  - exact (conj (step_wf c SvcRestart s Hw) (conj (restart_holds_sole o a s Hin Hs) Hs)).
  - split; [exact R|split; [exact (conj Hw' (conj Hh' Hs'))|]]. intros Hx. apply in_app_or in Hx as [Hx|Hx]; [|exact (D Hx)].
    pose proof (Hrm o Hx) as H. congruence.
Qed.

Lemma client_put_replayable n env a e : replayable e = true -> (0 <=? env) = true -> told_ok a e ->
  replayable (fst (client_put n env e)) = true /\ told_ok a (fst (client_put n env e)).
Proof.
  intros Hr He Ht. destruct (client_put_live n env e (or_intror (replayable_live e Hr))) as (_ & Hl & _ & Hq & Hrep).
  split.
  - unfold replayable, req_env. rewrite Hl, Hq. destruct (Z.ltb_spec env 0); [lia|reflexivity].
  - unfold told_ok. rewrite Hrep. destruct (e_uid e); [auto|]. unfold client_get. destruct (e_dir e); [exact Ht|auto].
Qed.

(** steps that leave the request of [o] alone: no client delete, no vanishing, no interference with its request.yml,
    only valid payloads; a start lists the directory without repetition and with [o] in it *)
Definition spares (o : Z) (f : fop) : bool :=
  match f with
  | FBoot order => nodup_z order && mem_z o order
  | FPut n env => negb (n =? o) || (0 <=? env)
  | FDelete n | FGone n | FRmReq n => negb (n =? o)
  | _ => true
  end.

Lemma fstep_raw_kept c o a f st t' ops up' :
  is_dot o = false -> spares o f = true -> covers (f_tbl st) (f_own st) -> fstep_raw c f st = (t', ops, up') ->
  kept c o a (f_tbl st) (f_own st) ops t' [].
Proof.
  intros Hdot Hsp Hc. unfold fstep_raw. destruct f as [order| |n env|n|n|n|n|p]; cbn in Hsp.
  - apply andb_true_iff in Hsp as [Hnd Hmem]. apply mem_z_In in Hmem.
    destruct (startup c order (f_tbl st) (f_own st)) as [[t1 o1] d1] eqn:E1. intros E; inversion E; subst.
    exact (kept_delivered _ _ _ _ _ _ _ _ (startup_kept _ _ _ _ _ _ _ _ _ E1 Hc Hnd Hmem Hdot)).
  - intros E; inversion E; subst. apply kept_nil.
  - destruct (client_put n env (fget n (f_tbl st))) as [e' ev] eqn:Ep.
    assert (S1 : kept c o a (f_tbl st) (f_own st) (res_delta n (fget n (f_tbl st)) e') (fset n e' (f_tbl st)) []).
    { destruct (Z.eq_dec n o) as [->|Hne]; [|apply kept_other; exact Hne]. rewrite Z.eqb_refl in Hsp.
      apply kept_calm; [apply mild_calm, mild_delta|]. intros [Hr Ht] _. unfold entry_ok. rewrite fget_fset_same.
      pose proof (client_put_replayable o env a _ Hr Hsp Ht) as X. rewrite Ep in X. auto. }
    destruct ev; try (intros E; inversion E; subst; exact S1).
    destruct (f_up st); [|intros E; inversion E; subst; exact S1].
    destruct (on_created c n _ _) as [[t2 o2] d2] eqn:E2. intros E; inversion E; subst.
    exact (kept_app _ _ _ _ _ _ _ _ _ _ _ S1 (kept_delivered _ _ _ _ _ _ _ _ (on_created_kept _ _ _ _ _ _ _ _ _ E2))).
  - apply negb_true_iff, Z.eqb_neq in Hsp. destruct (client_delete (fget n (f_tbl st))) as [e' ev].
    intros E; inversion E; subst. apply (kept_app _ _ _ _ _ _ _ [] _ _ [] (kept_other _ _ _ _ _ _ _ Hsp)).
    destruct ev; try apply kept_nil. destruct (f_up st); [|apply kept_nil].
    apply kept_calm; [apply calm_on_deleted; exact Hsp|auto].
  - apply negb_true_iff, Z.eqb_neq in Hsp. destruct (f_up st); intros E; inversion E; subst; [|apply kept_other; exact Hsp].
    apply (kept_app _ _ _ _ _ _ _ [] _ _ [] (kept_other _ _ _ _ _ _ _ Hsp)).
    destruct (e_link (fget n (f_tbl st))); [|apply kept_nil]. apply kept_calm; [apply calm_on_deleted; exact Hsp|auto].
  - intros E; inversion E; subst. apply kept_nil.
  - apply negb_true_iff, Z.eqb_neq in Hsp. intros E; inversion E; subst.
    destruct (e_dir (fget n (f_tbl st))); [|apply kept_nil]. apply kept_calm; [reflexivity|].
    unfold entry_ok. rewrite fget_fset_other by exact Hsp. auto.
  - destruct (f_up st); [|intros E; inversion E; subst; apply kept_nil].
    destruct (on_created_path c p _ _) as [[t2 o2] d2] eqn:E2. intros E; inversion E; subst. apply kept_delivered.
    destruct p; cbn in E2; [inversion E2; subst; apply kept_nil|exact (on_created_kept _ _ _ _ _ _ _ _ _ E2)].
Qed.

Definition keeps_inv (c : cidr) (o a : Z) (st : fstate) : Prop :=
  owner_ok c o a (f_own st) /\ covers (f_tbl st) (f_own st) /\ entry_ok o a (f_tbl st).

Lemma replayable_get e : replayable e = true -> client_get e = e_reply e.
Proof. intros H. destruct (replayable_inv e H) as (_ & Hd & _). unfold client_get. rewrite Hd. reflexivity. Qed.

(** [keeps_inv] from what the owner and an observer of the node can see, and back *)
Lemma keeps_inv_intro c o a st :
  wf c (f_own st) -> covers (f_tbl st) (f_own st) ->
  replayable (fget o (f_tbl st)) = true -> client_get (fget o (f_tbl st)) = Some (RepOk a) ->
  zlookup a (s_vips (f_own st)) = Some o -> dev_holds (s_devs (f_own st)) o a = true -> sole_addr o a (f_own st) = true ->
  keeps_inv c o a st.
Proof.
  intros Hw Hc Hr Hg Hlk Hh Hso. rewrite (replayable_get _ Hr) in Hg.
  exact (conj (conj Hw (conj (conj (lookup_In Z.eqb zeqb_spec _ _ _ Hlk) Hh) (sole_addr_sole _ _ _ Hso)))
              (conj Hc (conj Hr (or_intror Hg)))).
Qed.

Lemma keeps_inv_elim c o a st :
  keeps_inv c o a st ->
  zlookup a (s_vips (f_own st)) = Some o /\ dev_holds (s_devs (f_own st)) o a = true /\
  replayable (fget o (f_tbl st)) = true /\
  (client_get (fget o (f_tbl st)) = None \/ client_get (fget o (f_tbl st)) = Some (RepOk a)).
Proof.
  intros ((Hw & [Hin Hh] & _) & _ & R & T). rewrite (replayable_get _ R).
  exact (conj (NoDup_lookup Z.eqb zeqb_spec _ _ _ (proj1 Hw) Hin) (conj Hh (conj R T))).
Qed.

Lemma fstep_keeps c o a f st :
  is_dot o = false -> spares o f = true -> keeps_inv c o a st -> keeps_inv c o a (fst (fstep c f st)).
Proof.
  intros Hdot Hsp (Ho & Hc & He). destruct (fstep_inv c f st Hc) as (_ & _ & Hc'). revert Hc'. unfold fstep.
  destruct (fstep_raw c f st) as [[t' ops] up'] eqn:E. cbn [fst f_own f_tbl]. intros Hc'.
  destruct (fstep_raw_kept c o a f st t' ops up' Hdot Hsp Hc E He Ho) as (E' & O' & _). exact (conj O' (conj Hc' E')).
Qed.

Theorem frame_run_keeps c o a fs : forall st,
  is_dot o = false -> forallb (spares o) fs = true -> keeps_inv c o a st ->
  keeps_inv c o a (fst (frame_run c fs st)).
Proof.
  induction fs as [|f fs IH]; intros st Hdot Hsp Hk; cbn; [exact Hk|].
  cbn in Hsp. apply andb_true_iff in Hsp as [H1 H2].
  pose proof (fstep_keeps c o a f st Hdot H1 Hk) as Hk1.
  destruct (fstep c f st) as [st1 o1] eqn:E1. cbn [fst] in Hk1.
  pose proof (IH st1 Hdot H2 Hk1) as Hk2.
  destruct (frame_run c fs st1) as [st2 o2] eqn:E2. cbn [fst] in *. exact Hk2.
Qed.

