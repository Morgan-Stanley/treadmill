(** Proofs about Node/NetReg.v: what start registers, finish removes; finish is idempotent and
    leaves other containers' entries alone.  All statements are for arbitrary programs [sp], [fp]:
    [start_finish_identity] and [interleaving] under the computational premise [templates_match sp fp = true],
    the theorems about one program alone under that program's part of it ([templates_match_parts]). *)
From Coq Require Import ZArith List Bool.
From TM Require Import Base.Flat Node.Owners Node.OwnersP Node.NetReg.
Import ListNotations.
Open Scope Z_scope.

(** * List and table facts *)
Lemma filter_implied {A} (p q : A -> bool) l :
  (forall x, In x l -> p x = true -> q x = true) -> filter p (filter q l) = filter p l.
Proof.
  intros H. rewrite filter_filter. apply filter_ext_in. intros x Hx. destruct (p x) eqn:E.
  - rewrite (H x Hx E). reflexivity.
  - apply andb_false_r.
Qed.

Lemma filter_unaffected {A} (f : A -> Z) u (rm : A -> bool) l :
  (forall e, rm e = true -> f e = u) ->
  filter (fun e => negb (f e =? u)) (filter (fun e => negb (rm e)) l) = filter (fun e => negb (f e =? u)) l.
Proof.
  intros H. apply filter_implied. intros e _ He. apply negb_true_iff. destruct (rm e) eqn:E; [|reflexivity].
  rewrite (H e E), Z.eqb_refl in He. discriminate.
Qed.

Lemma filter_none {A} (rm : A -> bool) (P : A -> Prop) l :
  (forall e, rm e = true -> P e) -> (forall e, In e l -> ~ P e) -> filter (fun e => negb (rm e)) l = l.
Proof.
  intros H Hl. apply filter_all_true. intros e He. apply negb_true_iff. destruct (rm e) eqn:E; [|reflexivity].
  destruct (Hl e He (H e E)).
Qed.

Section ReleaseFilter.
  Context {K : Type}.
  Variable keqb : K -> K -> bool.
  Hypothesis keqb_spec : forall a b, keqb a b = true <-> a = b.

  Lemma release_filter k o (t : @table K) :
    NoDup (keys t) ->
    snd (release keqb k o t) = filter (fun e => negb (keqb k (fst e) && (o =? snd e))) t.
  Proof.
    intros Hnd. destruct (release_cases keqb k o t) as [[H1 H2]|[H1 H2]]; rewrite H1.
    - symmetry. apply filter_all_true. intros [k' o'] Hin. cbn.
      destruct (keqb k k') eqn:E; [|reflexivity]. apply keqb_spec in E; subst k'.
      destruct (o =? o') eqn:E2; [|reflexivity]. apply Z.eqb_eq in E2; subst o'.
      exfalso. apply H2. apply (NoDup_lookup keqb keqb_spec); assumption.
    - unfold remove. apply filter_ext_in. intros [k' o'] Hin. cbn.
      destruct (keqb k' k) eqn:E.
      + apply keqb_spec in E; subst k'. rewrite (proj2 (keqb_spec k k) eq_refl). cbn.
        apply (lookup_In keqb keqb_spec) in H2. rewrite (NoDup_functional keqb keqb_spec _ _ _ _ Hnd H2 Hin).
        rewrite Z.eqb_refl. reflexivity.
      + destruct (keqb k k') eqn:E2; [|reflexivity]. apply keqb_spec in E2; subst k'.
        rewrite (proj2 (keqb_spec k k) eq_refl) in E. discriminate.
  Qed.
End ReleaseFilter.

(** * Host well-formedness: directory names are unique *)
Definition hwf (h : host) : Prop := NoDup (keys (h_rules h)) /\ NoDup (keys (h_specs h)).

Lemma hwf_empty : hwf empty_host.
Proof. split; constructor. Qed.

Lemma create_tolerant_NoDup {K} (keqb : K -> K -> bool) (Hs : forall a b, keqb a b = true <-> a = b) k o same t t' :
  NoDup (keys t) -> create_tolerant keqb k o same t = Some t' -> NoDup (keys t').
Proof.
  intros Hnd H. apply create_tolerant_cases in H as [[H1 ->]|[-> _]]; [|exact Hnd].
  apply (NoDup_snoc keqb Hs); assumption.
Qed.

(** * Cleanup programs are filters *)
Definition is_cleanup_prim (p : prim) : bool :=
  match p with PUnlinkRule _ _ | PUnlinkAll _ _ | PRm _ => true | _ => false end.
Definition rm_rule (F : list prim) (e : rule * Z) : bool :=
  existsb (fun p => match p with PUnlinkRule k o => zlist_eqb k (fst e) && (o =? snd e) | _ => false end) F.
Definition rm_spec (F : list prim) (e : spec * Z) : bool :=
  existsb (fun p => match p with PUnlinkAll a o => (sp_app (fst e) =? a) && opt_matches o (snd e) | _ => false end) F.
Definition rm_row (F : list prim) (r : list Z) : bool :=
  existsb (fun p => match p with PRm x => zlist_eqb r x | _ => false end) F.

Definition hfilter (fr : rule * Z -> bool) (fs : spec * Z -> bool) (fi : list Z -> bool) (h : host) : host :=
  {| h_rules := filter fr (h_rules h); h_specs := filter fs (h_specs h); h_ipset := filter fi (h_ipset h);
     h_net := h_net h |}.

Definition filtered (F : list prim) : host -> host :=
  hfilter (fun e => negb (rm_rule F e)) (fun e => negb (rm_spec F e)) (fun r => negb (rm_row F r)).

Lemma filtered_hwf F h : hwf h -> hwf (filtered F h).
Proof. intros [H1 H2]. split; cbn; apply NoDup_map_filter; assumption. Qed.

Lemma host_ext a b c d a' b' c' d' :
  a = a' -> b = b' -> c = c' -> d = d' ->
  {| h_rules := a; h_specs := b; h_ipset := c; h_net := d |} = {| h_rules := a'; h_specs := b'; h_ipset := c'; h_net := d' |}.
Proof. intros; subst; reflexivity. Qed.

Lemma do_cleanup_prim p h : is_cleanup_prim p = true -> hwf h -> do_prim p h = Some (filtered [p] h).
Proof.
  intros Hp [Hr Hs]. destruct p; try discriminate; cbn [do_prim]; f_equal; unfold filtered, hfilter; cbn;
    apply host_ext; try reflexivity; try (symmetry; apply filter_all_true; reflexivity).
  - rewrite (release_filter zlist_eqb zlist_eqb_eq) by exact Hr. apply filter_ext. intros e. rewrite orb_false_r. reflexivity.
  - apply filter_ext. intros e. unfold spec_matches. cbn. rewrite !andb_true_r, orb_false_r. reflexivity.
  - apply filter_ext. intros e. rewrite orb_false_r. reflexivity.
Qed.

Lemma filtered_cons p F h : filtered (p :: F) h = filtered F (filtered [p] h).
Proof.
  unfold filtered, hfilter. cbn. apply host_ext; try reflexivity; rewrite filter_filter; apply filter_ext; intros e;
    rewrite orb_false_r, negb_orb; reflexivity.
Qed.

Lemma run_cleanup_filter F : forall h,
  forallb is_cleanup_prim F = true -> hwf h -> run_prims F h = (filtered F h, true).
Proof.
  induction F as [|p F IH]; intros h Hc Hw.
  - cbn. unfold filtered, hfilter. cbn. rewrite !filter_all_true by reflexivity. destruct h; reflexivity.
  - cbn in Hc. apply andb_true_iff in Hc as [Hp Hc]. cbn [run_prims]. rewrite (do_cleanup_prim p h Hp Hw), (filtered_cons p F h).
    apply IH; [exact Hc|apply filtered_hwf; exact Hw].
Qed.

(** cleanup primitives keep the directory names unique because they filter; creations add a name that was not there *)
Lemma do_prim_hwf p h h' : hwf h -> do_prim p h = Some h' -> hwf h'.
Proof.
  intros Hw H. destruct (is_cleanup_prim p) eqn:C.
  - rewrite (do_cleanup_prim p h C Hw) in H. injection H as <-. apply filtered_hwf, Hw.
  - destruct Hw as [Hr Hs]. destruct p; try discriminate C; cbn in H.
    + destruct (create_tolerant zlist_eqb k o o (h_rules h)) as [t|] eqn:E; [|discriminate]. injection H as <-. split; cbn; [|exact Hs].
      apply (create_tolerant_NoDup zlist_eqb zlist_eqb_eq _ _ _ _ _ Hr E).
    + destruct (create_tolerant spec_eqb k o (sp_app k) (h_specs h)) as [t|] eqn:E; [|discriminate]. injection H as <-. split; cbn; [exact Hr|].
      apply (create_tolerant_NoDup spec_eqb spec_eqb_spec _ _ _ _ _ Hs E).
    + injection H as <-. split; assumption.
Qed.

Lemma run_prims_hwf ps : forall h, hwf h -> hwf (fst (run_prims ps h)).
Proof.
  induction ps as [|p r IH]; intros h H; cbn; [exact H|].
  destruct (do_prim p h) as [h'|] eqn:E; [|exact H]. apply IH. apply (do_prim_hwf p h h' H E).
Qed.

(** * From statements to primitives *)
Lemma In_stmts_of p c s : In (c, s) (stmts_of p) <-> exists b, In b p /\ c = b_ctx b /\ In s (b_body b).
Proof.
  unfold stmts_of. rewrite in_flat_map. split.
  - intros [b [Hb H]]. apply in_map_iff in H as [s' [E Hs]]. inversion E; subst. exists b; auto.
  - intros [b [Hb [-> Hs]]]. exists b. split; [exact Hb|]. apply in_map_iff. exists s; auto.
Qed.

Lemma In_expand x p m n dns :
  In x (expand p m n dns) <->
  exists c s it, In (c, s) (stmts_of p) /\ In it (items m dns c) /\ guard_ok m it (st_guard s) = true /\
                 x = prim_of m n it (st_act s).
Proof.
  unfold expand, expand_block, expand_stmt. rewrite in_flat_map. split.
  - intros [b [Hb H]]. apply in_flat_map in H as [it [Hit H]]. apply in_flat_map in H as [s [Hs H]].
    destruct (guard_ok m it (st_guard s)) eqn:G; [|destruct H]. destruct H as [H|[]]; subst.
    exists (b_ctx b), s, it. repeat split; auto. apply In_stmts_of. exists b; auto.
  - intros (c & s & it & H1 & H2 & H3 & H4). apply In_stmts_of in H1 as [b [Hb [-> Hs]]].
    exists b. split; [exact Hb|]. apply in_flat_map. exists it. split; [exact H2|].
    apply in_flat_map. exists s. split; [exact Hs|]. rewrite H3. left. auto.
Qed.

Lemma src_eqb_eq a b : src_eqb a b = true -> a = b.
Proof. destruct a, b; intros H; try discriminate H; try reflexivity. apply Z.eqb_eq in H; subst; reflexivity. Qed.

Lemma srcs_eqb_eq a : forall b, srcs_eqb a b = true -> a = b.
Proof.
  induction a as [|x a IH]; intros [|y b] H; cbn in H; try discriminate; [reflexivity|].
  apply andb_true_iff in H as [H1 H2]. apply src_eqb_eq in H1. apply IH in H2. congruence.
Qed.

Lemma ctx_eqb_eq a b : ctx_eqb a b = true -> a = b.
Proof. destruct a, b; cbn; intros H; try discriminate; reflexivity. Qed.

Lemma guard_eqb_eq a b : guard_eqb a b = true -> a = b.
Proof. destruct a, b; cbn; intros H; try discriminate; reflexivity. Qed.

Lemma eval_global m n it it' v : forallb src_global v = true -> map (eval m n it) v = map (eval m n it') v.
Proof.
  induction v as [|s v IH]; cbn; intros H; [reflexivity|]. apply andb_true_iff in H as [H1 H2].
  rewrite IH by exact H2. f_equal. destruct s; cbn in *; try discriminate; reflexivity.
Qed.

(** every rule created and every ip-set entry added by start is removed, with the same key and owner, by finish *)
Lemma covers_undone sp fp m n dns p :
  covers sp fp = true -> In p (expand sp m n dns) ->
  match p with
  | PCreateRule k o => In (PUnlinkRule k o) (expand fp m n dns)
  | PAdd r => In (PRm r) (expand fp m n dns)
  | _ => True
  end.
Proof.
  intros Hc Hin. apply In_expand in Hin as (c & s & it & H1 & H2 & H3 & ->).
  unfold covers in Hc. rewrite forallb_forall in Hc. specialize (Hc (c, s) H1). cbn [fst snd] in Hc. unfold undoes in Hc.
  destruct (st_act s) as [[] ch kd fl ou|fl ou|a oc|[] st v]; cbn [prim_of]; try exact I; cbv beta iota in Hc;
    apply existsb_exists in Hc as [[c' s'] [Hf Hu]]; cbn [fst snd] in Hu; apply In_expand.
  - destruct (st_act s') as [[] ch' kd' fl' ou'|?|?|?] eqn:Ea'; try discriminate.
    apply andb_prop in Hu as [[[[[[Hcx Hg]%andb_prop Hch]%andb_prop Hkd]%andb_prop Hfl]%andb_prop ->]%andb_prop ->].
    apply ctx_eqb_eq in Hcx. apply guard_eqb_eq in Hg. apply Z.eqb_eq in Hch. apply Z.eqb_eq in Hkd.
    apply srcs_eqb_eq in Hfl. subst. exists c', s', it. rewrite <- Hg, Ea'. auto.
  - destruct (st_act s') as [?|?|?|[] st' v'] eqn:Ea'; try discriminate.
    apply andb_prop in Hu as [[Hst Hv]%andb_prop Hctx].
    apply Z.eqb_eq in Hst. apply srcs_eqb_eq in Hv. subst st' v'.
    apply orb_prop in Hctx as [[Hcx Hg]%andb_prop|[[Hcx Hgl]%andb_prop Hg]%andb_prop]; apply ctx_eqb_eq in Hcx; subst c'.
    + exists c, s', it. rewrite Ea'. repeat split; auto.
      apply orb_prop in Hg as [Hg|Hg]; apply guard_eqb_eq in Hg; [rewrite <- Hg; exact H3|rewrite Hg; reflexivity].
    + (* a top-level statement of finish whose arguments do not depend on the loop item *)
      exists CTop, s', (item_of_val 0). rewrite Ea'. cbn [prim_of]. rewrite (eval_global m n it (item_of_val 0) v Hgl).
      repeat split; [exact Hf|left; reflexivity|].
      apply orb_prop in Hg as [Hg|[Hg1 Hg2]%andb_prop]; [apply guard_eqb_eq in Hg; rewrite Hg; reflexivity|].
      apply guard_eqb_eq in Hg1. apply guard_eqb_eq in Hg2. rewrite Hg1. rewrite Hg2 in H3. exact H3.
Qed.

(** * What the well-formedness part of the premise says about the primitives *)
Definition start_shaped (m : manifest) (n : netinfo) (p : prim) : Prop :=
  match p with
  | PCreateRule _ o => o = m_uniq m
  | PCreateSpec k o => o = m_uniq m /\ sp_app k = m_app m
  | PAdd r => nth 1 r 0 = n_vip n
  | _ => False
  end.
Definition finish_shaped (m : manifest) (n : netinfo) (p : prim) : Prop :=
  match p with
  | PUnlinkRule _ o => o = m_uniq m
  | PUnlinkAll a o => a = m_app m /\ o = Some (m_uniq m)
  | PRm r => nth 1 r 0 = n_vip n
  | _ => False
  end.

Lemma nth0_map_eval m n it (l : list src) : nth 0 (map (eval m n it) l) 0 = eval m n it (nth 0 l SNone).
Proof. destruct l; reflexivity. Qed.

Lemma start_prims_shaped sp m n dns p :
  forallb start_stmt_ok (stmts_of sp) = true -> In p (expand sp m n dns) -> start_shaped m n p.
Proof.
  intros Hok Hin. apply In_expand in Hin as (c & s & it & H1 & H2 & H3 & ->).
  rewrite forallb_forall in Hok. specialize (Hok (c, s) H1). unfold start_stmt_ok in Hok. cbn in Hok.
  destruct (st_act s) as [cr ch kd fl ou|fl ou|a oc|ad st v]; cbn.
  - apply andb_prop in Hok as [[-> ->]%andb_prop _]. reflexivity.
  - apply andb_prop in Hok as [[-> _]%andb_prop Happ]. split; [reflexivity|].
    unfold spec_of. cbn. rewrite nth0_map_eval. apply src_eqb_eq in Happ. rewrite Happ. reflexivity.
  - discriminate.
  - apply andb_prop in Hok as [-> Hv]. cbn. rewrite nth0_map_eval. apply src_eqb_eq in Hv. rewrite Hv. reflexivity.
Qed.

Lemma finish_prims_shaped fp m n dns p :
  forallb finish_stmt_ok (stmts_of fp) = true -> In p (expand fp m n dns) -> finish_shaped m n p.
Proof.
  intros Hok Hin. apply In_expand in Hin as (c & s & it & H1 & H2 & H3 & ->).
  rewrite forallb_forall in Hok. specialize (Hok (c, s) H1). unfold finish_stmt_ok in Hok. cbn in Hok.
  destruct (st_act s) as [cr ch kd fl ou|fl ou|a oc|ad st v]; cbn.
  - apply andb_prop in Hok as [[Hcr ->]%andb_prop _]. destruct cr; [discriminate|reflexivity].
  - discriminate.
  - apply andb_prop in Hok as [-> Ha]. apply src_eqb_eq in Ha. rewrite Ha. split; reflexivity.
  - apply andb_prop in Hok as [Had Hv]. destruct ad; [discriminate|]. cbn. rewrite nth0_map_eval.
    apply src_eqb_eq in Hv. rewrite Hv. reflexivity.
Qed.

Lemma finish_prims_cleanup fp m n dns :
  forallb finish_stmt_ok (stmts_of fp) = true -> forallb is_cleanup_prim (expand fp m n dns) = true.
Proof.
  intros Hok. apply forallb_forall. intros p Hp. apply (finish_prims_shaped fp m n dns p Hok) in Hp.
  destruct p; cbn in *; try contradiction; reflexivity.
Qed.

Lemma finish_has_unlink_all fp m n dns :
  has_unlink_all fp = true -> In (PUnlinkAll (m_app m) (Some (m_uniq m))) (expand fp m n dns).
Proof.
  unfold has_unlink_all. intros H. apply existsb_exists in H as [[c s] [Hin H]]. cbn in H.
  apply andb_prop in H as [[Hc Hg]%andb_prop Hact]. apply ctx_eqb_eq in Hc. apply guard_eqb_eq in Hg. subst c.
  destruct (st_act s) as [?|?|a oc|?] eqn:Ea; try discriminate.
  apply andb_prop in Hact as [-> Ha]. apply src_eqb_eq in Ha. subst.
  apply In_expand. exists CTop, s, (item_of_val 0). repeat split; auto; [left; reflexivity|rewrite Hg; reflexivity|].
  rewrite Ea. reflexivity.
Qed.

Lemma templates_match_parts sp fp :
  templates_match sp fp = true ->
  forallb start_stmt_ok (stmts_of sp) = true /\ forallb finish_stmt_ok (stmts_of fp) = true /\
  covers sp fp = true /\ has_unlink_all fp = true.
Proof. unfold templates_match. intros [[[H1 H2]%andb_prop H3]%andb_prop H4]%andb_prop. auto. Qed.

(** * What start does *)
Definition spec_keys (S : list prim) : list spec :=
  flat_map (fun p => match p with PCreateSpec k _ => [k] | _ => [] end) S.

Lemma lookup_snoc {K} (keqb : K -> K -> bool) k k' o (t : @table K) :
  lookup keqb k' (t ++ [(k, o)]) =
  match lookup keqb k' t with Some x => Some x | None => if keqb k k' then Some o else None end.
Proof.
  induction t as [|[k0 o0] t IH]; cbn; [reflexivity|]. destruct (keqb k0 k'); [reflexivity|exact IH].
Qed.

Lemma mem_row_In r l : mem_row r l = true <-> In r l.
Proof. induction l as [|x l IH]; cbn; [easy|]. rewrite orb_true_iff, zlist_eqb_eq, IH. reflexivity. Qed.

(** a start primitive adds at most one entry; when the filters reject that entry, the filtered host is as before *)
Definition rejects fr fs fi (p : prim) : Prop :=
  match p with
  | PCreateRule k o => fr (k, o) = false
  | PCreateSpec k o => fs (k, o) = false
  | PAdd r => fi r = false
  | _ => False
  end.

Lemma do_prim_rejected fr fs fi p h h' :
  rejects fr fs fi p -> do_prim p h = Some h' -> hfilter fr fs fi h' = hfilter fr fs fi h.
Proof.
  intros Hr H. destruct p; cbn in Hr; try contradiction; cbn in H; unfold hfilter, rule in *.
  - destruct (create_tolerant zlist_eqb k o o (h_rules h)) as [t|] eqn:E; [|discriminate]. injection H as <-. cbn.
    apply create_tolerant_cases in E as [[_ ->]|[-> _]]; [|reflexivity].
    rewrite filter_app. cbn. rewrite Hr, app_nil_r. reflexivity.
  - destruct (create_tolerant spec_eqb k o (sp_app k) (h_specs h)) as [t|] eqn:E; [|discriminate]. injection H as <-. cbn.
    apply create_tolerant_cases in E as [[_ ->]|[-> _]]; [|reflexivity].
    rewrite filter_app. cbn. rewrite Hr, app_nil_r. reflexivity.
  - injection H as <-. cbn. unfold add_row. destruct (mem_row r (h_ipset h)); [reflexivity|].
    rewrite filter_app. cbn. rewrite Hr, app_nil_r. reflexivity.
Qed.

(** [run_prims] stops at the first call that raises: the statement covers the sequences cut short there *)
Lemma run_prims_rejected fr fs fi S : forall h,
  (forall p, In p S -> rejects fr fs fi p) -> hfilter fr fs fi (fst (run_prims S h)) = hfilter fr fs fi h.
Proof.
  induction S as [|p S IH]; intros h H; cbn; [reflexivity|]. destruct (do_prim p h) as [h1|] eqn:E; [|reflexivity].
  rewrite IH by (intros q Hq; apply H; right; exact Hq). exact (do_prim_rejected _ _ _ p h h1 (H p (or_introl eq_refl)) E).
Qed.

Lemma start_succeeds m n S : forall hc,
  (forall p, In p S -> start_shaped m n p) ->
  (forall k o, In (PCreateRule k o) S ->
               lookup zlist_eqb k (h_rules hc) = None \/ lookup zlist_eqb k (h_rules hc) = Some (m_uniq m)) ->
  (forall k o, In (PCreateSpec k o) S -> lookup spec_eqb k (h_specs hc) = None) ->
  NoDup (spec_keys S) -> snd (run_prims S hc) = true.
Proof.
  induction S as [|p S IH]; intros hc Hsh Hr Hs Hnd; [reflexivity|].
  assert (Hsh' := fun q H => Hsh q (or_intror H)).
  assert (Hr' := fun k o H => Hr k o (or_intror H)). assert (Hs' := fun k o H => Hs k o (or_intror H)).
  pose proof (Hsh p (or_introl eq_refl)) as Hp.
  destruct p as [k o|k o|k o|a o|r|r]; cbn in Hp; try contradiction; cbn [run_prims do_prim]; unfold create_tolerant, symlink.
  - subst o. destruct (Hr k _ (or_introl eq_refl)) as [Hl|Hl]; rewrite Hl; [|rewrite Z.eqb_refl]; cbv beta iota; apply IH; auto.
    intros k' o' Hin. cbn. rewrite lookup_snoc.
    destruct (Hr' k' o' Hin) as [-> | ->]; [destruct (zlist_eqb k k')|]; auto.
  - rewrite (Hs k o (or_introl eq_refl)). cbv beta iota.
    cbn in Hnd. inversion Hnd as [|? ? Hni Hnd']; subst. apply IH; auto.
    intros k' o' Hin. cbn. rewrite lookup_snoc, (Hs' k' o' Hin).
    destruct (spec_eqb k k') eqn:E; [|reflexivity]. apply spec_eqb_spec in E; subst k'. destruct Hni.
    apply in_flat_map. exists (PCreateSpec k o'). split; [exact Hin|left; reflexivity].
  - apply IH; auto.
Qed.

(** * finish (start host) = host *)
Definition fresh (sp : program) (dns : list (Z * Z)) (m : manifest) (h : host) : Prop :=
  let S := expand sp m (m_net m) dns in
  (forall e, In e (h_rules h) -> snd e <> m_uniq m) /\
  (forall e, In e (h_specs h) -> snd e <> m_uniq m) /\
  (forall k o, In (PCreateRule k o) S -> ~ In k (keys (h_rules h))) /\
  (forall k o, In (PCreateSpec k o) S -> ~ In k (keys (h_specs h))) /\
  NoDup (spec_keys S) /\
  (forall r, In r (h_ipset h) -> nth 1 r 0 <> n_vip (m_net m)) /\
  net_get (m_uniq m) (h_net h) = None.

Lemma net_del_absent u l : net_get u l = None -> net_del u l = l.
Proof.
  induction l as [|[k n] l IH]; cbn; intros H; [reflexivity|]. destruct (k =? u); [discriminate|]. cbn.
  unfold net_del in IH. rewrite IH by exact H. reflexivity.
Qed.

Lemma net_get_del u u0 l : net_get u0 (net_del u l) = if u =? u0 then None else net_get u0 l.
Proof.
  unfold net_del. induction l as [|[k n] l IH]; cbn; [destruct (u =? u0); reflexivity|].
  destruct (k =? u) eqn:E; cbn; rewrite IH; [apply Z.eqb_eq in E; subst k; destruct (u =? u0); reflexivity|].
  destruct (k =? u0) eqn:E0; [|reflexivity]. apply Z.eqb_eq in E0. subst k. rewrite Z.eqb_sym, E. reflexivity.
Qed.

Lemma net_get_app u l l' :
  net_get u (l ++ l') = match net_get u l with Some n => Some n | None => net_get u l' end.
Proof. induction l as [|[k n] l IH]; cbn; [reflexivity|]. destruct (k =? u); [reflexivity|exact IH]. Qed.

Lemma net_get_put u u0 n l : net_get u0 (net_put u n l) = if u =? u0 then Some n else net_get u0 l.
Proof.
  unfold net_put. rewrite net_get_app, net_get_del. cbn. destruct (u =? u0); [reflexivity|].
  destruct (net_get u0 l); reflexivity.
Qed.

Lemma net_del_put u n l : net_get u l = None -> net_del u (net_put u n l) = l.
Proof.
  intros H. unfold net_put. rewrite (net_del_absent u l H). unfold net_del. rewrite filter_app. cbn.
  rewrite Z.eqb_refl. cbn. rewrite app_nil_r. apply (net_del_absent u l H).
Qed.

Lemma net_get_In u n l : net_get u l = Some n -> In (u, n) l.
Proof.
  induction l as [|[k n'] l IH]; cbn; intros H; [discriminate|]. destruct (k =? u) eqn:E.
  - apply Z.eqb_eq in E. inversion H; subst. left; reflexivity.
  - right. apply IH. exact H.
Qed.

Lemma existsb_In {A} (f : A -> bool) l x : In x l -> f x = true -> existsb f l = true.
Proof. intros H1 H2. apply existsb_exists. exists x; auto. Qed.

Lemma finish_removes_own fp m n dns :
  forallb finish_stmt_ok (stmts_of fp) = true ->
  let F := expand fp m n dns in
  (forall e, rm_rule F e = true -> snd e = m_uniq m) /\ (forall e, rm_spec F e = true -> snd e = m_uniq m) /\
  (forall r, rm_row F r = true -> nth 1 r 0 = n_vip n).
Proof.
  intros Hok F. assert (Hsh : forall p, In p F -> finish_shaped m n p) by (intros p; apply finish_prims_shaped; exact Hok).
  split; [|split]; intros e Erm; apply existsb_exists in Erm as [p [Hp Hm]]; specialize (Hsh p Hp);
    destruct p; try discriminate; cbn in Hsh.
  - apply andb_true_iff in Hm as [_ Hm]. apply Z.eqb_eq in Hm. congruence.
  - destruct Hsh as [_ ->]. apply andb_true_iff in Hm as [_ Hm]. cbn in Hm. apply Z.eqb_eq in Hm. congruence.
  - apply zlist_eqb_eq in Hm. subst. exact Hsh.
Qed.

Lemma start_undone sp fp m n dns p :
  templates_match sp fp = true -> In p (expand sp m n dns) ->
  let F := expand fp m n dns in
  rejects (fun e => negb (rm_rule F e)) (fun e => negb (rm_spec F e)) (fun r => negb (rm_row F r)) p.
Proof.
  intros Ht Hin F. destruct (templates_match_parts sp fp Ht) as (Hsok & _ & Hcov & Hua).
  pose proof (start_prims_shaped sp m n dns p Hsok Hin) as Hsh. pose proof (covers_undone sp fp m n dns p Hcov Hin) as Hun.
  destruct p; cbn in Hsh |- *; try contradiction; apply negb_false_iff.
  - apply (existsb_In _ _ _ Hun). cbn. rewrite (proj2 (zlist_eqb_eq _ _) eq_refl), Z.eqb_refl. reflexivity.
  - destruct Hsh as [-> Happ]. apply (existsb_In _ _ _ (finish_has_unlink_all fp m n dns Hua)). cbn.
    rewrite Happ, !Z.eqb_refl. reflexivity.
  - apply (existsb_In _ _ _ Hun). cbn. apply zlist_eqb_eq. reflexivity.
Qed.

Lemma finish_eq fp dns m h :
  forallb finish_stmt_ok (stmts_of fp) = true -> hwf h ->
  finish fp dns m h =
  match net_get (m_uniq m) (h_net h) with
  | None => (h, true)
  | Some n => (set_hnet (filtered (expand fp m n dns) h) (net_del (m_uniq m) (h_net h)), true)
  end.
Proof.
  intros Hok Hw. unfold finish, cleanup. destruct (net_get (m_uniq m) (h_net h)) as [n|]; [|reflexivity].
  rewrite (run_cleanup_filter _ h (finish_prims_cleanup fp m n dns Hok) Hw). reflexivity.
Qed.

Theorem start_finish_identity sp fp dns m h :
  templates_match sp fp = true -> hwf h -> fresh sp dns m h ->
  snd (start_container sp dns m h) = true /\
  finish fp dns m (fst (start_container sp dns m h)) = (h, true).
Proof.
  intros Ht Hw (F1 & F2 & F3 & F4 & F5 & F6 & F7). destruct (templates_match_parts sp fp Ht) as (Hsok & Hfok & _).
  unfold start_container, start. set (u := m_uniq m) in *. set (n := m_net m) in *. set (S := expand sp m n dns) in *.
  set (h0 := set_hnet h (net_put u n (h_net h))).
  assert (Hsh : forall p, In p S -> start_shaped m n p) by (intros p; apply start_prims_shaped; exact Hsok).
  split.
  - apply (start_succeeds m n); [exact Hsh| | |exact F5]; intros k o Hin.
    + left. apply (lookup_None zlist_eqb zlist_eqb_eq). exact (F3 k o Hin).
    + apply (lookup_None spec_eqb spec_eqb_spec). exact (F4 k o Hin).
  - set (F := expand fp m n dns).
    pose proof (run_prims_rejected _ _ _ S h0 (fun p Hp => start_undone sp fp m n dns p Ht Hp)) as E.
    fold F in E. fold (filtered F) in E.
    assert (En : h_net (fst (run_prims S h0)) = h_net h0) by exact (f_equal h_net E).
    rewrite (finish_eq fp dns m _ Hfok (run_prims_hwf S h0 Hw)). fold u. rewrite En. cbn [h_net h0 set_hnet].
    rewrite net_get_put, Z.eqb_refl. fold F. rewrite E. destruct (finish_removes_own fp m n dns Hfok) as (R1 & R2 & R3). fold F in R1, R2, R3.
    unfold filtered, hfilter, set_hnet. cbn [h_rules h_specs h_ipset h_net h0 set_hnet]. rewrite (net_del_put u n _ F7).
    rewrite (filter_none _ _ _ R1 F1), (filter_none _ _ _ R2 F2), (filter_none _ _ _ R3 F6). destruct h; reflexivity.
Qed.

(** * Finishing is safe to repeat *)
Theorem finish_idempotent fp dns m h :
  forallb finish_stmt_ok (stmts_of fp) = true -> hwf h ->
  snd (finish fp dns m h) = true /\
  finish fp dns m (fst (finish fp dns m h)) = (fst (finish fp dns m h), true).
Proof.
  intros Hok Hw. rewrite (finish_eq fp dns m h Hok Hw).
  destruct (net_get (m_uniq m) (h_net h)) as [n|] eqn:E; cbn [fst snd]; (split; [reflexivity|]); unfold finish.
  - cbn [h_net set_hnet]. rewrite net_get_del, Z.eqb_refl. reflexivity.
  - rewrite E. reflexivity.
Qed.

(** the cleanup itself (when network_client.delete did not happen, e.g. it raised) is idempotent as well *)
Theorem cleanup_idempotent fp dns m n h :
  forallb finish_stmt_ok (stmts_of fp) = true -> hwf h ->
  cleanup fp dns m n (fst (cleanup fp dns m n h)) = cleanup fp dns m n h.
Proof.
  intros Hok Hw. unfold cleanup. pose proof (finish_prims_cleanup fp m n dns Hok) as Hc.
  rewrite (run_cleanup_filter _ h Hc Hw). cbn [fst].
  rewrite (run_cleanup_filter _ _ Hc (filtered_hwf _ h Hw)). f_equal.
  unfold filtered, hfilter. cbn. apply host_ext; try reflexivity; apply filter_implied; auto.
Qed.

(** * Entries of other containers are never touched *)
Definition others_rules (u : Z) (h : host) := filter (fun e => negb (snd e =? u)) (h_rules h).
Definition others_specs (u : Z) (h : host) := filter (fun e => negb (snd e =? u)) (h_specs h).
Definition others_ipset (vip : Z) (h : host) := filter (fun r => negb (nth 1 r 0 =? vip)) (h_ipset h).

Theorem finish_others fp dns m h :
  forallb finish_stmt_ok (stmts_of fp) = true -> hwf h ->
  let h' := fst (finish fp dns m h) in
  others_rules (m_uniq m) h' = others_rules (m_uniq m) h /\
  others_specs (m_uniq m) h' = others_specs (m_uniq m) h /\
  (forall vip, (forall n, net_get (m_uniq m) (h_net h) = Some n -> n_vip n = vip) ->
               others_ipset vip h' = others_ipset vip h) /\
  net_del (m_uniq m) (h_net h') = net_del (m_uniq m) (h_net h) /\
  (forall u, u <> m_uniq m -> net_get u (h_net h') = net_get u (h_net h)).
Proof.
  intros Hok Hw. rewrite (finish_eq fp dns m h Hok Hw).
  destruct (net_get (m_uniq m) (h_net h)) as [n|]; cbn [fst]; [|repeat split; reflexivity].
  - destruct (finish_removes_own fp m n dns Hok) as (R1 & R2 & R3).
    unfold others_rules, others_specs, others_ipset. cbn [set_hnet filtered hfilter h_rules h_specs h_ipset h_net].
    split; [exact (filter_unaffected snd _ _ _ R1)|]. split; [exact (filter_unaffected snd _ _ _ R2)|]. split; [|split].
    + intros vip Hv. rewrite <- (Hv n eq_refl). exact (filter_unaffected (fun r => nth 1 r 0) _ _ _ R3).
    + apply filter_implied. auto.
    + intros u Hu. cbn. rewrite net_get_del, (proj2 (Z.eqb_neq _ _) (not_eq_sym Hu)). reflexivity.
Qed.

(** start, also when it fails half-way or runs on a host that is not fresh, only adds entries of its own *)
Theorem start_others sp dns m h :
  forallb start_stmt_ok (stmts_of sp) = true ->
  let h' := fst (start sp dns m h) in
  others_rules (m_uniq m) h' = others_rules (m_uniq m) h /\
  others_specs (m_uniq m) h' = others_specs (m_uniq m) h /\
  others_ipset (n_vip (m_net m)) h' = others_ipset (n_vip (m_net m)) h /\ h_net h' = h_net h.
Proof.
  intros Hok h'.
  lapply (run_prims_rejected (fun e => negb (snd e =? m_uniq m)) (fun e => negb (snd e =? m_uniq m))
            (fun r => negb (nth 1 r 0 =? n_vip (m_net m))) (expand sp m (m_net m) dns) h);
    [intros E; injection E as E1 E2 E3 E4; repeat split; assumption|].
  intros p Hp. apply (start_prims_shaped sp m _ dns p Hok) in Hp.
  destruct p; cbn in Hp |- *; try contradiction; [subst o|destruct Hp as [-> _]|rewrite Hp]; rewrite Z.eqb_refl; reflexivity.
Qed.

(** * Any interleaving of other containers' starts and finishes leaves a container's registrations alone *)
Definition mine_rules (u : Z) (h : host) := filter (fun e => snd e =? u) (h_rules h).
Definition mine_specs (u : Z) (h : host) := filter (fun e => snd e =? u) (h_specs h).
Definition mine_ipset (vip : Z) (h : host) := filter (fun r => nth 1 r 0 =? vip) (h_ipset h).

Lemma mine_of_others {A} (f : A -> Z) u u0 (l l' : list A) :
  u <> u0 ->
  filter (fun e => negb (f e =? u)) l' = filter (fun e => negb (f e =? u)) l ->
  filter (fun e => f e =? u0) l' = filter (fun e => f e =? u0) l.
Proof.
  intros Hne H.
  assert (Hq : forall l, filter (fun e => f e =? u0) (filter (fun e => negb (f e =? u)) l) = filter (fun e => f e =? u0) l).
  { intros l0. apply filter_implied. intros x _ Hx. apply Z.eqb_eq in Hx. apply negb_true_iff, Z.eqb_neq. congruence. }
  rewrite <- (Hq l'), H. apply Hq.
Qed.

Definition foreign (ms : list manifest) (u0 vip0 : Z) (o : cop) : Prop :=
  let m := nth (cop_index o) ms default_manifest in m_uniq m <> u0 /\ n_vip (m_net m) <> vip0.
Definition net_inv (u0 vip0 : Z) (h : host) : Prop :=
  forall u n, In (u, n) (h_net h) -> u <> u0 -> n_vip n <> vip0.

Definition view_eq (u0 vip0 : Z) (h' h : host) : Prop :=
  mine_rules u0 h' = mine_rules u0 h /\ mine_specs u0 h' = mine_specs u0 h /\
  mine_ipset vip0 h' = mine_ipset vip0 h /\ net_get u0 (h_net h') = net_get u0 (h_net h).

Lemma view_of_others u vip u0 vip0 h h' :
  u <> u0 -> vip <> vip0 ->
  others_rules u h' = others_rules u h -> others_specs u h' = others_specs u h ->
  others_ipset vip h' = others_ipset vip h -> net_get u0 (h_net h') = net_get u0 (h_net h) -> view_eq u0 vip0 h' h.
Proof.
  intros Hu Hv A1 A2 A3 A4.
  exact (conj (mine_of_others snd _ _ _ _ Hu A1) (conj (mine_of_others snd _ _ _ _ Hu A2)
        (conj (mine_of_others (fun r => nth 1 r 0) _ _ _ _ Hv A3) A4))).
Qed.

Lemma net_inv_incl u0 vip0 h h' : (forall e, In e (h_net h') -> In e (h_net h)) -> net_inv u0 vip0 h -> net_inv u0 vip0 h'.
Proof. intros Hi Hn u n Hin. exact (Hn u n (Hi _ Hin)). Qed.

Lemma finish_hwf_net fp dns m h :
  forallb finish_stmt_ok (stmts_of fp) = true -> hwf h ->
  hwf (fst (finish fp dns m h)) /\ (forall e, In e (h_net (fst (finish fp dns m h))) -> In e (h_net h)).
Proof.
  intros Hok Hw. rewrite (finish_eq fp dns m h Hok Hw). destruct (net_get (m_uniq m) (h_net h)) as [n|]; cbn [fst]; [|auto].
  split; [exact (filtered_hwf _ h Hw)|]. cbn. intros e He. apply filter_In in He. tauto.
Qed.

Lemma cstep_foreign sp fp dns ms u0 vip0 o h :
  templates_match sp fp = true -> hwf h -> net_inv u0 vip0 h -> foreign ms u0 vip0 o ->
  let h1 := fst (cstep sp fp dns ms o h) in hwf h1 /\ net_inv u0 vip0 h1 /\ view_eq u0 vip0 h1 h.
Proof.
  intros Ht Hw Hn [Hu Hv]. destruct (templates_match_parts sp fp Ht) as (Hsok & Hfok & _).
  destruct o as [i|i|i|i]; cbn [cop_index] in Hu, Hv; cbn [cstep fst]; set (m := nth i ms default_manifest) in *.
  - (* CNetPut *)
    split; [exact Hw|]. split.
    + intros u n Hin Hne. cbn in Hin. apply in_app_or in Hin as [Hin|[Hin|[]]]; [|inversion Hin; subst; exact Hv].
      apply filter_In in Hin as [Hin _]. exact (Hn u n Hin Hne).
    + repeat split. cbn. rewrite net_get_put, (proj2 (Z.eqb_neq _ _) Hu). reflexivity.
  - (* CNetDel *)
    split; [exact Hw|]. split; [apply (net_inv_incl _ _ h); [intros e He; apply filter_In in He; tauto|exact Hn]|].
    repeat split. cbn. rewrite net_get_del, (proj2 (Z.eqb_neq _ _) Hu). reflexivity.
  - (* CStart *)
    destruct (start_others sp dns m h Hsok) as (A1 & A2 & A3 & A4). split; [apply run_prims_hwf; exact Hw|]. split.
    + apply (net_inv_incl _ _ h); [rewrite A4; auto|exact Hn].
    + apply (view_of_others _ _ _ _ _ _ Hu Hv A1 A2 A3). rewrite A4. reflexivity.
  - (* CFinish: the ip-set rows it removes are those of the vip the network service has on record *)
    destruct (finish_others fp dns m h Hfok Hw) as (A1 & A2 & A3 & _ & A5).
    destruct (finish_hwf_net fp dns m h Hfok Hw) as [Hw1 Hi].
    split; [exact Hw1|]. split; [exact (net_inv_incl _ _ _ _ Hi Hn)|].
    assert (A4 := A5 u0 (not_eq_sym Hu)).
    destruct (net_get (m_uniq m) (h_net h)) as [n|] eqn:E.
    + apply (view_of_others (m_uniq m) (n_vip n)); auto; [exact (Hn _ n (net_get_In _ _ _ E) Hu)|].
      apply A3. intros n' Hn'. congruence.
    + apply (view_of_others (m_uniq m) (n_vip (m_net m))); auto. apply A3. intros n' Hn'. discriminate.
Qed.

Theorem interleaving sp fp dns ms u0 vip0 :
  templates_match sp fp = true -> forall ops h,
  hwf h -> net_inv u0 vip0 h -> Forall (foreign ms u0 vip0) ops ->
  view_eq u0 vip0 (crun sp fp dns ms ops h) h.
Proof.
  intros Ht. induction ops as [|o r IH]; intros h Hw Hn Hf; cbn.
  - repeat split; reflexivity.
  - inversion Hf as [|? ? Ho Hr]; subst.
    destruct (cstep_foreign sp fp dns ms u0 vip0 o h Ht Hw Hn Ho) as (W1 & N1 & (V1 & V2 & V3 & V4)).
    destruct (IH _ W1 N1 Hr) as (U1 & U2 & U3 & U4). repeat split; congruence.
Qed.

(** * A decidable form of [fresh] *)
Fixpoint nodupb {A} (eqb : A -> A -> bool) (l : list A) : bool :=
  match l with [] => true | x :: t => negb (existsb (eqb x) t) && nodupb eqb t end.

Definition freshb (sp : program) (dns : list (Z * Z)) (m : manifest) (h : host) : bool :=
  let S := expand sp m (m_net m) dns in
  forallb (fun e => negb (snd e =? m_uniq m)) (h_rules h) &&
  forallb (fun e => negb (snd e =? m_uniq m)) (h_specs h) &&
  forallb (fun p => match p with
                     | PCreateRule k _ => negb (existsb (fun e => zlist_eqb (fst e) k) (h_rules h))
                     | PCreateSpec k _ => negb (existsb (fun e => spec_eqb (fst e) k) (h_specs h))
                     | _ => true
                     end) S &&
  nodupb spec_eqb (spec_keys S) &&
  forallb (fun r => negb (nth 1 r 0 =? n_vip (m_net m))) (h_ipset h) &&
  negb (is_some (net_get (m_uniq m) (h_net h))).

Lemma nodupb_NoDup {A} (eqb : A -> A -> bool) (Hs : forall a b, eqb a b = true <-> a = b) l :
  nodupb eqb l = true -> NoDup l.
Proof.
  induction l as [|x l IH]; cbn; intros H; [constructor|]. apply andb_true_iff in H as [H1 H2].
  constructor; [|apply IH; exact H2]. intros Hin. apply negb_true_iff in H1.
  rewrite (existsb_In _ _ x Hin (proj2 (Hs x x) eq_refl)) in H1. discriminate.
Qed.

Lemma forallb_neq {A} (f : A -> Z) u l : forallb (fun e => negb (f e =? u)) l = true -> forall e, In e l -> f e <> u.
Proof. intros H e He E. rewrite forallb_forall in H. specialize (H e He). rewrite E, Z.eqb_refl in H. discriminate. Qed.

Lemma existsb_key {K} (eqb : K -> K -> bool) (Hs : forall a b, eqb a b = true <-> a = b) k (t : @table K) :
  In k (keys t) -> existsb (fun e => eqb (fst e) k) t = true.
Proof. intros Hin. apply in_map_iff in Hin as [e [E He]]. exact (existsb_In _ _ e He (proj2 (Hs _ _) E)). Qed.

Lemma freshb_fresh sp dns m h : freshb sp dns m h = true -> fresh sp dns m h.
Proof.
  unfold freshb, fresh.
  intros [[[[[H1 H2]%andb_prop H3]%andb_prop H5]%andb_prop H6]%andb_prop H7]%andb_prop. rewrite forallb_forall in H3.
  split; [exact (forallb_neq snd _ _ H1)|]. split; [exact (forallb_neq snd _ _ H2)|]. split; [|split].
  - intros k o Hin Hk. specialize (H3 _ Hin). cbn in H3. rewrite (existsb_key zlist_eqb zlist_eqb_eq _ _ Hk) in H3. discriminate.
  - intros k o Hin Hk. specialize (H3 _ Hin). cbn in H3. rewrite (existsb_key spec_eqb spec_eqb_spec _ _ Hk) in H3. discriminate.
  - split; [exact (nodupb_NoDup spec_eqb spec_eqb_spec _ H5)|]. split; [exact (forallb_neq (fun r => nth 1 r 0) _ _ H6)|].
    destruct (net_get (m_uniq m) (h_net h)); [discriminate|reflexivity].
Qed.
