(** Proofs about Node/Fs.v and Node/Cache.v. *)
From Coq Require Import ZArith List Bool String Lia.
From TM Require Import Node.AppCfg Node.ArrangeP Node.AppCfgP Node.Fs Node.Cache.
Import ListNotations.
Open Scope Z_scope.

(** * Directories: [lookup], [set], [remove] are the finite maps of Node/AppCfg.v at names *)
Lemma lookup_mget d n : lookup d n = mget String.eqb d n.
Proof. induction d as [|[k v] r IH]; cbn; [reflexivity | now rewrite IH]. Qed.

Lemma set_mset d n v : set d n v = mset String.eqb d n v.
Proof. induction d as [|[k w] r IH]; cbn; [reflexivity | now rewrite IH]. Qed.

Lemma remove_mdel d n : remove d n = mdel String.eqb d n.
Proof. induction d as [|[k w] r IH]; cbn; [reflexivity | now rewrite IH]. Qed.

Lemma lookup_set_same d n v : lookup (set d n v) n = Some v.
Proof. now rewrite lookup_mget, set_mset, (mget_mset String.eqb String.eqb_eq), String.eqb_refl. Qed.

Lemma lookup_set_other d n v m : m <> n -> lookup (set d n v) m = lookup d m.
Proof. intros H. rewrite !lookup_mget, set_mset. apply (mget_mset_other String.eqb String.eqb_eq). congruence. Qed.

Lemma lookup_remove_same d n : lookup (remove d n) n = None.
Proof. now rewrite lookup_mget, remove_mdel, (mget_mdel String.eqb String.eqb_eq), String.eqb_refl. Qed.

Lemma lookup_remove_other d n m : m <> n -> lookup (remove d n) m = lookup d m.
Proof. intros H. rewrite !lookup_mget, remove_mdel. apply (mget_mdel_other String.eqb String.eqb_eq). congruence. Qed.

Lemma in_names_lookup d n : In n (names d) <-> lookup d n <> None.
Proof. rewrite lookup_mget. apply (mget_keys String.eqb String.eqb_eq). Qed.

(** [mem], [dedup] and [arrange] are the ordered-set functions of Node/AppCfg.v at names *)
Lemma mem_memb n l : mem n l = memb String.eqb n l.
Proof. induction l as [|x r IH]; cbn; [reflexivity | now rewrite IH]. Qed.

Lemma dedup_dedupb l : dedup l = dedupb String.eqb l.
Proof. induction l as [|x r IH]; cbn; [reflexivity | now rewrite mem_memb, IH]. Qed.

Lemma arrange_arrangeb ord l : arrange ord l = arrangeb String.eqb ord l.
Proof.
  unfold arrange, arrangeb. rewrite dedup_dedupb. f_equal; apply filter_ext; intros n; now rewrite mem_memb.
Qed.

Lemma mem_In n l : mem n l = true <-> In n l.
Proof. rewrite mem_memb. apply (memb_In String.eqb String.eqb_eq). Qed.

Lemma mem_false n l : mem n l = false <-> ~ In n l.
Proof. rewrite mem_memb. apply (memb_false String.eqb String.eqb_eq). Qed.

Lemma dedup_In n l : In n (dedup l) <-> In n l.
Proof. rewrite dedup_dedupb. apply (dedupb_In String.eqb String.eqb_eq). Qed.

Lemma dedup_NoDup l : NoDup (dedup l).
Proof. rewrite dedup_dedupb. apply (dedupb_NoDup String.eqb String.eqb_eq). Qed.

Lemma arrange_In ord l n : In n (arrange ord l) <-> In n l.
Proof. rewrite arrange_arrangeb. apply (arrangeb_In String.eqb String.eqb_eq). Qed.

Lemma arrange_NoDup ord l : NoDup l -> NoDup (arrange ord l).
Proof. rewrite arrange_arrangeb. apply (arrangeb_NoDup String.eqb String.eqb_eq). Qed.

(** * Name patterns *)
Lemma glob_not_dot n : glob_star n = true -> dot_prefixed n = false.
Proof. destruct n as [|c r]; cbn; [discriminate|]. now rewrite negb_true_iff. Qed.

Lemma dot_not_glob n : dot_prefixed n = true -> glob_star n = false.
Proof. destruct n as [|c r]; cbn; [discriminate|]. intros ->. reflexivity. Qed.

Lemma dot_prefixed_app a b : dot_prefixed a = true -> dot_prefixed (a ++ b)%string = true.
Proof. destruct a as [|c r]; cbn; [discriminate | auto]. Qed.

Lemma tmp_name_dot cf a s : dot_prefixed (c_pre cf) = true -> dot_prefixed (tmp_name cf a s) = true.
Proof. intros H. unfold tmp_name. now apply dot_prefixed_app. Qed.

(** temporary names are invisible to glob '*' and ignored by the app configuration manager *)
Lemma tmp_name_hidden cf a s :
  dot_prefixed (c_pre cf) = true ->
  glob_star (tmp_name cf a s) = false /\ appcfg_ignores (tmp_name cf a s) = true.
Proof.
  intros H. apply (tmp_name_dot cf a s) in H. split; [now apply dot_not_glob | exact H].
Qed.

Lemma tmp_ne_visible cf a s n :
  dot_prefixed (c_pre cf) = true -> glob_star n = true -> tmp_name cf a s <> n.
Proof.
  intros H Hn E. apply (tmp_name_dot cf a s) in H. rewrite E in H.
  apply glob_not_dot in Hn. congruence.
Qed.

(** * write_safe: every prefix of its system calls *)
Section WriteSafe.
  Variables (d : dir) (tmp n : name) (c : content) (w : wspec).
  Hypothesis Hfresh : lookup d tmp = None.
  Hypothesis Hne : tmp <> n.

  Let ops := write_safe_ops tmp n c w.
  Let new := File c (w_now w).

  (** the directory after each number of system calls *)
  Let d1 := set d tmp (File [] (w_now w)).
  Let d2 := set d1 tmp (File (firstn (w_pre w) c) (w_now w)).
  Let d4 := set d2 tmp (File (firstn (w_pre w) c ++ skipn (w_pre w) c) (w_now w)).
  Let d5 := set (remove d4 tmp) n (File (firstn (w_pre w) c ++ skipn (w_pre w) c) (w_now w)).
  Definition ws_state (k : nat) : dir :=
    match k with 0 => d | 1 => d1 | 2 | 3 => d2 | 4 => d4 | 5 => d5 | _ => remove d5 tmp end%nat.

  Lemma ws_run_prefix k : run_ops (firstn k ops) d = (ws_state k, true).
  Proof.
    unfold ops, write_safe_ops, ws_state, d5, d4, d2, d1.
    destruct k as [|[|[|[|[|[|k]]]]]]; cbn [firstn run_ops apply_op];
      rewrite ?Hfresh, ?lookup_set_same; try reflexivity.
    all: rewrite ?firstn_nil; cbn [run_ops]; reflexivity.
  Qed.

  Lemma ws_run_all : run_ops ops d = (ws_state 6, true).
  Proof. rewrite <- (ws_run_prefix 6). reflexivity. Qed.

  (** names other than the target and the temporary file never change *)
  Lemma ws_other k x : x <> n -> x <> tmp -> lookup (ws_state k) x = lookup d x.
  Proof.
    intros H1 H2.
    destruct k as [|[|[|[|[|[|k]]]]]]; cbn [ws_state]; unfold d5, d4, d2, d1;
      repeat (first [ rewrite lookup_set_other by auto | rewrite lookup_remove_other by auto ]); reflexivity.
  Qed.

  (** the target is the old entry before the rename and the complete new file after it *)
  Lemma ws_target k :
    (k <= 4)%nat /\ lookup (ws_state k) n = lookup d n \/
    (5 <= k)%nat /\ lookup (ws_state k) n = Some new.
  Proof.
    assert (Hn : n <> tmp) by congruence.
    destruct k as [|[|[|[|[|[|k]]]]]]; cbn [ws_state]; unfold d5, d4, d2, d1.
    1-5: left; split; [lia|];
      repeat (first [ rewrite lookup_set_other by auto | rewrite lookup_remove_other by auto ]); reflexivity.
    all: right; split; [lia|]; rewrite ?lookup_remove_other by auto; rewrite lookup_set_same;
      unfold new; now rewrite firstn_skipn.
  Qed.

  (** the temporary file: absent before creation and after the rename; in between it holds a prefix *)
  Lemma ws_tmp k :
    match lookup (ws_state k) tmp with
    | None => (k = 0 \/ 5 <= k)%nat
    | Some (File c' _) => (1 <= k <= 4)%nat /\ exists j, c' = firstn j c
    | Some (Link _) => False
    end.
  Proof.
    destruct k as [|[|[|[|[|[|k]]]]]]; cbn [ws_state]; unfold d5, d4, d2, d1.
    - rewrite Hfresh. lia.
    - rewrite lookup_set_same. split; [lia|]. exists 0%nat. reflexivity.
    - rewrite lookup_set_same. split; [lia|]. exists (w_pre w). reflexivity.
    - rewrite lookup_set_same. split; [lia|]. exists (w_pre w). reflexivity.
    - rewrite lookup_set_same. split; [lia|]. exists (List.length c). rewrite firstn_skipn.
      now rewrite firstn_all.
    - rewrite lookup_set_other by auto. rewrite lookup_remove_same. lia.
    - rewrite lookup_remove_same. lia.
  Qed.
  (** the directory after the [rm_safe] of the exception handler, if it ran ([b]) *)
  Lemma ws_result k (b : bool) :
    let D := if b then remove (ws_state k) tmp else ws_state k in
    (forall x, x <> n -> x <> tmp -> lookup D x = lookup d x) /\
    (lookup D n = lookup d n \/ lookup D n = Some new) /\
    ((5 <= k)%nat -> lookup D n = Some new) /\
    (b = true \/ k = 0%nat \/ (5 <= k)%nat -> lookup D tmp = None).
  Proof.
    assert (Hn : n <> tmp) by congruence.
    assert (Hrm : forall x, x <> tmp ->
              lookup (if b then remove (ws_state k) tmp else ws_state k) x = lookup (ws_state k) x)
      by (intros x Hx; destruct b; [now apply lookup_remove_other | reflexivity]).
    cbv zeta. split; [|split; [|split]].
    - intros x H1 H2. rewrite Hrm by auto. now apply ws_other.
    - rewrite Hrm by auto. destruct (ws_target k) as [[_ H]|[_ H]]; auto.
    - intros Hk. rewrite Hrm by auto. destruct (ws_target k) as [[H _]|[_ H]]; [lia | exact H].
    - intros H. destruct b; [apply lookup_remove_same|]. pose proof (ws_tmp k) as Hm.
      destruct (lookup (ws_state k) tmp) as [[c' t|l]|]; [|tauto | reflexivity].
      destruct H as [H|H]; [discriminate | lia].
  Qed.
End WriteSafe.

(** * write_safe with its exception handling *)
Definition is_new (o : option node) (c : content) : Prop := exists t, o = Some (File c t).

Lemma write_safe_spec cf d n c w d' o :
  dot_prefixed (c_pre cf) = true -> glob_star n = true ->
  lookup d (tmp_name cf n (w_sfx w)) = None ->
  write_safe cf d n c w = (d', o) ->
  let tmp := tmp_name cf n (w_sfx w) in
  (forall x, x <> n -> x <> tmp -> lookup d' x = lookup d x) /\
  (lookup d' n = lookup d n \/ lookup d' n = Some (File c (w_now w))) /\
  (o <> Killed -> lookup d' tmp = None) /\
  (o = Done -> lookup d' n = Some (File c (w_now w))) /\
  (w_fault w = None -> o = Done).
Proof.
  intros Hdot Hvis Hfresh Hrun tmp.
  assert (Hne : tmp <> n) by (apply tmp_ne_visible; auto).
  unfold write_safe, crash_at in Hrun. fold tmp in Hrun.
  destruct (w_fault w) as [[k [|]]|];
    rewrite ?(ws_run_prefix d tmp n c w Hfresh), ?(ws_run_all d tmp n c w Hfresh) in Hrun; cbn [fst] in Hrun;
    injection Hrun as <- <-.
  - destruct (ws_result d tmp n c w Hfresh Hne k false) as (R1 & R2 & _). cbv iota in R1, R2. repeat split; auto; easy.
  - destruct (ws_result d tmp n c w Hfresh Hne k (Nat.leb 1 k)) as (R1 & R2 & _ & R4).
    repeat split; auto; try easy. intros _. apply R4. destruct k; auto.
  - destruct (ws_result d tmp n c w Hfresh Hne 6 false) as (R1 & R2 & R3 & R4). cbv iota in R1, R2, R3, R4.
    split; [exact R1|]. split; [exact R2|]. split; [intros _; apply R4; right; right; lia|].
    split; [intros _; apply R3; lia | reflexivity].
Qed.

(** * _cache of one instance *)
Definition new_content (z : zkst) (a : name) : option content :=
  match alookup (z_place z) a, alookup (z_sched z) a, after_hash a with
  | Some p, Some m, Some t => Some (dump (merged m t p))
  | _, _, _ => None
  end.

(** [written z orc a o]: entry [o] is the complete file _cache writes for instance [a] *)
Definition written (z : zkst) (orc : name -> wspec) (a : name) (o : option node) : Prop :=
  exists c, new_content z a = Some c /\ o = Some (File c (w_now (orc a))).

(** skipped instances keep their entry: placement or manifest node missing, or the file is up to date *)
Definition skips (z : zkst) (check : bool) (d : dir) (a : name) : Prop :=
  alookup (z_place z) a = None \/ alookup (z_sched z) a = None \/
  exists p, alookup (z_place z) a = Some p /\ check && uptodate d a p = true.

Lemma cache_one_skip cf z d a check w : skips z check d a -> cache_one cf z d a check w = (d, Done).
Proof.
  unfold cache_one. intros [H|[H|[p [Hp Hu]]]].
  - now rewrite H.
  - destruct (alookup (z_place z) a) as [p|]; auto. destruct (check && uptodate d a p); auto. now rewrite H.
  - now rewrite Hp, Hu.
Qed.

Lemma uptodate_ext d d' a p : lookup d' a = lookup d a -> uptodate d' a p = uptodate d a p.
Proof. unfold uptodate. now intros ->. Qed.

Lemma skips_ext z check d d' a : lookup d' a = lookup d a -> skips z check d a -> skips z check d' a.
Proof.
  intros E [H|[H|[p [Hp Hu]]]]; [now left | now right; left | right; right].
  exists p. now rewrite (uptodate_ext d d' a p E).
Qed.

Definition fresh_for (cf : cfg) (orc : name -> wspec) (d : dir) (l : list name) : Prop :=
  forall a, In a l -> lookup d (tmp_name cf a (w_sfx (orc a))) = None.

Section CacheAll.
  Variables (cf : cfg) (z : zkst) (orc : name -> wspec) (check : bool).
  Hypothesis Hdot : dot_prefixed (c_pre cf) = true.

  Lemma cache_one_spec d a d' o :
    glob_star a = true -> lookup d (tmp_name cf a (w_sfx (orc a))) = None ->
    cache_one cf z d a check (orc a) = (d', o) ->
    (forall x, x <> a -> x <> tmp_name cf a (w_sfx (orc a)) -> lookup d' x = lookup d x) /\
    (o <> Killed -> forall x, x <> a -> lookup d' x = lookup d x) /\
    (lookup d' a = lookup d a \/ written z orc a (lookup d' a)) /\
    (o = Done -> forall p, alookup (z_place z) a = Some p -> alookup (z_sched z) a <> None ->
                 check && uptodate d a p = false -> written z orc a (lookup d' a)) /\
    (w_fault (orc a) = None -> after_hash a <> None -> o = Done).
  Proof.
    intros Hvis Hfresh Hrun. unfold cache_one in Hrun.
    assert (Hsame : d' = d -> o <> Killed ->
              (forall x, x <> a -> x <> tmp_name cf a (w_sfx (orc a)) -> lookup d' x = lookup d x) /\
              (o <> Killed -> forall x, x <> a -> lookup d' x = lookup d x) /\
              (lookup d' a = lookup d a \/ written z orc a (lookup d' a))) by (intros -> _; auto).
    destruct (alookup (z_place z) a) as [p|] eqn:Hp.
    2:{ injection Hrun as <- <-. destruct Hsame as (H1 & H2 & H3); repeat split; auto; congruence. }
    destruct (check && uptodate d a p) eqn:Hup.
    { injection Hrun as <- <-. destruct Hsame as (H1 & H2 & H3); repeat split; auto; congruence. }
    destruct (alookup (z_sched z) a) as [m|] eqn:Hm.
    2:{ injection Hrun as <- <-. destruct Hsame as (H1 & H2 & H3); repeat split; auto; congruence. }
    destruct (after_hash a) as [t|] eqn:Ht.
    2:{ injection Hrun as <- <-. destruct Hsame as (H1 & H2 & H3); repeat split; auto; congruence. }
    destruct (write_safe_spec cf d a _ (orc a) d' o Hdot Hvis Hfresh Hrun) as (W1 & W2 & W3 & W4 & W5).
    assert (Hw : forall n, n = Some (File (dump (merged m t p)) (w_now (orc a))) -> written z orc a n).
    { intros n ->. eexists; split; [|reflexivity]. unfold new_content. now rewrite Hp, Hm, Ht. }
    repeat split; auto.
    - intros Ho x Hx. destruct (string_dec x (tmp_name cf a (w_sfx (orc a)))) as [->|Hxt]; [|now apply W1].
      now rewrite W3, Hfresh.
    - destruct W2 as [W2|W2]; auto.
  Qed.

  (** what a run of _cache over the instances [l] has done to the directory, whatever its outcome *)
  Definition cached (l : list name) (d d' : dir) (o : outcome) : Prop :=
    (* names outside l: unchanged, except (after a kill) the temporary file of one member *)
    (forall x, ~ In x l -> (forall a, In a l -> x <> tmp_name cf a (w_sfx (orc a))) -> lookup d' x = lookup d x) /\
    (o <> Killed -> forall x, ~ In x l -> lookup d' x = lookup d x) /\
    (* members: old entry or the complete new file *)
    (forall a, In a l -> lookup d' a = lookup d a \/ written z orc a (lookup d' a)) /\
    (forall a, glob_star a = true -> skips z check d a -> lookup d' a = lookup d a) /\
    (o = Done -> forall a p, In a l -> alookup (z_place z) a = Some p -> alookup (z_sched z) a <> None ->
                 check && uptodate d a p = false -> written z orc a (lookup d' a)).

  Lemma cached_refl l d o : (o = Done -> l = []) -> cached l d d o.
  Proof. intros Ho. repeat split; auto. intros H a p Ha. rewrite (Ho H) in Ha. destruct Ha. Qed.

  Lemma cache_all_spec l : NoDup l ->
    forall d d' o, (forall a, In a l -> glob_star a = true) -> fresh_for cf orc d l ->
    cache_all cf z check orc l d = (d', o) ->
    cached l d d' o /\ ((forall a, In a l -> w_fault (orc a) = None /\ after_hash a <> None) -> o = Done).
  Proof.
    induction 1 as [|a l Ha Hnd IH]; intros d d' o Hvis Hfresh Hrun; cbn [cache_all] in Hrun.
    { injection Hrun as <- <-. split; [now apply cached_refl | reflexivity]. }
    destruct (cache_one cf z d a check (orc a)) as [d1 o1] eqn:H1.
    assert (Hva : glob_star a = true) by (apply Hvis; now left).
    destruct (cache_one_spec d a d1 o1 Hva (Hfresh a (or_introl eq_refl)) H1) as (C1 & C2 & C3 & C5 & C6).
    assert (C4 : skips z check d a -> lookup d1 a = lookup d a).
    { intros Hs. rewrite (cache_one_skip cf z d a check (orc a) Hs) in H1. now injection H1 as <- _. }
    (* the other visible names are not [a]'s temporary file *)
    assert (Hother : forall b, glob_star b = true -> b <> a -> lookup d1 b = lookup d b).
    { intros b Hb Hba. apply C1; [exact Hba | apply not_eq_sym, tmp_ne_visible; auto]. }
    assert (Hl : forall b, In b l -> lookup d1 b = lookup d b).
    { intros b Hb. apply Hother; [apply Hvis; now right | now intros ->]. }
    (* the rest of the run, if any, after the first instance *)
    assert (Hcons : cached l d1 d' o -> o1 = Done \/ o1 = o -> cached (a :: l) d d' o).
    { intros (I1 & I2 & I3 & I4 & I5) Ho1.
      assert (Ha' : lookup d' a = lookup d1 a).
      { apply I1; [exact Ha|]. intros b Hb. apply not_eq_sym, tmp_ne_visible; auto. }
      repeat split.
      - intros x Hx Ht. rewrite I1; [apply C1 | |].
        + intros ->. apply Hx. now left.
        + apply Ht. now left.
        + intros H. apply Hx. now right.
        + intros b Hb. apply Ht. now right.
      - intros Hk x Hx. rewrite I2; [apply C2 | exact Hk |].
        + destruct Ho1 as [->| ->]; [discriminate | exact Hk].
        + intros ->. apply Hx. now left.
        + intros H. apply Hx. now right.
      - intros b [<-|Hb]; [rewrite Ha'; exact C3|].
        destruct (I3 b Hb) as [E|W]; [left; rewrite E | right]; auto.
      - intros b Hvb Hs. destruct (string_dec b a) as [->|Hba]; [rewrite Ha'; auto|].
        rewrite <- (Hother b Hvb Hba). apply I4; [exact Hvb|]. apply skips_ext with d; auto.
      - intros Ho b p [<-|Hb] Hp Hs Hu.
        + rewrite Ha'. apply (C5 ltac:(destruct Ho1; congruence) p); auto.
        + apply (I5 Ho b p Hb Hp Hs). now rewrite (uptodate_ext d d1 b p (Hl b Hb)). }
    (* an exception or a kill ends the run *)
    destruct o1;
      [| injection Hrun as <- <-; (split; [apply Hcons; [now apply cached_refl | now right]|]);
         intros Hok; destruct (Hok a) as [Hf Hh]; [now left | apply C6; auto] ..].
    destruct (IH d1 d' o) as [R Rc]; [intros b Hb; apply Hvis; now right | | exact Hrun|].
    - intros b Hb. rewrite C2; [apply Hfresh; now right | discriminate |].
      apply tmp_ne_visible; auto.
    - split; [auto|]. intros Hok. apply Rc. intros b Hb. apply Hok. now right.
  Qed.
End CacheAll.

(** * unlinking the extra entries *)
Lemma unlink_all_spec l : forall d d1 o,
  unlink_all l d = (d1, o) ->
  (forall x, ~ In x l -> lookup d1 x = lookup d x) /\
  (forall x, lookup d1 x = lookup d x \/ In x l /\ lookup d1 x = None) /\
  (o = Done -> forall x, In x l -> lookup d1 x = None) /\
  o <> Killed /\
  (NoDup l -> (forall x, In x l -> lookup d x <> None) -> o = Done).
Proof.
  induction l as [|a l IH]; intros d d1 o Hrun.
  - cbn in Hrun. inversion Hrun; subst. repeat split; auto; try congruence; intros; cbn in *; tauto.
  - cbn [unlink_all apply_op] in Hrun.
    destruct (lookup d a) as [v|] eqn:Ha.
    + destruct (IH _ _ _ Hrun) as (I1 & I2 & I3 & I4 & I5).
      repeat split; auto.
      * intros x Hx. rewrite I1 by (intros H; apply Hx; right; exact H).
        apply lookup_remove_other. intros ->; apply Hx; left; reflexivity.
      * intros x. destruct (I2 x) as [E|[Hin E]]; [|right; split; [right; auto | auto]].
        destruct (string_dec x a) as [->|Hxa].
        -- right. split; [left; auto|]. rewrite E. apply lookup_remove_same.
        -- left. rewrite E. now apply lookup_remove_other.
      * intros Ho x [->|Hx]; [|now apply I3].
        destruct (I2 x) as [E|[_ E]]; auto. rewrite E. apply lookup_remove_same.
      * intros Hnd Hall. inversion Hnd as [|? ? Hna Hnd']; subst. apply I5; auto.
        intros x Hx. rewrite lookup_remove_other; [apply Hall; right; auto|].
        intros ->. contradiction.
    + inversion Hrun; subst. repeat split; auto; try congruence.
      intros _ Hall. exfalso. apply (Hall a); [left; auto | exact Ha].
Qed.

(** * _synchronize *)
Lemma in_visible d x : In x (visible d) <-> glob_star x = true /\ lookup d x <> None.
Proof. unfold visible. rewrite filter_In, in_names_lookup. tauto. Qed.

Lemma in_extra d E x : In x (extra_of d E) <-> In x (visible d) /\ ~ In x E.
Proof. unfold extra_of. rewrite filter_In, dedup_In, negb_true_iff, mem_false. tauto. Qed.
Lemma in_missing d E x : In x (missing_of d E) <-> In x E /\ ~ In x (visible d).
Proof. unfold missing_of. rewrite filter_In, dedup_In, negb_true_iff, mem_false. tauto. Qed.
Lemma in_existing d E x : In x (existing_of d E) <-> In x (visible d) /\ In x E.
Proof. unfold existing_of. rewrite filter_In, dedup_In, mem_In. tauto. Qed.

(** what one synchronisation may do to an entry that glob '*' can see *)
Definition evolves (z : zkst) (orc : name -> wspec) (E : list name) (d d' : dir) : Prop :=
  forall x, glob_star x = true ->
    lookup d' x = lookup d x \/
    (lookup d' x = None /\ ~ In x E) \/
    (In x E /\ written z orc x (lookup d' x)).

Lemma evolves_refl z orc E d : evolves z orc E d d.
Proof. intros x _. now left. Qed.

Lemma evolves_trans z orc E d1 d2 d3 : evolves z orc E d1 d2 -> evolves z orc E d2 d3 -> evolves z orc E d1 d3.
Proof.
  intros H12 H23 x Hx. destruct (H23 x Hx) as [H|[H|H]]; [|right; left; exact H | right; right; exact H].
  rewrite H. now apply H12.
Qed.

(** hidden names (dot files, among them [.ready]): untouched, except temporary files of members *)
Definition hidden_same (cf : cfg) (orc : name -> wspec) (E : list name) (d d' : dir) : Prop :=
  forall x, glob_star x = false -> (forall a, In a E -> x <> tmp_name cf a (w_sfx (orc a))) ->
            lookup d' x = lookup d x.

Section Sync.
  Variables (cf : cfg) (z : zkst) (orc : name -> wspec) (E : list name) (check : bool) (ord : list name).
  Hypothesis Hdot : dot_prefixed (c_pre cf) = true.
  Hypothesis Hexp : forall a, In a E -> glob_star a = true.

  Lemma tmp_hidden a : glob_star (tmp_name cf a (w_sfx (orc a))) = false.
  Proof. apply dot_not_glob. now apply tmp_name_dot. Qed.

  (** freshness is about hidden names only *)
  Lemma fresh_for_hidden d d' l :
    (forall x, glob_star x = false -> lookup d' x = lookup d x) -> (forall a, In a l -> In a E) ->
    fresh_for cf orc d E -> fresh_for cf orc d' l.
  Proof. intros Hh Hl Hf a Ha. rewrite Hh; [apply Hf; auto | apply tmp_hidden]. Qed.

  Lemma phase_cache (chk : bool) l d d' o :
    (forall a, In a l -> In a E) -> cached cf z orc chk l d d' o ->
    evolves z orc E d d' /\ hidden_same cf orc E d d' /\
    (o <> Killed -> forall x, glob_star x = false -> lookup d' x = lookup d x).
  Proof.
    intros Hsub (S1 & S2 & S3 & _).
    assert (Hnotin : forall x, glob_star x = false -> ~ In x l).
    { intros x Hx Hin. rewrite (Hexp x (Hsub x Hin)) in Hx. discriminate. }
    repeat split.
    - intros x Hx. destruct (in_dec string_dec x l) as [Hin|Hnin].
      + destruct (S3 x Hin) as [H|H]; [now left | right; right; split; auto].
      + left. apply S1; auto. intros a Ha. apply not_eq_sym. apply tmp_ne_visible; auto.
    - intros x Hx Ht. apply S1; auto.
    - intros Ho x Hx. apply S2; auto.
  Qed.

  Variable d : dir.
  Hypothesis Hfresh : fresh_for cf orc d E.

  Let extra := arrange ord (extra_of d E).
  Let missing := arrange ord (missing_of d E).
  Let existing := arrange ord (existing_of d E).

  Lemma extra_spec x : In x extra <-> glob_star x = true /\ lookup d x <> None /\ ~ In x E.
  Proof. unfold extra. rewrite arrange_In, in_extra, in_visible. tauto. Qed.

  Lemma missing_spec a : In a missing <-> In a E /\ lookup d a = None.
  Proof.
    unfold missing. rewrite arrange_In, in_missing, in_visible. split; [|intros [Ha Hn]; split; [auto | now intros [_ H]]].
    intros [Ha Hn]. split; [exact Ha|]. destruct (lookup d a); [exfalso; apply Hn; split; [auto | congruence] | reflexivity].
  Qed.

  Lemma existing_spec a : In a existing <-> In a E /\ lookup d a <> None.
  Proof. unfold existing. rewrite arrange_In, in_existing, in_visible. split; [tauto | intros [Ha Hn]; auto]. Qed.

  Lemma phase_unlink d1 o : unlink_all extra d = (d1, o) ->
    evolves z orc E d d1 /\ (forall x, glob_star x = false -> lookup d1 x = lookup d x) /\ o <> Killed /\
    (forall x, In x E -> lookup d1 x = lookup d x).
  Proof.
    intros Hrun. destruct (unlink_all_spec extra d d1 o Hrun) as (U1 & U2 & U3 & U4 & U5).
    repeat split; auto.
    - intros x Hx. destruct (U2 x) as [H|[Hin H]]; [now left|].
      right; left. split; auto. now apply extra_spec.
    - intros x Hx. apply U1. intros Hin. apply extra_spec in Hin. destruct Hin as [H _]. congruence.
    - intros x Hx. apply U1. intros Hin. apply extra_spec in Hin. tauto.
  Qed.

  Let l3 := if check then existing else [].

  Lemma l3_spec a : In a l3 <-> check = true /\ In a E /\ lookup d a <> None.
  Proof. unfold l3. destruct check; [rewrite existing_spec; tauto | cbn; split; [tauto | now intros [? _]]]. Qed.

  (** the three phases of one synchronisation; a phase that is not reached leaves the directory and the outcome
      as they are.  [l3] is what the third phase iterates over *)
  Lemma sync_phases d' o :
    synchronize cf z d E check ord orc = (d', o) ->
    exists d1 o1 d2 o2,
      unlink_all extra d = (d1, o1) /\
      cached cf z orc false missing d1 d2 o2 /\
      cached cf z orc true l3 d2 d' o /\
      (o = Done -> o1 = Done /\ o2 = Done) /\
      (o <> Killed -> o2 <> Killed) /\
      ((forall a, In a E -> w_fault (orc a) = None /\ after_hash a <> None) -> o = Done).
  Proof.
    unfold synchronize. fold extra missing existing. intros Hrun.
    destruct (unlink_all extra d) as [d1 o1] eqn:H1. exists d1, o1.
    destruct (phase_unlink d1 o1 H1) as (_ & P1h & P1k & _).
    destruct (unlink_all_spec extra d d1 o1 H1) as (_ & _ & _ & _ & U5).
    assert (Hnd : forall f l, NoDup (arrange ord (filter f (dedup l)))).
    { intros f l. apply arrange_NoDup, NoDup_filter, dedup_NoDup. }
    destruct o1; [| injection Hrun as <- <-; exists d1, Raised | congruence].
    2:{ split; [reflexivity|]. split; [now apply cached_refl|]. split; [now apply cached_refl|].
        split; [discriminate|]. split; [discriminate|].
        intros Hok. apply U5; [apply Hnd|]. intros x Hx. now apply extra_spec in Hx. }
    assert (HmE : forall a, In a missing -> In a E) by (intros a Ha; now apply missing_spec in Ha).
    assert (HeE : forall a, In a l3 -> In a E) by (intros a Ha; now apply l3_spec in Ha).
    destruct (cache_all cf z false orc missing d1) as [d2 o2] eqn:H2. exists d2, o2.
    destruct (cache_all_spec cf z orc false Hdot missing (Hnd _ _) d1 d2 o2) as [A Ac];
      [auto | now apply (fresh_for_hidden d) | exact H2|].
    split; [reflexivity|]. split; [exact A|].
    assert (H3 : match o2 with Done => cache_all cf z true orc l3 d2 | _ => (d2, o2) end = (d', o)).
    { unfold l3. destruct o2, check; exact Hrun. }
    destruct (phase_cache false missing d1 d2 o2 HmE A) as (_ & _ & P2k).
    destruct o2; [|injection H3 as <- <-; split; [now apply cached_refl|]; split; [discriminate|]; split; [easy|];
                    intros Hok; apply Ac; auto ..].
    destruct (cache_all_spec cf z orc true Hdot l3) with (d := d2) (d' := d') (o := o)
      as [B Bc]; auto.
    - unfold l3. destruct check; [apply Hnd | constructor].
    - apply (fresh_for_hidden d); auto. intros x Hx. rewrite P2k by easy. auto.
    - split; [exact B|]. split; [auto|]. split; [discriminate|]. auto.
  Qed.
  (** every outcome, every fault: visible entries are old, removed extras, or complete new files *)
  Lemma sync_atomic d' o :
    synchronize cf z d E check ord orc = (d', o) ->
    evolves z orc E d d' /\ hidden_same cf orc E d d' /\
    (o <> Killed -> forall x, glob_star x = false -> lookup d' x = lookup d x).
  Proof.
    intros Hrun. destruct (sync_phases d' o Hrun) as (d1 & o1 & d2 & o2 & U & A & B & _ & Hk & _).
    destruct (phase_unlink d1 o1 U) as (P1 & P1h & _).
    destruct (phase_cache false missing d1 d2 o2) as (P2 & P2h & P2k); [intros a Ha; now apply missing_spec in Ha | exact A|].
    destruct (phase_cache true l3 d2 d' o) as (P3 & P3h & P3k); [intros a Ha; now apply l3_spec in Ha | exact B|].
    split; [eapply evolves_trans; [eapply evolves_trans|]; eassumption|]. split.
    - intros x Hx Ht. now rewrite P3h, P2h, P1h.
    - intros Ho x Hx. now rewrite P3k, P2k, P1h by auto.
  Qed.

  (** a synchronisation that ran to completion *)
  Lemma sync_done d' :
    synchronize cf z d E check ord orc = (d', Done) ->
    (* names: nothing visible that is not placed *)
    (forall x, glob_star x = true -> lookup d' x <> None -> In x E) /\
    (* present: placement node and manifest exist => an entry exists *)
    (forall a, In a E -> alookup (z_place z) a <> None -> alookup (z_sched z) a <> None -> lookup d' a <> None) /\
    (* content: missing or outdated entries are (re)written with the merged manifest *)
    (forall a p, In a E -> alookup (z_place z) a = Some p -> alookup (z_sched z) a <> None ->
                 (lookup d a = None \/ (check = true /\ uptodate d a p = false)) ->
                 written z orc a (lookup d' a)) /\
    (* what is not rewritten keeps its entry *)
    (forall a, In a E -> lookup d a <> None -> check = false \/ skips z true d a -> lookup d' a = lookup d a) /\
    (forall a, In a E -> lookup d a = None -> skips z false d a -> lookup d' a = None).
  Proof.
    intros Hrun. destruct (sync_phases d' Done Hrun) as (d1 & o1 & d2 & o2 & U & A & B & Hd & _).
    destruct (Hd eq_refl) as [-> ->]. clear Hd.
    destruct (phase_unlink d1 Done U) as (_ & _ & _ & P1e).
    destruct (unlink_all_spec extra d d1 Done U) as (U1 & _ & U3 & _).
    destruct A as (_ & A2 & _ & A4 & A5). destruct B as (_ & B2 & B3 & B4 & B5).
    specialize (A2 ltac:(discriminate)). specialize (B2 ltac:(discriminate)).
    specialize (A5 eq_refl). specialize (B5 eq_refl).
    (* an entry that was absent is decided by the second phase, one that was present by the third *)
    assert (Hnone : forall a, In a E -> lookup d a = None ->
                      In a missing /\ lookup d1 a = None /\ lookup d' a = lookup d2 a).
    { intros a Ha Hn. split; [now apply missing_spec|]. split; [now rewrite P1e|].
      apply B2. rewrite l3_spec. tauto. }
    assert (Hsome : forall a, In a E -> lookup d a <> None -> lookup d2 a = lookup d a).
    { intros a Ha Hn. rewrite A2, P1e; auto. rewrite missing_spec. tauto. }
    repeat split.
    - intros x Hx Hne. destruct (in_dec string_dec x E) as [|Hnin]; auto. exfalso. apply Hne.
      rewrite B2, A2 by (rewrite ?l3_spec, ?missing_spec; tauto).
      destruct (lookup d x) eqn:El; [apply U3; auto; apply extra_spec; split; [auto | split; [congruence | exact Hnin]]|].
      rewrite U1, El; auto. rewrite extra_spec. tauto.
    - intros a Ha Hp Hs. destruct (alookup (z_place z) a) as [p|] eqn:Ep; [|congruence].
      destruct (lookup d a) eqn:El.
      + assert (Hd2 : lookup d2 a <> None) by (rewrite Hsome; congruence).
        destruct (in_dec string_dec a l3) as [Hin|Hnin]; [|now rewrite B2].
        destruct (B3 a Hin) as [->|(c & _ & ->)]; [exact Hd2 | discriminate].
      + destruct (Hnone a Ha El) as (Hm & _ & ->). destruct (A5 a p Hm Ep Hs eq_refl) as (c & _ & ->). discriminate.
    - intros a p Ha Hp Hs [Hn | [Hc Hup]].
      + destruct (Hnone a Ha Hn) as (Hm & _ & ->). now apply (A5 a p).
      + destruct (lookup d a) eqn:El.
        * apply (B5 a p); auto; [rewrite l3_spec; split; [|split]; congruence|].
          rewrite (uptodate_ext d d2 a p), Hup; [reflexivity | apply Hsome; congruence].
        * destruct (Hnone a Ha El) as (Hm & _ & ->). now apply (A5 a p).
    - intros a Ha Hne [Hc | Hsk]; rewrite <- (Hsome a Ha Hne).
      + apply B2. rewrite l3_spec. intros [? _]. congruence.
      + apply B4; [auto|]. apply skips_ext with d; [now rewrite Hsome | exact Hsk].
    - intros a Ha Hn Hsk. destruct (Hnone a Ha Hn) as (_ & Hd1 & ->). rewrite <- Hd1.
      apply A4; [auto|]. apply skips_ext with d; [congruence | exact Hsk].
  Qed.

  (** without an injected fault, with instance names of the form <app>#<id>, the synchronisation completes *)
  Lemma sync_completes :
    (forall a, In a E -> w_fault (orc a) = None /\ after_hash a <> None) ->
    snd (synchronize cf z d E check ord orc) = Done.
  Proof.
    intros Hok. destruct (synchronize cf z d E check ord orc) as [d' o] eqn:Hrun.
    destruct (sync_phases d' o Hrun) as (_ & _ & _ & _ & _ & _ & _ & _ & _ & Hc). exact (Hc Hok).
  Qed.
End Sync.

(** * the merged manifest: placement data wins, then the task id, then the manifest *)
Lemma d_get_mget m k : d_get m k = mget Z.eqb m k.
Proof. induction m as [|[k' v] r IH]; cbn; [reflexivity | now rewrite IH]. Qed.

Lemma d_set_mset m k v : d_set m k v = mset Z.eqb m k v.
Proof. induction m as [|[k' w] r IH]; cbn; [reflexivity | now rewrite IH]. Qed.

Lemma d_get_set_same m k v : d_get (d_set m k v) k = Some v.
Proof. now rewrite d_get_mget, d_set_mset, (mget_mset Z.eqb zeqb_spec), Z.eqb_refl. Qed.

Lemma d_get_set_other m k v k2 : k2 <> k -> d_get (d_set m k v) k2 = d_get m k2.
Proof. intros H. rewrite !d_get_mget, d_set_mset. apply (mget_mset_other Z.eqb zeqb_spec). congruence. Qed.

Lemma d_get_update m other k :
  d_get (d_update m other) k =
  match d_get (rev other) k with Some v => Some v | None => d_get m k end.
Proof.
  revert m. induction other as [|[k' v] r IH]; intros m; cbn [d_update rev]; auto.
  rewrite IH. clear IH.
  assert (Happ : forall l, d_get (l ++ [(k', v)]) k =
                           match d_get l k with Some x => Some x | None => if Z.eqb k' k then Some v else None end).
  { induction l as [|[k2 v2] l IHl]; cbn; auto. destruct (Z.eqb k2 k); auto. }
  rewrite Happ. destruct (d_get (rev r) k); auto.
  destruct (Z.eqb k' k) eqn:E.
  - apply Z.eqb_eq in E. subst. apply d_get_set_same.
  - apply Z.eqb_neq in E. apply d_get_set_other. congruence.
Qed.

(** the last binding of a key in the placement payload (a JSON object has one binding per key) *)
Definition pl_get (p : placement) (k : Z) : option val :=
  match pl_data p with None => None | Some pd => d_get (rev pd) k end.

(** * _cache_notify touches only the ready file, which glob '*' never matches *)
Lemma cache_notify_other cf d b now x : x <> c_ready cf -> lookup (cache_notify cf d b now) x = lookup d x.
Proof.
  intros Hx. unfold cache_notify. destruct b.
  - destruct (lookup d (c_ready cf)) as [[c t|l]|]; now apply lookup_set_other.
  - now apply lookup_remove_other.
Qed.

Lemma cache_notify_ready cf d b now :
  (b = true -> exists t, lookup (cache_notify cf d b now) (c_ready cf) = Some (File [] t)) /\
  (b = false -> lookup (cache_notify cf d b now) (c_ready cf) = None).
Proof.
  unfold cache_notify. split; intros ->.
  - destruct (lookup d (c_ready cf)) as [[c t|l]|]; eexists; apply lookup_set_same.
  - apply lookup_remove_same.
Qed.

(** * Statements in the form used by Props/C12.v *)
Lemma written_explicit z orc a o :
  written z orc a o <->
  exists m p t, alookup (z_sched z) a = Some m /\ alookup (z_place z) a = Some p /\ after_hash a = Some t /\
                o = Some (File (dump (merged m t p)) (w_now (orc a))).
Proof.
  unfold written, new_content. split.
  - intros [c [Hc Ho]].
    destruct (alookup (z_place z) a) as [p|]; [|discriminate].
    destruct (alookup (z_sched z) a) as [m|]; [|discriminate].
    destruct (after_hash a) as [t|]; [|discriminate].
    inversion Hc; subst. exists m, p, t. auto.
  - intros (m & p & t & Hm & Hp & Ht & Ho). rewrite Hm, Hp, Ht. eexists; split; [reflexivity | exact Ho].
Qed.

Lemma write_safe_crash_atomic cf d n c w k :
  dot_prefixed (c_pre cf) = true -> glob_star n = true ->
  lookup d (tmp_name cf n (w_sfx w)) = None ->
  let tmp := tmp_name cf n (w_sfx w) in
  let ops := write_safe_ops tmp n c w in
  let d' := crash_at k ops d in
  snd (run_ops (firstn k ops) d) = true /\
  (lookup d' n = lookup d n \/ lookup d' n = Some (File c (w_now w))) /\
  (forall x, x <> n -> x <> tmp -> lookup d' x = lookup d x) /\
  (forall x, In x (visible d') -> x = n \/ In x (visible d)) /\
  (match lookup d' tmp with
   | None => True | Some (File c' _) => exists j, c' = firstn j c | Some (Link _) => False end) /\
  ((List.length ops <= k)%nat -> lookup d' n = Some (File c (w_now w)) /\ lookup d' tmp = None).
Proof.
  intros Hdot Hvis Hfresh tmp ops d'.
  assert (Hne : tmp <> n) by (apply tmp_ne_visible; auto).
  unfold d', crash_at, ops. rewrite (ws_run_prefix d tmp n c w Hfresh). cbn [fst snd].
  destruct (ws_result d tmp n c w Hfresh Hne k false) as (R1 & R2 & R3 & R4). cbv iota zeta in R1, R2, R3, R4.
  assert (Hm := ws_tmp d tmp n c w Hfresh Hne k).
  repeat split; auto.
  - intros x Hx. apply in_visible in Hx. destruct Hx as [Hg Hl].
    destruct (string_dec x n) as [|Hxn]; [now left | right].
    apply in_visible. split; auto. rewrite <- R1; auto.
    intros ->. unfold tmp in Hg. rewrite (dot_not_glob _ (tmp_name_dot cf n (w_sfx w) Hdot)) in Hg. discriminate.
  - destruct (lookup (ws_state d tmp n c w k) tmp) as [[c' t|l]|]; auto; tauto.
  - cbn in H. apply R3. lia.
  - cbn in H. apply R4. right; right. lia.
Qed.

