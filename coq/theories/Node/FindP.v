(** [find] in a filtered list and in an appended list: what the node-table lemmas of Node/PresenceP.v and
    Node/EpPresenceP.v rest on (both tables are lists searched by [find], deletion and expiry are [filter]). *)
From Coq Require Import List Bool.
Import ListNotations.

Section Find.
  Context {A : Type} (f g : A -> bool).

  Lemma find_app l1 l2 : find f (l1 ++ l2) = match find f l1 with Some x => Some x | None => find f l2 end.
  Proof. induction l1 as [|x l1 IH]; cbn; [reflexivity|]. destruct (f x); [reflexivity | apply IH]. Qed.

  Lemma find_filter_same l : (forall x, f x = true -> g x = true) -> find f (filter g l) = find f l.
  Proof.
    intros Himp. induction l as [|x l IH]; cbn; [reflexivity|].
    destruct (f x) eqn:Fx.
    - rewrite (Himp x Fx). cbn. now rewrite Fx.
    - destruct (g x); cbn; [rewrite Fx|]; exact IH.
  Qed.

  Lemma find_filter_kill l : (forall x, f x = true -> g x = false) -> find f (filter g l) = None.
  Proof.
    intros Himp. induction l as [|x l IH]; cbn; [reflexivity|].
    destruct (g x) eqn:Gx; cbn; [|exact IH].
    destruct (f x) eqn:Fx; [apply Himp in Fx; congruence | exact IH].
  Qed.

  Lemma find_filter_found l n : find f l = Some n -> g n = true -> find f (filter g l) = Some n.
  Proof.
    induction l as [|x l IH]; cbn; intros Hf Hg; [discriminate|].
    destruct (f x) eqn:Fx.
    - injection Hf as ->. rewrite Hg. cbn. now rewrite Fx.
    - destruct (g x); cbn; [rewrite Fx|]; now apply IH.
  Qed.

  Lemma find_filter_none l : find f l = None -> find f (filter g l) = None.
  Proof.
    induction l as [|x l IH]; cbn; intros Hf; [reflexivity|].
    destruct (f x) eqn:Fx; [discriminate|]. destruct (g x); cbn; [rewrite Fx|]; now apply IH.
  Qed.
End Find.
